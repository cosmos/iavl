(** PruneFaultFacts: storage faults during the physical DeleteVersionsTo (model: PruneFault.v).

    For every state satisfying [store_ok] (every state reachable within the usage contract), every
    [r] with [rekey_ok], every flush schedule, both flush modes, every [n] below the latest version
    and EVERY fault position [k] (the [k]-th storage call fails: a read, a batch Set/Delete, a batch
    Write, or the final Commit):
    - [fault_reported]: the run is the fault-free run or returns an error;
    - [fault_leaves_retained_intact]: after an error, every state the disk went through and the
      disk that results when the pending batch is written out later read back every version that
      was not being deleted, node for node;
    - [fault_prefix]: the writes issued before the error are a prefix of the fault-free run's;
    or the hash function has a collision.  Premises as for PruneAlgoFacts10.prune_refines
    ([H] returns 32 bytes, [forest_bounds]); the [*_nc] versions need neither.
    [unfixed_read_fault_refuted]: the loop before the fix (a read error of the CURRENT tree's
    iterator ends that iterator silently) returns an error AND leaves a retained version unreadable.
    [fault_free_same] (PruneFaultFacts1): without a failing call the model is PruneAlgo's. *)
From Coq Require Import Lia.
From IAVL Require Import Bytes Varint Sha256 Tree VMap TreeFacts MTree MTreeFacts HashFacts
  VersionFacts Ics23Facts Store StoreFacts PruneAlgo PruneAlgoFacts1 PruneAlgoFacts2 PruneAlgoFacts3
  PruneAlgoFacts4 PruneAlgoFacts5 PruneAlgoFacts6 PruneAlgoFacts7 PruneAlgoFacts8 PruneAlgoFacts9
  PruneAlgoFacts10 PruneAlgoFacts PruneFault PruneFaultFacts1 PruneFaultFacts2 PruneFaultFacts3
  PruneFaultFacts4 HashTable.
From IAVL Require NodeCache NodeCacheFacts.
Local Open Scope Z_scope.

Definition left_readable (H : bytes -> bytes) (p : pdb) (f' : forest_t) : Prop :=
  Forall (fun d => readable H d f' = true) (dhist p) /\ readable H (disk (pflush p)) f' = true.

(** ** Forest level, for forests without look-alike nodes *)
Section ForestNC.
  Variable H : bytes -> bytes.
  Variable f : forest_t.
  Variable iv : Z.
  Hypothesis FI : forest_inv f.
  Hypothesis ND : NoDup (map fst f).
  Hypothesis OK : forest_ok f iv.
  Hypothesis WF : forall w t, In (w, Some t) f -> wf t.
  Hypothesis NC : no_confusion H f.
  Hypothesis LH : leaf_hashes H f.

  Lemma ERR_readable n p b : ERR (kept f n) b p -> left_readable H p (kept f n).
  Proof.
    intros [A B].
    assert (FI' : forest_inv (kept f n)) by apply forest_inv_filter, FI.
    assert (WF' : forall w t, In (w, Some t) (kept f n) -> wf t).
    { intros w t I. apply filter_In in I. exact (WF w t (proj1 I)). }
    assert (LH' : forall u, sub_of (kept f n) u -> fhash H u = hs (nmeta u)).
    { intros u Su. apply LH. exact (sub_of_filter _ f u Su). }
    split.
    - eapply Forall_impl; [|exact A]. intros d Sd. exact (readable_safe H (kept f n) b d FI' WF' LH' Sd).
    - destruct (pflush_facts p) as (-> & _). exact (readable_safe H (kept f n) b _ FI' WF' LH' B).
  Qed.

  Theorem prune_fault_nc r sched eff n fail :
    f <> [] -> rekey_ok r f -> n < latest_of_forest f ->
    exists pfin,
      prune_forest_fault H true eff r f sched n None = FOk (pflush pfin) /\
      (prune_forest_fault H true eff r f sched n fail = FOk (pflush pfin) \/
       exists p, prune_forest_fault H true eff r f sched n fail = FErr p /\
                 left_readable H p (kept f n) /\ wpre p pfin).
  Proof.
    intros NE RK Ln.
    destruct (prune_run H f iv FI ND OK WF NC r sched eff n NE RK Ln) as (pfin & cfin & Er & HSf & NEk & _).
    exists pfin.
    assert (Lt : latest_of_forest f <=? n = false) by (apply Z.leb_gt; exact Ln).
    split.
    { unfold prune_forest_fault. pose proof (prune_fault_free H eff (phys_of r f) sched
        (first_of_forest f) (latest_of_forest f) n Lt) as P. rewrite Er in P. exact P. }
    pose proof RK as [_ Rk]. rewrite first_of_forest_eq in *. rewrite latest_of_forest_eq in Ln.
    assert (Hr : forall w, In w r -> w < first_of f).
    { intros w Iw. destruct (Rk w Iw) as [A _]. exact A. }
    pose proof (forest_ok_zseq f iv OK) as Hz. pose proof (length_f f iv OK NE) as Lf.
    destruct (forest_ok_range f iv OK NE) as (R1 & _ & _).
    set (k := Z.to_nat (n + 1 - first_of f)) in *.
    assert (Lk : (k < length f)%nat) by (unfold k; lia).
    rewrite versions_from_to_zseq in Er. fold k in Er.
    set (p0 := Pdb (phys_of r f) [] sched [] [] eff [] [phys_of r f]) in *.
    assert (Kk : kept f n = skipn k f) by (apply (kept_skipn f iv OK n NE)).
    unfold prune_forest_fault, prune_fault. rewrite Lt. cbv zeta. rewrite first_of_forest_eq.
    rewrite versions_from_to_zseq. fold k. fold p0.
    destruct (delete_range_f H true (prune_fuel (phys_of r f)) (zseq (first_of f) k)
                (Fdb p0 0 fail) rkc_new) as [st s'] eqn:D.
    assert (Lv0 : live (Fdb p0 0 fail)).
    { unfold live. cbn [ffail fcalls]. destruct fail; [lia|exact I]. }
    pose proof (range_f_ok H f iv FI ND OK WF NC (prune_fuel (phys_of r f))
                  (fuel_ok f iv FI ND OK WF r NE Hr) (kept f n) (first_of f + Z.of_nat k)
                  k f [] (first_of f) (Fdb p0 0 fail) rkc_new r st s' eq_refl Hz Lk
                  (ST_init f iv FI ND OK r sched eff NE Hr) Lv0
                  ltac:(rewrite Kk; apply incl_refl) ltac:(lia) D) as (A & B).
    cbn [fp] in B. rewrite Er in B.
    destruct B as [[L R]|(Dd & -> & Er' & W & F)].
    - destruct st as [[]| | |]; cbn [rel] in R; try contradiction.
      destruct (tick s') as [bad s1] eqn:T. destruct (tick_spec s' bad s1 T) as ((E1 & _) & _).
      rewrite E1, R. destruct bad; [right|left; reflexivity].
      exists pfin. split; [reflexivity|]. split; [|apply wpre_refl].
      destruct HSf as [[Cx P] _].
      apply (ERR_readable n pfin (first_of_forest (kept f n))).
      apply (ERR_of_PI (kept f n) _ pfin _ (kept f n) _ _ _ P); [auto|apply incl_refl|lia].
    - right. exists (fp s'). split; [reflexivity|]. split; [exact (ERR_readable n _ _ Er')|].
      exact (F pfin eq_refl).
  Qed.
End ForestNC.

(** the empty forest: nothing is deleted, only the Commit can fail *)
Lemma prune_fault_empty H eff r sched n fail :
  n < 0 ->
  prune_forest_fault H true eff r [] sched n fail =
    (let p0 := Pdb [] [] sched [] [] eff [] [[]] in
     if match fail with Some k => Nat.eqb 0 k | None => false end then FErr p0 else FOk (pflush p0)).
Proof.
  intros L. unfold prune_forest_fault, prune_fault. cbn [latest_of_forest first_of_forest fold_left].
  replace (0 <=? n) with false by (symmetry; apply Z.leb_gt; exact L).
  cbv zeta. rewrite versions_nonpos by lia. cbn [delete_range_f]. unfold tick. cbn [ffail fcalls fp].
  destruct (match fail with Some k => Nat.eqb 0 k | None => false end); reflexivity.
Qed.

Section Main.
  Variable H : bytes -> bytes.
  Hypothesis Hlen : forall x, length (H x) = 32%nat.

  Theorem fault_all (s : mstate) (r : list Z) (sched : list bool) (eff : bool) (n : Z) (k : nat) :
    store_ok H s -> forest_bounds (forest s) -> rekey_ok r (forest s) -> n < latest_version s ->
    (exists pfin,
       prune_forest_fault H true eff r (forest s) sched n None = FOk (pflush pfin) /\
       (prune_forest_fault H true eff r (forest s) sched n (Some k) = FOk (pflush pfin) \/
        exists p, prune_forest_fault H true eff r (forest s) sched n (Some k) = FErr p /\
                  left_readable H p (filter (fun q => n <? fst q) (forest s)) /\ wpre p pfin))
    \/ collision H.
  Proof.
    intros SO FB RK Ln. destruct (store_ok_forest H s SO) as (FI & ND & OK & WF & HO).
    destruct (confusion_dec H (forest s)) as [NC|C].
    2:{ right. exact (confusion_to_collision H (forest s) Hlen WF HO FB C). }
    left. destruct (nil_or_not (forest s)) as [E|NE].
    - unfold latest_version in Ln. rewrite E in *. cbn in Ln. rewrite !(prune_fault_empty H eff r sched n _ Ln). cbv zeta.
      exists (Pdb [] [] sched [] [] eff [] [[]]). split; [reflexivity|].
      destruct (Nat.eqb 0 k); [right|left; reflexivity].
      eexists. split; [reflexivity|]. split; [|apply wpre_refl].
      split; [repeat constructor|reflexivity].
    - exact (prune_fault_nc H (forest s) (init_ver s) FI ND OK WF NC (leaf_hashes_of H _ HO)
               r sched eff n (Some k) NE RK Ln).
  Qed.

  (** 1. a fault is reported: the run is the fault-free run, or an error *)
  Theorem fault_reported (s : mstate) (r : list Z) (sched : list bool) (eff : bool) (n : Z) (k : nat) :
    store_ok H s -> forest_bounds (forest s) -> rekey_ok r (forest s) -> n < latest_version s ->
    (prune_forest_fault H true eff r (forest s) sched n (Some k) =
       prune_forest_fault H true eff r (forest s) sched n None \/
     exists p, prune_forest_fault H true eff r (forest s) sched n (Some k) = FErr p)
    \/ collision H.
  Proof.
    intros SO FB RK Ln.
    destruct (fault_all s r sched eff n k SO FB RK Ln) as [(pfin & E0 & [E|(p & E & _)])|C];
      [left; left; congruence|left; right; eauto|right; exact C].
  Qed.

  (** 2. MAIN: what an error leaves behind keeps every retained version intact *)
  Theorem fault_leaves_retained_intact (s : mstate) (r : list Z) (sched : list bool) (eff : bool)
          (n : Z) (k : nat) (p : pdb) :
    store_ok H s -> forest_bounds (forest s) -> rekey_ok r (forest s) -> n < latest_version s ->
    prune_forest_fault H true eff r (forest s) sched n (Some k) = FErr p ->
    (let f' := filter (fun q => n <? fst q) (forest s) in
     Forall (fun d => readable H d f' = true) (dhist p) /\
     readable H (disk (pflush p)) f' = true)
    \/ collision H.
  Proof.
    intros SO FB RK Ln E.
    destruct (fault_all s r sched eff n k SO FB RK Ln) as [(pfin & E0 & [E'|(p' & E' & LR & _)])|C];
      [congruence| |right; exact C].
    left. rewrite E in E'. inversion E'; subst p'. exact LR.
  Qed.

  (** 3. the fault causes no write that the fault-free run would not have made *)
  Theorem fault_prefix (s : mstate) (r : list Z) (sched : list bool) (eff : bool)
          (n : Z) (k : nat) (p : pdb) :
    store_ok H s -> forest_bounds (forest s) -> rekey_ok r (forest s) -> n < latest_version s ->
    prune_forest_fault H true eff r (forest s) sched n (Some k) = FErr p ->
    (exists p0 W, prune_forest_fault H true eff r (forest s) sched n None = FOk p0 /\
                  wlog p0 = wlog p ++ W)
    \/ collision H.
  Proof.
    intros SO FB RK Ln E.
    destruct (fault_all s r sched eff n k SO FB RK Ln) as [(pfin & E0 & [E'|(p' & E' & _ & (W & Ew))])|C];
      [congruence| |right; exact C].
    left. rewrite E in E'. inversion E'; subst p'. exists (pflush pfin), W. split; [exact E0|exact Ew].
  Qed.

  Theorem fault_leaves_retained_intact_reachable iv b ops (r : list Z) (sched : list bool) (eff : bool)
          (n : Z) (k : nat) (p : pdb) :
    init_ok iv b -> run_ok H (init_state iv b) ops ->
    let s := fst (run H (init_state iv b) ops) in
    forest_bounds (forest s) -> rekey_ok r (forest s) -> n < version s -> n < latest_version s ->
    prune_forest_fault H true eff r (forest s) sched n (Some k) = FErr p ->
    (let f' := filter (fun q => n <? fst q) (forest s) in
     Forall (fun d => readable H d f' = true) (dhist p) /\
     readable H (disk (pflush p)) f' = true)
    \/ collision H.
  Proof.
    intros IO R s FB RK _ Ln E. apply (fault_leaves_retained_intact s r sched eff n k p); auto.
    apply store_ok_reachable; assumption.
  Qed.

  Theorem fault_reported_reachable iv b ops (r : list Z) (sched : list bool) (eff : bool) (n : Z) (k : nat) :
    init_ok iv b -> run_ok H (init_state iv b) ops ->
    let s := fst (run H (init_state iv b) ops) in
    forest_bounds (forest s) -> rekey_ok r (forest s) -> n < version s -> n < latest_version s ->
    (prune_forest_fault H true eff r (forest s) sched n (Some k) =
       prune_forest_fault H true eff r (forest s) sched n None \/
     exists p, prune_forest_fault H true eff r (forest s) sched n (Some k) = FErr p)
    \/ collision H.
  Proof.
    intros IO R s FB RK _ Ln. apply fault_reported; auto. apply store_ok_reachable; assumption.
  Qed.
End Main.

Theorem PF_fault_free_same :
  forall (H : bytes -> bytes) (eff : bool) (st : store) (schedule : list bool) (first latest to : Z),
    pf_result eff (prune_fault H true eff st schedule first latest to None) =
    prune_phys H eff st schedule first latest to /\
    pf_disks (prune_fault H true eff st schedule first latest to None) =
    prune_phys_disks H eff st schedule first latest to.
Proof. intros. split; [apply fault_free_same|apply fault_free_same_disks]. Qed.

Print Assumptions PF_fault_free_same.
Print Assumptions fault_reported.
Print Assumptions fault_leaves_retained_intact.
Print Assumptions fault_prefix.
Print Assumptions fault_leaves_retained_intact_reachable.
Print Assumptions fault_reported_reachable.
Print Assumptions prune_fault_nc.

(** ** The runs with a failing call use the hash function through its values only
    (HashTable.v says what this is for) *)
Section HashExt.
  Variables H H' : bytes -> bytes.
  Hypothesis HE : forall b, H b = H' b.
  Variable fixed : bool.

  Lemma orphans_loop_g_hext fuel version : forall s cur prev org,
    orphans_loop_g H fixed fuel version s cur prev org = orphans_loop_g H' fixed fuel version s cur prev org.
  Proof.
    induction fuel as [|fuel IH]; intros s cur prev org; cbn [orphans_loop_g]; [reflexivity|].
    destruct org as [[ok on]|], (nit_valid cur), (nstack cur) as [|[k n] ?], (nstack prev) as [|[pk pn] ?];
      cbv zeta; rewrite ?(fetched_hash_hext H H' HE); try destruct (on_orphan_f version s pk) as [[|] ?];
      repeat destruct (nit_next_f _ _ _); rewrite ?IH; reflexivity.
  Qed.

  Lemma traverse_f_hext fuel version s c :
    traverse_f H fixed fuel version s c = traverse_f H' fixed fuel version s c.
  Proof.
    unfold traverse_f. destruct (rkc_get_f c s (version + 1)) as [[[curk| | |] c1] s1]; try reflexivity.
    destruct (nit_new_f s1 curk) as [[cur|] s2]; [|reflexivity].
    destruct (rkc_get_f c1 s2 version) as [[[prevk| | |] c2] s3]; try reflexivity.
    destruct (nit_new_f s3 prevk) as [[prev|] s4]; [rewrite orphans_loop_g_hext|]; reflexivity.
  Qed.

  Lemma delete_version_f_hext fuel version s c :
    delete_version_f H fixed fuel version s c = delete_version_f H' fixed fuel version s c.
  Proof.
    unfold delete_version_f, step1_f. destruct (rkc_get_f c s version) as [[[[k|]| | |] c1] s1];
      rewrite ?traverse_f_hext; reflexivity.
  Qed.

  Lemma delete_range_f_hext fuel vs : forall s c,
    delete_range_f H fixed fuel vs s c = delete_range_f H' fixed fuel vs s c.
  Proof.
    induction vs as [|v vs IH]; intros s c; cbn [delete_range_f]; [reflexivity|].
    rewrite delete_version_f_hext. destruct (delete_version_f H' fixed fuel v s c) as [[[[]| | |] c'] s']; auto.
  Qed.

  Lemma prune_forest_fault_hext eff r f sched to fail :
    prune_forest_fault H fixed eff r f sched to fail = prune_forest_fault H' fixed eff r f sched to fail.
  Proof. unfold prune_forest_fault, prune_fault. cbv zeta. rewrite delete_range_f_hext. reflexivity. Qed.

  Lemma prune_forest_calls_hext eff r f sched to :
    prune_forest_calls H fixed eff r f sched to = prune_forest_calls H' fixed eff r f sched to.
  Proof. unfold prune_forest_calls, prune_calls. cbv zeta. rewrite delete_range_f_hext. reflexivity. Qed.
End HashExt.

(** ** 4. The refutation for the loop before the fix (SHA-256 example of PruneAlgoFacts.v) *)
Definition pf_f : forest_t := filter (fun p => 3 <? fst p) pa_f.     (* versions 4 and 5 *)
Definition pf_kept : forest_t := filter (fun p => 4 <? fst p) pf_f.   (* version 5 *)

(** deleting version 4; the storage call number 5 is the read of a child of the root of version 5
    by the iterator over the CURRENT tree *)
Theorem unfixed_read_fault_refuted :
  exists (f : forest_t) (r : list Z) (sched : list bool) (n : Z) (k : nat),
    rekey_okb r f = true /\ forest_boundsb f = true /\ n < latest_of_forest f /\
    (* the unfixed loop: an error is returned, and version 5 cannot be read any more *)
    match prune_forest_fault sha256 false false r f sched n (Some k) with
    | FErr p => readable sha256 (disk (pflush p)) (filter (fun q => n <? fst q) f) = false /\
                wlog p <> []
    | _ => False
    end /\
    (* the fixed loop on the same input: an error, nothing written, everything readable *)
    match prune_forest_fault sha256 true false r f sched n (Some k) with
    | FErr p => readable sha256 (disk (pflush p)) (filter (fun q => n <? fst q) f) = true /\
                forallb (fun d => readable sha256 d (filter (fun q => n <? fst q) f)) (dhist p) = true /\
                wlog p = []
    | _ => False
    end.
Proof.
  exists pf_f, [], [false; true], 4, 5%nat.
  unfold pf_f. rewrite pa_f_eq, !(prune_forest_fault_hext _ _ pa_table_ok).
  do 3 (split; [vm_compute; reflexivity|]).
  split; eval_match; rewrite ?(all_readable_hext _ _ pa_table_ok), !(readable_hext _ _ pa_table_ok);
    vm_compute; repeat split; try reflexivity; discriminate.
Qed.

(** ** 5. Every fault position of one deletion, two schedules, both modes *)

(** the claims 1-3 for the fault positions [0 .. calls + 1], as data compared by [reflexivity] *)
Definition pf_check (eff : bool) (r : list Z) (f : forest_t) (sched : list bool) (n : Z) : Prop :=
  let calls := prune_forest_calls sha256 true eff r f sched n in
  let f' := filter (fun q => n <? fst q) f in
  let run := fun k => prune_forest_fault sha256 true eff r f sched n (Some k) in
  let free := prune_forest_fault sha256 true eff r f sched n None in
  (* 1: an error below [calls], the fault-free result from [calls] on *)
  forallb (fun k => match run k with FErr _ => true | _ => false end) (seq 0 calls) = true /\
  map run [calls; S calls] = [free; free] /\
  match free with FOk _ => True | _ => False end /\
  (* 2: what is left behind reads back *)
  forallb (fun k => match run k with
                    | FErr p => forallb (fun d => readable sha256 d f') (dhist p) &&
                                readable sha256 (disk (pflush p)) f'
                    | _ => false
                    end) (seq 0 calls) = true /\
  (* 3: the writes are a prefix of the fault-free run's *)
  map (fun k => match run k with FErr p => firstn (length (wlog p)) (wlog (pf_pdb free)) | _ => [] end)
      (seq 0 calls) =
  map (fun k => match run k with FErr p => wlog p | _ => [] end) (seq 0 calls).

(** Equality of stores, decided: the disks of all the runs of a deletion are few (the initial store
    after some of the writes), so a property of disks that is dear to evaluate is evaluated on those
    few, and each run only says which of them it went through. *)
Definition store_eqb : store -> store -> bool :=
  list_eqb (fun a b => keqb (fst a) (fst b) && NodeCache.entry_eqb (snd a) (snd b)).

Lemma store_eqb_eq a b : store_eqb a b = true -> a = b.
Proof.
  apply list_eqb_eq. intros [k e] [k' e'] Q. apply andb_true_iff in Q. cbn [fst snd] in Q.
  destruct Q as [Q1 Q2]. apply keqb_true in Q1. apply NodeCacheFacts.entry_eqb_spec in Q2. congruence.
Qed.

Lemma forallb_among (g : store -> bool) ds l :
  forallb g ds = true -> forallb (fun d => existsb (store_eqb d) ds) l = true -> forallb g l = true.
Proof.
  rewrite !forallb_forall. intros G M d I.
  destruct (proj1 (existsb_exists _ _) (M d I)) as (d' & I' & Q).
  rewrite (store_eqb_eq d d' Q). exact (G d' I').
Qed.

(** a list of verdicts [g] on the final disks of runs, evaluated on the runs as data: [g] is only
    evaluated on a disk that is not among [ds], where it is known to hold *)
Lemma verdicts_among (g : store -> bool) ds (run : nat -> pfres) l olds lit :
  forallb g ds = true -> map run l = olds ->
  map (fun x => match x with
                | FErr p => existsb (store_eqb (disk (pflush p))) ds || g (disk (pflush p))
                | _ => true
                end) olds = lit ->
  map (fun k => match run k with FErr p => g (disk (pflush p)) | _ => true end) l = lit.
Proof.
  intros G <- <-. rewrite map_map. apply map_ext. intros k.
  destruct (run k) as [| |p|]; try reflexivity.
  destruct (existsb (store_eqb (disk (pflush p))) ds) eqn:M; [|reflexivity].
  pose proof (forallb_among g ds [disk (pflush p)] G) as Q. cbn [forallb] in Q.
  rewrite M in Q. specialize (Q eq_refl). rewrite andb_true_r in Q. rewrite Q. reflexivity.
Qed.

Definition write_states (st : store) (ws : list wop) : list store :=
  map (fun j => sapply_all st (firstn j ws)) (seq 0 (S (length ws))).

Definition pf_runs H eff r f sched n (calls : nat) (free : pfres) (errs : list pfres) : Prop :=
  prune_forest_calls H true eff r f sched n = calls /\
  prune_forest_fault H true eff r f sched n None = free /\
  map (fun k => prune_forest_fault H true eff r f sched n (Some k)) (seq 0 calls) = errs /\
  map (fun k => prune_forest_fault H true eff r f sched n (Some k)) [calls; S calls] = [free; free].

Lemma pf_runs_hext H H' (HE : forall b, H b = H' b) eff r f sched n calls free errs :
  pf_runs H' eff r f sched n calls free errs -> pf_runs H eff r f sched n calls free errs.
Proof.
  unfold pf_runs. rewrite (prune_forest_calls_hext H H' HE), (prune_forest_fault_hext H H' HE).
  rewrite !(map_ext _ _ (fun k => prune_forest_fault_hext H H' HE true eff r f sched n (Some k))).
  exact (fun R => R).
Qed.

(** the verdicts of [verdicts_among] *)
Lemma old_verdicts_hext H H' (HE : forall b, H b = H' b) ds f (olds : list pfres) :
  map (fun x => match x with
                | FErr p => existsb (store_eqb (disk (pflush p))) ds || readable H (disk (pflush p)) f
                | _ => true
                end) olds =
  map (fun x => match x with
                | FErr p => existsb (store_eqb (disk (pflush p))) ds || readable H' (disk (pflush p)) f
                | _ => true
                end) olds.
Proof. apply map_ext. intros [| |p|]; rewrite ?(readable_hext H H' HE); reflexivity. Qed.

(** [pf_check] from the runs: the retained versions are read once from each of the disks [ds],
    and every disk of every run is one of them *)
Lemma pf_check_runs eff r f sched n calls free errs ds :
  pf_runs sha256 eff r f sched n calls free errs ->
  forallb (fun d => readable sha256 d (filter (fun q => n <? fst q) f)) ds = true ->
  forallb (fun x => match x with
                    | FErr p => forallb (fun d => existsb (store_eqb d) ds) (dhist p ++ [disk (pflush p)])
                    | _ => false
                    end) errs = true ->
  match free with FOk _ => True | _ => False end ->
  map (fun x => match x with FErr p => firstn (length (wlog p)) (wlog (pf_pdb free)) | _ => [] end) errs =
  map (fun x => match x with FErr p => wlog p | _ => [] end) errs ->
  pf_check eff r f sched n.
Proof.
  intros (Ec & Ef & Ee & E2) G M Ok W. unfold pf_check. cbv zeta. rewrite Ec, Ef.
  assert (R : forall k, In k (seq 0 calls) ->
            exists p, prune_forest_fault sha256 true eff r f sched n (Some k) = FErr p /\
                      forallb (fun d => readable sha256 d (filter (fun q => n <? fst q) f)) (dhist p) &&
                      readable sha256 (disk (pflush p)) (filter (fun q => n <? fst q) f) = true /\
                      firstn (length (wlog p)) (wlog (pf_pdb free)) = wlog p).
  { intros k I. apply (in_map (fun k => prune_forest_fault sha256 true eff r f sched n (Some k))) in I.
    rewrite Ee in I. rewrite forallb_forall in M. specialize (M _ I).
    rewrite map_ext_in_iff in W. specialize (W _ I).
    destruct (prune_forest_fault sha256 true eff r f sched n (Some k)) as [| |p|]; try discriminate.
    exists p. split; [reflexivity|]. split; [|exact W].
    pose proof (forallb_among _ _ _ G M) as Q. rewrite forallb_app in Q. cbn [forallb] in Q.
    rewrite andb_true_r in Q. exact Q. }
  repeat split; try assumption.
  - apply forallb_forall. intros k I. destruct (R k I) as (p & -> & _). reflexivity.
  - apply forallb_forall. intros k I. destruct (R k I) as (p & -> & Q & _). exact Q.
  - apply map_ext_in. intros k I. destruct (R k I) as (p & -> & _ & Q). exact Q.
Qed.

(** Each example evaluates the model in [pfN_eval], over the table [pa_table] of the hashes of the
    forest: the runs, and the reading back from the disks [write_states] of the effective writes of
    the fault-free run.  What is evaluated after that compares data. *)
Definition pf1_free : pfres :=
  Eval vm_compute in prune_forest_fault sha256 true false [1] pa_f1 pa_sched2 3 None.
Definition pf1_errs : list pfres := Eval vm_compute in
  map (fun k => prune_forest_fault sha256 true false [1] pa_f1 pa_sched2 3 (Some k)) (seq 0 24).
Definition pf1_disks : list store :=
  Eval vm_compute in write_states (phys_of [1] pa_f1) (elog (pf_pdb pf1_free)).

Lemma pf1_eval :
  pf_runs sha256 false [1] pa_f1 pa_sched2 3 24 pf1_free pf1_errs /\
  forallb (fun d => readable sha256 d (filter (fun q => 3 <? fst q) pa_f1)) pf1_disks = true.
Proof.
  rewrite pa_f1_eq, (all_readable_hext _ _ pa_table_ok).
  split; [apply (pf_runs_hext _ _ pa_table_ok)|]; repeat split; reflexivity.
Qed.

Example pf_all_positions_1 :
  prune_forest_calls sha256 true false [1] pa_f1 pa_sched2 3 = 24%nat /\
  pf_check false [1] pa_f1 pa_sched2 3.
Proof.
  destruct pf1_eval as [R D]. split; [exact (proj1 R)|].
  apply (pf_check_runs _ _ _ _ _ _ _ _ pf1_disks R D); [reflexivity|exact I|reflexivity].
Qed.

Definition pf2_free : pfres :=
  Eval vm_compute in prune_forest_fault sha256 true true [1] pa_f1 [false; true; true] 3 None.
Definition pf2_errs : list pfres := Eval vm_compute in
  map (fun k => prune_forest_fault sha256 true true [1] pa_f1 [false; true; true] 3 (Some k)) (seq 0 23).
Definition pf2_disks : list store :=
  Eval vm_compute in write_states (phys_of [1] pa_f1) (elog (pf_pdb pf2_free)).

Lemma pf2_eval :
  pf_runs sha256 true [1] pa_f1 [false; true; true] 3 23 pf2_free pf2_errs /\
  forallb (fun d => readable sha256 d (filter (fun q => 3 <? fst q) pa_f1)) pf2_disks = true.
Proof.
  rewrite pa_f1_eq, (all_readable_hext _ _ pa_table_ok).
  split; [apply (pf_runs_hext _ _ pa_table_ok)|]; repeat split; reflexivity.
Qed.

Example pf_all_positions_2 :
  prune_forest_calls sha256 true true [1] pa_f1 [false; true; true] 3 = 23%nat /\
  pf_check true [1] pa_f1 [false; true; true] 3.
Proof.
  destruct pf2_eval as [R D]. split; [exact (proj1 R)|].
  apply (pf_check_runs _ _ _ _ _ _ _ _ pf2_disks R D); [reflexivity|exact I|reflexivity].
Qed.

Definition pf3_free : pfres :=
  Eval vm_compute in prune_forest_fault sha256 true false [] pf_f [false; true] 4 None.
Definition pf3_errs : list pfres := Eval vm_compute in
  map (fun k => prune_forest_fault sha256 true false [] pf_f [false; true] 4 (Some k)) (seq 0 16).
Definition pf3_disks : list store :=
  Eval vm_compute in write_states (phys_of [] pf_f) (elog (pf_pdb pf3_free)).

(** the runs of the loop before the fix *)
Definition pf3_olds : list pfres := Eval vm_compute in
  map (fun k => prune_forest_fault sha256 false false [] pf_f [false; true] 4 (Some k)) (seq 0 16).

Lemma pf3_eval :
  (pf_runs sha256 false [] pf_f [false; true] 4 16 pf3_free pf3_errs /\
   forallb (fun d => readable sha256 d (filter (fun q => 4 <? fst q) pf_f)) pf3_disks = true) /\
  map (fun k => prune_forest_fault sha256 false false [] pf_f [false; true] 4 (Some k)) (seq 0 16) = pf3_olds /\
  map (fun x => match x with
                | FErr p => existsb (store_eqb (disk (pflush p))) pf3_disks ||
                            readable sha256 (disk (pflush p)) (filter (fun q => 4 <? fst q) pf_f)
                | _ => true
                end) pf3_olds =
  [true; true; true; true; true; false; false; false; false; true; true; true; true; true; true; true].
Proof.
  unfold pf_f. rewrite pa_f_eq, (all_readable_hext _ _ pa_table_ok), (old_verdicts_hext _ _ pa_table_ok).
  rewrite (map_ext _ _ (fun k => prune_forest_fault_hext _ _ pa_table_ok false false _ _ _ _ (Some k))).
  split; [split; [apply (pf_runs_hext _ _ pa_table_ok)|]|]; repeat split; reflexivity.
Qed.

(** the example of the refutation: all positions are safe with the fix, four are not without *)
Example pf_all_positions_3 :
  prune_forest_calls sha256 true false [] pf_f [false; true] 4 = 16%nat /\
  pf_check false [] pf_f [false; true] 4 /\
  map (fun k => match prune_forest_fault sha256 false false [] pf_f [false; true] 4 (Some k) with
                | FErr p => readable sha256 (disk (pflush p)) pf_kept
                | _ => true
                end) (seq 0 16) =
  [true; true; true; true; true; false; false; false; false; true; true; true; true; true; true; true].
Proof.
  destruct pf3_eval as [[R D] [Eo U]]. split; [exact (proj1 R)|]. split.
  - apply (pf_check_runs _ _ _ _ _ _ _ _ pf3_disks R D); [reflexivity|exact I|reflexivity].
  - exact (verdicts_among (fun d => readable sha256 d pf_kept) pf3_disks _ _ _ _ D Eo U).
Qed.

Example pf_fault_free_example :
  pf_disks (prune_forest_fault sha256 true false [1] pa_f1 pa_sched2 3 None) =
  prune_forest_disks sha256 false [1] pa_f1 pa_sched2 3.
Proof. apply fault_free_same_disks. Qed.

Example pf_main_instance sched eff k p :
  prune_forest_fault sha256 true eff [] pa_f sched 1 (Some k) = FErr p ->
  (let f' := filter (fun q => 1 <? fst q) pa_f in
   Forall (fun d => readable sha256 d f' = true) (dhist p) /\
   readable sha256 (disk (pflush p)) f' = true)
  \/ collision sha256.
Proof.
  destruct pa_hypotheses as (_ & _ & FB & RK & _ & _ & _ & L1 & _). rewrite <- pa_f_unfold in *.
  apply (fault_leaves_retained_intact sha256 sha256_length pa_state [] sched eff 1 k p);
    [exact pa_store_ok|apply forest_boundsb_sound, FB|apply rekey_okb_sound, RK|exact L1].
Qed.

Print Assumptions unfixed_read_fault_refuted.
