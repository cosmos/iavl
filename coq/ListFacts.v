(** Facts about lists, options and step machines that the standard library lacks. *)
From Coq Require Import List Bool Arith Lia Sorted.
Import ListNotations.

(** * Options *)
Lemma option_ext {A} (a b : option A) : (forall x, a = Some x <-> b = Some x) -> a = b.
Proof.
  intros E. destruct a as [x|], b as [y|]; try reflexivity.
  - apply E. reflexivity.
  - symmetry. apply E. reflexivity.
  - apply E. reflexivity.
Qed.

Lemma opt_cases {A} (o : option A) : (exists a, o = Some a) \/ o = None.
Proof. destruct o as [a|]; [left; exists a|right]; reflexivity. Qed.

(** * filter *)
Lemma filter_all {A} (f : A -> bool) l : (forall x, In x l -> f x = true) -> filter f l = l.
Proof.
  induction l as [|a l IH]; cbn [filter]; intros F; [reflexivity|].
  rewrite (F a (or_introl eq_refl)). f_equal. apply IH. intros x I. apply F. right; exact I.
Qed.

Lemma filter_none {A} (f : A -> bool) l : (forall x, In x l -> f x = false) -> filter f l = [].
Proof.
  induction l as [|a l IH]; cbn [filter]; intros F; [reflexivity|].
  rewrite (F a (or_introl eq_refl)). apply IH. intros x I. apply F. right; exact I.
Qed.

Lemma filter_filter {A} (f g : A -> bool) l :
  filter f (filter g l) = filter (fun x => g x && f x) l.
Proof.
  induction l as [|a l IH]; cbn [filter]; [reflexivity|].
  destruct (g a); cbn [filter andb]; [destruct (f a)|]; rewrite IH; reflexivity.
Qed.

Lemma filter_filter_imp {A} (f g : A -> bool) l :
  (forall x, In x l -> f x = true -> g x = true) -> filter f (filter g l) = filter f l.
Proof.
  intros Imp. rewrite filter_filter. apply filter_ext_in. intros x I.
  destruct (f x) eqn:F; [rewrite (Imp x I F); reflexivity|apply Bool.andb_false_r].
Qed.

Lemma filter_rev {A} (f : A -> bool) l : filter f (rev l) = rev (filter f l).
Proof.
  induction l as [|x l IH]; [reflexivity|]. cbn [rev filter]. rewrite filter_app, IH. cbn [filter].
  destruct (f x); cbn [rev]; [reflexivity|]. apply app_nil_r.
Qed.

Lemma filter_map_comm {A B} (f : B -> bool) (g : A -> B) l :
  filter f (map g l) = map g (filter (fun x => f (g x)) l).
Proof.
  induction l as [|x l IH]; cbn [map filter]; [reflexivity|].
  destruct (f (g x)); cbn [map]; rewrite IH; reflexivity.
Qed.

Lemma filter_length_le {A} (f : A -> bool) l : length (filter f l) <= length l.
Proof. induction l as [|x l IH]; cbn [filter length]; [lia|]. destruct (f x); cbn [length]; lia. Qed.

Lemma Forall_filter {A} (P : A -> Prop) (f : A -> bool) l : Forall P l -> Forall P (filter f l).
Proof. apply incl_Forall, incl_filter. Qed.

(** * In, Forall, forallb, existsb, folds *)
Lemma Forall_map_const {A B} (g : A -> B) (P : B -> Prop) l :
  (forall a, P (g a)) -> Forall P (map g l).
Proof. intros E. apply Forall_map, Forall_forall. intros a _. apply E. Qed.

Lemma forallb_ext {A} (f g : A -> bool) l : (forall x, f x = g x) -> forallb f l = forallb g l.
Proof. intros E. induction l as [|a l IH]; cbn [forallb]; [reflexivity|]. rewrite E, IH. reflexivity. Qed.

Lemma existsb_ext {A} (f g : A -> bool) l : (forall x, f x = g x) -> existsb f l = existsb g l.
Proof. intros E. induction l as [|a l IH]; cbn [existsb]; [reflexivity|]. rewrite E, IH. reflexivity. Qed.

Lemma in_snoc {A} (x y : A) l : In x (l ++ [y]) <-> In x l \/ x = y.
Proof. rewrite in_app_iff. cbn [In]. intuition. Qed.

Lemma fold_left_inv {A B} (f : A -> B -> A) (P : A -> Prop) :
  (forall a b, P a -> P (f a b)) -> forall l a, P a -> P (fold_left f l a).
Proof. intros S l. induction l as [|b l IH]; cbn [fold_left]; auto. Qed.

(** * NoDup *)
Lemma NoDup_app_iff {A} (l1 l2 : list A) :
  NoDup (l1 ++ l2) <-> NoDup l1 /\ NoDup l2 /\ (forall x, In x l1 -> ~ In x l2).
Proof.
  induction l1 as [|a l1 IH]; cbn [app].
  - split; [intros N|tauto]. split; [constructor|]. split; [exact N|intros x []].
  - rewrite !NoDup_cons_iff, IH, in_app_iff. split.
    + intros (NI & N1 & N2 & D). split; [tauto|]. split; [exact N2|].
      intros x [<-|I]; [tauto|exact (D x I)].
    + intros ((NI & N1) & N2 & D). split; [|split; [exact N1|split; [exact N2|]]].
      * intros [I|I]; [exact (NI I)|exact (D a (or_introl eq_refl) I)].
      * intros x I. apply D. right; exact I.
Qed.

Lemma NoDup_app_l {A} (l1 l2 : list A) : NoDup (l1 ++ l2) -> NoDup l1.
Proof. intros N. apply NoDup_app_iff in N. tauto. Qed.

Lemma NoDup_app_r {A} (l1 l2 : list A) : NoDup (l1 ++ l2) -> NoDup l2.
Proof. intros N. apply NoDup_app_iff in N. tauto. Qed.

Lemma NoDup_app_disj {A} (l1 l2 : list A) x : NoDup (l1 ++ l2) -> In x l1 -> ~ In x l2.
Proof. intros N. apply NoDup_app_iff in N. apply N. Qed.

Lemma NoDup_app_intro {A} (l1 l2 : list A) :
  NoDup l1 -> NoDup l2 -> (forall x, In x l1 -> ~ In x l2) -> NoDup (l1 ++ l2).
Proof. intros N1 N2 D. apply NoDup_app_iff. auto. Qed.

Lemma NoDup_snoc {A} (l : list A) x : NoDup l -> ~ In x l -> NoDup (l ++ [x]).
Proof.
  intros N NI. apply NoDup_app_intro; [exact N|constructor; [intros []|constructor]|].
  intros y I [<-|[]]. exact (NI I).
Qed.

Lemma NoDup_map_filter {A B} (g : A -> B) (f : A -> bool) l :
  NoDup (map g l) -> NoDup (map g (filter f l)).
Proof.
  induction l as [|a l IH]; cbn [filter map]; intros N; [constructor|].
  apply NoDup_cons_iff in N. destruct N as [NI N]. destruct (f a); cbn [map]; [|auto].
  constructor; [|auto]. intros C. apply NI. rewrite in_map_iff in C |- *.
  destruct C as (y & E & I). apply filter_In in I. exists y. tauto.
Qed.

(** * Lists of pairs *)
Lemma In_map_fst_pair {A B} (f : list (A * B)) v : In v (map fst f) -> exists a, In (v, a) f.
Proof. intros I. apply in_map_iff in I. destruct I as ([w a] & <- & I). exists a. exact I. Qed.

Lemma NoDup_fst_functional {A B} (f : list (A * B)) v a b :
  NoDup (map fst f) -> In (v, a) f -> In (v, b) f -> a = b.
Proof.
  induction f as [|[w c] f IH]; cbn [map fst In]; intros N I1 I2; [contradiction|].
  apply NoDup_cons_iff in N. destruct N as [NI N].
  destruct I1 as [E1|I1], I2 as [E2|I2].
  - congruence.
  - inversion E1; subst. exfalso. apply NI. apply in_map_iff. exists (v, b). auto.
  - inversion E2; subst. exfalso. apply NI. apply in_map_iff. exists (v, a). auto.
  - eauto.
Qed.

(** * firstn, skipn and splitting an append *)
Lemma In_firstn {A} i (l : list A) x : In x (firstn i l) -> In x l.
Proof. intros I. rewrite <- (firstn_skipn i l). apply in_or_app. left. exact I. Qed.

Lemma Forall_firstn {A} (P : A -> Prop) i l : Forall P l -> Forall P (firstn i l).
Proof. apply incl_Forall. intros x. apply In_firstn. Qed.

Lemma firstn_length_app {A} (a b : list A) : firstn (length a) (a ++ b) = a.
Proof. induction a as [|x a IH]; cbn [length app firstn]; [reflexivity|rewrite IH; reflexivity]. Qed.

Lemma skipn_length_app {A} (a b : list A) : skipn (length a) (a ++ b) = b.
Proof. induction a as [|x a IH]; cbn [length app skipn]; auto. Qed.

Lemma firstn_app_le {A} (a b : list A) i : i <= length a -> firstn i (a ++ b) = firstn i a.
Proof.
  intros L. rewrite firstn_app. replace (i - length a) with 0 by lia.
  cbn [firstn]. apply app_nil_r.
Qed.

Lemma firstn_app_ge {A} (a b : list A) i :
  length a <= i -> firstn i (a ++ b) = a ++ firstn (i - length a) b.
Proof. intros L. rewrite firstn_app, (firstn_all2 a L). reflexivity. Qed.

Lemma app_inj_len {A} (a a' b b' : list A) :
  length a = length a' -> a ++ b = a' ++ b' -> a = a' /\ b = b'.
Proof.
  revert a'. induction a as [|x a IH]; intros [|x' a'] L E; cbn [length app] in *; try discriminate.
  - auto.
  - injection E as -> E. destruct (IH a' ltac:(lia) E) as [-> ->]. auto.
Qed.

(** * Lists sorted by a relation *)
Lemma StronglySorted_app {A} (R : A -> A -> Prop) l1 l2 :
  StronglySorted R l1 -> StronglySorted R l2 ->
  (forall x y, In x l1 -> In y l2 -> R x y) -> StronglySorted R (l1 ++ l2).
Proof.
  induction l1 as [|a l1 IH]; intros S1 S2 C; [exact S2|].
  apply StronglySorted_inv in S1. destruct S1 as [S1 F1]. cbn [app]. constructor.
  - apply IH; auto. intros x y Ix Iy. apply C; [right; exact Ix|exact Iy].
  - apply Forall_app. split; [exact F1|]. apply Forall_forall. intros y Iy.
    apply C; [left; reflexivity|exact Iy].
Qed.

Lemma StronglySorted_rev {A} (R : A -> A -> Prop) l :
  StronglySorted R l -> StronglySorted (fun a b => R b a) (rev l).
Proof.
  induction 1 as [|a l S IH F]; cbn [rev]; [constructor|].
  apply StronglySorted_app; [exact IH|repeat constructor|].
  intros x y Ix [<-|[]]. rewrite Forall_forall in F. apply F, in_rev, Ix.
Qed.

Lemma StronglySorted_filter {A} (R : A -> A -> Prop) f l :
  StronglySorted R l -> StronglySorted R (filter f l).
Proof.
  induction 1 as [|a l S IH F]; cbn [filter]; [constructor|].
  destruct (f a); [constructor; auto using Forall_filter|exact IH].
Qed.

Lemma StronglySorted_NoDup {A} (R : A -> A -> Prop) l :
  (forall x, ~ R x x) -> StronglySorted R l -> NoDup l.
Proof.
  intros Irr. induction 1 as [|a l S IH F]; constructor; [|exact IH].
  intros I. rewrite Forall_forall in F. exact (Irr a (F a I)).
Qed.

Lemma sorted_same_elements {A} (R : A -> A -> Prop) :
  (forall x, ~ R x x) -> (forall x y, R x y -> R y x -> False) ->
  forall l1 l2, StronglySorted R l1 -> StronglySorted R l2 ->
                (forall x, In x l1 <-> In x l2) -> l1 = l2.
Proof.
  intros Irr Asym. induction l1 as [|a l1 IH]; intros l2 S1 S2 E.
  - destruct l2 as [|b l2]; [reflexivity|]. exfalso. apply (E b). left. reflexivity.
  - destruct l2 as [|b l2]; [exfalso; apply (E a); left; reflexivity|].
    apply StronglySorted_inv in S1. destruct S1 as [S1 F1].
    apply StronglySorted_inv in S2. destruct S2 as [S2 F2].
    rewrite Forall_forall in F1, F2.
    assert (Eab : a = b).
    { destruct (proj1 (E a) (or_introl eq_refl)) as [Q|Ia]; [auto|].
      destruct (proj2 (E b) (or_introl eq_refl)) as [Q|Ib]; [auto|].
      exfalso. exact (Asym a b (F1 b Ib) (F2 a Ia)). }
    subst b. f_equal. apply IH; auto.
    intros x. split; intros Ix.
    + destruct (proj1 (E x) (or_intror Ix)) as [Q|I2]; [|exact I2].
      subst x. exfalso. exact (Irr a (F1 a Ix)).
    + destruct (proj2 (E x) (or_intror Ix)) as [Q|I1]; [|exact I1].
      subst x. exfalso. exact (Irr a (F2 a Ix)).
Qed.

(** * Running a step function over a list of inputs *)
Section Run.
  Context {St Op Out : Type} (step : St -> Op -> St * Out).

  Fixpoint grun (s : St) (ops : list Op) : St * list Out :=
    match ops with
    | [] => (s, [])
    | o :: rest =>
        let (s1, x) := step s o in
        let (s2, xs) := grun s1 rest in
        (s2, x :: xs)
    end.

  Lemma grun_cons s o ops :
    grun s (o :: ops) =
      (fst (grun (fst (step s o)) ops), snd (step s o) :: snd (grun (fst (step s o)) ops)).
  Proof.
    cbn [grun]. destruct (step s o) as [s1 x]. cbn [fst snd].
    destruct (grun s1 ops) as [s2 xs]. reflexivity.
  Qed.

  Lemma grun_app s a b :
    grun s (a ++ b) =
      (fst (grun (fst (grun s a)) b), snd (grun s a) ++ snd (grun (fst (grun s a)) b)).
  Proof.
    revert s. induction a as [|o a IH]; intros s.
    - cbn [app grun fst snd]. destruct (grun s b); reflexivity.
    - change ((o :: a) ++ b) with (o :: (a ++ b)). rewrite !grun_cons, IH. reflexivity.
  Qed.
End Run.

(** * Equality of lists, decided elementwise *)
Fixpoint list_eqb {A} (e : A -> A -> bool) (a b : list A) : bool :=
  match a, b with
  | [], [] => true
  | x :: a', y :: b' => e x y && list_eqb e a' b'
  | _, _ => false
  end.

Lemma list_eqb_eq {A} (e : A -> A -> bool) :
  (forall x y, e x y = true -> x = y) -> forall a b, list_eqb e a b = true -> a = b.
Proof.
  intros E. induction a as [|x a IH]; intros [|y b] Q; cbn in Q; try discriminate; [reflexivity|].
  apply andb_true_iff in Q. destruct Q as [Q1 Q2]. rewrite (E x y Q1), (IH b Q2). reflexivity.
Qed.
