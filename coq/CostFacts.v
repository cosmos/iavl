(** Bounds for the node-read cost model [Cost.v] (second half of C11).

    Invariants used.  The bounds need only that the stored heights are the real heights
    ([heights_ok], the [h = max (height l) (height r) + 1] conjunct of [TreeFacts.wf]); the
    sharper bound [10h - 1] for proofs needs in addition that stored sizes are positive
    ([sizes_pos], implied by the [s = size l + size r] conjunct of [wf]).  Neither the key
    ordering nor the AVL balance is used.  Corollaries are stated for [wf] trees.

    The file also says what [Ics23.path_to_leaf] returns in terms of the search path
    ([path_to_leaf_spec]) and that the search for the key at an index takes [getByIndex]'s
    descent ([search_index]); [Ics23Facts] builds on both. *)
From IAVL Require Import Bytes Varint Tree VMap TreeFacts Ics23 Cost.
From Coq Require Import Lia ZifyBool.
Local Open Scope Z_scope.

(** * Invariants *)
Fixpoint heights_ok (t : node) : Prop :=
  match t with
  | Leaf _ _ _ => True
  | Inner _ h _ _ l r => heights_ok l /\ heights_ok r /\ h = Z.max (height l) (height r) + 1
  end.

(** every left child has a positive stored size (what [getByIndex] compares the index with) *)
Fixpoint sizes_pos (t : node) : Prop :=
  match t with
  | Leaf _ _ _ => True
  | Inner _ _ _ _ l r => sizes_pos l /\ sizes_pos r /\ 1 <= size l
  end.

Lemma wf_heights_ok t : wf t -> heights_ok t.
Proof. induction 1 using wf_ind; cbn [heights_ok]; auto. Qed.

Lemma wf_sizes_pos t : wf t -> sizes_pos t.
Proof.
  induction 1 as [|k m l r Wl Wr IHl IHr _ _ _] using wf_ind; cbn [sizes_pos]; [auto|].
  pose proof (size_pos l Wl). auto.
Qed.

Lemma heights_ok_nonneg t : heights_ok t -> 0 <= height t.
Proof.
  induction t as [|k h s m l IHl r IHr]; cbn [heights_ok height]; [lia|].
  intros (Hl & Hr & Hh). specialize (IHl Hl). specialize (IHr Hr). lia.
Qed.

Lemma heights_ok_inner_pos k h s m l r : heights_ok (Inner k h s m l r) -> 1 <= h.
Proof.
  cbn [heights_ok]. intros (Hl & Hr & Hh).
  pose proof (heights_ok_nonneg l Hl). pose proof (heights_ok_nonneg r Hr). lia.
Qed.

(** * Depth of the leaf a search ends in *)

(** the directions taken by the search for [k] ([false] = left, [true] = right): the common
    control flow of [Node.get], [Node.pathToLeaf] *)
Fixpoint search_path (t : node) (k : bytes) : list bool :=
  match t with
  | Leaf _ _ _ => []
  | Inner nk _ _ _ l r => if blt k nk then false :: search_path l k else true :: search_path r k
  end.

Fixpoint descend (t : node) (p : list bool) : option node :=
  match p with
  | [] => Some t
  | d :: p' =>
      match t with
      | Leaf _ _ _ => None
      | Inner _ _ _ _ l r => descend (if d then r else l) p'
      end
  end.

Definition depth (t : node) (k : bytes) : Z := Z.of_nat (length (search_path t k)).

Fixpoint path_nodes (hf : node -> bytes) (wv : Z) (t : node) (ds : list bool)
  : list proof_inner_node :=
  match t, ds with
  | Inner _ h s m l r, d :: ds' =>
      PIN h s (eff_ver wv m) (if d then hf l else []) (if d then [] else hf r)
        :: path_nodes hf wv (if d then r else l) ds'
  | _, _ => []
  end.

Lemma path_to_leaf_spec hf wv t k : forall p lk lv m ok,
  path_to_leaf hf wv t k = (p, (lk, lv, m), ok) ->
  p = path_nodes hf wv t (search_path t k) /\
  descend t (search_path t k) = Some (Leaf lk lv m) /\ ok = beq lk k.
Proof.
  induction t as [lk0 lv0 m0|nk h s m0 l IHl r IHr]; intros p lk lv m ok;
    cbn [path_to_leaf search_path].
  - intros E. inversion E. auto.
  - destruct (blt k nk).
    + destruct (path_to_leaf hf wv l k) as [[p' lf'] ok']. intros E. inversion E; subst.
      destruct (IHl _ _ _ _ _ eq_refl) as (-> & D & B). auto.
    + destruct (path_to_leaf hf wv r k) as [[p' lf'] ok']. intros E. inversion E; subst.
      destruct (IHr _ _ _ _ _ eq_refl) as (-> & D & B). auto.
Qed.

Lemma path_nodes_length hf wv : forall ds t,
  descend t ds <> None -> length (path_nodes hf wv t ds) = length ds.
Proof.
  induction ds as [|d ds IH]; intros [lk lv m|nk h s m l r] D; try reflexivity.
  - contradiction D. reflexivity.
  - cbn [path_nodes length]. f_equal. apply IH, D.
Qed.

Lemma search_path_leaf hf wv t k :
  let '(_, (lk, lv, m), ok) := path_to_leaf hf wv t k in
  descend t (search_path t k) = Some (Leaf lk lv m) /\ ok = beq lk k.
Proof.
  destruct (path_to_leaf hf wv t k) as [[p [[lk lv] m]] ok] eqn:E.
  apply (path_to_leaf_spec _ _ _ _ _ _ _ _ _ E).
Qed.

Lemma search_path_get t k :
  exists lk lv m, descend t (search_path t k) = Some (Leaf lk lv m) /\
                  snd (get t k) = if beq lk k then Some lv else None.
Proof.
  induction t as [lk lv m|nk h s m l IHl r IHr]; cbn [get search_path].
  - exists lk, lv, m. cbn [descend]. split; [reflexivity|].
    unfold beq. destruct (bcmp lk k); reflexivity.
  - destruct (blt k nk) eqn:C; cbn [descend].
    + exact IHl.
    + destruct IHr as (lk & lv & lm & D & G). exists lk, lv, lm. split; [exact D|].
      destruct (get r k) as [i v]. exact G.
Qed.

Lemma depth_le_height t k : heights_ok t -> depth t k <= height t.
Proof.
  unfold depth. induction t as [|nk h s m l IHl r IHr]; cbn [heights_ok search_path height length].
  - lia.
  - intros (Hl & Hr & Hh). specialize (IHl Hl). specialize (IHr Hr).
    destruct (blt k nk); cbn [length]; lia.
Qed.

(** * Exact costs *)
Theorem cost_get_exact t k : cost_get t k = depth t k.
Proof.
  unfold depth. induction t as [|nk h s m l IHl r IHr]; cbn [cost_get search_path]; [reflexivity|].
  destruct (blt k nk); cbn [length]; rewrite Nat2Z.inj_succ; lia.
Qed.

(** ... = the number of inner nodes of the [PathToLeaf] (the inner ops of the existence proof) *)
Theorem cost_get_path_length hf wv t k :
  cost_get t k = Z.of_nat (length (fst (fst (path_to_leaf hf wv t k)))).
Proof.
  destruct (path_to_leaf hf wv t k) as [[p [[lk lv] m]] ok] eqn:E.
  destruct (path_to_leaf_spec _ _ _ _ _ _ _ _ _ E) as (-> & D & _).
  cbn [fst]. rewrite path_nodes_length by congruence. apply cost_get_exact.
Qed.

Theorem cost_path_to_leaf_exact t k : cost_path_to_leaf t k = 2 * depth t k.
Proof.
  rewrite <- cost_get_exact.
  induction t as [|nk h s m l IHl r IHr]; cbn [cost_get cost_path_to_leaf]; [reflexivity|].
  destruct (blt k nk); lia.
Qed.

Theorem cost_membership_proof_exact t k : cost_membership_proof t k = 2 * depth t k.
Proof. apply cost_path_to_leaf_exact. Qed.

(** [Has] never reads more than [Get]; it reads less exactly when it stops at a routing key *)
Lemma cost_has_le_get t k : 0 <= cost_has t k <= cost_get t k.
Proof.
  induction t as [lk lv m|nk h s m l IHl r IHr]; cbn [cost_has cost_get nkey].
  - destruct (beq lk k); lia.
  - destruct (beq nk k); destruct (blt k nk); lia.
Qed.

(** on a [wf] tree a routing key is a leaf key, so [Has] on an ABSENT key makes the full descent *)
Lemma cost_has_absent t k : wf t -> has t k = false -> cost_has t k = cost_get t k.
Proof.
  induction t as [lk lv m|nk h s m l IHl r IHr]; cbn [wf has cost_has cost_get nkey].
  - intros _. destruct (beq lk k); [discriminate|reflexivity].
  - intros (Wl & Wr & _). destruct (beq nk k); [discriminate|].
    destruct (blt k nk); intros Hh; [rewrite (IHl Wl Hh)|rewrite (IHr Wr Hh)]; reflexivity.
Qed.

Lemma path_ok_indep hf wv t k : snd (path_to_leaf hf wv t k) = path_ok t k.
Proof.
  unfold path_ok.
  destruct (path_to_leaf hf wv t k) as [[p [[lk lv] m]] ok] eqn:E.
  destruct (path_to_leaf (fun _ => []) 0 t k) as [[p' [[lk' lv'] m']] ok'] eqn:E'.
  destruct (path_to_leaf_spec _ _ _ _ _ _ _ _ _ E) as (_ & D & ->).
  destruct (path_to_leaf_spec _ _ _ _ _ _ _ _ _ E') as (_ & D' & ->).
  rewrite D in D'. inversion D'. reflexivity.
Qed.

(** * Bounds by the height: lookups *)
Lemma cost_get_nonneg t k : 0 <= cost_get t k.
Proof. rewrite cost_get_exact. unfold depth. lia. Qed.

Theorem cost_get_bound t k : heights_ok t -> cost_get t k <= height t.
Proof. intros Hk. rewrite cost_get_exact. apply depth_le_height, Hk. Qed.

Theorem cost_get_with_index_bound t k : heights_ok t -> cost_get_with_index t k <= height t.
Proof. apply cost_get_bound. Qed.

Theorem cost_has_bound t k : heights_ok t -> cost_has t k <= height t.
Proof. intros Hk. pose proof (cost_has_le_get t k). pose proof (cost_get_bound t k Hk). lia. Qed.

(** [getByIndex] fetches BOTH children on a right step: the bound is [2 * height], not [height]
    (see [cost_get_by_index_le_height_refuted]) *)
Theorem cost_get_by_index_bound t i : heights_ok t -> cost_get_by_index t i <= 2 * height t.
Proof.
  revert i. induction t as [|nk h s m l IHl r IHr]; intros i; cbn [heights_ok cost_get_by_index height].
  - lia.
  - intros (Hl & Hr & Hh). destruct (i <? size l).
    + specialize (IHl i Hl). pose proof (heights_ok_nonneg l Hl). lia.
    + specialize (IHr (i - size l) Hr). lia.
Qed.

(** the statement "one read per level" is false for [GetByIndex]: already on a two-leaf tree
    the lookup of index 1 makes 2 reads at height 1 *)
Definition two_leaves : node :=
  Inner [2%N] 1 2 (Meta 1 1 []) (Leaf [1%N] [10%N] (Meta 1 2 [])) (Leaf [2%N] [20%N] (Meta 1 3 [])).

Theorem cost_get_by_index_le_height_refuted :
  exists t i, wf t /\ avl t /\ get_by_index t i <> None /\ ~ cost_get_by_index t i <= height t.
Proof.
  exists two_leaves, 1. split; [|split; [|split]].
  - cbn. repeat split; vm_compute; congruence.
  - cbn. repeat split; lia.
  - vm_compute. discriminate.
  - vm_compute. intros Hc. apply Hc. reflexivity.
Qed.

(** a left step costs 1, a right step 2: exact count *)
Fixpoint index_path (t : node) (i : Z) : list bool :=
  match t with
  | Leaf _ _ _ => []
  | Inner _ _ _ _ l r =>
      if i <? size l then false :: index_path l i else true :: index_path r (i - size l)
  end.

Theorem cost_get_by_index_exact t i :
  cost_get_by_index t i =
  Z.of_nat (length (index_path t i)) + Z.of_nat (length (filter (fun d => d) (index_path t i))).
Proof.
  revert i. induction t as [|nk h s m l IHl r IHr]; intros i; cbn [cost_get_by_index index_path].
  - reflexivity.
  - destruct (i <? size l); cbn [filter length]; rewrite ?Nat2Z.inj_succ.
    + rewrite (IHl i). lia.
    + rewrite (IHr (i - size l)). lia.
Qed.

Lemma cost_get_by_index_nonneg t i : 0 <= cost_get_by_index t i.
Proof. rewrite cost_get_by_index_exact. lia. Qed.

Lemma gbi_keys_all (P : bytes -> Prop) t : forall j a va,
  get_by_index t j = Some (a, va) -> keys_all P t -> P a.
Proof.
  induction t as [k0 v0 m0|nk h s m0 l IHl r IHr]; intros j a va G K;
    cbn [get_by_index keys_all] in *.
  - destruct (j =? 0); inversion G; subst; exact K.
  - destruct K as [Kl Kr]. destruct (j <? size l); eauto.
Qed.

Lemma search_index t : wf t -> forall j a va,
  get_by_index t j = Some (a, va) -> search_path t a = index_path t j.
Proof.
  induction t as [k0 v0 m0|nk h s m0 l IHl r IHr]; intros W j a va G; [reflexivity|].
  cbn [wf] in W. destruct W as (Wl & Wr & Kl & Kr & _).
  cbn [get_by_index] in G. cbn [search_path index_path]. destruct (j <? size l).
  - pose proof (gbi_keys_all _ l _ _ _ G Kl) as Lt. apply blt_true in Lt. rewrite Lt.
    f_equal. apply (IHl Wl _ _ _ G).
  - pose proof (gbi_keys_all _ r _ _ _ G Kr) as Ge. apply blt_false in Ge. rewrite Ge.
    f_equal. apply (IHr Wr _ _ _ G).
Qed.

(** * Bounds by the height: proofs *)
Theorem cost_path_to_leaf_bound t k : heights_ok t -> cost_path_to_leaf t k <= 2 * height t.
Proof. intros Hk. rewrite cost_path_to_leaf_exact. pose proof (depth_le_height t k Hk). lia. Qed.

Lemma cost_path_to_leaf_nonneg t k : 0 <= cost_path_to_leaf t k.
Proof. rewrite cost_path_to_leaf_exact. unfold depth. lia. Qed.

Theorem cost_membership_proof_bound t k : heights_ok t -> cost_membership_proof t k <= 2 * height t.
Proof. apply cost_path_to_leaf_bound. Qed.

(** the reads of [GetNonMembershipProof] step by step: one descent of [get], then for each
    neighbour one of [getByIndex] and one of [pathToLeaf]; an error exit only saves reads *)
Lemma cost_nonmembership_proof_steps t k : heights_ok t ->
  let i := fst (get t k) in
  0 <= cost_nonmembership_proof t k <=
    height t + (if 1 <=? i then cost_get_by_index t (i - 1) + 2 * height t else 0) +
    cost_get_by_index t i + match get_by_index t i with Some _ => 2 * height t | None => 0 end.
Proof.
  intros Hk. unfold cost_nonmembership_proof, cost_get_with_index, cost_create_existence_proof.
  pose proof (heights_ok_nonneg t Hk). pose proof (cost_get_bound t k Hk).
  pose proof (cost_get_nonneg t k). destruct (get t k) as [i val]. cbn [fst].
  set (leftkey := match get_by_index t (i - 1) with Some (k0, _) => k0 | None => [] end).
  pose proof (cost_path_to_leaf_bound t leftkey Hk). pose proof (cost_path_to_leaf_nonneg t leftkey).
  pose proof (cost_get_by_index_nonneg t (i - 1)). pose proof (cost_get_by_index_nonneg t i).
  assert (match get_by_index t i with
          | Some (rk, _) => 0 <= cost_path_to_leaf t rk <= 2 * height t | None => True end).
  { destruct (get_by_index t i) as [[rk rv]|]; [|exact I].
    split; [apply cost_path_to_leaf_nonneg|apply cost_path_to_leaf_bound, Hk]. }
  destruct val as [v|], (1 <=? i), (path_ok t leftkey), (get_by_index t i) as [[rk rv]|];
    cbn [negb]; lia.
Qed.

Theorem cost_nonmembership_proof_bound t k :
  heights_ok t -> cost_nonmembership_proof t k <= 9 * height t.
Proof.
  intros Hk. pose proof (cost_nonmembership_proof_steps t k Hk) as B. cbv zeta in B.
  pose proof (heights_ok_nonneg t Hk).
  pose proof (cost_get_by_index_bound t (fst (get t k) - 1) Hk).
  pose proof (cost_get_by_index_bound t (fst (get t k)) Hk).
  destruct (1 <=? fst (get t k)), (get_by_index t (fst (get t k))); lia.
Qed.

Theorem cost_get_proof_bound_10h t k : heights_ok t -> cost_get_proof t k <= 10 * height t.
Proof.
  intros Hk. unfold cost_get_proof.
  pose proof (heights_ok_nonneg t Hk). pose proof (cost_has_bound t k Hk).
  destruct (has t k).
  - pose proof (cost_membership_proof_bound t k Hk). lia.
  - pose proof (cost_nonmembership_proof_bound t k Hk). lia.
Qed.

(** the bound of C11 (a [node] is a non-empty tree; the empty tree makes no read at all) *)
Theorem cost_get_proof_bound t k : heights_ok t -> cost_get_proof t k <= 10 * height t + 10.
Proof. intros Hk. pose proof (cost_get_proof_bound_10h t k Hk). lia. Qed.

(** present key: [Has] + one [pathToLeaf] *)
Theorem cost_get_proof_member_bound t k :
  heights_ok t -> has t k = true -> cost_get_proof t k <= 3 * height t.
Proof.
  intros Hk Hh. unfold cost_get_proof. rewrite Hh.
  pose proof (cost_has_bound t k Hk). pose proof (cost_membership_proof_bound t k Hk). lia.
Qed.

(** ** The sharp bound for non-membership: the two neighbours cannot both be expensive *)

(** the leftmost leaf is reached by left steps only *)
Lemma cost_get_by_index_0 t : heights_ok t -> sizes_pos t -> cost_get_by_index t 0 <= height t.
Proof.
  induction t as [|nk h s m l IHl r IHr]; cbn [heights_ok sizes_pos cost_get_by_index height]; [lia|].
  intros (Hl & Hr & Hh) (Sl & Sr & Sp).
  replace (0 <? size l) with true by lia.
  specialize (IHl Hl Sl). lia.
Qed.

(** adjacent indices [i-1], [i], both in range: the two descents share a prefix, then the
    left one continues to the right and the right one to the left only *)
Lemma cost_get_by_index_adjacent t : forall i,
  heights_ok t -> sizes_pos t -> 1 <= i -> get_by_index t i <> None ->
  cost_get_by_index t (i - 1) + cost_get_by_index t i <= 4 * height t - 1.
Proof.
  induction t as [|nk h s m l IHl r IHr]; intros i Hk Sp Hi Hin; cbn [get_by_index] in Hin.
  - replace (i =? 0) with false in Hin by lia. congruence.
  - cbn [heights_ok] in Hk. destruct Hk as (Hl & Hr & Hh).
    cbn [sizes_pos] in Sp. destruct Sp as (Sl & Sr & Spl).
    pose proof (heights_ok_nonneg l Hl). pose proof (heights_ok_nonneg r Hr).
    cbn [cost_get_by_index height].
    destruct (i <? size l) eqn:C1, (i - 1 <? size l) eqn:C2; try lia.
    + (* both descents go left *)
      specialize (IHl i Hl Sl Hi Hin). lia.
    + (* they part here: i = size l *)
      replace (i - size l) with 0 by lia.
      pose proof (cost_get_by_index_0 r Hr Sr).
      pose proof (cost_get_by_index_bound l (i - 1) Hl). lia.
    + (* both descents go right *)
      specialize (IHr (i - size l) Hr Sr ltac:(lia) Hin).
      replace (i - 1 - size l) with (i - size l - 1) by lia. lia.
Qed.

Theorem cost_nonmembership_proof_sharp t k :
  heights_ok t -> sizes_pos t -> 1 <= height t ->
  cost_nonmembership_proof t k <= 9 * height t - 1.
Proof.
  intros Hk Sp Hpos. pose proof (cost_nonmembership_proof_steps t k Hk) as B. cbv zeta in B.
  pose proof (cost_get_by_index_bound t (fst (get t k) - 1) Hk).
  pose proof (cost_get_by_index_bound t (fst (get t k)) Hk).
  pose proof (cost_get_by_index_adjacent t (fst (get t k)) Hk Sp) as AD.
  destruct (1 <=? fst (get t k)) eqn:I1, (get_by_index t (fst (get t k))); try lia.
  specialize (AD ltac:(lia) ltac:(discriminate)). lia.
Qed.

Lemma cost_get_proof_nonneg t k : heights_ok t -> 0 <= cost_get_proof t k.
Proof.
  intros Hk. unfold cost_get_proof. pose proof (cost_has_le_get t k). destruct (has t k).
  - pose proof (cost_path_to_leaf_nonneg t k).
    unfold cost_membership_proof, cost_create_existence_proof. lia.
  - destruct (cost_nonmembership_proof_steps t k Hk) as [B _]. lia.
Qed.

Lemma cost_get_proof_height_0 t k : heights_ok t -> height t = 0 -> cost_get_proof t k = 0.
Proof.
  intros Hk H0. pose proof (cost_get_proof_bound_10h t k Hk). pose proof (cost_get_proof_nonneg t k Hk). lia.
Qed.

(** the tightest bounds of the form [a * height t + b]:
    membership (present key): a = 3, b = 0 ([cost_get_proof_member_bound], attained:
    [cost_get_proof_member_attained]); non-membership: a = 10, b = -1 for height >= 1
    (attained for every height: [cost_get_proof_sharp_attained]), and 0 at height 0, i.e.
    a = 10, b = 0 over all trees *)
Theorem cost_get_proof_sharp t k :
  heights_ok t -> sizes_pos t -> 1 <= height t -> cost_get_proof t k <= 10 * height t - 1.
Proof.
  intros Hk Sp Hpos. unfold cost_get_proof. pose proof (cost_has_bound t k Hk).
  destruct (has t k).
  - pose proof (cost_membership_proof_bound t k Hk). lia.
  - pose proof (cost_nonmembership_proof_sharp t k Hk Sp Hpos). lia.
Qed.

(** * Corollaries for [wf] trees (the invariant of every reachable tree, C11_avl_reachable) *)
Corollary cost_get_bound_wf t k : wf t -> cost_get t k <= height t.
Proof. intros W. apply cost_get_bound, wf_heights_ok, W. Qed.
Corollary cost_has_bound_wf t k : wf t -> cost_has t k <= height t.
Proof. intros W. apply cost_has_bound, wf_heights_ok, W. Qed.
Corollary cost_get_with_index_bound_wf t k : wf t -> cost_get_with_index t k <= height t.
Proof. intros W. apply cost_get_with_index_bound, wf_heights_ok, W. Qed.
Corollary cost_get_by_index_bound_wf t i : wf t -> cost_get_by_index t i <= 2 * height t.
Proof. intros W. apply cost_get_by_index_bound, wf_heights_ok, W. Qed.
Corollary cost_get_proof_bound_wf t k : wf t -> cost_get_proof t k <= 10 * height t + 10.
Proof. intros W. apply cost_get_proof_bound, wf_heights_ok, W. Qed.
Corollary cost_get_proof_sharp_wf t k :
  wf t -> 1 <= height t -> cost_get_proof t k <= 10 * height t - 1.
Proof. intros W. apply cost_get_proof_sharp; [apply wf_heights_ok|apply wf_sizes_pos]; exact W. Qed.

(** the whole C11 sentence at once *)
Theorem cost_C11 t :
  wf t ->
  (forall k, cost_get t k <= 2 * height t + 2) /\
  (forall k, cost_has t k <= 2 * height t + 2) /\
  (forall k, cost_get_with_index t k <= 2 * height t + 2) /\
  (forall i, cost_get_by_index t i <= 2 * height t + 2) /\
  (forall k, cost_membership_proof t k <= 10 * height t + 10) /\
  (forall k, cost_nonmembership_proof t k <= 10 * height t + 10) /\
  (forall k, cost_get_proof t k <= 10 * height t + 10).
Proof.
  intros W. pose proof (wf_heights_ok t W) as Hk. pose proof (heights_ok_nonneg t Hk).
  repeat split; intros x.
  - pose proof (cost_get_bound t x Hk). lia.
  - pose proof (cost_has_bound t x Hk). lia.
  - pose proof (cost_get_with_index_bound t x Hk). lia.
  - pose proof (cost_get_by_index_bound t x Hk). lia.
  - pose proof (cost_membership_proof_bound t x Hk). lia.
  - pose proof (cost_nonmembership_proof_bound t x Hk). lia.
  - apply cost_get_proof_bound, Hk.
Qed.

(** * Tightness: a right spine attains 10h - 1 at every height *)
Lemma bcmp_single x y : bcmp [x] [y] = (x ?= y)%N.
Proof. cbn [bcmp]. destruct (x ?= y)%N; reflexivity. Qed.
Lemma blt_single x y : blt [x] [y] = (x <? y)%N.
Proof. unfold blt, N.ltb. rewrite bcmp_single. reflexivity. Qed.
Lemma beq_single x y : beq [x] [y] = (x =? y)%N.
Proof. unfold beq. rewrite bcmp_single, N.eqb_compare. reflexivity. Qed.
Lemma lt_single x y : (x < y)%N -> [x] <b [y].
Proof. intros L. apply blt_true. rewrite blt_single. apply N.ltb_lt, L. Qed.
Lemma le_single x y : (x <= y)%N -> [x] <=b [y].
Proof. intros L. apply blt_false. rewrite blt_single. apply N.ltb_ge, L. Qed.

Definition lf (x : N) : node := Leaf [x] [x] (Meta 1 1 []).

(** leaves [a], [a+1], ..., [a+n-1] hanging to the left of a right spine that ends in the pair
    [a+n], [a+n+2]; the key [a+n+1] is absent *)
Fixpoint spine (n : nat) (a : N) : node :=
  match n with
  | O => Inner [a + 2]%N 1 2 (Meta 1 1 []) (lf a) (lf (a + 2))
  | S n' => Inner [a + 1]%N (Z.of_nat n' + 2) (Z.of_nat n' + 3) (Meta 1 1 []) (lf a) (spine n' (a + 1))
  end.

Lemma spine_height n a : height (spine n a) = Z.of_nat n + 1.
Proof. destruct n; cbn [spine height]; lia. Qed.
Lemma spine_size n a : size (spine n a) = Z.of_nat n + 2.
Proof. destruct n; cbn [spine size]; lia. Qed.
Lemma spine_min_key n a : min_key (spine n a) = [a].
Proof. destruct n; reflexivity. Qed.
Lemma spine_keys_ge n : forall a b, (b <= a)%N -> keys_all (fun x => [b] <=b x) (spine n a).
Proof.
  induction n as [|n IH]; intros a b L; cbn [spine keys_all lf].
  - split; apply le_single; lia.
  - split; [apply le_single; lia|apply IH; lia].
Qed.
Lemma spine_keys_wf n : forall a, (a + N.of_nat n + 2 < 256)%N -> keys_all well_formed (spine n a).
Proof.
  unfold well_formed. induction n as [|n IH]; intros a L; cbn [spine keys_all lf].
  - split; repeat constructor; lia.
  - split; [repeat constructor; lia|apply IH; lia].
Qed.
Lemma spine_wf n : forall a, wf (spine n a).
Proof.
  induction n as [|n IH]; intros a; cbn [spine wf lf keys_all min_key height size].
  - repeat split; try lia. apply lt_single; lia. apply le_single; lia.
  - rewrite spine_height, spine_size, spine_min_key. repeat split; try lia.
    + apply IH.
    + apply lt_single; lia.
    + apply spine_keys_ge; lia.
Qed.

Lemma spine_cost_get n : forall a x, (a + N.of_nat n <= x)%N -> cost_get (spine n a) [x] = Z.of_nat n + 1.
Proof.
  induction n as [|n IH]; intros a x L; cbn [spine cost_get lf].
  - destruct (blt [x] [a + 2]%N); reflexivity.
  - rewrite blt_single. replace (x <? a + 1)%N with false by lia.
    rewrite IH by lia. lia.
Qed.

Lemma spine_get n : forall a, get (spine n a) [a + N.of_nat n + 1]%N = (Z.of_nat n + 1, None).
Proof.
  induction n as [|n IH]; intros a; cbn [spine get lf].
  - rewrite blt_single.
    replace (a + N.of_nat 0 + 1 <? a + 2)%N with true by lia.
    rewrite bcmp_single. replace (a ?= a + N.of_nat 0 + 1)%N with Lt by (symmetry; apply N.compare_lt_iff; lia).
    reflexivity.
  - rewrite blt_single.
    replace (a + N.of_nat (S n) + 1 <? a + 1)%N with false by lia.
    replace (a + N.of_nat (S n) + 1)%N with (a + 1 + N.of_nat n + 1)%N by lia.
    rewrite IH, spine_size. f_equal. lia.
Qed.

Lemma spine_has n a : has (spine n a) [a + N.of_nat n + 1]%N = false /\
                      cost_has (spine n a) [a + N.of_nat n + 1]%N = Z.of_nat n + 1.
Proof.
  pose proof (spine_wf n a) as W.
  assert (Hf : has (spine n a) [a + N.of_nat n + 1]%N = false).
  { pose proof (spine_get n a) as G. rewrite (get_spec _ _ W) in G. injection G as _ A.
    rewrite (has_spec _ _ W). unfold mem. rewrite A. reflexivity. }
  split; [exact Hf|]. rewrite (cost_has_absent _ _ W Hf). apply spine_cost_get. lia.
Qed.

Lemma spine_index_left n : forall a,
  get_by_index (spine n a) (Z.of_nat n) = Some ([a + N.of_nat n]%N, [a + N.of_nat n]%N) /\
  cost_get_by_index (spine n a) (Z.of_nat n) = 2 * Z.of_nat n + 1.
Proof.
  induction n as [|n IH]; intros a; cbn [spine get_by_index cost_get_by_index lf size].
  - cbn. rewrite N.add_0_r. split; reflexivity.
  - replace (Z.of_nat (S n) <? 1) with false by lia.
    replace (Z.of_nat (S n) - 1) with (Z.of_nat n) by lia.
    destruct (IH (a + 1)%N) as [E1 E2]. rewrite E1, E2.
    replace (a + 1 + N.of_nat n)%N with (a + N.of_nat (S n))%N by lia. split; [reflexivity|lia].
Qed.

Lemma spine_index_right n : forall a,
  get_by_index (spine n a) (Z.of_nat n + 1) = Some ([a + N.of_nat n + 2]%N, [a + N.of_nat n + 2]%N) /\
  cost_get_by_index (spine n a) (Z.of_nat n + 1) = 2 * Z.of_nat n + 2.
Proof.
  induction n as [|n IH]; intros a; cbn [spine get_by_index cost_get_by_index lf size].
  - cbn. rewrite N.add_0_r. split; reflexivity.
  - replace (Z.of_nat (S n) + 1 <? 1) with false by lia.
    replace (Z.of_nat (S n) + 1 - 1) with (Z.of_nat n + 1) by lia.
    destruct (IH (a + 1)%N) as [E1 E2]. rewrite E1, E2.
    replace (a + 1 + N.of_nat n + 2)%N with (a + N.of_nat (S n) + 2)%N by lia. split; [reflexivity|lia].
Qed.

Lemma spine_path_ok n : forall a, path_ok (spine n a) [a + N.of_nat n]%N = true.
Proof.
  unfold path_ok. induction n as [|n IH]; intros a; cbn [spine path_to_leaf lf].
  - rewrite blt_single.
    replace (a + N.of_nat 0 <? a + 2)%N with true by lia.
    cbn [snd]. rewrite N.add_0_r, beq_single. apply N.eqb_refl.
  - rewrite blt_single.
    replace (a + N.of_nat (S n) <? a + 1)%N with false by lia.
    replace (a + N.of_nat (S n))%N with (a + 1 + N.of_nat n)%N by lia.
    specialize (IH (a + 1)%N).
    destruct (path_to_leaf (fun _ => []) 0 (spine n (a + 1)) [(a + 1 + N.of_nat n)%N]) as [[p l] ok].
    exact IH.
Qed.

Lemma spine_cost_path n a x :
  (a + N.of_nat n <= x)%N -> cost_path_to_leaf (spine n a) [x] = 2 * Z.of_nat n + 2.
Proof.
  intros L. rewrite cost_path_to_leaf_exact, <- cost_get_exact, spine_cost_get by exact L. lia.
Qed.

Theorem spine_cost_get_proof n a :
  cost_get_proof (spine n a) [a + N.of_nat n + 1]%N = 10 * (Z.of_nat n + 1) - 1.
Proof.
  unfold cost_get_proof. destruct (spine_has n a) as [E1 E2]. rewrite E1, E2.
  unfold cost_nonmembership_proof, cost_get_with_index, cost_create_existence_proof.
  rewrite spine_get, spine_cost_get by lia.
  replace (1 <=? Z.of_nat n + 1) with true by lia.
  replace (Z.of_nat n + 1 - 1) with (Z.of_nat n) by lia.
  destruct (spine_index_left n a) as [L1 L2]. destruct (spine_index_right n a) as [R1 R2].
  rewrite L1, L2, spine_path_ok, R1, R2. cbv beta iota zeta. cbn [negb].
  rewrite !spine_cost_path by lia. lia.
Qed.

(** the witness has the one-byte keys 0 .. n + 2, which are bytes ([< 256]) only for small [n]:
    [n <= 125] is a round bound within [n + 2 < 256], not a sharp one *)
Theorem cost_get_proof_sharp_attained :
  forall n : nat, exists t k,
    wf t /\ height t = Z.of_nat n + 1 /\ has t k = false /\
    ((n <= 125)%nat -> keys_all well_formed t /\ well_formed k) /\
    cost_get_proof t k = 10 * height t - 1.
Proof.
  intros n. exists (spine n 0), [0 + N.of_nat n + 1]%N.
  split; [apply spine_wf|]. split; [apply spine_height|].
  split; [apply (spine_has n 0)|]. split.
  - intros L. split; [apply spine_keys_wf; lia|repeat constructor; lia].
  - rewrite spine_height. apply spine_cost_get_proof.
Qed.

(** ** a left spine attains 3h for a present key (the least key, the only leaf key of a [wf]
    tree that is not a routing key) *)
Fixpoint lspine (n : nat) (a : N) : node :=
  match n with
  | O => Inner [a + 1]%N 1 2 (Meta 1 1 []) (lf a) (lf (a + 1))
  | S n' => Inner [a + N.of_nat n' + 2]%N (Z.of_nat n' + 2) (Z.of_nat n' + 3) (Meta 1 1 [])
              (lspine n' a) (lf (a + N.of_nat n' + 2))
  end.

Lemma lspine_height n a : height (lspine n a) = Z.of_nat n + 1.
Proof. destruct n; cbn [lspine height]; lia. Qed.
Lemma lspine_size n a : size (lspine n a) = Z.of_nat n + 2.
Proof. destruct n; cbn [lspine size]; lia. Qed.
Lemma lspine_keys_lt n : forall a b, (a + N.of_nat n + 1 < b)%N -> keys_all (fun x => x <b [b]) (lspine n a).
Proof.
  induction n as [|n IH]; intros a b L; cbn [lspine keys_all lf].
  - split; apply lt_single; lia.
  - split; [apply IH; lia|apply lt_single; lia].
Qed.
Lemma lspine_keys_wf n : forall a, (a + N.of_nat n + 1 < 256)%N -> keys_all well_formed (lspine n a).
Proof.
  unfold well_formed. induction n as [|n IH]; intros a L; cbn [lspine keys_all lf].
  - split; repeat constructor; lia.
  - split; [apply IH; lia|repeat constructor; lia].
Qed.
Lemma lspine_wf n : forall a, wf (lspine n a).
Proof.
  induction n as [|n IH]; intros a; cbn [lspine wf lf keys_all min_key height size].
  - repeat split; try lia. apply lt_single; lia. apply le_single; lia.
  - rewrite lspine_height, lspine_size. repeat split; try lia.
    + apply IH.
    + apply lspine_keys_lt; lia.
    + apply le_single; lia.
Qed.
Lemma lspine_has n : forall a, has (lspine n a) [a] = true /\ cost_has (lspine n a) [a] = Z.of_nat n + 1.
Proof.
  induction n as [|n IH]; intros a; cbn [lspine has cost_has nkey lf].
  - rewrite !beq_single, blt_single.
    replace (a + 1 =? a)%N with false by lia.
    replace (a <? a + 1)%N with true by lia.
    rewrite N.eqb_refl. split; reflexivity.
  - rewrite !beq_single, blt_single.
    replace (a + N.of_nat n + 2 =? a)%N with false by lia.
    replace (a <? a + N.of_nat n + 2)%N with true by lia.
    destruct (IH a) as [E1 E2]. rewrite E1, E2. split; [reflexivity|lia].
Qed.
Lemma lspine_cost_get n : forall a, cost_get (lspine n a) [a] = Z.of_nat n + 1.
Proof.
  induction n as [|n IH]; intros a; cbn [lspine cost_get lf].
  - destruct (blt [a] [a + 1]%N); reflexivity.
  - rewrite blt_single. replace (a <? a + N.of_nat n + 2)%N with true by lia.
    rewrite IH. lia.
Qed.

(** [n <= 125]: one-byte keys again, as for [cost_get_proof_sharp_attained] *)
Theorem cost_get_proof_member_attained :
  forall n : nat, exists t k,
    wf t /\ height t = Z.of_nat n + 1 /\ has t k = true /\
    ((n <= 125)%nat -> keys_all well_formed t /\ well_formed k) /\
    cost_get_proof t k = 3 * height t.
Proof.
  intros n. exists (lspine n 0), [0%N].
  split; [apply lspine_wf|]. split; [apply lspine_height|].
  destruct (lspine_has n 0) as [E1 E2]. split; [exact E1|]. split.
  - intros L. split; [apply lspine_keys_wf; lia|repeat constructor; lia].
  - unfold cost_get_proof. rewrite E1, E2, lspine_height.
    unfold cost_membership_proof, cost_create_existence_proof.
    rewrite cost_path_to_leaf_exact, <- cost_get_exact, lspine_cost_get. lia.
Qed.

(** * Examples: 7 keys [10], [20], ..., [70] inserted one by one with [Tree.set] (the first key
    makes the root leaf, as MutableTree.Set on the empty tree does); height 3:
<<
                     [50]
            [30]               [60]
       [20]      [40]      50       [70]
      10  20    30  40             60  70
>> *)
Definition ins7 (t : node) (k : N) : node := fst (set t [k] [k; k]).
Definition t7 : node :=
  fold_left ins7 [20; 30; 40; 50; 60; 70]%N (Leaf [10%N] [10%N; 10%N] new_meta).

Example t7_shape :
  wf t7 /\ avl t7 /\ height t7 = 3 /\ size t7 = 7 /\
  map fst (elems t7) = [[10]; [20]; [30]; [40]; [50]; [60]; [70]]%N.
Proof. vm_compute. repeat split; try discriminate. Qed.

(** Get: the depth of the leaf reached (present [10], [50]; absent below / middle / above) *)
Example t7_cost_get :
  map (cost_get t7) [[10]; [50]; [5]; [35]; [80]]%N = [3; 2; 3; 3; 3].
Proof. vm_compute. reflexivity. Qed.

(** Has: stops at a routing key ([30] after 1 read, the root key [50] at once); an absent key
    costs the full descent *)
Example t7_cost_has :
  map (cost_has t7) [[10]; [20]; [30]; [50]; [5]; [35]; [80]]%N = [3; 2; 1; 0; 3; 3; 3].
Proof. vm_compute. reflexivity. Qed.

(** GetByIndex: 1 per left step, 2 per right step; index 6 (the last) costs 2h = 6, as does the
    out-of-range index 7; index -1 goes down the left edge *)
Example t7_cost_get_by_index :
  map (cost_get_by_index t7) [0; 1; 2; 3; 4; 5; 6; 7; -1] = [3; 4; 4; 5; 3; 5; 6; 6; 3].
Proof. vm_compute. reflexivity. Qed.

(** GetMembershipProof: twice the depth; the absent key [35] costs the same (error at the leaf) *)
Example t7_cost_membership :
  map (cost_membership_proof t7) [[10]; [50]; [70]; [35]]%N = [6; 4; 6; 6].
Proof. vm_compute. reflexivity. Qed.

(** GetNonMembershipProof: below the minimum (no left neighbour), in the middle, in the middle
    next to the last leaf, above the maximum (no right neighbour, but GetByIndex(7) is paid),
    and a present key (error after GetWithIndex) *)
Example t7_cost_nonmembership :
  map (cost_nonmembership_proof t7) [[5]; [35]; [65]; [80]; [10]]%N = [12; 24; 26; 21; 3].
Proof. vm_compute. reflexivity. Qed.

(** GetProof = Has + the selected proof: [10] attains 3h = 9, [65] attains 10h - 1 = 29 *)
Example t7_cost_get_proof :
  map (cost_get_proof t7) [[10]; [50]; [5]; [35]; [65]; [80]]%N = [9; 4; 15; 27; 29; 24] /\
  map (has t7) [[10]; [50]; [5]; [35]; [65]; [80]]%N = [true; true; false; false; false; false].
Proof. vm_compute. split; reflexivity. Qed.

(** the model's costs belong to proofs that are really produced (SHA-256 not needed: any [H]) *)
Example t7_proofs_exist :
  let H := fun _ : bytes => [] in
  (exists p, get_proof H 1 (Some t7) [10%N] = Some (PExist p)) /\
  (exists p, get_proof H 1 (Some t7) [65%N] = Some (PNonexist p)) /\
  get_membership_proof H 1 (Some t7) [35%N] = None /\
  get_nonmembership_proof H 1 (Some t7) [10%N] = None.
Proof. vm_compute. repeat split; eexists; reflexivity. Qed.

Print Assumptions cost_get_bound.
Print Assumptions cost_has_bound.
Print Assumptions cost_get_with_index_bound.
Print Assumptions cost_get_by_index_bound.
Print Assumptions cost_get_by_index_le_height_refuted.
Print Assumptions cost_get_exact.
Print Assumptions cost_get_proof_bound.
Print Assumptions cost_get_proof_sharp.
Print Assumptions cost_get_proof_member_bound.
Print Assumptions cost_get_proof_sharp_attained.
Print Assumptions cost_get_proof_member_attained.
Print Assumptions cost_C11.
