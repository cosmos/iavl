(** PruneAlgoFacts8: DeleteVersionsTo on the physical store of a forest, for a forest in which
    no two different nodes of one tree look the same to the node iterator ([no_confusion]).
    PruneAlgoFacts10 removes that hypothesis (it fails only if the hash function collides). *)
From Coq Require Import Lia Sorted.
From IAVL Require Import Bytes Varint Tree VMap TreeFacts MTree MTreeFacts HashFacts VersionFacts
  Store StoreFacts PruneAlgo PruneAlgoFacts1 PruneAlgoFacts2 PruneAlgoFacts3 PruneAlgoFacts4
  PruneAlgoFacts5 PruneAlgoFacts6 PruneAlgoFacts7.
Local Open Scope Z_scope.

Lemma skipn_zseq k : forall a n, skipn k (zseq a n) = zseq (a + Z.of_nat k) (n - k).
Proof.
  induction k as [|k IH]; intros a n.
  - cbn [skipn]. rewrite Nat.sub_0_r. f_equal. lia.
  - destruct n as [|n]; cbn [zseq skipn]; [reflexivity|]. rewrite IH. cbn [Nat.sub]. f_equal. lia.
Qed.

(** ** The empty forest (nothing to delete) *)
Lemma versions_nonpos first to : to + 1 - first <= 0 -> versions_from_to first to = [].
Proof. intros L. unfold versions_from_to. replace (Z.to_nat (to + 1 - first)) with 0%nat by lia. reflexivity. Qed.

Lemma prune_forest_empty H eff r sched n :
  n < 0 -> prune_forest H eff r [] sched n = POk ([], [], []).
Proof.
  intros L. unfold prune_forest, prune_phys. cbn [latest_of_forest first_of_forest fold_left].
  rewrite (proj2 (Z.leb_gt _ _) L).
  cbv zeta. rewrite versions_nonpos by lia. cbn [delete_range]. destruct eff; reflexivity.
Qed.

Lemma prune_forest_disks_empty H eff r sched n :
  n < 0 -> prune_forest_disks H eff r [] sched n = POk [[]; []].
Proof.
  intros L. unfold prune_forest_disks, prune_phys_disks. cbn [latest_of_forest first_of_forest fold_left].
  rewrite (proj2 (Z.leb_gt _ _) L).
  cbv zeta. rewrite versions_nonpos by lia. reflexivity.
Qed.

Definition no_confusion (H : bytes -> bytes) (f : forest_t) : Prop :=
  forall w t u c, In (w, Some t) f -> subtree u t -> subtree c t -> fhash H u = fhash H c -> u = c.

Definition leaf_hashes (H : bytes -> bytes) (f : forest_t) : Prop :=
  forall u, sub_of f u -> fhash H u = hs (nmeta u).

Section Main.
  Variable H : bytes -> bytes.
  Variable f : forest_t.
  Variable iv : Z.
  Hypothesis FI : forest_inv f.
  Hypothesis ND : NoDup (map fst f).
  Hypothesis OK : forest_ok f iv.
  Hypothesis WF : forall w t, In (w, Some t) f -> wf t.
  Hypothesis NC : no_confusion H f.

  Definition kept (n : Z) : forest_t := filter (fun p => n <? fst p) f.

  Lemma kept_skipn n :
    f <> [] -> kept n = skipn (Z.to_nat (n + 1 - first_of f)) f.
  Proof. intros NE. apply filter_gt_skipn, (forest_ok_zseq f iv OK). Qed.

  Lemma length_f : f <> [] -> Z.of_nat (length f) = latest_of f - first_of f + 1.
  Proof.
    intros NE. destruct (forest_ok_range f iv OK NE) as (R1 & _ & R).
    rewrite <- (map_length fst f), R. unfold zrange. rewrite zseq_length. lia.
  Qed.

  (** the trees fit into the fuel: a traversal takes at most [2 * ncount t + 1] steps (each moves one
      of the two iterators), and the nodes of a tree are different entries of the store *)
  Lemma fuel_ok r :
    f <> [] -> (forall w, In w r -> w < first_of f) ->
    forall w t, In (w, Some t) f -> (2 * ncount t + 1 <= prune_fuel (phys_of r f))%nat.
  Proof.
    intros NE Hr w t I.
    destruct (ST_init f iv FI ND OK r [] false NE Hr) as [[Cx P] _].
    pose proof (pi_disk _ _ _ _ _ _ P) as Sd. cbn [disk] in Sd.
    pose proof (live_count (sub_of f) f (first_of f) (phys_of r f) Sd (sub_of_nonce f FI) (fi_coh f FI)
                  (pre t) (pre_NoDup t (WF _ _ I))) as C.
    rewrite pre_length in C. unfold prune_fuel.
    assert (A : forall u, In u (pre t) -> sub_of f u).
    { intros u Iu. apply pre_In in Iu. exists w, t. auto. }
    specialize (C A). lia.
  Qed.

  (** the loop of deleteVersionsTo from the initial state of the call *)
  Theorem prune_run r sched eff n :
    f <> [] -> rekey_ok r f -> n < latest_of_forest f ->
    exists p' c',
      delete_range H (prune_fuel (phys_of r f)) (versions_from_to (first_of_forest f) n)
        (Pdb (phys_of r f) [] sched [] [] eff [] [phys_of r f]) rkc_new = POk p' /\
      ST f p' c' (kept n) (rk_run (Z.to_nat (n + 1 - first_of f)) f r) (first_of_forest (kept n)) /\
      kept n <> [] /\
      logs_ext (Pdb (phys_of r f) [] sched [] [] eff [] [phys_of r f]) p'
        (range_writes (Z.to_nat (n + 1 - first_of f)) f r).
  Proof.
    intros NE [_ Rk] Ln. rewrite first_of_forest_eq in *. rewrite latest_of_forest_eq in Ln.
    assert (Hr : forall w, In w r -> w < first_of f).
    { intros w Iw. destruct (Rk w Iw) as [A _]. exact A. }
    pose proof (forest_ok_zseq f iv OK) as Hz. pose proof (length_f NE) as Lf.
    destruct (forest_ok_range f iv OK NE) as (R1 & _ & _).
    set (k := Z.to_nat (n + 1 - first_of f)).
    assert (Lk : (k < length f)%nat) by (unfold k; lia).
    rewrite versions_from_to_zseq. fold k.
    destruct (delete_range_ok H f iv FI ND OK WF NC (prune_fuel (phys_of r f)) (fuel_ok r NE Hr)
                k f [] (first_of f) _ rkc_new r eq_refl Hz Lk (ST_init f iv FI ND OK r sched eff NE Hr))
      as (p' & c' & E & HS & LG).
    exists p', c'. split; [exact E|].
    rewrite (kept_skipn n NE). fold k.
    assert (Hk : map fst (skipn k f) = zseq (first_of f + Z.of_nat k) (length f - k)).
    { rewrite <- skipn_map, Hz. apply skipn_zseq. }
    assert (NEk : skipn k f <> []).
    { intros Q. rewrite Q in Hk. cbn [map] in Hk. destruct (length f - k)%nat eqn:D; [lia|discriminate]. }
    split; [|exact (conj NEk LG)].
    assert (Ef : first_of (skipn k f) = first_of f + Z.of_nat k).
    { rewrite first_of_hd, Hk. destruct (length f - k)%nat eqn:D; [lia|reflexivity]. }
    rewrite first_of_forest_eq, Ef. exact HS.
  Qed.

  (** THE WHOLE CALL, for forests without look-alike nodes; any schedule, either flush mode *)
  Theorem prune_forest_nc r sched eff n :
    rekey_ok r f -> n < latest_of_forest f ->
    exists st' log fl,
      prune_forest H eff r f sched n = POk (st', log, fl) /\
      st' = phys_of (rekeyed st') (kept n) /\ rekey_ok (rekeyed st') (kept n) /\
      norm_store st' = expected_store (kept n).
  Proof.
    intros RK Ln. destruct (nil_or_not f) as [E|NE].
    { unfold kept. rewrite E in Ln |- *. rewrite (prune_forest_empty H eff r sched n Ln).
      eexists _, _, _. split; [reflexivity|]. cbn. split; [reflexivity|]. split; [|reflexivity].
      split; [constructor|intros w []]. }
    destruct (prune_run r sched eff n NE RK Ln) as (p' & c' & E & [PX _] & NEk & _).
    unfold prune_forest, prune_phys.
    rewrite (proj2 (Z.leb_gt _ _) Ln).
    cbv zeta. rewrite E. eexists _, _, _. split; [reflexivity|].
    destruct (pflush_facts p') as (Ed & _ & _ & _). rewrite Ed.
    destruct PX as [Cx P].
    assert (FI' : forest_inv (kept n)) by apply forest_inv_filter, FI.
    assert (ND' : NoDup (map fst (kept n))) by apply NoDup_filter_fst, ND.
    split; [|split].
    - exact (final_phys f FI (kept n) FI' ND' _ _ (Vof p') Cx (pi_V _ _ _ _ _ _ P)).
    - exact (final_rekey_ok f FI (kept n) _ _ (Vof p') Cx (pi_V _ _ _ _ _ _ P) eq_refl).
    - exact (final_norm (kept n) FI' ND' _ (Vof p') (pi_V _ _ _ _ _ _ P)).
  Qed.

  Theorem prune_forest_disks_nc r sched eff n :
    rekey_ok r f -> n < latest_of_forest f -> leaf_hashes H f ->
    exists disks,
      prune_forest_disks H eff r f sched n = POk disks /\
      Forall (fun d => readable H d (kept n) = true) disks.
  Proof.
    intros RK Ln LH. destruct (nil_or_not f) as [E|NE].
    { unfold kept. rewrite E in Ln |- *. rewrite (prune_forest_disks_empty H eff r sched n Ln).
      eexists. split; [reflexivity|]. repeat constructor. }
    destruct (prune_run r sched eff n NE RK Ln) as (p' & c' & E & [PX _] & NEk & _).
    unfold prune_forest_disks, prune_phys_disks.
    rewrite (proj2 (Z.leb_gt _ _) Ln).
    cbv zeta. rewrite E. eexists. split; [reflexivity|].
    destruct (pflush_facts p') as (_ & _ & Eh & _). rewrite Eh.
    destruct PX as [Cx P].
    assert (FI' : forest_inv (kept n)) by apply forest_inv_filter, FI.
    assert (WF' : forall w t, In (w, Some t) (kept n) -> wf t).
    { intros w t I. apply filter_In in I. exact (WF w t (proj1 I)). }
    assert (LH' : forall u, sub_of (kept n) u -> fhash H u = hs (nmeta u)).
    { intros u Su. apply LH. exact (sub_of_filter _ f u Su). }
    assert (G : forall d, safe (sub_of (kept n)) (kept n) (first_of_forest (kept n)) d ->
                          readable H d (kept n) = true).
    { intros d Sd. exact (readable_safe H (kept n) _ d FI' WF' LH' Sd). }
    apply Forall_app. split.
    - eapply Forall_impl; [|exact (pi_hist _ _ _ _ _ _ P)]. exact G.
    - constructor; [|constructor]. apply G. exact (proj1 (pi_Vgood _ _ _ _ _ _ P)).
  Qed.

  Theorem prune_forest_schedule_nc r sched1 eff1 sched2 eff2 n st1 log1 fl1 st2 log2 fl2 :
    rekey_ok r f -> n < latest_of_forest f ->
    prune_forest H eff1 r f sched1 n = POk (st1, log1, fl1) ->
    prune_forest H eff2 r f sched2 n = POk (st2, log2, fl2) ->
    st1 = st2.
  Proof.
    intros RK Ln E1 E2. destruct (nil_or_not f) as [E|NE].
    { rewrite E in Ln, E1, E2. rewrite (prune_forest_empty H _ r _ n Ln) in E1. rewrite (prune_forest_empty H _ r _ n Ln) in E2.
      congruence. }
    destruct (prune_run r sched1 eff1 n NE RK Ln) as (p1 & c1 & R1 & [[_ P1] _] & _).
    destruct (prune_run r sched2 eff2 n NE RK Ln) as (p2 & c2 & R2 & [[_ P2] _] & _).
    unfold prune_forest, prune_phys in E1, E2.
    rewrite (proj2 (Z.leb_gt _ _) Ln) in E1, E2.
    cbv zeta in E1, E2. rewrite R1 in E1. rewrite R2 in E2.
    inversion E1; subst. inversion E2; subst.
    exact (pst_ext _ _ _ (pi_V _ _ _ _ _ _ P1) (pi_V _ _ _ _ _ _ P2)).
  Qed.
End Main.
