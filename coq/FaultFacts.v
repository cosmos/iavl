(** C17: storage failures surface as errors, never as wrong or partial answers.
    Theorems about the fault-injection model Fault.v.

    [FS m]: the computation [m], parameterised by the fault position, is fail-stop: a fault
    outside the window of storage calls it makes changes nothing, a fault inside the window
    makes it return [Err] at that call.  [FS] is closed under [bind], [fetch] and [if], so
    every reader written with them is fail-stop by construction, for any store.  [FSW R]
    replaces "returns [Err]" by "returns something related by [R] to the fault-free result":
    Iterator.Next stores the error instead of returning it, the traversal loop ends with
    [Err] after a prefix of the nodes.

    [repr st t]: the store holds the persisted M1 tree [t].  Fault-free runs then compute the
    M1 answers (the traversals by simulation of Iter.step, through IterFacts.next_spec), and
    the descents make at most [height t] (getByIndex: [2 * height t]) storage calls.

    IterateRange / IterateRangeInclusive (node.traverseInRange) drop the error: with a fault
    they return [Ok] of a prefix.  Commit: any failing batch operation makes the commit
    [Err]. *)
From IAVL Require Import Bytes Varint Sha256 Tree VMap TreeFacts Iter IterFacts ExportImport Fault.
Local Open Scope Z_scope.

Definition FS {A} (m : option nat -> M A) : Prop :=
  forall (i c : nat),
    (c <= snd (m None c))%nat /\
    ((i < c \/ snd (m None c) <= i)%nat -> m (Some i) c = m None c) /\
    ((c <= i < snd (m None c))%nat -> m (Some i) c = (Err, S i)).

(** The fault window of [p] started at call [c] is [c, snd (p None c)).  A fault outside it
    changes nothing; a fault at call [i] inside it stops [p] there, with a result related by
    [R] to the fault-free one. *)
Definition FSW {X} (R : X -> X -> Prop) (p : option nat -> nat -> X * nat) : Prop :=
  forall (i c : nat),
    (c <= snd (p None c))%nat /\
    ((i < c \/ snd (p None c) <= i)%nat -> p (Some i) c = p None c) /\
    ((c <= i < snd (p None c))%nat ->
       exists x, p (Some i) c = (x, S i) /\ R x (fst (p None c))).

Definition ends {X} (bad : X) : X -> X -> Prop := fun x _ => x = bad.

Lemma FS_FSW {A} (m : option nat -> M A) : FS m <-> FSW (ends Err) m.
Proof.
  split; intros H i c; destruct (H i c) as (L & Out & In);
    (split; [exact L|]); (split; [exact Out|]); intros Hi.
  - exists Err. split; [apply In, Hi|reflexivity].
  - destruct (In Hi) as (x & E & ->). exact E.
Qed.

Lemma FSW_cases {X} (R : X -> X -> Prop) p : FSW R p ->
  forall i c, (exists x, p (Some i) c = (x, S i) /\ R x (fst (p None c))) /\
                (c <= i < snd (p None c))%nat \/
              p (Some i) c = p None c /\ (i < c \/ snd (p None c) <= i)%nat.
Proof.
  intros F i c. destruct (F i c) as (_ & Out & In).
  assert (H : (c <= i < snd (p None c))%nat \/ (i < c \/ snd (p None c) <= i)%nat) by lia.
  destruct H as [H|H]; [left; split; [apply In, H|exact H]|right; split; [apply Out, H|exact H]].
Qed.

Lemma FS_cases {A} (m : option nat -> M A) : FS m ->
  forall i c, m (Some i) c = (Err, S i) /\ (c <= i < snd (m None c))%nat \/
              m (Some i) c = m None c /\ (i < c \/ snd (m None c) <= i)%nat.
Proof.
  intros F i c. apply FS_FSW in F.
  destruct (FSW_cases _ _ F i c) as [[(x & E & ->) Hi]|H]; [left; split; assumption|right; exact H].
Qed.

Lemma FSW_ext {X} (R : X -> X -> Prop) p p' :
  (forall fa c, p' fa c = p fa c) -> FSW R p -> FSW R p'.
Proof. intros E H i c. rewrite !E. apply H. Qed.

Lemma FSW_const {X} (R : X -> X -> Prop) (x : X) : FSW R (fun _ c => (x, c)).
Proof. intros i c. cbn. repeat split; auto; lia. Qed.

(** Sequencing.  When the fault stops [p], what follows runs on [p]'s faulty result [x] with
    the fault behind it: it must make no further call and produce something related to the
    fault-free result of the whole. *)
Lemma FSW_seq {X Y} (R : X -> X -> Prop) (Q : Y -> Y -> Prop)
    (p : option nat -> nat -> X * nat) (q : option nat -> X -> nat -> Y * nat) :
  FSW R p -> (forall x, FSW Q (fun fa => q fa x)) ->
  (forall x x0 c c0, R x x0 -> exists y, q None x c = (y, c) /\ Q y (fst (q None x0 c0))) ->
  FSW Q (fun fa => seqc (p fa) (q fa)).
Proof.
  intros Hp Hq Hbad i c. destruct (Hp i c) as (L0 & Out & In).
  unfold seqc.
  destruct (p None c) as [x0 c0] eqn:E0. cbn [snd fst] in *.
  destruct (Hq x0 i c0) as (L1 & Out1 & In1).
  split; [lia|]. split; intros Hi.
  - rewrite Out by lia. apply Out1. lia.
  - destruct (Nat.lt_ge_cases i c0) as [Lt|Ge].
    + destruct In as (x & -> & Rx); [lia|].
      destruct (Hq x i (S i)) as (_ & Outx & _). rewrite Outx by lia.
      exact (Hbad _ _ _ _ Rx).
    + rewrite Out by lia. apply In1. lia.
Qed.

Lemma FSW_map {X Y} (R : X -> X -> Prop) (Q : Y -> Y -> Prop) (g : X -> Y) p :
  (forall a b, R a b -> Q (g a) (g b)) -> FSW R p ->
  FSW Q (fun fa => seqc (p fa) (fun x c => (g x, c))).
Proof.
  intros Hg Hp. apply (FSW_seq R Q); [exact Hp|intros x; apply FSW_const|].
  intros x x0 c c0 Rx. exists (g x). split; [reflexivity|apply Hg, Rx].
Qed.

Lemma FS_const {A} (r : result A) : FS (fun _ c => (r, c)).
Proof. apply FS_FSW, FSW_const. Qed.

Lemma fails_None c : fails None c = false.
Proof. reflexivity. Qed.
Lemma fails_Some i c : fails (Some i) c = Nat.eqb i c.
Proof. reflexivity. Qed.

(** the shape of every storage call ([fetch], [write_call]) *)
Lemma FS_call {A} (r : result A) : FS (fun fa c => if fails fa c then (Err, S c) else (r, S c)).
Proof.
  intros i c. rewrite fails_None, fails_Some. cbn [snd]. split; [lia|].
  destruct (Nat.eqb_spec i c) as [->|N]; split; intros Hi; try reflexivity; lia.
Qed.

Lemma FS_fetch st k : FS (fun fa => fetch fa st k).
Proof. unfold fetch. destruct (slookup k st); apply FS_call. Qed.

Lemma FS_write : FS (fun fa => write_call fa).
Proof. apply FS_call. Qed.

Lemma FS_bind {A B} (m : option nat -> M A) (f : option nat -> A -> M B) :
  FS m -> (forall a, FS (fun fa => f fa a)) -> FS (fun fa => bind (m fa) (f fa)).
Proof.
  intros Hm Hf. apply FS_FSW.
  apply (FSW_seq (ends Err) (ends Err) m
           (fun fa r c => match r with Ok a => f fa a c | Err => (Err, c) | Fuel => (Fuel, c) end)).
  - apply FS_FSW, Hm.
  - intros [a| |]; [apply FS_FSW, Hf|apply FSW_const|apply FSW_const].
  - intros r r0 c c0 ->. exists Err. split; reflexivity.
Qed.
Lemma FS_if {A} (b : bool) (m1 m2 : option nat -> M A) :
  FS m1 -> FS m2 -> FS (fun fa => if b then m1 fa else m2 fa).
Proof. destruct b; auto. Qed.

(** [auto with fs]: what is built from constants, [fetch], [bind] and [if] is fail-stop *)
Create HintDb fs discriminated.
#[local] Hint Resolve FS_fetch FS_write FS_bind FS_if : fs.
#[local] Hint Extern 1 (FS (fun _ => _)) => apply FS_const : fs.

Lemma FS_get st fuel : forall n key, FS (fun fa => f_get fa st fuel n key).
Proof.
  induction fuel as [|f IH]; intros n key; destruct n as [lk lv m|nk h s m lkey rkey]; cbn [f_get]; auto with fs.
Qed.

Lemma FS_has st fuel : forall n key, FS (fun fa => f_has fa st fuel n key).
Proof.
  induction fuel as [|f IH]; intros n key; destruct n as [lk lv m|nk h s m lkey rkey]; cbn [f_has]; auto with fs.
Qed.

Lemma FS_get_by_index st fuel : forall n i, FS (fun fa => f_get_by_index fa st fuel n i).
Proof.
  induction fuel as [|f IH]; intros n i; destruct n as [lk lv m|nk h s m lkey rkey]; cbn [f_get_by_index]; auto with fs.
Qed.

Lemma FS_path_to_leaf st fuel : forall n key, FS (fun fa => f_path_to_leaf fa st fuel n key).
Proof.
  induction fuel as [|f IH]; intros n key; destruct n as [lk lv m|nk h s m lkey rkey]; cbn [f_path_to_leaf]; auto with fs.
Qed.

Lemma FS_step st tv : FS (fun fa => f_step fa st tv).
Proof.
  unfold f_step. destruct (ft_stack tv) as [|[[lk lv m|nk h s m lkey rkey] d] rest]; cbv zeta;
    auto 7 with fs.
Qed.

Lemma FS_next st fuel : forall tv, FS (fun fa => f_next fa st fuel tv).
Proof.
  induction fuel as [|f IH]; intros tv; cbn [f_next]; [auto with fs|].
  apply FS_bind; [apply FS_step|]. intros [|n tv'|tv']; auto with fs.
Qed.

(** ** Iterator.Next keeps the error in the iterator; the loop's final Error() check returns it *)
Definition ti_dead (it : titer) : option titer :=
  Some (TIter (ti_key it) (ti_value it) false true None).

Lemma FSW_ti_next st fuel n : forall it,
  FSW (ends (ti_dead it)) (fun fa => ti_next fa st n fuel it).
Proof.
  induction n as [|n IH]; intros it; cbn [ti_next]; [apply FSW_const|].
  destruct (ti_t it) as [tv|]; [|apply FSW_const].
  apply (FSW_seq (ends Err)); [apply FS_FSW, FS_next| |].
  - intros [[[x|] tv']| |]; try apply FSW_const.
    destruct x as [k v m|k h s m lk rk]; [apply FSW_const|].
    apply (IH (TIter (ti_key it) (ti_value it) (ti_valid it) (ti_err it) (Some tv'))).
  - intros r r0 c c0 ->. eexists. split; reflexivity.
Qed.

Lemma ti_loop_dead fa st m n fuel k v c :
  ti_loop fa st m n fuel (TIter k v false true None) c = (Err, c).
Proof. destruct m; reflexivity. Qed.

Lemma FS_ti_loop st n fuel m : forall it, FS (fun fa => ti_loop fa st m n fuel it).
Proof.
  induction m as [|m IH]; intros it; cbn [ti_loop].
  - destruct (ti_valid it); [|destruct (ti_err it)]; apply FS_const.
  - destruct (ti_valid it); [|destruct (ti_err it); apply FS_const].
    apply FS_FSW. apply (FSW_seq (ends (ti_dead it))); [apply FSW_ti_next| |].
    + intros [it'|]; apply FS_FSW; auto with fs.
    + intros o o0 c c0 ->. exists Err. unfold ti_dead, bind. rewrite ti_loop_dead. split; reflexivity.
Qed.

Lemma FS_iterate st root start stop asc : FS (fun fa => f_iterate fa st root start stop asc).
Proof.
  unfold f_iterate. cbv zeta. unfold ti_new.
  apply FS_FSW. eapply FSW_seq; [apply FSW_ti_next| |].
  - intros [it'|]; apply FS_FSW; [apply FS_ti_loop|apply FS_const].
  - intros o o0 c c0 ->. exists Err. unfold ti_dead. cbn [ti_key ti_value]. rewrite ti_loop_dead.
    split; reflexivity.
Qed.

Definition prefix {A} (a b : list A) : Prop := exists r, b = a ++ r.
Lemma prefix_nil {A} (b : list A) : prefix [] b.
Proof. exists b. reflexivity. Qed.
Lemma prefix_cons {A} (x : A) a b : prefix a b -> prefix (x :: a) (x :: b).
Proof. intros [r ->]. exists r. reflexivity. Qed.
Lemma prefix_refl {A} (a : list A) : prefix a a.
Proof. exists []. symmetry. apply app_nil_r. Qed.

Definition cut_short (x y : list snode * result unit) : Prop :=
  snd x = Err /\ prefix (fst x) (fst y).

Lemma trav_loop_fsw st fuel n : forall tv, FSW cut_short (fun fa => f_trav_loop fa st n fuel tv).
Proof.
  induction n as [|n IH]; intros tv; cbn [f_trav_loop]; [apply FSW_const|].
  apply (FSW_ext _ (fun fa => seqc (f_next fa st fuel tv) (fun r =>
           match r with
           | Ok (Some x, tv') =>
               seqc (f_trav_loop fa st n fuel tv') (fun y c => (x :: fst y, snd y, c))
           | Ok (None, _) => fun c => ([], Ok tt, c)
           | Err => fun c => ([], Err, c)
           | Fuel => fun c => ([], Fuel, c)
           end))).
  { intros fa c. unfold seqc. destruct (f_next fa st fuel tv c) as [[[[x|] tv']| |] c']; try reflexivity.
    destruct (f_trav_loop fa st n fuel tv' c') as [[l r] c'']. reflexivity. }
  apply (FSW_seq (ends Err)); [apply FS_FSW, FS_next| |].
  - intros [[[x|] tv']| |]; try apply FSW_const.
    apply (FSW_map cut_short); [|apply IH]. intros a b [E P]. split; [exact E|apply prefix_cons, P].
  - intros r r0 c c0 ->. exists ([], Err). split; [reflexivity|]. split; [reflexivity|apply prefix_nil].
Qed.

Lemma FS_export st root : FS (fun fa => f_export fa st root).
Proof.
  apply FS_FSW. unfold f_export. set (n := trav_fuel root). set (tv := ft_new _ _ _ _ _ _).
  apply (FSW_ext _ (fun fa => seqc (f_trav_loop fa st n n tv) (fun y c =>
           (match snd y with Ok _ => Ok (map enode_of (fst y)) | Err => Err | Fuel => Fuel end, c)))).
  { intros fa c. unfold seqc. destruct (f_trav_loop fa st n n tv c) as [[l []] c']; reflexivity. }
  apply (FSW_map cut_short); [|apply trav_loop_fsw].
  intros a b [E _]. unfold ends. rewrite E. reflexivity.
Qed.

Lemma sleaves_app a b : sleaves (a ++ b) = sleaves a ++ sleaves b.
Proof. unfold sleaves. rewrite filter_app, map_app. reflexivity. Qed.

Lemma export_partial_prefix st root i c :
  prefix (f_export_partial (Some i) st root c) (f_export_partial None st root c).
Proof.
  unfold f_export_partial.
  destruct (FSW_cases _ _ (trav_loop_fsw st (trav_fuel root) (trav_fuel root)
              (ft_new root None None true false true)) i c) as [[([l r] & -> & _ & [rest E]) _]|[-> _]].
  - destruct (f_trav_loop None _ _ _ _ c) as [[l0 r0] c0]. cbn [fst] in E. subst l0.
    exists (map enode_of rest). apply map_app.
  - apply prefix_refl.
Qed.

Definition ok_prefix {A} (y y0 : result (list A)) : Prop :=
  forall l0, y0 = Ok l0 -> exists l, y = Ok l /\ prefix l l0.

Lemma iterate_range_fsw st root start stop asc incl :
  FSW ok_prefix (fun fa => f_iterate_range fa st root start stop asc incl).
Proof.
  unfold f_iterate_range. set (n := trav_fuel root). set (tv := ft_new _ _ _ _ _ _).
  apply (FSW_ext _ (fun fa => seqc (f_trav_loop fa st n n tv) (fun y c =>
           (match snd y with Fuel => Fuel | _ => Ok (sleaves (fst y)) end, c)))).
  { intros fa c. unfold seqc. destruct (f_trav_loop fa st n n tv c) as [[l []] c']; reflexivity. }
  apply (FSW_map cut_short); [|apply trav_loop_fsw].
  intros [l r] [l0 r0] [E [rest P]] l1 E1. cbn [fst snd] in *. subst r l0.
  exists (sleaves l). split; [reflexivity|]. exists (sleaves rest).
  destruct r0; inversion E1; apply sleaves_app.
Qed.

(** The store holds every proper descendant of [t] under its node key ([t] itself is in
    hand, as ImmutableTree.root is). *)
Fixpoint repr (st : store) (t : node) : Prop :=
  match t with
  | Leaf _ _ _ => True
  | Inner _ _ _ _ l r =>
      slookup (nk_of l) st = Some (snode_of l) /\ slookup (nk_of r) st = Some (snode_of r) /\
      repr st l /\ repr st r
  end.

Definition nk_unique (t : node) : Prop := NoDup (map fst (to_store t)).

Lemma nk_eqb_eq a b : nk_eqb a b = true <-> a = b.
Proof.
  destruct a as [a1 a2], b as [b1 b2]. unfold nk_eqb. cbn [fst snd].
  rewrite andb_true_iff, !Z.eqb_eq. split; [intros [-> ->]; reflexivity|intros E; inversion E; auto].
Qed.

Lemma slookup_In st k n : NoDup (map fst st) -> In (k, n) st -> slookup k st = Some n.
Proof.
  induction st as [|[k' n'] st IH]; intros ND HI; [contradiction|].
  cbn [map fst] in ND. inversion ND as [|? ? NI ND']; subst.
  cbn [slookup]. destruct (nk_eqb k k') eqn:E.
  - apply nk_eqb_eq in E. subst k'. destruct HI as [HI|HI]; [inversion HI; reflexivity|].
    exfalso. apply NI. apply (in_map fst) in HI. exact HI.
  - destruct HI as [HI|HI]; [inversion HI; subst|auto].
    assert (nk_eqb k k = true) by (apply nk_eqb_eq; reflexivity). congruence.
Qed.

Lemma to_store_head t : In (nk_of t, snode_of t) (to_store t).
Proof. destruct t; left; reflexivity. Qed.

Lemma repr_incl t : forall st, incl (to_store t) st -> NoDup (map fst st) -> repr st t.
Proof.
  induction t as [k v m|k h s m l IHl r IHr]; intros st I ND; cbn [repr]; [exact Logic.I|].
  cbn [to_store] in I. apply incl_cons_inv in I. destruct I as [_ I].
  apply incl_app_inv in I. destruct I as [Il Ir].
  repeat split; auto; apply slookup_In; auto; [apply Il|apply Ir]; apply to_store_head.
Qed.

Theorem to_store_repr t : nk_unique t -> repr (to_store t) t.
Proof. intros ND. apply repr_incl; [apply incl_refl|exact ND]. Qed.

Lemma ssize_of t : ssize (snode_of t) = size t.
Proof. destruct t; reflexivity. Qed.
Lemma sheight_of t : sheight (snode_of t) = height t.
Proof. destruct t; reflexivity. Qed.
Lemma skey_of t : skey (snode_of t) = Tree.nkey t.
Proof. destruct t; reflexivity. Qed.
Lemma smeta_of t : smeta (snode_of t) = nmeta t.
Proof. destruct t; reflexivity. Qed.

Lemma desc_fuel_ok t : (Z.to_nat (height t) <= desc_fuel (snode_of t))%nat.
Proof. unfold desc_fuel. rewrite sheight_of. lia. Qed.

(** the pure path of Node.pathToLeaf on an M1 tree whose nodes are all persisted *)
Fixpoint path_pure (t : node) (key : bytes) : list fpin * (bytes * bytes * meta) * bool :=
  match t with
  | Leaf lk lv m => ([], (lk, lv, m), beq lk key)
  | Inner nk h s m l r =>
      if blt key nk then
        let res := path_pure l key in
        (FPin h s (ver m) [] (hs (nmeta r)) :: fst (fst res), snd (fst res), snd res)
      else
        let res := path_pure r key in
        (FPin h s (ver m) (hs (nmeta l)) [] :: fst (fst res), snd (fst res), snd res)
  end.

Section Sim.
  Variable st : store.
  Definition okn (n : node) : Prop := wf n /\ repr st n.

  (** what a descent or a traversal step needs at an inner node: both children are lower and
      are fetched, fault-free, by one call each *)
  Lemma okn_children k h s m l r : okn (Inner k h s m l r) ->
    okn l /\ okn r /\ 0 <= height l < h /\ 0 <= height r < h /\
    (forall c, fetch None st (nk_of l) c = (Ok (snode_of l), S c)) /\
    (forall c, fetch None st (nk_of r) c = (Ok (snode_of r), S c)).
  Proof.
    intros [W R]. cbn [wf] in W. destruct W as (Wl & Wr & _ & _ & _ & Hh & _).
    cbn [repr] in R. destruct R as (Ll & Lr & Rl & Rr).
    pose proof (height_nonneg _ Wl). pose proof (height_nonneg _ Wr).
    unfold fetch. rewrite Ll, Lr. repeat split; auto; lia.
  Qed.

  Lemma okn_inner_height k h s m l r : okn (Inner k h s m l r) -> (h =? 0) = false.
  Proof. intros On. apply okn_children in On. apply Z.eqb_neq. lia. Qed.

  Lemma f_get_ok t : forall fuel key c,
    okn t -> (Z.to_nat (height t) <= fuel)%nat ->
    exists c', f_get None st fuel (snode_of t) key c = (Ok (get t key), c') /\
               Z.of_nat c' <= Z.of_nat c + height t.
  Proof.
    induction t as [lk lv m|nk h s m l IHl r IHr]; intros fuel key c On F.
    - exists c. split; [destruct fuel; reflexivity|cbn; lia].
    - destruct (okn_children _ _ _ _ _ _ On) as (Ol & Or & Hl & Hr & Fl & Fr).
      cbn [height] in *. destruct fuel as [|f]; [lia|].
      cbn [snode_of f_get get]. unfold bind. destruct (blt key nk).
      + rewrite Fl. destruct (IHl f key (S c) Ol) as (c' & E & D); [lia|].
        exists c'. rewrite E. split; [reflexivity|lia].
      + rewrite Fr. destruct (IHr f key (S c) Or) as (c' & E & D); [lia|].
        exists c'. rewrite E. unfold ret. rewrite ssize_of. destruct (get r key) as [i v].
        split; [reflexivity|lia].
  Qed.

  Lemma f_has_ok t : forall fuel key c,
    okn t -> (Z.to_nat (height t) <= fuel)%nat ->
    exists c', f_has None st fuel (snode_of t) key c = (Ok (has t key), c') /\
               Z.of_nat c' <= Z.of_nat c + height t.
  Proof.
    induction t as [lk lv m|nk h s m l IHl r IHr]; intros fuel key c On F.
    - exists c. split; [|cbn; lia].
      destruct fuel; cbn [snode_of f_has has skey Tree.nkey]; destruct (beq lk key); reflexivity.
    - destruct (okn_children _ _ _ _ _ _ On) as (Ol & Or & Hl & Hr & Fl & Fr).
      cbn [height] in *. destruct fuel as [|f]; [lia|].
      cbn [snode_of f_has has skey Tree.nkey]. destruct (beq nk key).
      { exists c. split; [reflexivity|lia]. }
      unfold bind. destruct (blt key nk).
      + rewrite Fl. destruct (IHl f key (S c) Ol) as (c' & E & D); [lia|].
        exists c'. rewrite E. split; [reflexivity|lia].
      + rewrite Fr. destruct (IHr f key (S c) Or) as (c' & E & D); [lia|].
        exists c'. rewrite E. split; [reflexivity|lia].
  Qed.

  Lemma f_get_by_index_ok t : forall fuel i c,
    okn t -> (Z.to_nat (height t) <= fuel)%nat ->
    exists c', f_get_by_index None st fuel (snode_of t) i c = (Ok (get_by_index t i), c') /\
               Z.of_nat c' <= Z.of_nat c + 2 * height t.
  Proof.
    induction t as [lk lv m|nk h s m l IHl r IHr]; intros fuel i c On F.
    - exists c. split; [destruct fuel; reflexivity|cbn; lia].
    - destruct (okn_children _ _ _ _ _ _ On) as (Ol & Or & Hl & Hr & Fl & Fr).
      cbn [height] in *. destruct fuel as [|f]; [lia|].
      cbn [snode_of f_get_by_index get_by_index].
      unfold bind. rewrite Fl, ssize_of. destruct (i <? size l).
      + destruct (IHl f i (S c) Ol) as (c' & E & D); [lia|].
        exists c'. rewrite E. split; [reflexivity|lia].
      + rewrite Fr. destruct (IHr f (i - size l) (S (S c)) Or) as (c' & E & D); [lia|].
        exists c'. rewrite E. split; [reflexivity|lia].
  Qed.

  Lemma f_path_to_leaf_ok t : forall fuel key c,
    okn t -> (Z.to_nat (height t) <= fuel)%nat ->
    exists c', f_path_to_leaf None st fuel (snode_of t) key c = (Ok (path_pure t key), c') /\
               Z.of_nat c' <= Z.of_nat c + 2 * height t.
  Proof.
    induction t as [lk lv m|nk h s m l IHl r IHr]; intros fuel key c On F.
    - exists c. split; [destruct fuel; reflexivity|cbn; lia].
    - destruct (okn_children _ _ _ _ _ _ On) as (Ol & Or & Hl & Hr & Fl & Fr).
      cbn [height] in *. destruct fuel as [|f]; [lia|].
      cbn [snode_of f_path_to_leaf path_pure]. unfold bind. destruct (blt key nk).
      + rewrite Fr, Fl. destruct (IHl f key (S (S c)) Ol) as (c' & E & D); [lia|].
        exists c'. rewrite E. unfold ret. rewrite smeta_of. split; [reflexivity|lia].
      + rewrite Fl, Fr. destruct (IHr f key (S (S c)) Or) as (c' & E & D); [lia|].
        exists c'. rewrite E. unfold ret. rewrite smeta_of. split; [reflexivity|lia].
  Qed.

  Definition stack_ok (stk : list (node * bool)) : Prop := Forall (fun e => okn (fst e)) stk.
  Definition smap (stk : list (node * bool)) : list (snode * bool) :=
    map (fun e => (snode_of (fst e), snd e)) stk.
  Definition ftv_of (tv : trav) : ftrav :=
    FTrav (tv_start tv) (tv_stop tv) (tv_asc tv) (tv_incl tv) (tv_post tv) (smap (tv_stack tv)).
  Definition sres_of (r : step_res) : fstep_res :=
    match r with
    | SEmpty => FSEmpty
    | SEmit n tv => FSEmit (snode_of n) (ftv_of tv)
    | SCont tv => FSCont (ftv_of tv)
    end.
  Definition res_ok (r : step_res) : Prop :=
    match r with
    | SEmpty => True
    | SEmit n tv => okn n /\ stack_ok (tv_stack tv)
    | SCont tv => stack_ok (tv_stack tv)
    end.

  Lemma f_step_sim tv c :
    stack_ok (tv_stack tv) ->
    exists c', f_step None st (ftv_of tv) c = (Ok (sres_of (step tv)), c') /\ res_ok (step tv).
  Proof.
    destruct tv as [start stop asc incl post stk]. cbn [tv_stack]. intros SO.
    destruct stk as [|[n d] rest].
    { exists c. split; [reflexivity|exact I]. }
    inversion SO as [|? ? On Orest]; subst. cbn [fst] in On.
    unfold f_step, step, ftv_of.
    cbn [ft_stack tv_stack tv_start tv_stop tv_asc tv_incl tv_post ft_start ft_stop ft_asc ft_incl ft_post
         smap map fst snd].
    destruct d; cbn [negb].
    2:{ exists c. split; [reflexivity|]. split; assumption. }
    destruct n as [k v m|k h s m l r].
    - exists c.
      cbn [snode_of skey sisleaf Tree.nkey negb orb]. unfold isleaf. cbn [height Z.eqb negb orb].
      unfold ret, with_stack, ft_with.
      cbn [ft_stack tv_stack tv_start tv_stop tv_asc tv_incl tv_post ft_start ft_stop ft_asc ft_incl ft_post].
      destruct (start_or_after start k && before_end stop incl k); destruct post; cbn [andb negb];
        (split; [reflexivity|]); cbn [res_ok tv_stack]; auto.
      all: unfold stack_ok; constructor; auto.
    - destruct (okn_children _ _ _ _ _ _ On) as (Ol & Or & _ & _ & Fl & Fr).
      pose proof (okn_inner_height _ _ _ _ _ _ On) as Hh.
      cbn [snode_of skey sisleaf Tree.nkey negb orb]. unfold isleaf. cbn [height]. rewrite Hh.
      cbn [negb orb andb].
      unfold with_stack, ft_with.
      cbn [ft_stack tv_stack tv_start tv_stop tv_asc tv_incl tv_post ft_start ft_stop ft_asc ft_incl ft_post].
      generalize (after_start start k) as aS. generalize (before_end stop incl k) as bE. intros bE aS.
      assert (SOl : stack_ok [(l, true)]) by (constructor; [exact Ol|constructor]).
      assert (SOr : stack_ok [(r, true)]) by (constructor; [exact Or|constructor]).
      assert (SOn : stack_ok [(Inner k h s m l r, false)]) by (constructor; [exact On|constructor]).
      destruct asc, bE, aS, post; cbn [andb negb app]; unfold bind, ret;
        rewrite ?Fr, ?Fl, ?Fr;
        eexists; (split; [reflexivity|]);
        cbn [res_ok tv_stack]; unfold stack_ok; try (split; [exact On|]);
        repeat (apply Forall_cons; [cbn [fst]; assumption|]); assumption.
  Qed.

  Definition nres_of (r : nres * trav) : result (option snode * ftrav) :=
    match r with
    | (NNode n, tv') => Ok (Some (snode_of n), ftv_of tv')
    | (NEnd, tv') => Ok (None, ftv_of tv')
    | (NFuel, _) => Fuel
    end.

  Lemma f_next_sim fuel : forall tv c,
    stack_ok (tv_stack tv) ->
    exists c', f_next None st fuel (ftv_of tv) c = (nres_of (next fuel tv), c') /\
               stack_ok (tv_stack (snd (next fuel tv))) /\
               (forall n, fst (next fuel tv) = NNode n -> okn n).
  Proof.
    induction fuel as [|f IH]; intros tv c SO; cbn [f_next next].
    - exists c. split; [reflexivity|]. split; [exact SO|]. cbn. discriminate.
    - unfold bind. destruct (f_step_sim tv c SO) as (c1 & E1 & RO). rewrite E1.
      destruct (step tv) as [|n tv'|tv']; cbn [sres_of res_ok] in *.
      + exists c1. split; [reflexivity|]. split; [exact SO|]. cbn. discriminate.
      + exists c1. split; [reflexivity|]. destruct RO as [On SO']. split; [exact SO'|].
        cbn. intros n0 E. inversion E. subst. exact On.
      + apply IH, RO.
  Qed.

  Section Params.
    Variables (start stop : option bytes) (asc incl post : bool).
    Notation mktv := (mk_tv start stop asc incl post).
    Notation outs' := (outs start stop asc incl post).
    Definition mkftv (stk : list (node * bool)) : ftrav := ftv_of (mktv stk).

    (** fault-free next(): what IterFacts.next_spec says, transported to the store *)
    Lemma f_next_ok fuel stk c :
      stack_ok stk -> (mu stk < fuel)%nat ->
      exists c',
        ((outs' stk = [] /\ f_next None st fuel (mkftv stk) c = (Ok (None, mkftv []), c')) \/
         (exists n stk', outs' stk = n :: outs' stk' /\ (mu stk' < mu stk)%nat /\ stack_ok stk' /\ okn n /\
            f_next None st fuel (mkftv stk) c = (Ok (Some (snode_of n), mkftv stk'), c'))).
    Proof.
      intros SO Hf. destruct (f_next_sim fuel (mktv stk) c SO) as (c' & E & SO' & ON).
      exists c'.
      pose proof (next_spec start stop asc incl post fuel stk Hf) as NS.
      unfold mkftv. rewrite E. clear E.
      destruct (next fuel (mktv stk)) as [[n| |] tv']; cbn [nres_of fst snd] in *.
      - right. destruct NS as (stk' & -> & EO & LT). exists n, stk'.
        split; [exact EO|]. split; [exact LT|]. split; [exact SO'|]. split; [apply ON; reflexivity|reflexivity].
      - left. destruct NS as [EO ->]. split; [exact EO|reflexivity].
      - contradiction.
    Qed.

    Lemma f_trav_loop_ok fuel n : forall stk c,
      stack_ok stk -> (mu stk < fuel)%nat -> (mu stk < n)%nat ->
      exists c',
        f_trav_loop None st n fuel (mkftv stk) c = (map snode_of (outs' stk), Ok tt, c') /\
        Forall okn (outs' stk).
    Proof.
      induction n as [|n IH]; intros stk c SO Hf Hn; [lia|].
      cbn [f_trav_loop]. destruct (f_next_ok fuel stk c SO Hf) as (c1 & [[EO E]|(x & stk' & EO & LT & SO' & Ox & E)]).
      - exists c1. rewrite E, EO. split; [reflexivity|constructor].
      - rewrite E. destruct (IH stk' c1 SO') as (c2 & E2 & F2); [lia|lia|].
        exists c2. rewrite E2, EO. split; [reflexivity|constructor; auto].
    Qed.

    Lemma okn_isleaf n : okn n -> sisleaf (snode_of n) = isleaf n /\ skv (snode_of n) = nodes_kv n.
    Proof.
      destruct n as [k v m|k h s m l r]; intros On; [split; reflexivity|].
      pose proof (okn_inner_height _ _ _ _ _ _ On) as Hh.
      unfold isleaf. cbn [height snode_of sisleaf]. rewrite Hh. split; reflexivity.
    Qed.

    Lemma sleaves_of l : Forall okn l -> sleaves (map snode_of l) = leaves_of l.
    Proof.
      unfold sleaves, leaves_of. induction l as [|x l IH]; intros F; [reflexivity|].
      inversion F as [|? ? Ox Fl]; subst. destruct (okn_isleaf x Ox) as [E1 E2].
      cbn [map filter]. rewrite E1. destruct (isleaf x); cbn [map]; rewrite IH by exact Fl; congruence.
    Qed.

    Lemma ti_loop_invalid fa m n fuel k v c :
      ti_loop fa st m n fuel (TIter k v false false None) c = (Ok [], c).
    Proof. destruct m; reflexivity. Qed.

    Lemma ti_next_ok fuel n : forall stk key val valid err c,
      stack_ok stk -> (mu stk < fuel)%nat -> (mu stk < n)%nat ->
      exists c' it',
        ti_next None st n fuel (TIter key val valid err (Some (mkftv stk))) c = (Some it', c') /\
        ((leaves_of (outs' stk) = [] /\ it' = TIter key val false err None) \/
         (exists lk lv stk', leaves_of (outs' stk) = (lk, lv) :: leaves_of (outs' stk') /\
            (mu stk' < mu stk)%nat /\ stack_ok stk' /\
            it' = TIter (Some lk) (Some lv) valid err (Some (mkftv stk')))).
    Proof.
      induction n as [|n IH]; intros stk key val valid err c SO Hf Hn; [lia|].
      cbn [ti_next ti_t ti_key ti_value ti_valid ti_err]. unfold seqc.
      destruct (f_next_ok fuel stk c SO Hf) as (c1 & [[EO E]|(x & stk' & EO & LT & SO' & Ox & E)]); rewrite E.
      - exists c1. eexists. split; [reflexivity|]. left. rewrite EO. split; reflexivity.
      - destruct x as [k v m|k h s m l r]; cbn [snode_of].
        + exists c1. eexists. split; [reflexivity|]. right.
          exists k, v, stk'. rewrite EO. repeat split; auto.
        + pose proof (okn_inner_height _ _ _ _ _ _ Ox) as Hh.
          destruct (IH stk' key val valid err c1 SO') as (c2 & it' & E2 & Cases); [lia|lia|].
          exists c2, it'. split; [exact E2|].
          assert (EL : leaves_of (outs' stk) = leaves_of (outs' stk')).
          { rewrite EO. unfold leaves_of. cbn [filter]. unfold isleaf at 1. cbn [height]. rewrite Hh. reflexivity. }
          rewrite EL. destruct Cases as [C1|(lk & lv & stk'' & A & B & C & D)]; [left; exact C1|].
          right. exists lk, lv, stk''. repeat split; auto. lia.
    Qed.

    Lemma ti_loop_ok fuel n m : forall stk lk lv c,
      stack_ok stk -> (mu stk < fuel)%nat -> (mu stk < n)%nat -> (mu stk < m)%nat ->
      exists c',
        ti_loop None st m n fuel (TIter (Some lk) (Some lv) true false (Some (mkftv stk))) c
        = (Ok ((lk, lv) :: leaves_of (outs' stk)), c').
    Proof.
      induction m as [|m IH]; intros stk lk lv c SO Hf Hn Hm; [lia|].
      cbn [ti_loop ti_valid ti_key ti_value ob]. unfold seqc.
      destruct (ti_next_ok fuel n stk (Some lk) (Some lv) true false c SO Hf Hn)
        as (c1 & it' & E1 & [[EL ->]|(k2 & v2 & stk' & EL & LT & SO' & ->)]); rewrite E1.
      - exists c1. unfold bind. rewrite ti_loop_invalid. rewrite EL. reflexivity.
      - destruct (IH stk' k2 v2 c1 SO') as (c2 & E2); [lia|lia|lia|].
        exists c2. unfold bind. rewrite E2. rewrite EL. reflexivity.
    Qed.
  End Params.

  Lemma nodes_size t : wf t -> Z.of_nat (nodes t) = 2 * size t - 1.
  Proof.
    induction t as [k v m|k h s m l IHl r IHr]; intros W; [reflexivity|].
    cbn [wf] in W. destruct W as (Wl & Wr & _ & _ & _ & _ & Hs).
    cbn [nodes size]. rewrite Nat2Z.inj_succ, Nat2Z.inj_add, IHl, IHr by assumption. lia.
  Qed.

  Lemma mu_root_fuel t : wf t -> (mu [(t, true)] < trav_fuel (snode_of t))%nat.
  Proof.
    intros W. unfold trav_fuel. rewrite ssize_of. pose proof (nodes_size t W). pose proof (size_pos t W).
    unfold mu, mu_e. cbn [map list_sum fold_right snd fst]. lia.
  Qed.

  Lemma ft_new_mk t start stop asc incl post :
    ft_new (snode_of t) start stop asc incl post = mkftv start stop asc incl post [(t, true)].
  Proof. reflexivity. Qed.

  Lemma outs_root start stop asc incl post t :
    outs start stop asc incl post [(t, true)] = walk start stop asc incl post t.
  Proof. cbn [outs flat_map out snd fst]. apply app_nil_r. Qed.

  Lemma stack_ok_root t : wf t -> repr st t -> stack_ok [(t, true)].
  Proof. intros W R. constructor; [split; assumption|constructor]. Qed.

  Theorem f_iterate_ok t start stop asc c :
    wf t -> repr st t ->
    exists c',
      f_iterate None st (snode_of t) start stop asc c = (Ok (range_spec (elems t) start stop false asc), c').
  Proof.
    intros W R. pose proof (mu_root_fuel t W) as MF. pose proof (stack_ok_root t W R) as SO.
    unfold f_iterate. cbv zeta. unfold ti_new, seqc. rewrite ft_new_mk.
    set (fuel := trav_fuel (snode_of t)) in *.
    destruct (ti_next_ok start stop asc false false fuel fuel [(t, true)] None None true false c SO MF MF)
      as (c1 & it' & E1 & [[EL ->]|(k2 & v2 & stk' & EL & LT & SO' & ->)]); rewrite E1.
    - exists c1. rewrite ti_loop_invalid. rewrite outs_root, walk_leaves in EL by exact W. rewrite EL.
      reflexivity.
    - destruct (ti_loop_ok start stop asc false false fuel fuel fuel stk' k2 v2 c1 SO') as (c2 & E2); [lia|lia|lia|].
      exists c2. rewrite E2. rewrite outs_root, walk_leaves in EL by exact W. rewrite EL.
      reflexivity.
  Qed.

  Theorem f_iterate_range_ok t start stop asc incl c :
    wf t -> repr st t ->
    exists c',
      f_iterate_range None st (snode_of t) start stop asc incl c
      = (Ok (range_spec (elems t) start stop incl asc), c').
  Proof.
    intros W R. pose proof (mu_root_fuel t W) as MF. pose proof (stack_ok_root t W R) as SO.
    unfold f_iterate_range. rewrite ft_new_mk.
    destruct (f_trav_loop_ok start stop asc incl false _ _ [(t, true)] c SO MF MF) as (c1 & E1 & F1).
    rewrite E1. exists c1. rewrite sleaves_of by exact F1.
    rewrite outs_root, walk_leaves by exact W. reflexivity.
  Qed.

  Lemma walk_export t : wf t ->
    map enode_of (map snode_of (walk None None true false true t)) = export_node t.
  Proof.
    induction t as [k v m|k h s m l IHl r IHr]; intros W; [reflexivity|].
    cbn [wf] in W. destruct W as (Wl & Wr & _ & _ & _ & Hh & _).
    pose proof (height_nonneg _ Wl). pose proof (height_nonneg _ Wr).
    cbn [walk Tree.nkey export_node]. destruct (Z.eqb_spec h 0) as [->|_]; [lia|].
    cbn [after_start before_end]. rewrite !map_app, IHl, IHr by assumption.
    rewrite <- app_assoc. reflexivity.
  Qed.

  Theorem f_export_ok t c :
    wf t -> repr st t ->
    exists c', f_export None st (snode_of t) c = (Ok (export_node t), c').
  Proof.
    intros W R. pose proof (mu_root_fuel t W) as MF. pose proof (stack_ok_root t W R) as SO.
    unfold f_export. rewrite ft_new_mk.
    destruct (f_trav_loop_ok None None true false true _ _ [(t, true)] c SO MF MF) as (c1 & E1 & F1).
    rewrite E1. exists c1. rewrite outs_root, walk_export by exact W. reflexivity.
  Qed.
End Sim.

(** [m] answers [a] when the storage works, and with a fault at ANY position [i] it either
    reports the failure or never reached call [i] and behaves exactly as without fault. *)
Definition fail_stop_to {A} (m : option nat -> M A) (a : A) : Prop :=
  forall (i c : nat),
    fst (m None c) = Ok a /\
    (fst (m (Some i) c) = Err \/
     ((i < c \/ snd (m None c) <= i)%nat /\ m (Some i) c = m None c)).

Lemma fail_stop_intro {A} (m : option nat -> M A) (a : A) :
  FS m -> (forall c, exists c', m None c = (Ok a, c')) -> fail_stop_to m a.
Proof.
  intros F Hok i c. destruct (Hok c) as (c' & E). split; [rewrite E; reflexivity|].
  destruct (FS_cases m F i c) as [[E1 _]|[E1 W]].
  - left. rewrite E1. reflexivity.
  - right. split; assumption.
Qed.

Theorem reads_fail_stop st t :
  wf t -> repr st t ->
  let root := snode_of t in
  (forall key, fail_stop_to (fun fa => f_get fa st (desc_fuel root) root key) (get t key)) /\
  (forall key, fail_stop_to (fun fa => f_has fa st (desc_fuel root) root key) (has t key)) /\
  (forall idx, fail_stop_to (fun fa => f_get_by_index fa st (desc_fuel root) root idx) (get_by_index t idx)) /\
  (forall start stop asc,
     fail_stop_to (fun fa => f_iterate fa st root start stop asc)
                  (range_spec (elems t) start stop false asc)) /\
  fail_stop_to (fun fa => f_export fa st root) (export_node t) /\
  (forall key, fail_stop_to (fun fa => f_path_to_leaf fa st (desc_fuel root) root key) (path_pure t key)).
Proof.
  intros W R root. pose proof (conj W R : okn st t) as On. pose proof (desc_fuel_ok t) as DF.
  split; [|split; [|split; [|split; [|split]]]].
  - intros key. apply fail_stop_intro; [apply FS_get|]. intros c.
    destruct (f_get_ok st t _ key c On DF) as (d & E & _). eauto.
  - intros key. apply fail_stop_intro; [apply FS_has|]. intros c.
    destruct (f_has_ok st t _ key c On DF) as (d & E & _). eauto.
  - intros idx. apply fail_stop_intro; [apply FS_get_by_index|]. intros c.
    destruct (f_get_by_index_ok st t _ idx c On DF) as (d & E & _). eauto.
  - intros start stop asc. apply fail_stop_intro; [apply FS_iterate|]. intros c.
    destruct (f_iterate_ok st t start stop asc c W R) as (c' & E). eauto.
  - apply fail_stop_intro; [apply FS_export|]. intros c.
    destruct (f_export_ok st t c W R) as (c' & E). eauto.
  - intros key. apply fail_stop_intro; [apply FS_path_to_leaf|]. intros c.
    destruct (f_path_to_leaf_ok st t _ key c On DF) as (d & E & _). eauto.
Qed.

(** The fail-stop half needs nothing about the store: it holds for ANY store (corrupt,
    incomplete, ...) and any node in hand. *)
Theorem reads_fail_stop_any_store st root :
  (forall fuel key, FS (fun fa => f_get fa st fuel root key)) /\
  (forall fuel key, FS (fun fa => f_has fa st fuel root key)) /\
  (forall fuel idx, FS (fun fa => f_get_by_index fa st fuel root idx)) /\
  (forall start stop asc, FS (fun fa => f_iterate fa st root start stop asc)) /\
  FS (fun fa => f_export fa st root) /\
  (forall fuel key, FS (fun fa => f_path_to_leaf fa st fuel root key)) /\
  (forall fuel key, FS (fun fa => f_existence_proof fa st fuel root key)).
Proof.
  split; [|split; [|split; [|split; [|split; [|split]]]]]; intros;
    auto using FS_get, FS_has, FS_get_by_index, FS_iterate, FS_export, FS_path_to_leaf.
  unfold f_existence_proof. apply FS_bind; [apply FS_path_to_leaf|].
  intros [[path [[lk lv] m]] ok]. apply FS_const.
Qed.

(** ** IterateRange / IterateRangeInclusive: the documented exception *)
Theorem iterate_range_never_fails st t start stop asc incl i c :
  wf t -> repr st t ->
  exists l, fst (f_iterate_range (Some i) st (snode_of t) start stop asc incl c) = Ok l /\
            prefix l (range_spec (elems t) start stop incl asc).
Proof.
  intros W R. destruct (f_iterate_range_ok st t start stop asc incl c W R) as (c' & E).
  destruct (FSW_cases _ _ (iterate_range_fsw st (snode_of t) start stop asc incl) i c)
    as [[(y & -> & P) _]|[-> _]]; rewrite E in *.
  - apply P. reflexivity.
  - eexists. split; [reflexivity|apply prefix_refl].
Qed.

Lemma FS_batch ops : FS (fun fa => f_batch fa ops).
Proof.
  induction ops as [|o ops IH]; cbn [f_batch]; auto with fs.
Qed.

Lemma FS_commit ops s : FS (fun fa => f_commit fa ops s).
Proof.
  unfold f_commit. auto using FS_batch with fs.
Qed.

Lemma f_batch_ok ops : forall c, f_batch None ops c = (Ok tt, (c + length ops)%nat).
Proof.
  induction ops as [|o ops IH]; intros c; cbn [f_batch length].
  - unfold ret. rewrite Nat.add_0_r. reflexivity.
  - unfold bind, write_call. rewrite fails_None. rewrite IH. f_equal. lia.
Qed.

Lemma f_commit_ok ops s c :
  f_commit None ops s c = (Ok (fold_left apply_wop ops s), (c + length ops + 1)%nat).
Proof.
  unfold f_commit, bind. rewrite f_batch_ok. unfold write_call. rewrite fails_None.
  unfold ret. f_equal. lia.
Qed.

Theorem commit_not_ok ops s i c :
  (c <= i < c + length ops + 1)%nat -> f_commit (Some i) ops s c = (Err, S i).
Proof.
  intros Hi. destruct (FS_commit ops s i c) as (_ & _ & In). apply In.
  rewrite f_commit_ok. cbn [snd]. exact Hi.
Qed.

Theorem commit_ok_inv ops s i c s' c' :
  f_commit (Some i) ops s c = (Ok s', c') ->
  (i < c \/ c + length ops + 1 <= i)%nat /\ s' = fold_left apply_wop ops s /\
  c' = (c + length ops + 1)%nat.
Proof.
  intros E. destruct (FS_cases _ (FS_commit ops s) i c) as [[E1 _]|[E1 Wd]]; rewrite E1 in E.
  - discriminate.
  - rewrite f_commit_ok in *. cbn [snd] in Wd. inversion E; subst. auto.
Qed.

(** Number of storage calls of the descents, cold cache (C11: O(height) lookups). *)
Lemma cost_of {A} (m : M A) a b :
  (exists c, m 0%nat = (Ok a, c) /\ Z.of_nat c <= Z.of_nat 0 + b) ->
  Z.of_nat (snd (m 0%nat)) <= b /\ fst (m 0%nat) = Ok a.
Proof. intros (c & -> & D). split; [exact D|reflexivity]. Qed.

Theorem get_cost st t key :
  wf t -> repr st t ->
  Z.of_nat (snd (f_get_top None st (snode_of t) key)) <= height t /\
  fst (f_get_top None st (snode_of t) key) = Ok (get t key).
Proof. intros W R. apply cost_of, f_get_ok; [split; assumption|apply desc_fuel_ok]. Qed.

Theorem has_cost st t key :
  wf t -> repr st t ->
  Z.of_nat (snd (f_has_top None st (snode_of t) key)) <= height t /\
  fst (f_has_top None st (snode_of t) key) = Ok (has t key).
Proof. intros W R. apply cost_of, f_has_ok; [split; assumption|apply desc_fuel_ok]. Qed.

Theorem get_by_index_cost st t idx :
  wf t -> repr st t ->
  Z.of_nat (snd (f_get_by_index_top None st (snode_of t) idx)) <= 2 * height t /\
  fst (f_get_by_index_top None st (snode_of t) idx) = Ok (get_by_index t idx).
Proof. intros W R. apply cost_of, f_get_by_index_ok; [split; assumption|apply desc_fuel_ok]. Qed.

Lemma fib_le a b : (1 <= a <= b)%nat -> fib a <= fib b.
Proof.
  intros [H1 H2]. induction H2 as [|b H2 IH]; [lia|].
  destruct b as [|b]; [lia|]. pose proof (fib_mono b). lia.
Qed.

(** with the AVL invariant the bound is logarithmic: a lookup that made [n] storage calls
    proves that the tree has at least [fib (n + 2)] keys *)
Corollary get_cost_avl st t key :
  wf t -> avl t -> repr st t ->
  fib (snd (f_get_top None st (snode_of t) key) + 2) <= size t.
Proof.
  intros W A R. destruct (get_cost st t key W R) as [C _]. pose proof (avl_fib t W A) as F.
  pose proof (height_nonneg t W).
  eapply Z.le_trans; [|exact F]. apply fib_le. lia.
Qed.

(** ** ImmutableTree.Get through the fast index: a failing GetFastNode is masked by the
    fall-back to the tree walk; the answer is still never wrong. *)
Definition fast_consistent (fidx : fastidx) (latest version : Z) (t : node) : Prop :=
  forall k,
    match fassoc k fidx with
    | Some (u, v) => u <= version -> assoc k (elems t) = Some v
    | None => version = latest -> assoc k (elems t) = None
    end.

Theorem imm_get_fail_stop st t fidx latest version key fa c :
  wf t -> repr st t -> fast_consistent fidx latest version t ->
  let r := fst (f_imm_get fa st fidx latest version (desc_fuel (snode_of t)) (snode_of t) key c) in
  r = Err \/ r = Ok (assoc key (elems t)).
Proof.
  intros W R FC. cbv zeta. set (fuel := desc_fuel (snode_of t)).
  assert (WALK : forall c1,
    let r := fst (bind (f_get fa st fuel (snode_of t) key) (fun iv => ret (snd iv)) c1) in
    r = Err \/ r = Ok (assoc key (elems t))).
  { intros c1. cbv zeta. unfold bind.
    destruct (f_get_ok st t fuel key c1 (conj W R) (desc_fuel_ok t)) as (d & E & _).
    destruct fa as [i|];
      [destruct (FS_cases _ (FS_get st fuel (snode_of t) key) i c1) as [[-> _]|[-> _]]; [left; reflexivity|]|];
      rewrite E; right; unfold ret; cbn [fst]; rewrite (get_spec t key W); reflexivity. }
  unfold f_imm_get. cbv zeta. unfold fetch_fast.
  destruct (fails fa c); [apply WALK|].
  specialize (FC key). destruct (fassoc key fidx) as [[u v]|].
  - destruct (u <=? version) eqn:Le; [|apply WALK]. apply Z.leb_le in Le.
    right. cbn [fst]. rewrite (FC Le). reflexivity.
  - destruct (version =? latest) eqn:Eq; [|apply WALK]. apply Z.eqb_eq in Eq.
    right. cbn [fst]. rewrite (FC Eq). reflexivity.
Qed.

(** ** A concrete persisted tree: 5 keys, 9 nodes, height 3, saved at version 1 with SHA-256 *)
Definition ex_tree : node :=
  fst (stamp sha256 1 0
    (fold_left (fun t kv => fst (set t (fst kv) (snd kv)))
       [([2%N], [20%N]); ([3%N], [30%N]); ([4%N], [40%N]); ([5%N], [50%N])]
       (Leaf [1%N] [10%N] new_meta))).
Definition ex_store : store := to_store ex_tree.
Definition ex_root : snode := snode_of ex_tree.

Lemma ex_wf : wf ex_tree.
Proof. vm_compute. repeat split. Qed.
Lemma ex_avl : avl ex_tree.
Proof. vm_compute. repeat split; discriminate. Qed.
Lemma ex_repr : repr ex_store ex_tree.
Proof. vm_compute. repeat split. Qed.

(** The fail-stop property is FALSE of IterateRange: with the 5th storage call failing, the
    iteration over the whole 5-key tree reports the first two pairs as the complete answer
    (Go: [IterateRange] returns [stopped = false] and has no error result). *)
Theorem iterate_range_swallows_refuted :
  exists (st : store) (t : node) (i : nat) (l : list (bytes * bytes)),
    wf t /\ repr st t /\
    fst (f_iterate_range_top None st (snode_of t) None None true false) = Ok (elems t) /\
    fst (f_iterate_range_top (Some i) st (snode_of t) None None true false) = Ok l /\
    l = [([1%N], [10%N]); ([2%N], [20%N])] /\
    elems t = [([1%N], [10%N]); ([2%N], [20%N]); ([3%N], [30%N]); ([4%N], [40%N]); ([5%N], [50%N])].
Proof.
  exists ex_store, ex_tree, 4%nat, [([1%N], [10%N]); ([2%N], [20%N])].
  split; [exact ex_wf|]. split; [exact ex_repr|]. vm_compute. repeat split.
Qed.
