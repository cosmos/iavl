(** The backend models of KV.v (property C18): MemDB, the GoLevelDB iterator adapter, batches and
    PrefixDB behave as the sorted-map specification, iterators included. *)
From Coq Require Import Sorted.
From IAVL Require Import Bytes VMap ListFacts VMapFacts KV.
Local Open Scope N_scope.

(** * Invariants *)

Definition nonempty_keys (m : kvs) : Prop := Forall (fun e => fst e <> []) m.
Definition wf_keys (m : kvs) : Prop := Forall (fun e => well_formed (fst e)) m.

(** ascending / descending by key, as relations for [StronglySorted]; the descending sequences
    are those the reverse traversals produce *)
Definition klt (a b : bytes * bytes) : Prop := fst a <b fst b.
Definition kgt (a b : bytes * bytes) : Prop := fst b <b fst a.

Lemma sorted_klt l : sorted l -> StronglySorted klt l.
Proof. apply sorted_StronglySorted. Qed.

Lemma sorted_rev l : sorted l -> StronglySorted kgt (rev l).
Proof. intros H. apply (StronglySorted_rev klt), sorted_klt, H. Qed.

(** * Point reads see the last write *)

Lemma has_get m k : kv_has m k = match kv_get m k with Some _ => true | None => false end.
Proof. reflexivity. Qed.

Theorem last_write_wins :
  (forall m k v, kv_get (kv_set m k v) k = Some v) /\
  (forall m k v k', k' <> k -> kv_get (kv_set m k v) k' = kv_get m k') /\
  (forall m k, sorted m -> kv_get (kv_delete m k) k = None) /\
  (forall m k k', k' <> k -> kv_get (kv_delete m k) k' = kv_get m k') /\
  (forall m k v, sorted m -> sorted (kv_set m k v)) /\
  (forall m k, sorted m -> sorted (kv_delete m k)).
Proof.
  unfold kv_get, kv_set, kv_delete. repeat split; intros.
  - rewrite assoc_ins. unfold beq. rewrite bcmp_refl. reflexivity.
  - rewrite assoc_ins. rewrite (proj2 (beq_false k' k)) by assumption. reflexivity.
  - apply assoc_del_eq. assumption.
  - apply assoc_del_ne. assumption.
  - apply sorted_ins. assumption.
  - apply sorted_del. assumption.
Qed.

(** * cpIncr *)

Lemma ble_cons x a y b :
  ble (x :: a) (y :: b) = if x <? y then true else if x =? y then ble a b else false.
Proof.
  unfold ble. simpl. destruct (N.compare_spec x y); destruct (N.ltb_spec x y);
    destruct (N.eqb_spec x y); try lia; reflexivity.
Qed.

Lemma blt_cons x a y b :
  blt (x :: a) (y :: b) = if x <? y then true else if x =? y then blt a b else false.
Proof.
  unfold blt. simpl. destruct (N.compare_spec x y); destruct (N.ltb_spec x y);
    destruct (N.eqb_spec x y); try lia; reflexivity.
Qed.

Lemma ble_nil k : ble [] k = true.
Proof. destruct k; reflexivity. Qed.
Lemma blt_nil_r k : blt k [] = false.
Proof. destruct k; reflexivity. Qed.
Lemma ble_cons_nil x a : ble (x :: a) [] = false.
Proof. reflexivity. Qed.

Lemma bcmp_app_prefix p a b : bcmp (p ++ a) (p ++ b) = bcmp a b.
Proof. induction p as [|x p IH]; simpl; [reflexivity|]. rewrite N.compare_refl. exact IH. Qed.

Lemma prefix_ble p k : is_prefix p k = true -> ble p k = true.
Proof.
  revert k. induction p as [|x p IH]; intros [|y k]; simpl; intros H; try reflexivity; try discriminate.
  apply andb_true_iff in H. destruct H as [H1 H2]. apply N.eqb_eq in H1. subst y.
  rewrite ble_cons, N.ltb_irrefl, N.eqb_refl. auto.
Qed.

Lemma is_prefix_app p k : is_prefix p (p ++ k) = true.
Proof. induction p as [|x p IH]; simpl; [reflexivity|]. rewrite N.eqb_refl. exact IH. Qed.

Lemma is_prefix_refl p : is_prefix p p = true.
Proof. rewrite <- (app_nil_r p) at 2. apply is_prefix_app. Qed.

Lemma is_prefix_split p k : is_prefix p k = true -> k = p ++ strip p k.
Proof.
  unfold strip. revert k. induction p as [|x p IH]; intros [|y k]; simpl; intros H;
    try reflexivity; try discriminate.
  apply andb_true_iff in H. destruct H as [H1 H2]. apply N.eqb_eq in H1. subst y.
  f_equal. auto.
Qed.

Lemma strip_app p k : strip p (p ++ k) = k.
Proof. unfold strip. induction p as [|x p IH]; simpl; auto. Qed.

Ltac ncases :=
  repeat match goal with
  | H : context [N.ltb _ _] |- _ => revert H
  | H : context [N.eqb _ _] |- _ => revert H
  end;
  repeat match goal with
  | |- context [N.ltb ?a ?b] => destruct (N.ltb_spec a b)
  | |- context [N.eqb ?a ?b] => destruct (N.eqb_spec a b)
  end;
  intros; try lia; try discriminate.

Lemma between_prefix p k e :
  ble p k = true -> blt k (p ++ e) = true -> is_prefix p k = true.
Proof.
  revert k. induction p as [|x p IH]; intros [|y k]; simpl; intros H1 H2; try reflexivity.
  - discriminate.
  - rewrite ble_cons in H1. rewrite blt_cons in H2. ncases. subst. simpl. eauto.
Qed.

(** big-endian increment of the prefix stripped of its trailing 0xFF bytes, head recursive: the
    functional reading of [cpIncr] *)
Fixpoint incr_tight (p : bytes) : option bytes :=
  match p with
  | [] => None
  | x :: r =>
      match incr_tight r with
      | Some r' => Some (x :: r')
      | None => if x <? 255 then Some [x + 1] else None
      end
  end.

Lemma incr_le_snoc l x :
  incr_le (l ++ [x]) =
  match incr_le l with
  | Some l' => Some (l' ++ [x])
  | None => if x <? 255 then Some [x + 1] else None
  end.
Proof.
  induction l as [|y l IH]; simpl.
  - destruct (x <? 255); reflexivity.
  - destruct (y <? 255); [reflexivity|]. exact IH.
Qed.

Lemma cpIncr_tight p : cpIncr p = incr_tight p.
Proof.
  unfold cpIncr. induction p as [|x p IH]; simpl; [reflexivity|].
  rewrite incr_le_snoc. destruct (incr_le (rev p)) as [l'|]; simpl in *.
  - rewrite <- IH. rewrite rev_app_distr. reflexivity.
  - rewrite <- IH. destruct (x <? 255); reflexivity.
Qed.

Definition all_ff (p : bytes) : Prop := Forall (fun x => 255 <= x) p.

Lemma incr_tight_none p : incr_tight p = None -> all_ff p.
Proof.
  induction p as [|x p IH]; simpl; intros H; [constructor|].
  destruct (incr_tight p); [discriminate|]. ncases. constructor; [assumption|]. apply IH. reflexivity.
Qed.

Lemma ff_prefix p k : all_ff p -> well_formed k -> ble p k = true -> is_prefix p k = true.
Proof.
  intros Hp. revert k. induction Hp as [|x p Hx Hp IH]; intros [|y k] Hk H; simpl;
    try reflexivity; try discriminate.
  inversion Hk as [|? ? Hy Hk']; subst. rewrite ble_cons in H. ncases. simpl. auto.
Qed.

Lemma incr_tight_sound p q k : incr_tight p = Some q -> is_prefix p k = true -> blt k q = true.
Proof.
  revert q k. induction p as [|x p IH]; intros q [|y k]; simpl; intros Hq H; try discriminate.
  apply andb_true_iff in H. destruct H as [H1 H2]. apply N.eqb_eq in H1. subst y.
  destruct (incr_tight p) as [r'|].
  - inversion Hq; subst. rewrite blt_cons, N.ltb_irrefl, N.eqb_refl. eauto.
  - destruct (x <? 255) eqn:Ex; [|discriminate]. inversion Hq; subst. rewrite blt_cons.
    clear Ex. ncases.
Qed.

Lemma incr_tight_exact p q k :
  incr_tight p = Some q -> well_formed k ->
  ble p k = true -> blt k q = true -> is_prefix p k = true.
Proof.
  revert q k. induction p as [|x p IH]; intros q [|y k]; simpl; intros Hq Hk H1 H2; try discriminate.
  inversion Hk as [|? ? Hy Hk']; subst. rewrite ble_cons in H1.
  destruct (incr_tight p) as [r'|] eqn:Er.
  - inversion Hq; subst. rewrite blt_cons in H2. ncases. subst. simpl. eauto.
  - destruct (x <? 255) eqn:Ex; [|discriminate]. inversion Hq; subst.
    rewrite blt_cons, blt_nil_r in H2. clear Ex. ncases. subst. simpl.
    apply ff_prefix; auto using incr_tight_none.
Qed.

(** [p, cpIncr p) is exactly the set of keys with prefix [p], for every non-empty
    prefix and all byte values < 256, including 0xFF runs. *)
Theorem cpIncr_spec_none p k :
  p <> [] -> cpIncr p = None -> well_formed k ->
  (ble p k = true <-> is_prefix p k = true).
Proof.
  intros _ H Hk. rewrite cpIncr_tight in H.
  split; [apply ff_prefix; auto using incr_tight_none | apply prefix_ble].
Qed.

(** the range always covers the whole prefix (any byte values) *)
Theorem cpIncr_spec_sound p q k :
  cpIncr p = Some q -> is_prefix p k = true -> ble p k = true /\ blt k q = true.
Proof.
  intros H Hp. split; [apply prefix_ble; exact Hp|].
  rewrite cpIncr_tight in H. eapply incr_tight_sound; eauto.
Qed.

Theorem cpIncr_spec p q k :
  cpIncr p = Some q -> well_formed k ->
  ((ble p k = true /\ blt k q = true) <-> is_prefix p k = true).
Proof.
  intros H Hk. split; [|apply cpIncr_spec_sound; exact H].
  intros [H1 H2]. rewrite cpIncr_tight in H. eapply incr_tight_exact; eauto.
Qed.

Theorem cpIncr_none_iff p : cpIncr p = None <-> all_ff p.
Proof.
  rewrite cpIncr_tight. split; [apply incr_tight_none|].
  intros H. induction H as [|x p Hx Hp IH]; simpl; [reflexivity|]. rewrite IH.
  destruct (N.ltb_spec x 255); [lia|reflexivity].
Qed.

(** * Cutting a sequence at a test *)

Fixpoint tw {A} (f : A -> bool) (l : list A) : list A :=
  match l with [] => [] | x :: r => if f x then x :: tw f r else [] end.
Fixpoint dw {A} (f : A -> bool) (l : list A) : list A :=
  match l with [] => [] | x :: r => if f x then dw f r else l end.

Lemma tw_dw {A} (f : A -> bool) l : tw f l ++ dw f l = l.
Proof. induction l as [|x l IH]; simpl; [reflexivity|]. destruct (f x); simpl; [rewrite IH|]; reflexivity. Qed.

Lemma tw_length {A} (f : A -> bool) l : (length (tw f l) <= length l)%nat.
Proof. induction l as [|x l IH]; simpl; [lia|]. destruct (f x); simpl; lia. Qed.
Lemma dw_length {A} (f : A -> bool) l : (length (dw f l) <= length l)%nat.
Proof. induction l as [|x l IH]; simpl; [lia|]. destruct (f x); simpl; lia. Qed.

Lemma dw_head {A} (f : A -> bool) l x r : dw f l = x :: r -> f x = false.
Proof.
  induction l as [|y l IH]; simpl; [discriminate|]. destruct (f y) eqn:E; [exact IH|].
  intros H. inversion H; subst. exact E.
Qed.

Lemma tw_Forall {A} (f : A -> bool) l : Forall (fun x => f x = true) l -> tw f l = l.
Proof. intros H. induction H as [|x l Hx Hl IH]; simpl; [reflexivity|]. rewrite Hx, IH. reflexivity. Qed.

(** On a list sorted by [R], a test that can only turn from true to false along [R] holds exactly
    on a prefix: cutting there is filtering. *)
Lemma tw_filter {A} (R : A -> A -> Prop) (f : A -> bool) l :
  StronglySorted R l -> (forall x y, In x l -> R x y -> f y = true -> f x = true) ->
  tw f l = filter f l.
Proof.
  induction 1 as [|x l S IH F]; intros M; cbn [tw filter]; [reflexivity|].
  destruct (f x) eqn:E.
  - rewrite IH; [reflexivity|]. intros a b Ia. apply M. right. exact Ia.
  - symmetry. apply filter_none. rewrite Forall_forall in F. intros y Iy.
    destruct (f y) eqn:Ey; [|reflexivity].
    rewrite (M x y (or_introl eq_refl) (F y Iy) Ey) in E. discriminate.
Qed.

Lemma dw_filter {A} (R : A -> A -> Prop) (f : A -> bool) l :
  StronglySorted R l -> (forall x y, R x y -> f y = true -> f x = true) ->
  dw f l = filter (fun x => negb (f x)) l.
Proof.
  induction 1 as [|x l S IH F]; intros M; cbn [dw filter]; [reflexivity|].
  destruct (f x) eqn:E; cbn [negb]; [apply IH, M|].
  f_equal. symmetry. apply filter_all. rewrite Forall_forall in F. intros y Iy.
  destruct (f y) eqn:Ey; [|reflexivity]. rewrite (M x y (F y Iy) Ey) in E. discriminate.
Qed.

Definition start_ok (start : option bytes) : bytes * bytes -> bool :=
  fun e => match start with Some a => ble a (fst e) | None => true end.
Definition stop_ok (stop : option bytes) : bytes * bytes -> bool :=
  fun e => match stop with Some b => blt (fst e) b | None => true end.

Lemma kv_iter_ok m start stop :
  kv_iter m start stop = filter (fun e => start_ok start e && stop_ok stop e) m.
Proof. reflexivity. Qed.

Lemma stop_ok_down stop x y : klt x y -> stop_ok stop y = true -> stop_ok stop x = true.
Proof.
  unfold klt, stop_ok. destruct stop as [b|]; [|reflexivity]. intros L H. btests.
  apply blt_true. border.
Qed.

Lemma start_ok_up start x y : klt x y -> start_ok start x = true -> start_ok start y = true.
Proof.
  unfold klt, start_ok. destruct start as [a|]; [|reflexivity]. intros L H. btests.
  apply ble_true. border.
Qed.

Lemma tw_stop_ok s stop : sorted s -> tw (stop_ok stop) s = filter (stop_ok stop) s.
Proof.
  intros H. apply (tw_filter klt); [apply sorted_klt, H|]. intros x y _. apply stop_ok_down.
Qed.

Lemma tw_start_ok d start :
  StronglySorted kgt d -> tw (start_ok start) d = filter (start_ok start) d.
Proof.
  intros H. apply (tw_filter kgt); [exact H|]. intros x y _ L. apply start_ok_up, L.
Qed.

Lemma dw_start_ok s start :
  sorted s -> dw (fun e => negb (start_ok start e)) s = filter (start_ok start) s.
Proof.
  intros H. rewrite (dw_filter klt).
  - apply filter_ext. intros x. apply negb_involutive.
  - apply sorted_klt, H.
  - intros x y L Hy. destruct (start_ok start x) eqn:E; [|reflexivity].
    rewrite (start_ok_up start x y L E) in Hy. discriminate.
Qed.

(** * MemDB iterators *)

Lemma ble_negb_blt a k : ble a k = negb (blt k a).
Proof. unfold ble, blt. rewrite (bcmp_antisym k a). destruct (bcmp k a); reflexivity. Qed.

Lemma ble_blt_and k e : ble k e && blt k e = blt k e.
Proof. unfold ble, blt. destruct (bcmp k e); reflexivity. Qed.

Lemma Forall_filter_true {A} f (l : list A) : Forall (fun x => f x = true) (filter f l).
Proof.
  induction l as [|x l IH]; simpl; [constructor|]. destruct (f x) eqn:E; [constructor|]; auto.
Qed.

Lemma visit_none seq : visit seq None None = seq.
Proof. induction seq as [|[k v] seq IH]; simpl; [reflexivity|]. rewrite IH. reflexivity. Qed.

Lemma visit_abort d start : visit d None start = tw (start_ok start) d.
Proof.
  induction d as [|[k v] d IH]; cbn [visit tw]; [reflexivity|]. rewrite IH.
  destruct start as [a|]; cbn [start_ok fst]; [|reflexivity].
  rewrite ble_negb_blt. destruct (blt k a); reflexivity.
Qed.

Lemma visit_noskip d e ab :
  Forall (fun x => fst x <> e) d -> visit d (Some e) ab = visit d None ab.
Proof.
  intros H. induction H as [|[k v] d Hx Hd IH]; simpl; [reflexivity|].
  simpl in Hx. apply beq_false in Hx. rewrite Hx, IH. reflexivity.
Qed.

(** DescendLessOrEqual(e) offers [e] first if present: [skipEqual] removes exactly it *)
Lemma visit_skip d e ab :
  StronglySorted kgt d -> Forall (fun x => fst x <=b e) d ->
  visit d (Some e) ab = visit (filter (fun x => blt (fst x) e) d) None ab.
Proof.
  induction 1 as [|[k v] d S IH F]; simpl; intros H2; [reflexivity|].
  inversion H2 as [|? ? H3 H4]; subst. simpl in H3.
  destruct (beq k e) eqn:E.
  - btests. subst k. assert (blt e e = false) as -> by (apply blt_false; border).
    f_equal. symmetry. apply filter_all. rewrite Forall_forall in F. intros x Ix.
    apply blt_true, F, Ix.
  - btests. assert (blt k e = true) as -> by (apply blt_true; border). simpl.
    rewrite IH by assumption. reflexivity.
Qed.

Theorem memdb_iter_spec l start stop :
  sorted l ->
  memdb_iter l start stop false = kv_iter l start stop /\
  memdb_iter l start stop true = kv_riter l start stop.
Proof.
  intros Hs. unfold memdb_iter, kv_riter, kv_iter, bt_ascend, bt_descend, bt_ascend_ge,
    bt_ascend_range, bt_descend_le.
  assert (forall e, Forall (fun x => fst x <=b e) (rev (filter (fun x => ble (fst x) e) l))) as Hle.
  { intros e. apply Forall_rev. eapply Forall_impl; [|apply Forall_filter_true].
    intros x Hx. simpl in Hx. apply ble_true. exact Hx. }
  destruct start as [a|], stop as [e|]; simpl; split; rewrite ?visit_none.
  - reflexivity.
  - rewrite visit_skip by (auto using sorted_rev, sorted_filter).
    rewrite visit_abort, tw_start_ok
      by (auto using StronglySorted_filter, sorted_rev, sorted_filter).
    unfold start_ok. rewrite !filter_rev, !filter_filter. f_equal. apply filter_ext. intros [k v]. simpl.
    unfold in_range. rewrite andb_assoc, ble_blt_and. apply andb_comm.
  - apply filter_ext. intros [k v]. unfold in_range. simpl. symmetry. apply andb_true_r.
  - rewrite visit_abort, tw_start_ok by (auto using sorted_rev). unfold start_ok.
    rewrite filter_rev. f_equal.
    apply filter_ext. intros [k v]. unfold in_range. simpl. symmetry. apply andb_true_r.
  - apply filter_ext. intros [k v]. unfold in_range. simpl. rewrite ble_nil. reflexivity.
  - rewrite visit_skip by (auto using sorted_rev, sorted_filter). rewrite visit_none.
    rewrite filter_rev, filter_filter. f_equal. apply filter_ext. intros [k v]. simpl.
    unfold in_range. simpl. apply ble_blt_and.
  - symmetry. apply filter_all. reflexivity.
  - f_equal. symmetry. apply filter_all. reflexivity.
Qed.

(** * GoLevelDB iterator adapter *)

Lemma ldb_loop_off fuel s start stop reverse c inv :
  l_valid c = false -> ldb_loop (S fuel) s start stop reverse c inv = Some [].
Proof.
  intros H. simpl. unfold ldb_valid. destruct inv; [reflexivity|].
  destruct c; try discriminate; reflexivity.
Qed.

(** [lat] is [LAt] (the cursor is at entry [x]) as seen in the direction of travel: [todo] lies ahead (nearest first), [done]
    behind.  The forward and the reverse loop are then the same loop, which stops at the first
    entry failing the far bound: [stop] going forward, [start] going backward. *)
Definition lat (reverse : bool) (todo : kvs) (x : bytes * bytes) (done : kvs) : lcur :=
  if reverse then LAt todo x done else LAt done x todo.
Definition far_ok (start stop : option bytes) (reverse : bool) : bytes * bytes -> bool :=
  if reverse then start_ok start else stop_ok stop.

Lemma ldb_valid_at start stop reverse todo x done :
  ldb_valid start stop reverse (lat reverse todo x done) false =
  (far_ok start stop reverse x, negb (far_ok start stop reverse x)).
Proof.
  destruct x as [k v], reverse; cbn [ldb_valid lat far_ok]; unfold start_ok, stop_ok; cbn [fst].
  - destruct start as [a|]; [|reflexivity]. rewrite ble_negb_blt. destruct (blt k a); reflexivity.
  - destruct stop as [b|]; [|reflexivity]. rewrite ble_negb_blt. destruct (blt k b); reflexivity.
Qed.

Lemma l_key_lat reverse todo x done : l_key (lat reverse todo x done) = Some x.
Proof. destruct reverse; reflexivity. Qed.

Lemma ldb_move s (reverse : bool) todo y x done :
  (if reverse then l_prev s (lat reverse (y :: todo) x done)
   else l_next s (lat reverse (y :: todo) x done)) = lat reverse todo y (x :: done).
Proof. destruct reverse; reflexivity. Qed.

Lemma ldb_move_end s (reverse : bool) x done :
  l_valid (if reverse then l_prev s (lat reverse [] x done)
           else l_next s (lat reverse [] x done)) = false.
Proof. destruct reverse; reflexivity. Qed.

Lemma ldb_loop_at s start stop reverse todo : forall done x fuel,
  (length todo + 2 <= fuel)%nat ->
  ldb_loop fuel s start stop reverse (lat reverse todo x done) false =
  Some (tw (far_ok start stop reverse) (x :: todo)).
Proof.
  induction todo as [|y todo IH]; intros done x fuel Hf;
    (destruct fuel as [|f]; [simpl in Hf; lia|]);
    cbn [ldb_loop tw]; rewrite ldb_valid_at, l_key_lat;
    (destruct (far_ok start stop reverse x); [|reflexivity]); cbn [negb].
  - destruct f as [|f]; [simpl in Hf; lia|].
    rewrite ldb_loop_off by apply ldb_move_end. reflexivity.
  - rewrite ldb_move, IH by (simpl in Hf; lia). reflexivity.
Qed.

(** [Seek k] splits the source at the first key [>= k]; [f] is any way of writing "key [< k]" *)
Lemma l_seek_from_spec (f : bytes * bytes -> bool) s k :
  (forall x, ble k (fst x) = negb (f x)) -> forall bef,
  l_seek_from bef s k =
  match dw f s with
  | [] => LEOI
  | x :: aft => LAt (rev (tw f s) ++ bef) x aft
  end.
Proof.
  intros Hf. induction s as [|x s IH]; intros bef; simpl; [reflexivity|].
  rewrite Hf. destruct (f x); simpl; [|reflexivity].
  rewrite IH. destruct (dw f s); [reflexivity|].
  rewrite <- app_assoc. reflexivity.
Qed.

Lemma ldb_new_fwd s start stop :
  exists bef, ldb_new s start stop false =
    match dw (fun e => negb (start_ok start e)) s with
    | [] => LEOI
    | x :: aft => lat false aft x bef
    end.
Proof.
  unfold ldb_new. destruct start as [a|].
  - unfold l_seek.
    rewrite (l_seek_from_spec (fun e => negb (start_ok (Some a) e)))
      by (intros x; symmetry; apply negb_involutive).
    destruct (dw _ s); [exists []|eexists]; reflexivity.
  - unfold l_first. destruct s; [exists []|eexists]; reflexivity.
Qed.

Lemma ldb_new_rev s start stop :
  match rev (tw (stop_ok stop) s) with
  | [] => ldb_new s start stop true = LSOI
  | x :: bef => exists aft, ldb_new s start stop true = lat true bef x aft
  end.
Proof.
  unfold ldb_new. destruct stop as [b|].
  - unfold l_seek.
    rewrite (l_seek_from_spec (stop_ok (Some b))) by (intros x; apply ble_negb_blt).
    pose proof (tw_dw (stop_ok (Some b)) s) as Htd.
    destruct (dw (stop_ok (Some b)) s) as [|[k v] aft] eqn:Ed.
    + simpl. rewrite app_nil_r in Htd. rewrite Htd. unfold l_last.
      destruct (rev s); [|eexists]; reflexivity.
    + apply dw_head in Ed. simpl in Ed. cbn [l_valid l_key]. rewrite ble_negb_blt, Ed.
      simpl. rewrite app_nil_r.
      destruct (rev (tw (stop_ok (Some b)) s)); [|eexists]; reflexivity.
  - rewrite tw_Forall by (apply Forall_forall; reflexivity). unfold l_last.
    destruct (rev s); [|eexists]; reflexivity.
Qed.

(** the adapter on ANY source sequence *)
Lemma ldb_run_fwd s start stop :
  ldb_run s start stop false =
  Some (tw (stop_ok stop) (dw (fun e => negb (start_ok start e)) s)).
Proof.
  unfold ldb_run. destruct (ldb_new_fwd s start stop) as [bef ->].
  pose proof (dw_length (fun e => negb (start_ok start e)) s) as Hl.
  destruct (dw _ s) as [|x aft].
  - apply ldb_loop_off. reflexivity.
  - apply (ldb_loop_at s start stop false). simpl in Hl. lia.
Qed.

Lemma ldb_run_rev s start stop :
  ldb_run s start stop true = Some (tw (start_ok start) (rev (tw (stop_ok stop) s))).
Proof.
  unfold ldb_run. pose proof (ldb_new_rev s start stop) as Hn.
  pose proof (tw_length (stop_ok stop) s) as Hl. rewrite <- rev_length in Hl.
  destruct (rev (tw (stop_ok stop) s)) as [|x bef].
  - rewrite Hn. apply ldb_loop_off. reflexivity.
  - destruct Hn as [aft ->]. apply (ldb_loop_at s start stop true). simpl in Hl. lia.
Qed.

Theorem ldb_run_spec s start stop :
  sorted s ->
  ldb_run s start stop false = Some (kv_iter s start stop) /\
  ldb_run s start stop true = Some (kv_riter s start stop).
Proof.
  intros Hs. unfold kv_riter. rewrite kv_iter_ok. split.
  - rewrite ldb_run_fwd, dw_start_ok, tw_stop_ok by auto using sorted_filter.
    f_equal. apply filter_filter.
  - rewrite ldb_run_rev, tw_stop_ok, tw_start_ok by auto using sorted_rev, sorted_filter.
    rewrite filter_rev, filter_filter. do 2 f_equal. apply filter_ext. intros x. apply andb_comm.
Qed.

Lemma kv_iter_idem l start stop : kv_iter (kv_iter l start stop) start stop = kv_iter l start stop.
Proof.
  unfold kv_iter. rewrite filter_filter. apply filter_ext. intros x. apply andb_diag.
Qed.

Theorem ldb_collect_spec l start stop :
  sorted l ->
  ldb_collect l start stop false = Some (kv_iter l start stop) /\
  ldb_collect l start stop true = Some (kv_riter l start stop).
Proof.
  intros Hs. unfold ldb_collect.
  destruct (ldb_run_spec (kv_iter l start stop) start stop) as [H1 H2].
  { apply sorted_filter. exact Hs. }
  unfold kv_riter in *. rewrite kv_iter_idem in H1, H2. auto.
Qed.

(** * Batches *)

Definition op_key (o : batch_op) : bytes := match o with BSet k _ => k | BDel k => k end.
Definition pfx_op (p : bytes) (o : batch_op) : batch_op :=
  match o with BSet k v => BSet (p ++ k) v | BDel k => BDel (p ++ k) end.

Definition bop_result (closed : bool) (o : bop) : option kverr :=
  let '(s, k, v) := o in
  if is_empty k then Some ErrKeyEmpty
  else if (s : bool) then
    match v with
    | None => Some ErrValueNil
    | Some _ => if (closed : bool) then Some ErrBatchClosed else None
    end
  else if closed then Some ErrBatchClosed else None.

Definition bop_accept (o : bop) : list batch_op :=
  let '(s, k, v) := o in
  if is_empty k then []
  else if (s : bool) then match v with None => [] | Some v' => [BSet k v'] end
  else [BDel k].

Lemma is_empty_app p k : is_empty k = false -> is_empty (p ++ k) = false.
Proof. destruct p; simpl; auto. Qed.

Lemma bop_accept_nonempty o : Forall (fun x => op_key x <> []) (bop_accept o).
Proof.
  destruct o as [[s k] v]. unfold bop_accept. destruct k as [|x k]; simpl; [constructor|].
  destruct s; [destruct v|]; repeat constructor; simpl; discriminate.
Qed.

Lemma accepted_nonempty ops : Forall (fun x => op_key x <> []) (flat_map bop_accept ops).
Proof.
  induction ops as [|o ops IH]; simpl; [constructor|]. apply Forall_app. split; [|exact IH].
  apply bop_accept_nonempty.
Qed.

Lemma b_set_closed b k v : b_closed b = true -> exists e, b_set b k v = (b, Some e).
Proof.
  intros H. unfold b_set. destruct (is_empty k); [eauto|]. destruct v; [|eauto]. rewrite H. eauto.
Qed.
Lemma b_delete_closed b k : b_closed b = true -> exists e, b_delete b k = (b, Some e).
Proof. intros H. unfold b_delete. destruct (is_empty k); [eauto|]. rewrite H. eauto. Qed.
Lemma b_write_closed b m : b_closed b = true -> b_write b m = (b, m, Some ErrBatchClosed).
Proof. intros H. unfold b_write. rewrite H. reflexivity. Qed.
Lemma b_write_open b m :
  b_closed b = false -> b_write b m = (mkBatch [] true, fold_left apply_op (b_ops b) m, None).
Proof. intros H. unfold b_write. rewrite H. reflexivity. Qed.
Lemma b_write_closes b m : b_closed (fst (fst (b_write b m))) = true.
Proof. unfold b_write. destruct (b_closed b) eqn:E; simpl; auto. Qed.
Lemma b_close_closes b : b_closed (fst (b_close b)) = true.
Proof. reflexivity. Qed.
Lemma bop_result_closed o : bop_result true o <> None.
Proof.
  destruct o as [[s k] v]. unfold bop_result. destruct (is_empty k); [discriminate|].
  destruct s; [destruct v|]; discriminate.
Qed.

Lemma b_set_rejects b v : b_set b [] v = (b, Some ErrKeyEmpty).
Proof. reflexivity. Qed.
Lemma b_set_rejects_nil b k : k <> [] -> b_set b k None = (b, Some ErrValueNil).
Proof. destruct k; [congruence|reflexivity]. Qed.
Lemma b_delete_rejects b : b_delete b [] = (b, Some ErrKeyEmpty).
Proof. reflexivity. Qed.

Lemma pb_call p b (s : bool) k v :
  (if s then pb_set p b k v else pb_delete p b k) =
  (if b_closed b then b else mkBatch (b_ops b ++ map (pfx_op p) (bop_accept (s, k, v))) false,
   bop_result (b_closed b) (s, k, v)).
Proof.
  unfold pb_set, pb_delete, b_set, b_delete, bop_result, bop_accept.
  destruct (is_empty k) eqn:Ek; [|rewrite (is_empty_app p k Ek)];
    destruct b as [o []], s, v; cbn; rewrite ?app_nil_r; reflexivity.
Qed.

Lemma run_bops_prefix p ops : forall b,
  run_bops (pb_set p) (pb_delete p) b ops =
  (if b_closed b then b else mkBatch (b_ops b ++ map (pfx_op p) (flat_map bop_accept ops)) false,
   map (bop_result (b_closed b)) ops).
Proof.
  induction ops as [|[[s k] v] ops IH]; intros b; cbn [run_bops flat_map map].
  - rewrite app_nil_r. destruct b as [o []]; reflexivity.
  - rewrite pb_call, IH. destruct (b_closed b) eqn:Ec; cbn [b_closed b_ops]; [rewrite Ec; reflexivity|].
    rewrite map_app, app_assoc. reflexivity.
Qed.

Lemma run_bops_ext f1 d1 f2 d2 ops : forall b,
  (forall b k v, f1 b k v = f2 b k v) -> (forall b k, d1 b k = d2 b k) ->
  run_bops f1 d1 b ops = run_bops f2 d2 b ops.
Proof.
  induction ops as [|[[s k] v] ops IH]; intros b Hf Hd; simpl; [reflexivity|].
  rewrite Hf, Hd. destruct (if s then f2 b k v else d2 b k) as [b' r]. rewrite IH by assumption.
  reflexivity.
Qed.

Lemma pb_set_nil b k v : pb_set [] b k v = b_set b k v.
Proof. unfold pb_set, b_set. simpl. destruct (is_empty k); [reflexivity|]. destruct v; reflexivity. Qed.
Lemma pb_delete_nil b k : pb_delete [] b k = b_delete b k.
Proof. unfold pb_delete, b_delete. simpl. destruct (is_empty k); reflexivity. Qed.

Lemma map_pfx_op_nil ops : map (pfx_op []) ops = ops.
Proof. induction ops as [|[k v|k] ops IH]; simpl; rewrite ?IH; reflexivity. Qed.

(** the whole batch program: accepted operations applied in order at [Write]; every call after
    [Write]/[Close] is an error and changes neither the batch nor the store *)
Theorem batch_prog_prefix p m ops1 w ops2 :
  batch_prog (pb_set p) (pb_delete p) m ops1 w ops2 =
  ((if w then fold_left apply_op (map (pfx_op p) (flat_map bop_accept ops1)) m else m),
   OBatch (map (bop_result false) ops1 ++ [None] ++ map (bop_result true) ops2
           ++ [Some ErrBatchClosed])).
Proof.
  unfold batch_prog. rewrite run_bops_prefix. cbn [b_new b_closed b_ops app].
  destruct w; [rewrite b_write_open by reflexivity|]; cbn [b_close fst snd];
    rewrite run_bops_prefix, b_write_closed by reflexivity; reflexivity.
Qed.

Lemma batch_prog_ext f1 d1 f2 d2 m ops1 w ops2 :
  (forall b k v, f1 b k v = f2 b k v) -> (forall b k, d1 b k = d2 b k) ->
  batch_prog f1 d1 m ops1 w ops2 = batch_prog f2 d2 m ops1 w ops2.
Proof.
  intros Hf Hd. unfold batch_prog. rewrite (run_bops_ext f1 d1 f2 d2) by assumption.
  destruct (run_bops f2 d2 b_new ops1) as [b1 r1].
  destruct (if w then b_write b1 m else (fst (b_close b1), m, snd (b_close b1))) as [[b2 m2] rw].
  rewrite (run_bops_ext f1 d1 f2 d2) by assumption. reflexivity.
Qed.

Theorem batch_spec m ops1 w ops2 :
  kv_step m (KBatch ops1 w ops2) =
  ((if w then fold_left apply_op (flat_map bop_accept ops1) m else m),
   OBatch (map (bop_result false) ops1 ++ [None] ++ map (bop_result true) ops2
           ++ [Some ErrBatchClosed])).
Proof.
  cbn [kv_step].
  rewrite (batch_prog_ext b_set b_delete (pb_set []) (pb_delete []))
    by (intros; symmetry; auto using pb_set_nil, pb_delete_nil).
  rewrite batch_prog_prefix, map_pfx_op_nil. reflexivity.
Qed.

(** * What a step writes, and the store invariants *)

Lemma is_empty_false k : is_empty k = false -> k <> [].
Proof. destruct k; discriminate. Qed.

Definition op_writes (op : kvop) : list batch_op :=
  match op with
  | KSet k (Some v) => if is_empty k then [] else [BSet k v]
  | KDelete k => if is_empty k then [] else [BDel k]
  | KBatch ops1 true _ => flat_map bop_accept ops1
  | _ => []
  end.

Lemma kv_step_fst m op : fst (kv_step m op) = fold_left apply_op (op_writes op) m.
Proof.
  destruct op as [k|k|k v|k|a b|a b|ops1 w ops2]; try rewrite batch_spec; cbn [kv_step op_writes].
  - destruct (is_empty k); reflexivity.
  - destruct (is_empty k); reflexivity.
  - destruct (is_empty k), v; reflexivity.
  - destruct (is_empty k); reflexivity.
  - destruct (bad_bound a || bad_bound b); reflexivity.
  - destruct (bad_bound a || bad_bound b); reflexivity.
  - destruct w; reflexivity.
Qed.

Lemma piter_gen_fst p (r : bool) m a b : fst (piter_gen kv_step p r m a b) = m.
Proof.
  unfold piter_gen. destruct (bad_bound a || bad_bound b); [reflexivity|].
  destruct (match b with None => if cpIncr_panics p then None else Some (cpIncr p)
                       | Some e => Some (Some (prefixed p e)) end) as [pend|]; [|reflexivity].
  pose proof (kv_step_fst m (if r then KRIter (Some (prefixed p (key_of a))) pend
                             else KIter (Some (prefixed p (key_of a))) pend)) as Hf.
  destruct (kv_step m _) as [m' o]. destruct r, o; exact Hf.
Qed.

Lemma prefix_step_fst p m op :
  fst (prefix_step kv_step p m op) = fold_left apply_op (map (pfx_op p) (op_writes op)) m.
Proof.
  destruct op as [k|k|k v|k|a b|a b|ops1 w ops2]; cbn [prefix_step op_writes];
    try apply piter_gen_fst; unfold pget, phas, pset, pdelete, prefixed.
  - destruct (is_empty k); [reflexivity|]. rewrite kv_step_fst. reflexivity.
  - destruct (is_empty k); [reflexivity|]. rewrite kv_step_fst. reflexivity.
  - destruct (is_empty k) eqn:Ek; [destruct v; reflexivity|]. rewrite kv_step_fst. cbn [op_writes].
    rewrite (is_empty_app p k Ek). destruct v; reflexivity.
  - destruct (is_empty k) eqn:Ek; [reflexivity|]. rewrite kv_step_fst. cbn [op_writes].
    rewrite (is_empty_app p k Ek). reflexivity.
  - rewrite batch_prog_prefix. destruct w; reflexivity.
Qed.

Lemma fold_apply_sorted ops : forall m, sorted m -> sorted (fold_left apply_op ops m).
Proof.
  induction ops as [|[k v|k] ops IH]; intros m Hm; cbn [fold_left apply_op];
    auto using sorted_ins, sorted_del.
Qed.

(** only a [BSet] adds a key: a property that all keys set have is kept by the stored keys *)
Definition sets (Q : bytes -> Prop) (o : batch_op) : Prop :=
  match o with BSet k _ => Q k | BDel _ => True end.

Lemma fold_apply_keys (Q : bytes -> Prop) ops : forall m,
  Forall (sets Q) ops -> Forall (fun e => Q (fst e)) m ->
  Forall (fun e => Q (fst e)) (fold_left apply_op ops m).
Proof.
  induction ops as [|o ops IH]; intros m Ho Hm; cbn [fold_left]; [exact Hm|].
  inversion Ho as [|? ? Hk Ho']; subst. apply IH; [exact Ho'|].
  destruct o as [k v|k]; [apply Forall_ins|apply Forall_del]; assumption.
Qed.

Lemma sets_pfx_op (Q : bytes -> Prop) p ops :
  (forall k, Q k -> Q (p ++ k)) -> Forall (sets Q) ops -> Forall (sets Q) (map (pfx_op p) ops).
Proof.
  intros HQ H. rewrite Forall_map. eapply Forall_impl; [|exact H].
  intros [k v|k]; [apply HQ|trivial].
Qed.

Lemma sets_op_key (Q : bytes -> Prop) ops : Forall (fun o => Q (op_key o)) ops -> Forall (sets Q) ops.
Proof. apply Forall_impl. intros [k v|k] H; [exact H|exact I]. Qed.

Definition store_inv (m : kvs) : Prop := sorted m /\ nonempty_keys m.

Lemma op_writes_nonempty op : Forall (fun o => op_key o <> []) (op_writes op).
Proof.
  destruct op as [k|k|k [v|]|k|a b|a b|ops1 [] ops2]; cbn [op_writes];
    try apply accepted_nonempty; try constructor;
    destruct (is_empty k) eqn:Ek; repeat constructor; apply is_empty_false, Ek.
Qed.

Theorem kv_step_inv m op : store_inv m -> store_inv (fst (kv_step m op)).
Proof.
  intros [Hs Hn]. rewrite kv_step_fst. split; [apply fold_apply_sorted, Hs|].
  apply (fold_apply_keys (fun k => k <> [])); [apply sets_op_key, op_writes_nonempty|exact Hn].
Qed.

(** the store invariant is preserved by PrefixDB for ANY prefix (also the empty one) *)
Theorem prefix_step_inv p m op :
  store_inv m -> store_inv (fst (prefix_step kv_step p m op)).
Proof.
  intros [Hs Hn]. rewrite prefix_step_fst. split; [apply fold_apply_sorted, Hs|].
  apply (fold_apply_keys (fun k => k <> [])); [|exact Hn].
  apply sets_pfx_op; [|apply sets_op_key, op_writes_nonempty].
  intros k Hk E. apply app_eq_nil in E. apply Hk, E.
Qed.

(** ** Well-formedness of the stored keys (every byte < 256) is preserved by well-formed operations *)

Definition bop_wf (o : bop) : Prop := well_formed (snd (fst o)).
Definition op_wf (op : kvop) : Prop :=
  match op with
  | KSet k _ => well_formed k
  | KBatch ops1 _ _ => Forall bop_wf ops1
  | _ => True
  end.

Lemma accepted_wf ops :
  Forall bop_wf ops -> Forall (fun o => well_formed (op_key o)) (flat_map bop_accept ops).
Proof.
  intros H. induction H as [|[[s k] v] ops Hx Hl IH]; simpl; [constructor|].
  apply Forall_app. split; [|exact IH]. unfold bop_wf in Hx. simpl in Hx.
  destruct (is_empty k); [constructor|]. destruct s; [destruct v|]; repeat constructor; exact Hx.
Qed.

Lemma op_writes_wf op : op_wf op -> Forall (sets well_formed) (op_writes op).
Proof.
  destruct op as [k|k|k [v|]|k|a b|a b|ops1 [] ops2]; cbn [op_writes op_wf]; intros H;
    try (apply sets_op_key, accepted_wf, H); try constructor;
    destruct (is_empty k); repeat constructor; exact H.
Qed.

Theorem kv_step_wf m op : op_wf op -> wf_keys m -> wf_keys (fst (kv_step m op)).
Proof.
  intros Ho Hm. rewrite kv_step_fst. apply (fold_apply_keys well_formed); [|exact Hm].
  apply op_writes_wf, Ho.
Qed.

Theorem prefix_step_wf p m op :
  well_formed p -> op_wf op -> wf_keys m -> wf_keys (fst (prefix_step kv_step p m op)).
Proof.
  intros Hp Ho Hm. rewrite prefix_step_fst. apply (fold_apply_keys well_formed); [|exact Hm].
  apply sets_pfx_op; [|apply op_writes_wf, Ho]. intros k Hk. apply Forall_app. split; assumption.
Qed.

(** MemDB and GoLevelDB models agree with the spec step on every store satisfying the invariant
    (GoLevelDB: except [Has] of an empty key, which it answers [false] instead of an error) *)
Theorem mem_step_spec m op : sorted m -> mem_step m op = kv_step m op.
Proof.
  intros Hs.
  destruct op as [k|k|k v|k|a b|a b|ops1 w ops2]; try reflexivity; simpl;
    destruct (memdb_iter_spec m a b Hs) as [H1 H2]; rewrite ?H1, ?H2; reflexivity.
Qed.

Theorem ldb_step_spec m op :
  sorted m -> op <> KHas [] -> ldb_step m op = kv_step m op.
Proof.
  intros Hs Hop.
  destruct op as [k|k|k v|k|a b|a b|ops1 w ops2]; try reflexivity; simpl.
  - destruct k; [congruence|reflexivity].
  - destruct (ldb_collect_spec m a b Hs) as [H1 H2]. rewrite H1. reflexivity.
  - destruct (ldb_collect_spec m a b Hs) as [H1 H2]. rewrite H2. reflexivity.
Qed.

Lemma ldb_step_has_empty m : ldb_step m (KHas []) = (m, OBool (kv_has m [])).
Proof. reflexivity. Qed.

Theorem mem_step_inv m op : store_inv m -> store_inv (fst (mem_step m op)).
Proof. intros Hm. rewrite mem_step_spec by apply Hm. apply kv_step_inv. exact Hm. Qed.

Theorem ldb_step_inv m op : store_inv m -> store_inv (fst (ldb_step m op)).
Proof.
  intros Hm. destruct op as [k|k|k v|k|a b|a b|ops1 w ops2];
    try (rewrite ldb_step_spec by (try apply Hm; discriminate); apply kv_step_inv; exact Hm).
  exact Hm.
Qed.

(** * PrefixDB is the spec on the sub-map of its namespace *)

Definition inview (p : bytes) (e : bytes * bytes) : bool :=
  is_prefix p (fst e) && negb (beq (fst e) p).
Definition stripe (p : bytes) (e : bytes * bytes) : bytes * bytes := (strip p (fst e), snd e).
Definition view (p : bytes) (m : kvs) : kvs := map (stripe p) (filter (inview p) m).
Definition outside (p : bytes) (m : kvs) : kvs := filter (fun e => negb (inview p e)) m.
(* [pre p], the entries with [p] put in front of their keys, undoes [view p] *)
Definition pre (p : bytes) (l : kvs) : kvs := map (fun e => (p ++ fst e, snd e)) l.

Lemma beq_app_nil p k : beq (p ++ k) p = is_empty k.
Proof.
  unfold beq. rewrite <- (app_nil_r p) at 2. rewrite bcmp_app_prefix. destruct k; reflexivity.
Qed.

Lemma inview_app p k v : inview p (p ++ k, v) = negb (is_empty k).
Proof. unfold inview. simpl. rewrite is_prefix_app, beq_app_nil. reflexivity. Qed.

Lemma filter_inview_pre p m : filter (inview p) m = pre p (view p m).
Proof.
  unfold pre, view. rewrite map_map. rewrite <- (map_id (filter (inview p) m)) at 1.
  apply map_ext_in. intros [k v] Hin. apply filter_In in Hin. destruct Hin as [_ Hv].
  unfold inview in Hv. simpl in *. apply andb_true_iff in Hv. destruct Hv as [Hp _].
  rewrite <- (is_prefix_split p k Hp). reflexivity.
Qed.

Lemma lt_app_prefix p a b : p ++ a <b p ++ b <-> a <b b.
Proof. unfold BytesO.lt. rewrite bcmp_app_prefix. reflexivity. Qed.

Lemma sorted_pre_inv p l : sorted (pre p l) -> sorted l.
Proof.
  induction l as [|[k v] l IH]; simpl; intros H; [auto|]. destruct H as [H1 H2]. split; [|auto].
  unfold pre in H1. rewrite Forall_map in H1. eapply Forall_impl; [|exact H1].
  intros [k' v'] H. simpl in *. apply lt_app_prefix in H. exact H.
Qed.

Lemma sorted_view p m : sorted m -> sorted (view p m).
Proof.
  intros H. apply (sorted_pre_inv p). rewrite <- filter_inview_pre. apply sorted_filter. exact H.
Qed.

Lemma view_nonempty p m : nonempty_keys (view p m).
Proof.
  unfold nonempty_keys, view. rewrite Forall_map. apply Forall_forall. intros [k v] Hin.
  apply filter_In in Hin. destruct Hin as [_ Hv]. unfold inview in Hv. simpl in *.
  apply andb_true_iff in Hv. destruct Hv as [Hp Hne]. intros He.
  apply is_prefix_split in Hp. rewrite He, app_nil_r in Hp. subst k.
  unfold beq in Hne. rewrite bcmp_refl in Hne. discriminate.
Qed.

Definition inkey (p k : bytes) : bool := is_prefix p k && negb (beq k p).

Lemma inkey_app p k : inkey p (p ++ k) = negb (is_empty k).
Proof. exact (inview_app p k []). Qed.

Lemma assoc_pre p k l : assoc (p ++ k) (pre p l) = assoc k l.
Proof.
  induction l as [|[k' v'] l IH]; simpl; [reflexivity|]. unfold beq. rewrite bcmp_app_prefix.
  fold (pre p l). rewrite IH. reflexivity.
Qed.

Lemma assoc_view p k m : assoc k (view p m) = if is_empty k then None else assoc (p ++ k) m.
Proof.
  rewrite <- (assoc_pre p), <- filter_inview_pre.
  change (inview p) with (fun e : bytes * bytes => inkey p (fst e)).
  rewrite assoc_filter_key, inkey_app. destruct (is_empty k); reflexivity.
Qed.

Lemma assoc_outside p k m : assoc k (outside p m) = if inkey p k then None else assoc k m.
Proof.
  unfold outside. change (fun e => negb (inview p e)) with (fun e : bytes * bytes => negb (inkey p (fst e))).
  rewrite (assoc_filter_key (fun k => negb (inkey p k))). destruct (inkey p k); reflexivity.
Qed.

Definition op_val (o : batch_op) : option bytes :=
  match o with BSet _ v => Some v | BDel _ => None end.

Lemma assoc_apply_op k m o :
  sorted m -> assoc k (apply_op m o) = if beq k (op_key o) then op_val o else assoc k m.
Proof.
  intros Hs. destruct o as [k' v|k']; cbn [apply_op op_key op_val]; [apply assoc_ins|].
  destruct (beq k k') eqn:E; btests; [subst; apply assoc_del_eq, Hs|apply assoc_del_ne, E].
Qed.

Lemma sorted_apply_op m o : sorted m -> sorted (apply_op m o).
Proof. destruct o; [apply sorted_ins|apply sorted_del]. Qed.

(** a write under the prefix is that write on the view and leaves the rest alone: both sides
    are sorted and have the same lookup function *)
Lemma view_apply_op p m o :
  sorted m -> op_key o <> [] -> view p (apply_op m (pfx_op p o)) = apply_op (view p m) o.
Proof.
  intros Hs Hk. apply sorted_assoc_ext; auto using sorted_view, sorted_apply_op. intros k.
  rewrite assoc_view, !assoc_apply_op, assoc_view by auto using sorted_view.
  replace (op_key (pfx_op p o)) with (p ++ op_key o) by (destruct o; reflexivity).
  replace (op_val (pfx_op p o)) with (op_val o) by (destruct o; reflexivity).
  unfold beq. rewrite bcmp_app_prefix. destruct k; [|reflexivity].
  destruct (op_key o); [congruence|reflexivity].
Qed.

Lemma outside_apply_op p m o :
  sorted m -> op_key o <> [] -> outside p (apply_op m (pfx_op p o)) = outside p m.
Proof.
  intros Hs Hk. apply sorted_assoc_ext; try (apply sorted_filter; auto using sorted_apply_op).
  intros k. rewrite !assoc_outside, assoc_apply_op by exact Hs.
  replace (op_key (pfx_op p o)) with (p ++ op_key o) by (destruct o; reflexivity).
  destruct (inkey p k) eqn:Ei; [reflexivity|]. destruct (beq k (p ++ op_key o)) eqn:E; [|reflexivity].
  btests. subst k. rewrite inkey_app in Ei. destruct (op_key o); [congruence|discriminate].
Qed.

Lemma view_fold p ops : forall m,
  sorted m -> Forall (fun o => op_key o <> []) ops ->
  view p (fold_left apply_op (map (pfx_op p) ops) m) = fold_left apply_op ops (view p m) /\
  outside p (fold_left apply_op (map (pfx_op p) ops) m) = outside p m /\
  sorted (fold_left apply_op (map (pfx_op p) ops) m).
Proof.
  induction ops as [|o ops IH]; intros m Hs Ho; cbn [map fold_left]; [auto|].
  inversion Ho as [|? ? Hk Ho']; subst.
  destruct (IH (apply_op m (pfx_op p o))) as [H1 [H2 H3]]; [apply sorted_apply_op, Hs|exact Ho'|].
  rewrite H1, H2, view_apply_op, outside_apply_op by assumption. auto.
Qed.

(** ** The prefix iterator in closed form *)

(* [pf p]: the key has prefix [p], the test of prefixDBIterator.Valid *)
Definition pf (p : bytes) (e : bytes * bytes) : bool := is_prefix p (fst e).

(** what the iterator is to deliver: the entries up to the first key without the prefix, stripped;
    an entry whose key is the bare prefix is skipped *)
Lemma view_tw_cons p k v r :
  view p (tw (pf p) ((k, v) :: r)) =
  if is_prefix p k
  then (if beq k p then [] else [(strip p k, v)]) ++ view p (tw (pf p) r)
  else [].
Proof.
  unfold view, inview, pf. cbn [tw fst]. destruct (is_prefix p k) eqn:E; [|reflexivity].
  cbn [filter fst]. rewrite E. destruct (beq k p); reflexivity.
Qed.

Lemma pit_loop_after p r : forall fuel,
  (length r < fuel)%nat -> pit_loop fuel p (pit_after_next p r) = Some (view p (tw (pf p) r)).
Proof.
  induction r as [|[k v] r IH]; intros fuel Hf; (destruct fuel as [|f]; [simpl in Hf; lia|]).
  - reflexivity.
  - rewrite view_tw_cons. cbn [pit_after_next].
    destruct (is_prefix p k) eqn:Ep; cbn [negb]; [|reflexivity].
    destruct (beq k p) eqn:Eb; cbn [app].
    + apply IH. simpl in Hf. lia.
    + cbn [pit_loop pit_valid fst snd negb]. rewrite Ep.
      rewrite IH by (simpl in Hf; lia). reflexivity.
Qed.

Definition pit_at (p : bytes) (src : kvs) : kvs * bool :=
  match src with
  | [] => (src, false)
  | (k, _) :: _ => if is_prefix p k then (src, true) else (src, false)
  end.

Lemma pit_loop_at p src fuel :
  match src with (k, _) :: _ => k <> p | [] => True end -> (length src < fuel)%nat ->
  pit_loop fuel p (pit_at p src) = Some (view p (tw (pf p) src)).
Proof.
  destruct fuel as [|f]; [lia|]. destruct src as [|[k v] r]; [reflexivity|]. intros Hne Hf.
  apply beq_false in Hne. rewrite view_tw_cons, Hne. cbn [pit_at].
  destruct (is_prefix p k) eqn:Ep; cbn [pit_loop pit_valid fst snd negb]; [|reflexivity].
  rewrite Ep, pit_loop_after by (simpl in Hf; lia). reflexivity.
Qed.

(** only in a duplicate-free source is the one skip of the constructor enough *)
Lemma pit_collect_spec p src :
  NoDup (map fst src) -> pit_collect p src = Some (view p (tw (pf p) src)).
Proof.
  intros Hnd. unfold pit_collect.
  change (pit_new p src) with
    (pit_at p match src with (k, _) :: r => if beq k p then r else src | [] => src end).
  destruct src as [|[k v] r]; [reflexivity|]. destruct (beq k p) eqn:Eb; btests.
  - subst k. rewrite view_tw_cons. unfold beq. rewrite bcmp_refl.
    rewrite is_prefix_refl. apply pit_loop_at; [|simpl; lia].
    destruct r as [|[k' v'] r']; [exact I|]. inversion Hnd as [|? ? Hnin _]; subst.
    intros ->. apply Hnin. left. reflexivity.
  - apply pit_loop_at; [exact Eb|simpl; lia].
Qed.

Lemma sorted_tw_pf p s :
  sorted s -> Forall (fun e => ble p (fst e) = true) s -> tw (pf p) s = filter (pf p) s.
Proof.
  intros Hs Hge. apply (tw_filter klt); [apply sorted_klt, Hs|].
  unfold klt, pf. intros [k v] [k' v'] Ik L Hp'. cbn [fst] in *.
  rewrite Forall_forall in Hge. apply is_prefix_split in Hp'. rewrite Hp' in L.
  apply (between_prefix p k (strip p k')); [exact (Hge _ Ik)|apply blt_true, L].
Qed.

(** ** Bound translation *)

Lemma ble_app_prefix p a b : ble (p ++ a) (p ++ b) = ble a b.
Proof. unfold ble. rewrite bcmp_app_prefix. reflexivity. Qed.
Lemma blt_app_prefix p a b : blt (p ++ a) (p ++ b) = blt a b.
Proof. unfold blt. rewrite bcmp_app_prefix. reflexivity. Qed.

(** translated end bound of PrefixDB.Iterator / ReverseIterator *)
Definition pend_of (p : bytes) (stop : option bytes) : option bytes :=
  match stop with None => cpIncr p | Some e => Some (p ++ e) end.

Lemma in_range_translate p start stop k :
  in_range (Some (p ++ key_of start)) (pend_of p stop) (p ++ k) = in_range start stop k.
Proof.
  unfold in_range. f_equal.
  - rewrite ble_app_prefix. destruct start; [reflexivity|apply ble_nil].
  - destruct stop as [e|]; simpl; [apply blt_app_prefix|].
    destruct (cpIncr p) as [q|] eqn:E; [|reflexivity].
    apply (cpIncr_spec_sound p q (p ++ k) E). apply is_prefix_app.
Qed.

Lemma in_range_ge_p p a pend k : in_range (Some (p ++ a)) pend k = true -> ble p k = true.
Proof.
  unfold in_range. intros H. apply andb_true_iff in H. destruct H as [H _].
  pose proof (prefix_ble p (p ++ a) (is_prefix_app p a)) as H1. btests. apply ble_true. border.
Qed.

Lemma cpIncr_nonempty p q : cpIncr p = Some q -> q <> [].
Proof.
  intros H Hq. subst q.
  destruct (cpIncr_spec_sound p [] p H (is_prefix_refl p)) as [_ H2]. rewrite blt_nil_r in H2. discriminate.
Qed.

Lemma view_iter_filter p m start stop :
  view p (filter (pf p) (kv_iter m (Some (p ++ key_of start)) (pend_of p stop))) =
  kv_iter (view p m) start stop.
Proof.
  unfold kv_iter, view. rewrite filter_map_comm. f_equal. rewrite !filter_filter.
  apply filter_ext. intros [k v]. simpl. unfold pf. simpl.
  destruct (inview p (k, v)) eqn:Ev; [|rewrite !andb_false_r; reflexivity].
  unfold inview in Ev. simpl in Ev. apply andb_true_iff in Ev. destruct Ev as [Hp _].
  rewrite Hp, !andb_true_r. cbn [andb]. rewrite (is_prefix_split p k Hp) at 1.
  apply in_range_translate.
Qed.

Lemma bad_bound_app p a : p <> [] -> bad_bound (Some (p ++ a)) = false.
Proof. destruct p; [congruence|reflexivity]. Qed.

Lemma bad_bound_pend p stop : p <> [] -> bad_bound (pend_of p stop) = false.
Proof.
  intros Hp. destruct stop as [e|]; simpl; [apply bad_bound_app; exact Hp|].
  destruct (cpIncr p) as [q|] eqn:E; [|reflexivity].
  apply cpIncr_nonempty in E. destruct q; [congruence|reflexivity].
Qed.

Lemma pend_match p stop :
  p <> [] ->
  match stop with
  | None => if cpIncr_panics p then None else Some (cpIncr p)
  | Some e => Some (Some (prefixed p e))
  end = Some (pend_of p stop).
Proof. intros Hp. destruct stop; [reflexivity|]. destruct p; [congruence|reflexivity]. Qed.

Lemma range_ge_p p a pend m :
  Forall (fun e => ble p (fst e) = true) (kv_iter m (Some (p ++ a)) pend).
Proof.
  unfold kv_iter. eapply Forall_impl; [|apply Forall_filter_true].
  intros [k v] H. simpl in *. eapply in_range_ge_p. exact H.
Qed.

Theorem piter_spec p m start stop :
  p <> [] -> sorted m -> bad_bound start || bad_bound stop = false ->
  piter kv_step p m start stop = (m, OPairs (kv_iter (view p m) start stop)).
Proof.
  intros Hp Hs Hb. unfold piter, piter_gen. rewrite Hb, (pend_match p stop Hp).
  cbn [kv_step]. unfold prefixed. rewrite bad_bound_app, bad_bound_pend by exact Hp. cbn [orb].
  rewrite pit_collect_spec by (apply sorted_NoDup, sorted_filter; exact Hs).
  rewrite sorted_tw_pf by (apply sorted_filter, Hs || apply range_ge_p).
  cbn [out_pairs]. rewrite view_iter_filter. reflexivity.
Qed.

Lemma range_all_prefixed p m start stop :
  p <> [] -> (stop = None -> wf_keys m) ->
  Forall (fun e => pf p e = true) (kv_iter m (Some (p ++ key_of start)) (pend_of p stop)).
Proof.
  intros Hp Hg. unfold kv_iter. apply Forall_forall. intros [k v] Hin.
  apply filter_In in Hin. destruct Hin as [Hin HR]. simpl in HR. unfold pf. simpl.
  pose proof (in_range_ge_p _ _ _ _ HR) as Hge.
  unfold in_range in HR. apply andb_true_iff in HR. destruct HR as [_ HR].
  destruct stop as [e|]; simpl in HR.
  - eapply between_prefix; eauto.
  - specialize (Hg eq_refl). unfold wf_keys in Hg. rewrite Forall_forall in Hg.
    specialize (Hg _ Hin). simpl in Hg. destruct (cpIncr p) as [q|] eqn:E.
    + apply (cpIncr_spec p q k E Hg). auto.
    + apply (cpIncr_spec_none p k Hp E Hg). exact Hge.
Qed.

(** the reverse iterator; well-formedness of the stored keys (bytes < 256) is only used for a nil
    end bound, where the upper bound [cpIncr p] comes from stripping 0xFF bytes *)
Theorem priter_spec p m start stop :
  p <> [] -> sorted m -> bad_bound start || bad_bound stop = false ->
  (stop = None -> wf_keys m) ->
  priter kv_step p m start stop = (m, OPairs (kv_riter (view p m) start stop)).
Proof.
  intros Hp Hs Hb Hg. unfold priter, piter_gen. rewrite Hb, (pend_match p stop Hp).
  cbn [kv_step]. unfold prefixed. rewrite bad_bound_app, bad_bound_pend by exact Hp. cbn [orb].
  pose proof (range_all_prefixed p m start stop Hp Hg) as Hall.
  unfold kv_riter.
  rewrite pit_collect_spec
    by (rewrite map_rev; apply NoDup_rev, sorted_NoDup, sorted_filter; exact Hs).
  rewrite tw_Forall by (apply Forall_rev; exact Hall).
  cbn [out_pairs]. rewrite <- view_iter_filter, (filter_all (pf p)) by (apply Forall_forall, Hall).
  unfold view. rewrite filter_rev, map_rev. reflexivity.
Qed.

(** the outputs: each operation makes its own empty-key / bad-bound test before the store does *)
Lemma prefix_step_snd p m op :
  p <> [] -> sorted m -> wf_keys m ->
  snd (prefix_step kv_step p m op) = snd (kv_step (view p m) op).
Proof.
  intros Hp Hs Hg. destruct op as [k|k|k v|k|a b|a b|ops1 w ops2]; cbn [prefix_step kv_step];
    unfold pget, phas, pset, pdelete, prefixed.
  1-4: destruct (is_empty k) eqn:Ek; [reflexivity|]; cbn [kv_step]; rewrite (is_empty_app p k Ek).
  - unfold kv_get. rewrite assoc_view, Ek. reflexivity.
  - unfold kv_has, mem. rewrite assoc_view, Ek. reflexivity.
  - destruct v; reflexivity.
  - reflexivity.
  - destruct (bad_bound a || bad_bound b) eqn:Eb; [|rewrite piter_spec by assumption; reflexivity].
    unfold piter, piter_gen. rewrite Eb. reflexivity.
  - destruct (bad_bound a || bad_bound b) eqn:Eb; [|rewrite priter_spec by auto; reflexivity].
    unfold priter, piter_gen. rewrite Eb. reflexivity.
  - fold (kv_step (view p m) (KBatch ops1 w ops2)). rewrite batch_spec, batch_prog_prefix. reflexivity.
Qed.

Theorem prefix_view p m op :
  p <> [] -> sorted m -> wf_keys m ->
  kv_step (view p m) op =
    (view p (fst (prefix_step kv_step p m op)), snd (prefix_step kv_step p m op)) /\
  outside p (fst (prefix_step kv_step p m op)) = outside p m /\
  sorted (fst (prefix_step kv_step p m op)).
Proof.
  intros Hp Hs Hg. rewrite prefix_step_fst.
  destruct (view_fold p (op_writes op) m Hs (op_writes_nonempty op)) as [H1 [H2 H3]].
  split; [|split; assumption].
  rewrite H1, <- kv_step_fst, prefix_step_snd by assumption. apply surjective_pairing.
Qed.

(** PrefixDB over the MemDB / GoLevelDB models = PrefixDB over the spec *)
Lemma piter_gen_ext u1 u2 p (r : bool) m a b :
  (forall o, o <> KHas [] -> u1 m o = u2 m o) -> piter_gen u1 p r m a b = piter_gen u2 p r m a b.
Proof.
  intros H. unfold piter_gen. destruct (bad_bound a || bad_bound b); [reflexivity|].
  destruct (match b with None => if cpIncr_panics p then None else Some (cpIncr p)
                       | Some e => Some (Some (prefixed p e)) end); [|reflexivity].
  rewrite H by (destruct r; discriminate). reflexivity.
Qed.

Lemma prefix_step_ext u1 u2 p m op :
  p <> [] -> (forall o, o <> KHas [] -> u1 m o = u2 m o) ->
  prefix_step u1 p m op = prefix_step u2 p m op.
Proof.
  intros Hp H. assert (forall k, KHas (prefixed p k) <> KHas []) as Hh.
  { intros k E. inversion E as [E']. destruct p; [congruence|discriminate]. }
  destruct op as [k|k|k v|k|a b|a b|ops1 w ops2]; cbn [prefix_step];
    try (apply piter_gen_ext, H); unfold pget, phas, pset, pdelete;
    try (destruct (is_empty k); [reflexivity|]; apply H; (discriminate || apply Hh)).
  reflexivity.
Qed.

Theorem prefix_step_mem p m op :
  p <> [] -> sorted m -> prefix_step mem_step p m op = prefix_step kv_step p m op.
Proof. intros Hp Hs. apply prefix_step_ext; [exact Hp|]. intros o _. apply mem_step_spec. exact Hs. Qed.

Theorem prefix_step_ldb p m op :
  p <> [] -> sorted m -> prefix_step ldb_step p m op = prefix_step kv_step p m op.
Proof. intros Hp Hs. apply prefix_step_ext; [exact Hp|]. intros o Ho. apply ldb_step_spec; assumption. Qed.
