(** Facts about hash memoisation (Memo.v): when the hashes memoised in the nodes of the working
    tree are invisible (the memo machine refines the pure machine of Tree.v), and the histories
    in which they are not (the three repaired defects, as refutations by computation). *)
From Coq Require Import Lia.
From IAVL Require Import Bytes Varint Sha256 ListFacts Tree Memo.
Local Open Scope Z_scope.

(** ** Erasure commutes with the node algebra *)

Lemma height_erase t : height (erase t) = mheight t.
Proof. destruct t; reflexivity. Qed.
Lemma size_erase t : size (erase t) = msize t.
Proof. destruct t; reflexivity. Qed.
Lemma nmeta_erase t : nmeta (erase t) = mmeta t.
Proof. destruct t; reflexivity. Qed.
Lemma is_new_erase t : is_new (erase t) = m_is_new t.
Proof. destruct t; reflexivity. Qed.

Lemma erase_lift t : erase (lift t) = t.
Proof. induction t as [k v m|k h s m l IHl r IHr]; cbn [lift erase]; congruence. Qed.

Lemma erase_mmk k l r : erase (mmk k l r) = mk k (erase l) (erase r).
Proof. unfold mmk, mk. cbn [erase]. rewrite !height_erase, !size_erase. reflexivity. Qed.

Lemma erase_mrotR t : erase (mrotR t) = rotR (erase t).
Proof.
  destruct t as [k v m memo|k h s m memo [lk lv lm lmemo|lk lh ls lm lmemo ll lr] r];
    cbn [mrotR rotR erase]; try reflexivity.
  rewrite !erase_mmk. reflexivity.
Qed.

Lemma erase_mrotL t : erase (mrotL t) = rotL (erase t).
Proof.
  destruct t as [k v m memo|k h s m memo l [rk rv rm rmemo|rk rh rs rm rmemo rl rr]];
    cbn [mrotL rotL erase]; try reflexivity.
  rewrite !erase_mmk. reflexivity.
Qed.

Lemma bal_of_erase t : bal_of (erase t) = mbal_of t.
Proof. destruct t; cbn [erase bal_of mbal_of]; [reflexivity|]. rewrite !height_erase. reflexivity. Qed.

Lemma erase_if (b : bool) t u : erase (if b then t else u) = if b then erase t else erase u.
Proof. destruct b; reflexivity. Qed.

(** both sides branch on the same heights *)
Lemma erase_mbalance t : erase (mbalance t) = balance (erase t).
Proof.
  destruct t as [k v m memo|k h s m memo l r]; [reflexivity|].
  cbn [mbalance]. rewrite !erase_if, !erase_mrotR, !erase_mrotL. cbn [erase balance].
  rewrite erase_mrotR, erase_mrotL, !height_erase, !bal_of_erase. reflexivity.
Qed.

(** recursiveSet on the memoising nodes is [Tree.set] (tree and "updated" flag) *)
Theorem mset_erase t k v :
  set (erase t) k v = (erase (fst (mset t k v)), snd (mset t k v)).
Proof.
  induction t as [lk lv m memo|nk h s m memo l IHl r IHr]; cbn [mset set erase].
  - destruct (bcmp k lk); reflexivity.
  - destruct (blt k nk); [rewrite IHl; destruct (mset l k v) as [t' upd]
                          |rewrite IHr; destruct (mset r k v) as [t' upd]].
    all: cbn [fst snd]; destruct upd; cbn [fst snd erase]; [reflexivity|].
    all: rewrite erase_mbalance, erase_mmk; reflexivity.
Qed.

Definition erase_rm (res : mrm_res) : rm_res :=
  RmRes (option_map erase (mrm_self res)) (mrm_key res) (mrm_val res).

(** recursiveRemove likewise (new subtree, new routing key, removed value) *)
Theorem mremove_erase t k : remove (erase t) k = erase_rm (mremove t k).
Proof.
  induction t as [lk lv m memo|nk h s m memo l IHl r IHr]; cbn [mremove remove erase].
  - destruct (beq k lk); reflexivity.
  - destruct (blt k nk); [rewrite IHl; destruct (mremove l k) as [[t'|] rk [val|]]
                          |rewrite IHr; destruct (mremove r k) as [[t'|] rk [val|]]].
    all: unfold erase_rm; cbn [mrm_self mrm_key mrm_val rm_self rm_key rm_val option_map erase].
    all: try reflexivity.
    all: rewrite erase_mbalance, erase_mmk; reflexivity.
Qed.

(** ** What recursiveSet and recursiveRemove keep
    They rebuild the path with fresh nodes (no node key, no hash) and re-hang subtrees of the old
    tree, so they keep every predicate that holds of a fresh node over trees that have it and
    that passes from a node to its children. *)
Section Surgery.
  Variable P : mnode -> Prop.
  Hypothesis P_leaf : forall k v, P (MLeaf k v new_meta None).
  Hypothesis P_new : forall k h s l r, P l -> P r -> P (MInner k h s new_meta None l r).
  Hypothesis P_sub : forall k h s m memo l r, P (MInner k h s m memo l r) -> P l /\ P r.

  Lemma mrotR_keeps t : P t -> P (mrotR t).
  Proof.
    destruct t as [k v m memo|k h s m memo [lk lv lm lmemo|lk lh ls lm lmemo ll lr] r];
      cbn [mrotR]; auto.
    intros A. destruct (P_sub _ _ _ _ _ _ _ A) as [B C]. destruct (P_sub _ _ _ _ _ _ _ B).
    unfold mmk. auto.
  Qed.

  Lemma mrotL_keeps t : P t -> P (mrotL t).
  Proof.
    destruct t as [k v m memo|k h s m memo l [rk rv rm rmemo|rk rh rs rm rmemo rl rr]];
      cbn [mrotL]; auto.
    intros A. destruct (P_sub _ _ _ _ _ _ _ A) as [B C]. destruct (P_sub _ _ _ _ _ _ _ C).
    unfold mmk. auto.
  Qed.

  Lemma mbalance_keeps k l r : P l -> P r -> P (mbalance (mmk k l r)).
  Proof.
    intros A B. unfold mmk. cbn [mbalance].
    destruct (1 <? _); [destruct (0 <=? _)|destruct (_ <? -1); [destruct (_ <=? 0)|]];
      auto using mrotR_keeps, mrotL_keeps.
  Qed.

  Lemma mset_keeps t k v : P t -> P (fst (mset t k v)).
  Proof.
    induction t as [lk lv m memo|nk h s m memo l IHl r IHr]; cbn [mset]; intros A.
    - destruct (bcmp k lk); cbn [fst]; auto.
    - destruct (P_sub _ _ _ _ _ _ _ A) as [Al Ar]. specialize (IHl Al). specialize (IHr Ar).
      destruct (blt k nk); [destruct (mset l k v) as [t' upd]|destruct (mset r k v) as [t' upd]].
      all: cbn [fst] in *; destruct upd; cbn [fst]; auto using mbalance_keeps.
  Qed.

  Lemma mremove_keeps t k :
    P t -> match mrm_self (mremove t k) with Some t' => P t' | None => True end.
  Proof.
    induction t as [lk lv m memo|nk h s m memo l IHl r IHr]; cbn [mremove]; intros A.
    - destruct (beq k lk); cbn [mrm_self]; auto.
    - destruct (P_sub _ _ _ _ _ _ _ A) as [Al Ar]. specialize (IHl Al). specialize (IHr Ar).
      destruct (blt k nk);
        [destruct (mremove l k) as [[t'|] rk [val|]]|destruct (mremove r k) as [[t'|] rk [val|]]].
      all: cbn [mrm_self mrm_key mrm_val] in *; auto using mbalance_keeps.
  Qed.
End Surgery.

(** ** Persisted nodes have persisted descendants
    (Go: saveNewNodes gives a node key to a whole unsaved subtree at once, and what is read
    back from the database is persisted).  This is what lets resetUnsavedHashes stop at the
    first node that has a node key. *)
Fixpoint nall_saved (t : node) : Prop :=
  match t with
  | Leaf _ _ m => ver m <> 0
  | Inner _ _ _ m l r => ver m <> 0 /\ nall_saved l /\ nall_saved r
  end.

Fixpoint nclosed (t : node) : Prop :=
  match t with
  | Leaf _ _ _ => True
  | Inner _ _ _ m l r => (ver m <> 0 -> nall_saved l /\ nall_saved r) /\ nclosed l /\ nclosed r
  end.

Definition all_saved (t : mnode) : Prop := nall_saved (erase t).
Definition closed (t : mnode) : Prop := nclosed (erase t).

Lemma nall_saved_closed t : nall_saved t -> nclosed t.
Proof.
  induction t as [k v m|k h s m l IHl r IHr]; cbn [nall_saved nclosed]; [auto|].
  intros (A & B & C). auto.
Qed.

Lemma nclosed_saved t : nclosed t -> ver (nmeta t) <> 0 -> nall_saved t.
Proof.
  destruct t as [k v m|k h s m l r]; cbn [nclosed nall_saved nmeta]; [auto|].
  intros (A & _ & _) N. destruct (A N). auto.
Qed.

Lemma closed_new k h s memo l r : closed l -> closed r -> closed (MInner k h s new_meta memo l r).
Proof. unfold closed. cbn [erase nclosed new_meta ver]. intros A B. split; [|auto]. intros N. now elim N. Qed.

Lemma closed_children k h s m memo l r : closed (MInner k h s m memo l r) -> closed l /\ closed r.
Proof. unfold closed. cbn [erase nclosed]. tauto. Qed.

Lemma mset_closed t k v : closed t -> closed (fst (mset t k v)).
Proof. apply mset_keeps; [intros; exact I|intros; apply closed_new; assumption|apply closed_children]. Qed.

Definition oclosed (t : option mnode) : Prop :=
  match t with None => True | Some n => closed n end.

Lemma mremove_closed t k : closed t -> oclosed (mrm_self (mremove t k)).
Proof.
  apply mremove_keeps; [intros; apply closed_new; assumption|apply closed_children].
Qed.

Section WithHash.
  Variable H : bytes -> bytes.

  Lemma node_hash_leaf wv k v m :
    node_hash H wv (Leaf k v m) =
      if negb (ver m =? 0) then hs m else H (leaf_preimage H wv k v).
  Proof. reflexivity. Qed.

  Lemma node_hash_inner wv k h s m l r :
    node_hash H wv (Inner k h s m l r) =
      if negb (ver m =? 0) then hs m
      else H (inner_preimage h s wv (node_hash H wv l) (node_hash H wv r)).
  Proof. reflexivity. Qed.

  Lemma stamp_leaf_eq wv n k v m :
    stamp H wv n (Leaf k v m) =
      if negb (ver m =? 0) then (Leaf k v m, n)
      else (Leaf k v (Meta wv (n + 1) (H (leaf_preimage H wv k v))), n + 1).
  Proof. reflexivity. Qed.

  Lemma stamp_inner_eq wv n k h s m l r :
    stamp H wv n (Inner k h s m l r) =
      if negb (ver m =? 0) then (Inner k h s m l r, n)
      else
        let (l', n1) := stamp H wv (n + 1) l in
        let (r', n2) := stamp H wv n1 r in
        (Inner k h s (Meta wv (n + 1)
           (H (inner_preimage h s wv (hs (nmeta l')) (hs (nmeta r'))))) l' r', n2).
  Proof. reflexivity. Qed.

  (** the hash saveNewNodes stores in the root of what it saves is the working hash *)
  Lemma stamp_hs wv t : forall n, hs (nmeta (fst (stamp H wv n t))) = node_hash H wv t.
  Proof.
    induction t as [k v m|k h s m l IHl r IHr]; intros n.
    - rewrite stamp_leaf_eq, node_hash_leaf. destruct (negb (ver m =? 0)); reflexivity.
    - rewrite stamp_inner_eq, node_hash_inner. destruct (negb (ver m =? 0)); [reflexivity|].
      specialize (IHl (n + 1)). destruct (stamp H wv (n + 1) l) as [l' n1].
      specialize (IHr n1). destruct (stamp H wv n1 r) as [r' n2].
      cbn [fst] in *. cbn [nmeta hs]. rewrite IHl, IHr. reflexivity.
  Qed.

  Lemma stamp_all_saved wv t : wv <> 0 -> forall n,
    nclosed t -> nall_saved (fst (stamp H wv n t)).
  Proof.
    intros Hwv. induction t as [k v m|k h s m l IHl r IHr]; intros n C;
      [rewrite stamp_leaf_eq|rewrite stamp_inner_eq]; destruct (ver m =? 0) eqn:E; cbn [negb fst].
    - exact Hwv.
    - apply Z.eqb_neq, E.
    - destruct C as (_ & Cl & Cr).
      specialize (IHl (n + 1) Cl). destruct (stamp H wv (n + 1) l) as [l' n1].
      specialize (IHr n1 Cr). destruct (stamp H wv n1 r) as [r' n2].
      cbn [fst] in *. cbn [nall_saved ver]. auto.
    - apply nclosed_saved; [exact C|]. apply Z.eqb_neq, E.
  Qed.

  (** ** The invariant of the memoised hashes
      [memo_ok wv t]: every hash memoised in a new node of [t] is the hash that node gets
      when it is saved under [wv]. *)
  Definition memo_fits (wv : Z) (t : mnode) : Prop :=
    m_is_new t = true -> forall x, mmemo t = Some x -> x = node_hash H wv (erase t).

  Fixpoint memo_ok (wv : Z) (t : mnode) : Prop :=
    match t with
    | MLeaf _ _ _ _ => memo_fits wv t
    | MInner _ _ _ _ _ l r => memo_fits wv t /\ memo_ok wv l /\ memo_ok wv r
    end.

  Definition omemo_ok (wv : Z) (t : option mnode) : Prop :=
    match t with None => True | Some n => memo_ok wv n end.

  Lemma memo_fits_none wv t : mmemo t = None -> memo_fits wv t.
  Proof. intros E _ x E'. congruence. Qed.

  Lemma memo_fits_saved wv t : m_is_new t = false -> memo_fits wv t.
  Proof. intros E E'. congruence. Qed.

  Lemma memo_ok_leaf wv k v m : memo_ok wv (MLeaf k v m None).
  Proof. apply memo_fits_none. reflexivity. Qed.

  Lemma memo_ok_inner wv k h s m l r :
    memo_ok wv l -> memo_ok wv r -> memo_ok wv (MInner k h s m None l r).
  Proof. intros A B. cbn [memo_ok]. split; [apply memo_fits_none; reflexivity|auto]. Qed.

  Lemma memo_ok_children wv k h s m memo l r :
    memo_ok wv (MInner k h s m memo l r) -> memo_ok wv l /\ memo_ok wv r.
  Proof. cbn [memo_ok]. tauto. Qed.

  Lemma memo_ok_lift wv t : memo_ok wv (lift t).
  Proof.
    induction t as [k v m|k h s m l IHl r IHr]; cbn [lift];
      [apply memo_ok_leaf|apply memo_ok_inner; assumption].
  Qed.

  Lemma all_saved_memo_ok wv t : all_saved t -> memo_ok wv t.
  Proof.
    unfold all_saved.
    induction t as [k v m memo|k h s m memo l IHl r IHr]; cbn [erase nall_saved memo_ok].
    - intros N. apply memo_fits_saved, Z.eqb_neq, N.
    - intros (N & A & B). split; [|auto]. apply memo_fits_saved, Z.eqb_neq, N.
  Qed.

  (** hashWithCount returns the working hash, only adds memoised hashes, and keeps the
      invariant *)
  Theorem hash_with_count_spec wv t : memo_ok wv t ->
    fst (hash_with_count H wv t) = node_hash H wv (erase t) /\
    erase (snd (hash_with_count H wv t)) = erase t /\
    memo_ok wv (snd (hash_with_count H wv t)).
  Proof.
    induction t as [k v m memo|k h s m memo l IHl r IHr]; cbn [memo_ok]; intros M.
    - cbn [hash_with_count erase]. rewrite node_hash_leaf.
      destruct (ver m =? 0) eqn:E; cbn [negb]; [|cbn [fst snd erase memo_ok]; auto].
      destruct memo as [x|]; cbn [fst snd erase memo_ok].
      + repeat split; [|exact M]. rewrite (M E x eq_refl). cbn [erase].
        rewrite node_hash_leaf, E. reflexivity.
      + repeat split. intros _ x X. cbn [mmemo] in X. injection X as <-. cbn [erase].
        rewrite node_hash_leaf, E. reflexivity.
    - destruct M as (M & Ml & Mr). cbn [hash_with_count erase]. rewrite node_hash_inner.
      destruct (ver m =? 0) eqn:E; cbn [negb]; [|cbn [fst snd erase memo_ok]; auto].
      destruct memo as [x|].
      + cbn [fst snd erase memo_ok]. repeat split; auto.
        rewrite (M E x eq_refl). cbn [erase]. rewrite node_hash_inner, E. reflexivity.
      + destruct (IHl Ml) as (Hl & El & Ol). destruct (IHr Mr) as (Hr & Er & Or).
        destruct (hash_with_count H wv l) as [lh l']. destruct (hash_with_count H wv r) as [rh r'].
        cbn [fst snd] in *. cbn [erase memo_ok]. subst lh rh. rewrite El, Er.
        repeat split; auto.
        intros _ x X. cbn [mmemo] in X. injection X as <-. cbn [erase].
        rewrite node_hash_inner, E, El, Er. reflexivity.
  Qed.

  Lemma hash_with_count_hashed v t x : mhash_field t = Some x -> hash_with_count H v t = (x, t).
  Proof.
    unfold mhash_field, m_is_new.
    destruct t as [k vv m memo|k h s m memo l r]; cbn [mmeta mmemo hash_with_count];
      destruct (ver m =? 0); cbn [negb]; intros E; try (subst memo; reflexivity);
      injection E as <-; reflexivity.
  Qed.

  Theorem mset_memo_ok wv t k v : memo_ok wv t -> memo_ok wv (fst (mset t k v)).
  Proof.
    apply mset_keeps; [intros; apply memo_ok_leaf|intros; apply memo_ok_inner; assumption|
                       apply memo_ok_children].
  Qed.

  Theorem mremove_memo_ok wv t k : memo_ok wv t -> omemo_ok wv (mrm_self (mremove t k)).
  Proof.
    apply mremove_keeps; [intros; apply memo_ok_inner; assumption|apply memo_ok_children].
  Qed.

  (** saveNewNodes over memoised hashes is [Tree.stamp] (tree and last nonce) *)
  Theorem msave_spec wv t : memo_ok wv t -> forall n,
    erase (fst (msave H wv n t)) = fst (stamp H wv n (erase t)) /\
    snd (msave H wv n t) = snd (stamp H wv n (erase t)).
  Proof.
    induction t as [k v m memo|k h s m memo l IHl r IHr]; cbn [memo_ok]; intros M n.
    - cbn [msave erase]. rewrite stamp_leaf_eq.
      destruct (ver m =? 0) eqn:E; cbn [negb fst snd erase]; [|auto].
      split; [|reflexivity]. destruct memo as [x|]; [|reflexivity].
      rewrite (M E x eq_refl). cbn [erase]. rewrite node_hash_leaf, E. reflexivity.
    - destruct M as (M & Ml & Mr). cbn [msave erase]. rewrite stamp_inner_eq.
      destruct (ver m =? 0) eqn:E; cbn [negb]; [|cbn [fst snd erase]; auto].
      destruct (IHl Ml (n + 1)) as [El Nl].
      pose proof (stamp_hs wv (erase l) (n + 1)) as Sl.
      destruct (msave H wv (n + 1) l) as [l' n1]. destruct (stamp H wv (n + 1) (erase l)) as [l'' n1'].
      cbn [fst snd] in *. subst n1' l''.
      destruct (IHr Mr n1) as [Er Nr].
      pose proof (stamp_hs wv (erase r) n1) as Sr.
      destruct (msave H wv n1 r) as [r' n2]. destruct (stamp H wv n1 (erase r)) as [r'' n2'].
      cbn [fst snd] in *. subst n2' r''.
      split; [|reflexivity]. cbn [erase]. rewrite !nmeta_erase.
      destruct memo as [x|]; [|reflexivity].
      rewrite (M E x eq_refl). cbn [erase]. rewrite node_hash_inner, E.
      rewrite <- !nmeta_erase, Sl, Sr. reflexivity.
  Qed.

  Lemma msave_all_saved wv n t : wv <> 0 -> memo_ok wv t -> closed t ->
    all_saved (fst (msave H wv n t)).
  Proof.
    intros Hwv M C. unfold all_saved. rewrite (proj1 (msave_spec wv t M n)).
    apply stamp_all_saved; assumption.
  Qed.

  (** resetUnsavedHashes.  SIDE CONDITION [closed t]: the function stops at the
      first node that has a node key, so a hash memoised in an unsaved node BELOW a saved
      one would survive (see [reset_needs_closed_refuted]); no such tree is reachable. *)
  Lemma erase_reset t : erase (reset_unsaved t) = erase t.
  Proof.
    induction t as [k v m memo|k h s m memo l IHl r IHr]; cbn [reset_unsaved];
      destruct (negb (ver m =? 0)); cbn [erase]; congruence.
  Qed.

  Lemma reset_clean t : has_unsaved_memo (reset_unsaved t) = false.
  Proof.
    induction t as [k v m memo|k h s m memo l IHl r IHr]; cbn [reset_unsaved];
      destruct (negb (ver m =? 0)) eqn:E; cbn [has_unsaved_memo]; rewrite E, ?IHl, ?IHr;
      reflexivity.
  Qed.

  Lemma clean_memo_ok wv' t : closed t -> has_unsaved_memo t = false -> memo_ok wv' t.
  Proof.
    induction t as [k v m memo|k h s m memo l IHl r IHr]; intros C; cbn [has_unsaved_memo];
      (destruct (ver m =? 0) eqn:E; cbn [negb]; intros X;
       [destruct memo; [discriminate|]
       |apply all_saved_memo_ok, nclosed_saved; [exact C|apply Z.eqb_neq, E]]).
    - apply memo_ok_leaf.
    - apply Bool.orb_false_iff in X. destruct X as [Xl Xr].
      destruct (closed_children _ _ _ _ _ _ _ C) as [Cl Cr]. apply memo_ok_inner; auto.
  Qed.

  Theorem reset_memo_ok wv' t : closed t ->
    memo_ok wv' (reset_unsaved t) /\ erase (reset_unsaved t) = erase t.
  Proof.
    intros C. split; [|apply erase_reset].
    apply clean_memo_ok; [unfold closed; rewrite erase_reset; exact C|apply reset_clean].
  Qed.

  Lemma hash_with_count_closed v t : memo_ok v t -> closed t -> closed (snd (hash_with_count H v t)).
  Proof.
    unfold closed. intros M C. rewrite (proj1 (proj2 (hash_with_count_spec v t M))). exact C.
  Qed.

  (** ** The state machine *)
  Definition minv (st : memo_state) : Prop :=
    oclosed (ms_root st) /\ omemo_ok (next_version st) (ms_root st).

  Lemma minv_init iv : minv (memo_init iv).
  Proof. split; exact I. Qed.

  Lemma root_hash_with_count_spec wv rt : oclosed rt -> omemo_ok wv rt ->
    fst (root_hash_with_count H wv rt) = root_hash H wv (option_map erase rt) /\
    option_map erase (snd (root_hash_with_count H wv rt)) = option_map erase rt /\
    oclosed (snd (root_hash_with_count H wv rt)) /\
    omemo_ok wv (snd (root_hash_with_count H wv rt)).
  Proof.
    destruct rt as [n|]; cbn [root_hash_with_count]; [|cbn [fst snd option_map]; auto].
    intros C M. destruct (hash_with_count_spec wv n M) as (X & E & M').
    pose proof (hash_with_count_closed wv n M C) as C'.
    destruct (hash_with_count H wv n) as [x n'].
    cbn [fst snd option_map root_hash oclosed omemo_ok] in *. rewrite E. auto.
  Qed.

  Lemma root_hash_with_count_hashed v rt :
    root_hashed rt = true -> snd (root_hash_with_count H v rt) = rt.
  Proof.
    destruct rt as [n|]; cbn [root_hashed root_hash_with_count]; [|reflexivity].
    destruct (mhash_field n) as [x|] eqn:F; [|discriminate].
    rewrite (hash_with_count_hashed v n x F). reflexivity.
  Qed.

  (** what every case of [step_refines] ends in *)
  Lemma refines_intro r vn iv (x : mout) : oclosed r -> omemo_ok (next_version_of vn iv) r ->
    snd (MemoState r vn iv, x) = snd (PureState (option_map erase r) vn iv, x) /\
    erase_state (fst (MemoState r vn iv, x)) = fst (PureState (option_map erase r) vn iv, x) /\
    minv (fst (MemoState r vn iv, x)).
  Proof. repeat split; assumption. Qed.

  Theorem step_refines st o : minv st -> op_ok st o = true ->
    snd (memo_step H st o) = snd (pure_step H (erase_state st) o) /\
    erase_state (fst (memo_step H st o)) = fst (pure_step H (erase_state st) o) /\
    minv (fst (memo_step H st o)).
  Proof.
    destruct st as [rt vn iv]. unfold minv, next_version, erase_state. intros [C M] OK.
    destruct o as [k v|k|rv| |v reset|];
      cbn [memo_step pure_step op_ok ms_root ms_version ms_iv ps_root ps_version ps_iv] in *;
      unfold next_version, pnext_version in *; cbn [ms_version ms_iv ps_version ps_iv] in *.
    - (* Set *)
      destruct rt as [n|]; cbn [option_map]; [|apply refines_intro; [exact I|apply memo_ok_leaf]].
      rewrite mset_erase. pose proof (mset_closed n k v C). pose proof (mset_memo_ok _ n k v M).
      destruct (mset n k v) as [n' upd]. apply refines_intro; assumption.
    - (* Remove *)
      destruct rt as [n|]; cbn [option_map]; [|apply refines_intro; assumption].
      rewrite mremove_erase. pose proof (mremove_closed n k C). pose proof (mremove_memo_ok _ n k M).
      destruct (mremove n k) as [sf rk [val|]]; apply refines_intro; assumption.
    - (* Read: under the working version, or of a root that has its hash *)
      assert (R : option_map erase (snd (root_hash_with_count H rv rt)) = option_map erase rt /\
                  oclosed (snd (root_hash_with_count H rv rt)) /\
                  omemo_ok (next_version_of vn iv) (snd (root_hash_with_count H rv rt))).
      { apply Bool.orb_true_iff in OK. destruct OK as [OK|OK].
        - apply Z.eqb_eq in OK. subst rv. exact (proj2 (root_hash_with_count_spec _ _ C M)).
        - rewrite (root_hash_with_count_hashed rv rt OK). auto. }
      destruct R as (E & C' & M'). destruct (root_hash_with_count H rv rt) as [x r'].
      cbn [snd] in *. rewrite <- E. apply refines_intro; assumption.
    - (* WorkingHash *)
      destruct (root_hash_with_count_spec _ _ C M) as (X & E & C' & M').
      destruct (root_hash_with_count H (next_version_of vn iv) rt) as [x r'].
      cbn [fst snd] in *. rewrite <- X, <- E. apply refines_intro; assumption.
    - (* SetInitialVersion: reset, or nothing memoised, or the same working version *)
      destruct reset; cbn [orb] in OK.
      + destruct rt as [n|]; cbn [option_map]; [|apply refines_intro; exact I].
        destruct (reset_memo_ok (next_version_of vn (Some v)) n C) as [M' E]. rewrite <- E.
        apply refines_intro; [|exact M']. unfold oclosed, closed. rewrite E. exact C.
      + apply refines_intro; [exact C|]. apply Bool.orb_true_iff in OK. destruct OK as [OK|OK].
        * destruct rt as [n|]; [|exact I]. apply clean_memo_ok; [exact C|].
          apply Bool.negb_true_iff, OK.
        * apply Z.eqb_eq in OK. rewrite OK. exact M.
    - (* SaveVersion: what is saved is persisted, so it fits the next working version *)
      destruct (save_in_domain vn (next_version_of vn iv)) eqn:D; [|apply refines_intro; assumption].
      set (wv := next_version_of vn iv) in *.
      assert (Hwv : wv <> 0) by (unfold save_in_domain in D; lia).
      destruct rt as [n|]; cbn [option_map];
        [|cbn [root_hash_with_count]; apply refines_intro; exact I].
      pose proof (msave_all_saved _ 0 n Hwv M C) as S. rewrite <- (proj1 (msave_spec _ n M 0)).
      destruct (root_hash_with_count_spec (next_version_of wv None) (Some (fst (msave H wv 0 n)))
                  (nall_saved_closed _ S) (all_saved_memo_ok _ _ S)) as (X & E & C' & M').
      destruct (root_hash_with_count H (next_version_of wv None) (Some (fst (msave H wv 0 n)))) as [x r'].
      cbn [fst snd option_map] in *. rewrite <- X, <- E. apply refines_intro; assumption.
  Qed.

  Lemma memo_run_cons st o ops :
    memo_run H st (o :: ops) =
      (fst (memo_run H (fst (memo_step H st o)) ops),
       snd (memo_step H st o) :: snd (memo_run H (fst (memo_step H st o)) ops)).
  Proof. exact (grun_cons (memo_step H) st o ops). Qed.

  Lemma pure_run_cons st o ops :
    pure_run H st (o :: ops) =
      (fst (pure_run H (fst (pure_step H st o)) ops),
       snd (pure_step H st o) :: snd (pure_run H (fst (pure_step H st o)) ops)).
  Proof. exact (grun_cons (pure_step H) st o ops). Qed.

  (** on every admissible history the memoising machine and the pure machine return
      the same outputs and reach states that differ by the memoised hashes only *)
  Theorem run_refines ops : forall st, minv st -> run_ok H st ops = true ->
    snd (memo_run H st ops) = snd (pure_run H (erase_state st) ops) /\
    erase_state (fst (memo_run H st ops)) = fst (pure_run H (erase_state st) ops) /\
    minv (fst (memo_run H st ops)).
  Proof.
    induction ops as [|o rest IH]; intros st I OK; [cbn [memo_run pure_run fst snd]; auto|].
    cbn [run_ok] in OK. apply Bool.andb_true_iff in OK. destruct OK as [OKo OKr].
    destruct (step_refines st o I OKo) as (X & E & I1). destruct (IH _ I1 OKr) as (Xs & Es & Is).
    rewrite memo_run_cons, pure_run_cons. cbn [fst snd]. rewrite <- E, X, Xs. auto.
  Qed.

  Corollary run_refines_init iv ops : run_ok H (memo_init iv) ops = true ->
    snd (memo_run H (memo_init iv) ops) = snd (pure_run H (pure_init iv) ops) /\
    erase_state (fst (memo_run H (memo_init iv) ops)) = fst (pure_run H (pure_init iv) ops).
  Proof.
    intros OK. destruct (run_refines ops (memo_init iv) (minv_init iv) OK) as (A & B & _). auto.
  Qed.

  Lemma vop_ok_op_ok st o : vop_ok (ms_version st) (ms_iv st) o = true -> op_ok st o = true.
  Proof.
    destruct o as [k v|k|rv| |v reset|]; cbn [vop_ok op_ok]; auto; unfold next_version; intros E.
    - rewrite E. reflexivity.
    - apply Bool.orb_true_iff in E. destruct E as [E|E]; rewrite E;
        [reflexivity|apply Bool.orb_true_r].
  Qed.

  Lemma vrun_ok_run_ok ops : forall st, minv st ->
    vrun_ok H (erase_state st) ops = true -> run_ok H st ops = true.
  Proof.
    induction ops as [|o rest IH]; intros st I OK; [reflexivity|].
    cbn [vrun_ok run_ok] in *. apply Bool.andb_true_iff in OK. destruct OK as [OKo OKr].
    cbn [erase_state ps_version ps_iv] in OKo. apply vop_ok_op_ok in OKo.
    destruct (step_refines st o I OKo) as (_ & E & I1).
    rewrite OKo. cbn [andb]. apply IH; [exact I1|]. rewrite E. exact OKr.
  Qed.

  (** ** Read-only calls can be deleted from a history *)
  Lemma pure_step_read st o : is_read o = true -> fst (pure_step H st o) = st.
  Proof. destruct o; cbn [is_read]; try discriminate; reflexivity. Qed.

  Lemma pure_run_writes ops : forall st,
    fst (pure_run H st (writes ops)) = fst (pure_run H st ops) /\
    snd (pure_run H st (writes ops)) = write_outs ops (snd (pure_run H st ops)).
  Proof.
    induction ops as [|o rest IH]; intros st; [cbn; auto|].
    unfold writes. cbn [filter]. fold (writes rest). rewrite (pure_run_cons st o rest).
    cbn [fst snd write_outs]. destruct (is_read o) eqn:R; cbn [negb].
    - rewrite (pure_step_read st o R). apply IH.
    - rewrite pure_run_cons. cbn [fst snd]. destruct (IH (fst (pure_step H st o))) as [A B].
      rewrite A, B. auto.
  Qed.

  Lemma vrun_ok_writes ops : forall st,
    vrun_ok H st ops = true -> vrun_ok H st (writes ops) = true.
  Proof.
    induction ops as [|o rest IH]; intros st OK; [reflexivity|].
    cbn [vrun_ok] in OK. apply Bool.andb_true_iff in OK. destruct OK as [OKo OKr].
    unfold writes. cbn [filter]. fold (writes rest).
    destruct (is_read o) eqn:R; cbn [negb].
    - rewrite (pure_step_read st o R) in OKr. apply IH, OKr.
    - cbn [vrun_ok]. rewrite OKo. cbn [andb]. apply IH, OKr.
  Qed.

  (** general form: admissibility of both histories is assumed (it depends on what is
      memoised, which differs between the two runs) *)
  Theorem reads_never_change_hashes_gen st ops :
    minv st -> run_ok H st ops = true -> run_ok H st (writes ops) = true ->
    snd (memo_run H st (writes ops)) = write_outs ops (snd (memo_run H st ops)) /\
    erase_state (fst (memo_run H st (writes ops))) = erase_state (fst (memo_run H st ops)).
  Proof.
    intros I OK OKw.
    destruct (run_refines ops st I OK) as (A & B & _).
    destruct (run_refines (writes ops) st I OKw) as (Aw & Bw & _).
    destruct (pure_run_writes ops (erase_state st)) as [P Q].
    rewrite Aw, A, Bw, B. auto.
  Qed.

  (** with every read-only call made under the working version and
      every SetInitialVersion resetting (or not changing the working version), deleting the
      read-only calls changes neither the outputs of the other calls nor the final tree *)
  Theorem reads_never_change_hashes st ops :
    minv st -> vrun_ok H (erase_state st) ops = true ->
    snd (memo_run H st (writes ops)) = write_outs ops (snd (memo_run H st ops)) /\
    erase_state (fst (memo_run H st (writes ops))) = erase_state (fst (memo_run H st ops)).
  Proof.
    intros I OK. apply reads_never_change_hashes_gen; [exact I| |]; apply vrun_ok_run_ok; auto.
    apply vrun_ok_writes, OK.
  Qed.
End WithHash.

(** ** The histories in which the memoised hashes are visible (SHA-256, by computation) *)
Definition ka : bytes := [97%N].
Definition kb : bytes := [98%N].

(** root hash of {a: 01, b: 02} saved as version 10 (the canonical one), and the hash of the
    same tree with version 1 in the preimages *)
Definition h_ab_v10 : bytes :=
  [104; 37; 177; 85; 179; 193; 170; 66; 76; 87; 136; 15; 38; 68; 40; 133;
   240; 41; 132; 150; 183; 36; 255; 196; 230; 133; 148; 199; 167; 22; 216; 217]%N.
Definition h_ab_v1 : bytes :=
  [72; 134; 122; 85; 215; 58; 230; 172; 168; 12; 240; 47; 165; 75; 117; 48;
   234; 102; 228; 248; 79; 44; 79; 188; 233; 192; 54; 150; 74; 244; 114; 157]%N.

Definition setiv_ops (reset : bool) : list mop :=
  [MSet ka [1%N]; MSet kb [2%N]; MWorkingHash; MSetIV 10 reset; MSave].

(** the pure machine ignores both the flag of SetInitialVersion and the version of a read-only
    call, so one evaluation serves every variant of a history; each of the four lemmas hashes the
    two-leaf tree once *)
Lemma setiv_pure_last reset :
  last (snd (pure_run sha256 (pure_init None) (setiv_ops reset))) MOUnit = MOSaved h_ab_v10 10.
Proof. vm_compute. reflexivity. Qed.

Lemma setiv_memo_last :
  last (snd (memo_run sha256 (memo_init None) (setiv_ops false))) MOUnit = MOSaved h_ab_v1 10.
Proof. vm_compute. reflexivity. Qed.

(** defect repaired by commit b7ad1cb of cosmos/iavl's repository under /repo: SetInitialVersion after WorkingHash without resetting the
    memoised hashes commits the hash computed for version 1 as version 10 *)
Theorem setiv_without_reset_refuted :
  exists ops,
    minv sha256 (memo_init None) /\
    (forall rv, ~ In (MRead rv) ops) /\
    snd (memo_run sha256 (memo_init None) ops) <> snd (pure_run sha256 (pure_init None) ops).
Proof.
  exists (setiv_ops false). split; [apply minv_init|]. split.
  - intros rv. cbn [setiv_ops In]. intros [E|[E|[E|[E|[E|[]]]]]]; discriminate E.
  - intros E. pose proof setiv_memo_last as L. rewrite E, setiv_pure_last in L. discriminate L.
Qed.

(** [run_ok] and [vrun_ok] look at versions and at which hashes are memoised, never at a hash:
    [lazy] decides them without running SHA-256 *)
Example setiv_without_reset_values :
  last (snd (memo_run sha256 (memo_init None) (setiv_ops false))) MOUnit = MOSaved h_ab_v1 10 /\
  last (snd (pure_run sha256 (pure_init None) (setiv_ops false))) MOUnit = MOSaved h_ab_v10 10 /\
  run_ok sha256 (memo_init None) (setiv_ops false) = false /\
  h_ab_v1 <> h_ab_v10.
Proof.
  split; [exact setiv_memo_last|]. split; [apply setiv_pure_last|].
  split; [lazy; reflexivity|discriminate].
Qed.

Example setiv_with_reset_agrees :
  run_ok sha256 (memo_init None) (setiv_ops true) = true /\
  snd (memo_run sha256 (memo_init None) (setiv_ops true)) =
    snd (pure_run sha256 (pure_init None) (setiv_ops true)) /\
  last (snd (memo_run sha256 (memo_init None) (setiv_ops true))) MOUnit = MOSaved h_ab_v10 10.
Proof.
  assert (R : run_ok sha256 (memo_init None) (setiv_ops true) = true) by (lazy; reflexivity).
  destruct (run_refines_init sha256 None _ R) as [E _].
  split; [exact R|]. split; [exact E|]. rewrite E. apply setiv_pure_last.
Qed.

Definition read_ops (rv : Z) : list mop :=
  [MSet ka [1%N]; MSet kb [2%N]; MRead rv; MSave].

Lemma read_pure_last rv :
  last (snd (pure_run sha256 (pure_init (Some 10)) (read_ops rv))) MOUnit = MOSaved h_ab_v10 10.
Proof. vm_compute. reflexivity. Qed.

Lemma read_memo_last :
  last (snd (memo_run sha256 (memo_init (Some 10)) (read_ops 1))) MOUnit = MOSaved h_ab_v1 10.
Proof. vm_compute. reflexivity. Qed.

(** defects repaired with nextVersion() (Hash / WorkingHash) and by commit c402680 of the same
    repository (WriteDOTGraph): a
    read-only call that hashes the working tree with version+1 = 1 although the initial
    version is 10 *)
Theorem read_with_wrong_version_refuted :
  exists ops,
    minv sha256 (memo_init (Some 10)) /\
    (forall v r, ~ In (MSetIV v r) ops) /\
    snd (memo_run sha256 (memo_init (Some 10)) ops) <>
      snd (pure_run sha256 (pure_init (Some 10)) ops).
Proof.
  exists (read_ops 1). split; [apply minv_init|]. split.
  - intros v r. cbn [read_ops In]. intros [E|[E|[E|[E|[]]]]]; discriminate E.
  - intros E. pose proof read_memo_last as L. rewrite E, read_pure_last in L. discriminate L.
Qed.

Example read_with_wrong_version_values :
  last (snd (memo_run sha256 (memo_init (Some 10)) (read_ops 1))) MOUnit = MOSaved h_ab_v1 10 /\
  last (snd (pure_run sha256 (pure_init (Some 10)) (read_ops 1))) MOUnit = MOSaved h_ab_v10 10 /\
  run_ok sha256 (memo_init (Some 10)) (read_ops 1) = false.
Proof.
  split; [exact read_memo_last|]. split; [apply read_pure_last|lazy; reflexivity].
Qed.

Example read_with_working_version_agrees :
  vrun_ok sha256 (pure_init (Some 10)) (read_ops 10) = true /\
  snd (memo_run sha256 (memo_init (Some 10)) (read_ops 10)) =
    snd (pure_run sha256 (pure_init (Some 10)) (read_ops 10)).
Proof.
  assert (V : vrun_ok sha256 (pure_init (Some 10)) (read_ops 10) = true) by (lazy; reflexivity).
  split; [exact V|]. apply run_refines_init, vrun_ok_run_ok; [apply minv_init|exact V].
Qed.

(** the side condition of [reset_memo_ok] is needed: resetUnsavedHashes stops at a node
    that has a node key, so a hash memoised below it (in a tree that no history produces)
    survives *)
Theorem reset_needs_closed_refuted :
  exists t wv, ~ memo_ok sha256 wv (reset_unsaved t).
Proof.
  exists (MInner kb 1 2 (Meta 1 1 h_ab_v1) None
            (MLeaf ka [1%N] new_meta (Some [0%N])) (MLeaf kb [2%N] (Meta 1 3 []) None)), 2.
  cbn [reset_unsaved ver negb Z.eqb memo_ok]. intros (_ & B & _).
  specialize (B eq_refl [0%N] eq_refl).
  (* the one-byte memo is no SHA-256 hash: the lengths differ, and finding the length of a
     hash does not run the compression function *)
  apply (f_equal (@length _)) in B. lazy in B. discriminate B.
Qed.

(** ** The hypotheses of [run_refines] / [reads_never_change_hashes] are satisfiable:
    initial version 7, right and left rotations, removals, an update, read-only calls of
    every kind in between, a SetInitialVersion after the first save, two saves. *)
Definition demo_ops : list mop :=
  [MSet [5%N] [50%N]; MWorkingHash; MSet [4%N] [40%N]; MRead 7; MSet [3%N] [30%N];
   MWorkingHash; MSet [6%N] [60%N]; MSet [7%N] [70%N]; MRead 7; MSet [8%N] [80%N];
   MRemove [4%N]; MWorkingHash; MSave;
   MRead 8; MSet [9%N] [90%N]; MSetIV 3 true; MWorkingHash; MRemove [3%N]; MRemove [1%N];
   MSet [6%N] [66%N]; MRead 8; MSetIV 5 false; MWorkingHash; MSave; MWorkingHash; MRead 9].

Example demo_admissible :
  vrun_ok sha256 (pure_init (Some 7)) demo_ops = true /\
  run_ok sha256 (memo_init (Some 7)) demo_ops = true /\
  length (writes demo_ops) = 15%nat.
Proof. repeat apply conj; lazy; reflexivity. Qed.

Example demo_refines :
  snd (memo_run sha256 (memo_init (Some 7)) demo_ops) =
    snd (pure_run sha256 (pure_init (Some 7)) demo_ops) /\
  snd (memo_run sha256 (memo_init (Some 7)) (writes demo_ops)) =
    write_outs demo_ops (snd (memo_run sha256 (memo_init (Some 7)) demo_ops)).
Proof.
  destruct demo_admissible as (V & R & _). split.
  - apply run_refines_init, R.
  - apply reads_never_change_hashes; [apply minv_init|exact V].
Qed.

(** the history is not trivial: both saves happen (versions 7 and 8), the tree has been
    rebalanced (5 leaves, height 3), and hashes are memoised when the second save starts *)
Example demo_shape :
  let st := fst (memo_run sha256 (memo_init (Some 7)) demo_ops) in
  ms_version st = 8 /\
  option_map mheight (ms_root st) = Some 3 /\ option_map msize (ms_root st) = Some 5 /\
  map (fun x => match x with MOSaved _ v => v | _ => 0 end)
      (snd (memo_run sha256 (memo_init (Some 7)) demo_ops)) =
    [0; 0; 0; 0; 0; 0; 0; 0; 0; 0; 0; 0; 7; 0; 0; 0; 0; 0; 0; 0; 0; 0; 0; 8; 0; 0] /\
  root_clean (ms_root (fst (memo_run sha256 (memo_init (Some 7)) (firstn 23 demo_ops)))) = false.
Proof. repeat apply conj; lazy; reflexivity. Qed.
