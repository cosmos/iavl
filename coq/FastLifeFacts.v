(** FastLifeFacts: the fast-index life cycle (FastLife.v) serves exactly the logical answers.

    - [fcoh] (FastLifeFacts2) is the coherence invariant; [fcoh_spec] below restates it in one
      flat conjunction; [fcoh_init] / [fcoh_step] (FastLifeFacts3) establish and preserve it.
    - [fstep_logical]: in a coherent state every operation leaves the logical state exactly as
      MTree does and returns MTree's answer, whatever path through the index the code takes.
    - [frun_logical]: lifted to every history from a freshly opened tree.
    - Refutations: the hash function matters for idempotent re-commits
      ([recommit_colliding_hash_refuted]), the label must be dropped by
      LoadVersionForOverwriting even when the index is off ([drop_label_refuted]), the index
      must be rebuilt from the LATEST version ([rebuild_from_loaded_refuted], and
      [rebuild_from_loaded_unobservable] for why the model's own operations cannot show it).
    - FastLifeFacts4 discharges the hypothesis [save_honest] for a collision-free hash function
      ([recommit_honest_or_collision], [frun_logical_collision_free]). *)
From Coq Require Import Lia.
From IAVL Require Import Bytes Varint Sha256 ListFacts Tree VMap TreeFacts MTree MTreeFacts HashFacts VersionFacts
  Store StoreFacts FastLife FastLifeFacts1 FastLifeFacts2 FastLifeFacts3.
Local Open Scope Z_scope.

Theorem fcoh_spec st :
  fcoh st <->
  (dlabel st = mlabel st /\
   (skipf st = false -> mlabel st = Some (latest_version (ms st))) /\
   (forall u, dlabel st = Some u -> u <= latest_version (ms st)) /\
   (forall u, dlabel st = Some u -> u = latest_version (ms st) -> idx_valid (ms st) (fidx st)) /\
   (skipf st = true -> adds st = [] /\ rems st = []) /\
   msorted bcmp (adds st) /\ msorted bcmp (rems st) /\
   (forall k, mfind bcmp k (adds st) <> None -> mfind bcmp k (rems st) = None) /\
   (skipf st = false -> unsaved_ok (ms st) (adds st) (rems st)) /\
   adds_stamped (ms st) (adds st)).
Proof.
  split.
  - intros [[A B C] [D E F G J K] On].
    exact (conj A (conj On (conj B (conj C (conj D (conj E (conj F (conj G (conj J K))))))))).
  - intros (A & On & B & C & D & E & F & G & J & K). constructor; [constructor|constructor|]; auto.
Qed.

Lemma last_saved_is_version_tree s :
  contig s ->
  (forest s = [] /\ version s = 0 /\ last_saved s = None) \/
  lookup (version s) (forest s) = Some (last_saved s).
Proof.
  intros C. destruct (contig_saved s C) as [(A & B & D)|(_ & L & _)]; [left|right]; auto.
Qed.

(** ** What the index answers *)

(** the two ways ImmutableTree.Get trusts the index, for a tree [t] with version field [tv] *)
Definition idx_answers (st : fstate) (t : option node) (tv : Z) (k : bytes) : Prop :=
  (forall u v, mfind bcmp k (fidx st) = Some (u, v) -> u <= tv -> walk_get t k = Some v) /\
  (mfind bcmp k (fidx st) = None -> tv = latest_version (ms st) -> walk_get t k = None).

(** the lookup that ImmutableTree.Get and GetVersioned share: the entry of [k] when it is not
    younger than [tv], "absent" when [tv] is the latest version, [slow] otherwise *)
Definition idx_get (st : fstate) (tv : Z) (k : bytes) (slow : option bytes) : option bytes :=
  match k with
  | [] => slow
  | _ :: _ =>
      match mfind bcmp k (fidx st) with
      | None => if tv =? latest_version (ms st) then None else slow
      | Some (u, v) => if u <=? tv then Some v else slow
      end
  end.

Lemma imm_get_eq st t tv k :
  imm_get st t tv k =
    match t with
    | None => None
    | Some _ =>
        if skipf st then walk_get t k
        else match mlabel st with
             | None => walk_get t k
             | Some _ => idx_get st tv k (walk_get t k)
             end
    end.
Proof.
  unfold imm_get, idx_get. destruct t; [|reflexivity]. destruct (skipf st); [reflexivity|].
  destruct (mlabel st); [|reflexivity]. destruct k; reflexivity.
Qed.

Lemma idx_get_correct st t tv k :
  idx_answers st t tv k -> idx_get st tv k (walk_get t k) = walk_get t k.
Proof.
  intros [A1 A2]. unfold idx_get. destruct k as [|b k']; [reflexivity|].
  destruct (mfind bcmp (b :: k') (fidx st)) as [[u v]|] eqn:F.
  - destruct (u <=? tv) eqn:Le; [|reflexivity]. apply Z.leb_le in Le. symmetry.
    exact (A1 u v eq_refl Le).
  - destruct (tv =? latest_version (ms st)) eqn:Eq; [|reflexivity]. apply Z.eqb_eq in Eq.
    symmetry. exact (A2 eq_refl Eq).
Qed.

Lemma imm_get_gen st t tv k :
  (skipf st = false -> mlabel st <> None -> idx_answers st t tv k) ->
  imm_get st t tv k = walk_get t k.
Proof.
  intros A. rewrite imm_get_eq. destruct t as [n|]; [|reflexivity].
  destruct (skipf st); [reflexivity|]. destruct (mlabel st); [|reflexivity].
  apply idx_get_correct, A; [reflexivity|discriminate].
Qed.

Lemma idx_answers_retained st t tv k :
  contig (ms st) -> fcoh st -> skipf st = false ->
  lookup tv (forest (ms st)) = Some t -> idx_answers st t tv k.
Proof.
  intros C Co Sk L. pose proof (idx_valid_on st Co Sk) as Vd.
  pose proof (retained_le_latest (ms st) tv t C L) as R. split.
  - intros u v F Le. destruct (iv_some _ _ Vd k u v F) as [_ P]. apply (P tv t L). lia.
  - intros F Eq. subst tv. rewrite <- (ltree_lookup (ms st) t L). apply (iv_none _ _ Vd k F).
Qed.

Lemma idx_empty_store st :
  fcoh st -> skipf st = false -> forest (ms st) = [] -> fidx st = [].
Proof.
  intros Co Sk F. pose proof (iv_vals _ _ (idx_valid_on st Co Sk)) as Vs.
  rewrite (ltree_empty _ F) in Vs. cbn [oelems] in Vs.
  destruct (fidx st); [reflexivity|discriminate Vs].
Qed.

Lemma idx_answers_saved st k :
  contig (ms st) -> fcoh st -> skipf st = false ->
  idx_answers st (last_saved (ms st)) (version (ms st)) k.
Proof.
  intros C Co Sk. destruct (contig_saved (ms st) C) as [(V & F & LS)|(_ & L & _)].
  - unfold idx_answers. rewrite LS, (idx_empty_store st Co Sk F). split.
    + intros u v Q. discriminate Q.
    + reflexivity.
  - apply idx_answers_retained; assumption.
Qed.

Lemma idx_answers_walk st t t' tv k :
  walk_get t k = walk_get t' k -> idx_answers st t' tv k -> idx_answers st t tv k.
Proof. unfold idx_answers. intros ->. tauto. Qed.

(** MutableTree.Get *)
Lemma mut_get_correct st k :
  contig (ms st) -> fcoh st -> mut_get st k = walk_get (root (ms st)) k.
Proof.
  intros C Co. unfold mut_get. destruct (root (ms st)) as [n|] eqn:R; [|reflexivity].
  rewrite <- R. destruct (skipf st) eqn:Sk.
  - apply imm_get_gen. intros Q. congruence.
  - pose proof (uo_unsaved _ _ _ _ (fc_uns st Co) Sk k) as U.
    destruct (mfind bcmp k (adds st)) as [[e v]|]; [symmetry; exact U|].
    destruct (mfind bcmp k (rems st)) as [u|]; [symmetry; exact U|].
    apply imm_get_gen. intros _ _.
    apply (idx_answers_walk st _ _ _ _ U). apply idx_answers_saved; assumption.
Qed.

(** GetImmutable(v).Get *)
Lemma imm_get_correct st t tv k :
  contig (ms st) -> fcoh st -> lookup tv (forest (ms st)) = Some t ->
  imm_get st t tv k = walk_get t k.
Proof.
  intros C Co L. apply imm_get_gen. intros Sk _. apply idx_answers_retained; assumption.
Qed.

Lemma range_all (l : list (bytes * bytes)) : range_spec l None None false true = l.
Proof.
  unfold range_spec. apply filter_all. intros x _. reflexivity.
Qed.

Lemma fast_iter_on st tv :
  negb (skipf st) && fast_enabled st tv = true -> skipf st = false /\ tv = latest_version (ms st).
Proof.
  unfold fast_enabled. destruct (skipf st); [discriminate|]. cbn [negb andb].
  destruct (tv =? latest_version (ms st)) eqn:V; [|discriminate]. apply Z.eqb_eq in V. auto.
Qed.

(** UnsavedFastIterator over the whole range *)
Lemma overlay_correct st :
  state_inv (ms st) -> contig (ms st) -> fcoh st -> skipf st = false ->
  version (ms st) = latest_version (ms st) ->
  overlay st = oelems (root (ms st)).
Proof.
  intros I C Co Sk V. pose proof (idx_valid_on st Co Sk) as Vd.
  destruct (fc_uns st Co) as [U1 U2 U3 U4 U5 U6]. specialize (U5 Sk).
  pose proof (ltree_oinv (ms st) I) as OL.
  assert (Sb : msorted bcmp (map (fun p => (fst p, snd (snd p))) (fidx st))).
  { exact (msorted_mapv bcmp (fun e : Z * bytes => snd e) _ (iv_sorted _ _ Vd)). }
  assert (Sd : msorted bcmp (fold_left (fun acc r => mdel bcmp (fst r) acc) (rems st)
                 (map (fun p => (fst p, snd (snd p))) (fidx st))))
    by (apply (msorted_fold_mdel bcmp), Sb).
  apply (msorted_ext bcmp bcmp_ok).
  - unfold overlay. apply (msorted_fold_mset_vals bcmp bcmp_ok (fun e : Z * bytes => snd e)), Sd.
  - apply osorted_elems, I.
  - intros k. unfold overlay.
    rewrite (mfind_fold_mset_vals bcmp bcmp_ok (fun e : Z * bytes => snd e) k (adds st) _ U2),
      (mfind_fold_mdel bcmp bcmp_ok k (rems st) _ Sb).
    change (map (fun p => (fst p, snd (snd p))) (fidx st)) with (mapv (fun e : Z * bytes => snd e) (fidx st)).
    rewrite (iv_vals _ _ Vd), <- (walk_get_assoc _ k OL), <- (walk_get_assoc _ k (inv_root _ I)),
      (U5 k), (saved_walk_latest (ms st) k C V).
    destruct (mfind bcmp k (adds st)) as [[e v]|]; reflexivity.
Qed.

Definition is_openat (o : fop) : bool := match o with FOpenAt _ _ => true | _ => false end.

Definition openat_ok (st : fstate) (o : fop) : Prop :=
  match o with
  | FOpenAt _ v => snd (do_load (fresh_ms (ms st)) v) <> XErr
  | _ => True
  end.

(** what the caller sees of the logical outputs: the Load() MTree performs before the
    LoadVersion of a new tree object is not an operation of the caller *)
Fixpoint visible (ops : list fop) (xs : list out) : list out :=
  match ops with
  | [] => []
  | o :: rest =>
      match o with
      | FOpenAt _ _ => match xs with _ :: x :: xs' => x :: visible rest xs' | _ => [] end
      | _ => match xs with x :: xs' => x :: visible rest xs' | [] => [] end
      end
  end.

Section Main.
  Variable H : bytes -> bytes.

  Lemma fstep_ms st o :
    is_openat o = false -> ms (fst (fstep H st o)) = fst (step H (ms st) (logical o)).
  Proof.
    intros NO. destruct o; cbn [is_openat] in NO;
      try (rewrite fstep_read_state by exact Logic.I; symmetry; apply step_read_only; reflexivity);
      cbn [fstep logical].
    - destruct (step H (ms st) (OSet k v)) as [s' x]. destruct (skipf st); reflexivity.
    - destruct (step H (ms st) (ORemove k)) as [s' x]. cbn [fst].
      destruct x as [| | | | | | |a b]; try reflexivity.
      destruct b as [| |[|]| | | | |]; try reflexivity. destruct (skipf st); reflexivity.
    - destruct (step H (ms st) OSave) as [s' x]. cbn [fst].
      destruct x; try reflexivity;
        destruct (version_exists (ms st) (working_version (ms st))); try reflexivity;
        destruct (skipf st); reflexivity.
    - destruct (step H (ms st) ORollback) as [s' x]. cbn [fst]. apply clear_ms.
    - destruct (step H (ms st) OReopen) as [s' x]. cbn [fst].
      destruct x; try reflexivity. apply enable_ms.
    - discriminate NO.
    - destruct (step H (ms st) (OLoad v)) as [s' x]. cbn [fst].
      destruct x; try reflexivity. destruct (forest (ms st)); rewrite enable_ms, ?clear_ms; reflexivity.
    - cbn [step]. unfold do_lvfo. destruct (do_load (ms st) v) as [s1 x1].
      destruct x1; try reflexivity. cbn [fst]. rewrite enable_ms.
      match goal with |- context [if ?c then _ else _] => destruct c end; [reflexivity|].
      match goal with |- context [match mlabel ?s with _ => _ end] => destruct (mlabel s) end;
        reflexivity.
    - destruct (step H (ms st) (OPrune n)) as [s' x]. reflexivity.
  Qed.

  Lemma fstep_out st o :
    is_openat o = false ->
    state_inv (ms st) -> contig (ms st) -> fcoh st ->
    snd (fstep H st o) = snd (step H (ms st) (logical o)).
  Proof.
    intros NO I C Co. destruct o; cbn [fstep logical]; try discriminate NO;
      (* a write hands MTree's answer on *)
      try (destruct (step H (ms st) _) as [s' x]; reflexivity).
    - cbn [step]. unfold do_lvfo. destruct (do_load (ms st) v) as [s1 x1].
      destruct x1; reflexivity.
    - cbn [step snd tree_read]. rewrite (mut_get_correct st k C Co). reflexivity.
    - cbn [step]. unfold tree_of. destruct (lookup v (forest (ms st))) as [t|] eqn:L; [|reflexivity].
      cbn [snd tree_read]. rewrite (imm_get_correct st t v k C Co L). reflexivity.
    - cbn [step]. unfold tree_of. destruct (lookup v (forest (ms st))) as [t|] eqn:L.
      + cbn [snd]. fold (idx_get st v k (imm_get st t v k)).
        rewrite (imm_get_correct st t v k C Co L).
        destruct (skipf st) eqn:Sk.
        2: destruct (fast_enabled st (version (ms st))).
        2: rewrite idx_get_correct by (apply idx_answers_retained; assumption).
        all: destruct t; reflexivity.
      + reflexivity.
    - cbn [step snd tree_read]. rewrite range_all.
      destruct (negb (skipf st) && fast_enabled st (version (ms st))) eqn:F; [|reflexivity].
      destruct (fast_iter_on st _ F) as [Sk V]. rewrite (overlay_correct st I C Co Sk V). reflexivity.
    - cbn [step]. unfold tree_of. destruct (lookup v (forest (ms st))) as [t|] eqn:L; [|reflexivity].
      cbn [snd tree_read]. rewrite range_all.
      destruct (negb (skipf st) && fast_enabled st v) eqn:F; [|reflexivity].
      destruct (fast_iter_on st _ F) as [Sk ->].
      change (map (fun p => (fst p, snd (snd p))) (fidx st))
        with (mapv (fun e : Z * bytes => snd e) (fidx st)).
      rewrite (iv_vals _ _ (idx_valid_on st Co Sk)), (ltree_lookup _ _ L). reflexivity.
  Qed.

  (** ** A new tree object that loads a version directly *)
  Lemma fstep_openat st skip v :
    ms (fst (fstep H st (FOpenAt skip v))) = fst (do_load (fresh_ms (ms st)) v) /\
    snd (fstep H st (FOpenAt skip v)) = snd (do_load (fresh_ms (ms st)) v).
  Proof.
    rewrite fstep_openat_eq. cbv zeta.
    destruct (do_load (fresh_ms (ms st)) v) as [s' x]. cbn [fst snd]. split; [|reflexivity].
    destruct x; try reflexivity. apply enable_ms.
  Qed.

  (** (b) when the load succeeds the state is the one MTree reaches by [OReopen; OLoad v] and
      the answer is the last answer of that run *)
  Theorem fstep_logical_openat st skip v :
    contig (ms st) -> snd (do_load (fresh_ms (ms st)) v) <> XErr ->
    ms (fst (fstep H st (FOpenAt skip v))) = fst (run H (ms st) [OReopen; OLoad v]) /\
    snd (fstep H st (FOpenAt skip v)) = last (snd (run H (ms st) [OReopen; OLoad v])) XErr.
  Proof.
    intros C Ok. destruct (fstep_openat st skip v) as [E1 E2].
    destruct (openat_logical H (ms st) v C) as [A B]. rewrite E1, E2. split; [apply B, Ok|exact A].
  Qed.

  (** when the load fails the answer is still MTree's ([XErr]), but the object stays unloaded:
      its logical state is [fresh_ms], not the state after [OReopen; OLoad v] (where the
      failed load leaves the latest version loaded); the label has not been compared with the
      store *)
  Theorem fstep_openat_error st skip v :
    contig (ms st) -> snd (do_load (fresh_ms (ms st)) v) = XErr ->
    fstep H st (FOpenAt skip v) =
      (FS (fresh_ms (ms st)) (fidx st) (dlabel st) (dlabel st) skip [] [], XErr) /\
    last (snd (run H (ms st) [OReopen; OLoad v])) XErr = XErr /\
    fst (run H (ms st) [OReopen; OLoad v]) = fst (step H (ms st) OReopen).
  Proof.
    intros C E. split; [apply openat_error, E|].
    destruct (openat_logical H (ms st) v C) as [A _]. rewrite <- A. split; [exact E|].
    cbn [run step]. destruct (do_reopen_spec (ms st) (contig_forest_ok _ C))
      as [(F & Er)|(NE & r & L & Er)]; rewrite Er.
    - unfold fresh_ms in E. rewrite F in E. rewrite (do_load_err _ _ E). reflexivity.
    - destruct (do_load_fresh (forest (ms st)) (init_ver (ms st)) (init_opt (ms st))
                  (init_opt (ms st)) r (latest_version (ms st)) v NE) as [A' _].
      unfold fresh_ms in E. rewrite A' in E. rewrite (do_load_err _ _ E). reflexivity.
  Qed.

  (** THE MAIN THEOREM, for the operations of an open tree object (the usage contract is not
      even needed for one step: it is what keeps the state coherent, [fcoh_step]) *)
  Theorem fstep_logical_any st o :
    is_openat o = false ->
    state_inv (ms st) -> contig (ms st) -> fcoh st ->
    ms (fst (fstep H st o)) = fst (step H (ms st) (logical o)) /\
    snd (fstep H st o) = snd (step H (ms st) (logical o)).
  Proof.
    intros NO I C Co. split; [apply fstep_ms, NO|apply fstep_out; assumption].
  Qed.

  Lemma run_single s x : run H s [x] = (fst (step H s x), [snd (step H s x)]).
  Proof. rewrite run_cons. reflexivity. Qed.

  Lemma logical_ops_single o : is_openat o = false -> logical_ops o = [logical o].
  Proof. destruct o; cbn [is_openat]; try discriminate; reflexivity. Qed.

  (** THE MAIN THEOREM, every operation: the logical state is the one MTree reaches by
      [logical_ops o] and the answer is MTree's (last) answer *)
  Theorem fstep_logical st o :
    state_inv (ms st) -> contig (ms st) -> fin_contract H st o -> fcoh st ->
    ms (fst (fstep H st o)) = fst (run H (ms st) (logical_ops o)) /\
    snd (fstep H st o) = last (snd (run H (ms st) (logical_ops o))) XErr.
  Proof.
    intros I C [_ FC] Co. destruct (is_openat o) eqn:NO.
    - destruct o; try discriminate NO. cbn [logical_ops]. apply fstep_logical_openat; assumption.
    - rewrite (logical_ops_single o NO), run_single. cbn [fst snd last].
      apply fstep_logical_any; assumption.
  Qed.

  (** ** Histories *)
  Fixpoint frun_ok (st : fstate) (ops : list fop) : Prop :=
    match ops with
    | [] => True
    | o :: rest => fin_contract H st o /\ frun_ok (fst (fstep H st o)) rest
    end.

  Lemma frun_cons st o ops :
    frun H st (o :: ops) =
      (fst (frun H (fst (fstep H st o)) ops),
       snd (fstep H st o) :: snd (frun H (fst (fstep H st o)) ops)).
  Proof. exact (grun_cons (fstep H) st o ops). Qed.

  Lemma logical_ops_ok st o : fin_contract H st o -> run_ok H (ms st) (logical_ops o).
  Proof.
    intros [IC _]. destruct o; cbn [logical_ops logical run_ok in_contract] in *; auto.
  Qed.

  (** all four invariants travel together along a history in contract *)
  Record fgood (st : fstate) : Prop := FGood {
    fg_inv : state_inv (ms st);
    fg_contig : contig (ms st);
    fg_coh : fcoh st
  }.

  Lemma fgood_step st o : fgood st -> fin_contract H st o -> fgood (fst (fstep H st o)).
  Proof.
    intros [I C Co] FC. destruct (fstep_logical st o I C FC Co) as [M _]. constructor.
    - rewrite M. apply run_inv, I.
    - rewrite M. apply run_contig; [exact C|apply logical_ops_ok, FC].
    - apply fcoh_step; assumption.
  Qed.

  Lemma visible_cons o ops s xs :
    visible (o :: ops) (snd (run H s (logical_ops o)) ++ xs) =
    last (snd (run H s (logical_ops o))) XErr :: visible ops xs.
  Proof.
    destruct o; cbn [logical_ops]; rewrite ?run_single; try reflexivity.
    rewrite run_cons, run_single. reflexivity.
  Qed.

  (** (c) the lift: the logical history is the concatenation of [logical_ops]; every
      [FOpenAt] of the history succeeds (part of [fin_contract]) *)
  Theorem frun_logical_from ops : forall st,
    fgood st -> frun_ok st ops ->
    fgood (fst (frun H st ops)) /\
    ms (fst (frun H st ops)) = fst (run H (ms st) (concat (map logical_ops ops))) /\
    snd (frun H st ops) = visible ops (snd (run H (ms st) (concat (map logical_ops ops)))).
  Proof.
    induction ops as [|o ops IH]; intros st G R.
    - cbn [frun run map concat visible fst snd]. auto.
    - destruct R as [FC R]. pose proof (fgood_step st o G FC) as G1.
      destruct (IH _ G1 R) as (G2 & E1 & E2).
      destruct (fstep_logical st o (fg_inv st G) (fg_contig st G) FC (fg_coh st G)) as [M X].
      rewrite frun_cons. cbn [map concat]. rewrite run_app. cbn [fst snd].
      rewrite visible_cons, <- M, <- X, <- E1, <- E2. auto.
  Qed.

  Lemma fgood_finit iv b : init_ok iv b -> fgood (finit iv b).
  Proof.
    intros IO. constructor; cbn [finit ms].
    - apply state_inv_init. unfold init_ok in IO. destruct b; lia.
    - apply contig_init, IO.
    - apply fcoh_finit.
  Qed.

  Lemma fgood_opened iv b skip :
    init_ok iv b -> fgood (fst (fstep H (finit iv b) (FOpen skip))).
  Proof. intros IO. apply fgood_step; [apply fgood_finit, IO|split; exact Logic.I]. Qed.

  (** every history from a freshly opened tree, all of whose operations are in contract:
      the answers computed through the index are MTree's answers *)
  Theorem frun_logical iv b skip0 ops :
    init_ok iv b ->
    let st0 := fst (fstep H (finit iv b) (FOpen skip0)) in
    frun_ok st0 ops ->
    ms st0 = fst (step H (init_state iv b) OReopen) /\
    ms (fst (frun H st0 ops)) = fst (run H (ms st0) (concat (map logical_ops ops))) /\
    snd (frun H st0 ops) = visible ops (snd (run H (ms st0) (concat (map logical_ops ops)))) /\
    fcoh (fst (frun H st0 ops)).
  Proof.
    intros IO st0 R. split; [exact (fstep_ms (finit iv b) (FOpen skip0) eq_refl)|].
    destruct (frun_logical_from ops st0 (fgood_opened iv b skip0 IO) R) as (G & E1 & E2).
    split; [exact E1|]. split; [exact E2|exact (fg_coh _ G)].
  Qed.

  (** the same, counting the opening step: the whole history against MTree from [init_state] *)
  Corollary frun_logical_from_init iv b skip0 ops :
    init_ok iv b ->
    frun_ok (fst (fstep H (finit iv b) (FOpen skip0))) ops ->
    snd (frun H (finit iv b) (FOpen skip0 :: ops)) =
    visible (FOpen skip0 :: ops)
      (snd (run H (init_state iv b) (concat (map logical_ops (FOpen skip0 :: ops))))).
  Proof.
    intros IO R.
    destruct (frun_logical_from (FOpen skip0 :: ops) (finit iv b) (fgood_finit iv b IO))
      as (_ & _ & E); [|exact E].
    split; [split; exact Logic.I|exact R].
  Qed.

  (** ** Executable contract check (for the examples) *)
  Fixpoint kvs_eqb (a b : list (bytes * bytes)) : bool :=
    match a, b with
    | [], [] => true
    | (k, v) :: a', (k', v') :: b' => beq k k' && beq v v' && kvs_eqb a' b'
    | _, _ => false
    end.

  Lemma kvs_eqb_true a : forall b, kvs_eqb a b = true -> a = b.
  Proof.
    induction a as [|[k v] a IH]; intros [|[k' v'] b]; cbn [kvs_eqb]; try discriminate;
      [reflexivity|].
    intros E. apply andb_true_iff in E. destruct E as [E E3].
    apply andb_true_iff in E. destruct E as [E1 E2].
    apply beq_true in E1, E2. subst. f_equal. apply IH, E3.
  Qed.

  Definition is_err (x : out) : bool := match x with XErr => true | _ => false end.

  Definition save_honestb (s : mstate) : bool :=
    match lookup (working_version s) (forest s) with
    | Some e => is_err (snd (do_save H s)) || kvs_eqb (oelems e) (oelems (root s))
    | None => true
    end.

  Lemma save_honestb_sound s : save_honestb s = true -> save_honest H s.
  Proof.
    unfold save_honestb, save_honest. intros B e L NE. rewrite L in B.
    apply orb_true_iff in B. destruct B as [B|B].
    - destruct (snd (do_save H s)); try discriminate B. congruence.
    - apply kvs_eqb_true, B.
  Qed.

  Definition fin_contractb (st : fstate) (o : fop) : bool :=
    in_contractb (ms st) (logical o) &&
    match o with
    | FSave => save_honestb (ms st)
    | FOpenAt _ v => negb (is_err (snd (do_load (fresh_ms (ms st)) v)))
    | _ => true
    end.

  Lemma fin_contractb_sound st o : fin_contractb st o = true -> fin_contract H st o.
  Proof.
    unfold fin_contractb, fin_contract. intros B. apply andb_true_iff in B. destruct B as [B1 B2].
    split; [apply in_contractb_iff, B1|]. destruct o; try exact Logic.I.
    - apply save_honestb_sound, B2.
    - destruct (snd (do_load (fresh_ms (ms st)) v)); try discriminate; discriminate B2.
  Qed.

  Fixpoint frun_okb (st : fstate) (ops : list fop) : bool :=
    match ops with
    | [] => true
    | o :: rest => fin_contractb st o && frun_okb (fst (fstep H st o)) rest
    end.

  Lemma frun_okb_sound ops : forall st, frun_okb st ops = true -> frun_ok st ops.
  Proof.
    induction ops as [|o ops IH]; intros st; cbn [frun_okb frun_ok]; [tauto|].
    intros B. apply andb_true_iff in B. destruct B as [B1 B2].
    split; [apply fin_contractb_sound, B1|apply IH, B2].
  Qed.

  (** ** The state and the answer after each operation
      The examples evaluate their history once, as this list, and read the answers, the final
      state, the intermediate states and the contract check off it. *)
  Fixpoint ftrace (st : fstate) (ops : list fop) : list (fstate * out) :=
    match ops with
    | [] => []
    | o :: rest => let r := fstep H st o in r :: ftrace (fst r) rest
    end.

  Lemma frun_ftrace ops : forall st,
    frun H st ops = (fold_left (fun _ r => fst r) (ftrace st ops) st, map snd (ftrace st ops)).
  Proof.
    induction ops as [|o ops IH]; intros st; [reflexivity|]. rewrite frun_cons, IH. reflexivity.
  Qed.

  Lemma ftrace_firstn n : forall ops st, ftrace st (firstn n ops) = firstn n (ftrace st ops).
  Proof.
    induction n as [|n IH]; intros [|o ops] st; try reflexivity.
    cbn [firstn ftrace]. rewrite IH. reflexivity.
  Qed.

  Lemma frun_okb_ftrace ops : forall st,
    frun_okb st ops =
      forallb (fun p => fin_contractb (fst p) (snd p)) (combine (st :: map fst (ftrace st ops)) ops).
  Proof.
    induction ops as [|o ops IH]; intros st; [reflexivity|].
    cbn [frun_okb ftrace map combine forallb fst snd]. rewrite IH. reflexivity.
  Qed.
End Main.

(** ** Variants of the code, to document why two details matter *)
Section Variants.
  Variable H : bytes -> bytes.

  Fixpoint frun_with (f : fstate -> fop -> fstate * out) (st : fstate) (ops : list fop)
    : fstate * list out :=
    match ops with
    | [] => (st, [])
    | o :: rest =>
        let (s1, x) := f st o in
        let (s2, xs) := frun_with f s1 rest in
        (s2, x :: xs)
    end.

  (** (a) LoadVersionForOverwriting that keeps the label when the index is off *)
  Definition fstep_nodrop (st : fstate) (o : fop) : fstate * out :=
    match o with
    | FLvfo v =>
        let (s1, x1) := step H (ms st) (OLoad v) in
        match x1 with
        | XInt _ =>
            let st1 :=
              match forest (ms st) with
              | [] => enable_if_needed (with_ms st s1)
              | _ => enable_if_needed (clear_unsaved (with_ms st s1))
              end in
            let (s2, x2) := step H (ms st) (OLvfo v) in
            let st2 :=
              if latest_version (ms st) <? v + 1 then with_ms st1 s2
              else
                match mlabel st1 with
                | Some _ =>
                    if skipf st1 then with_ms st1 s2          (* <- the label survives *)
                    else FS s2 (fidx st1) None None (skipf st1) (adds st1) (rems st1)
                | None => with_ms st1 s2
                end in
            (enable_if_needed st2, x2)
        | _ => (with_ms st s1, XErr)
        end
    | _ => fstep H st o
    end.

  (** (b) enableFastStorageAndCommit that walks the LOADED tree (stamping its version) and labels
      the index with the latest version, as upstream did *)
  Definition rebuild_loaded (s : mstate) : list (bytes * (Z * bytes)) * option Z :=
    let lv := version s in
    let t := match lookup lv (forest s) with Some t => t | None => None end in
    (map (fun p => (fst p, (lv, snd p))) (oelems t), Some (latest_version s)).

  Definition enable_loaded (st : fstate) : fstate :=
    if upgradeable st then
      let (ix, l) := rebuild_loaded (ms st) in
      FS (ms st) ix l l (skipf st) (adds st) (rems st)
    else st.

  Definition fstep_loaded (st : fstate) (o : fop) : fstate * out :=
    match o with
    | FOpen skip =>
        let (s', x) := step H (ms st) OReopen in
        let st1 := FS s' (fidx st) (dlabel st) (dlabel st) skip [] [] in
        (match x with XOk => enable_loaded st1 | _ => st1 end, x)
    | FOpenAt skip v =>
        let fresh := MState None 0 None (forest (ms st)) (init_ver (ms st))
                            (init_opt (ms st)) (init_opt (ms st)) in
        let st0 := FS fresh (fidx st) (dlabel st) (dlabel st) skip [] [] in
        let (s', x) := step H fresh (OLoad v) in
        (match x with
         | XInt _ => enable_loaded (with_ms st0 s')
         | _ => with_ms st0 s'
         end, x)
    | FLoad v =>
        let (s', x) := step H (ms st) (OLoad v) in
        (match x with
         | XInt _ =>
             match forest (ms st) with
             | [] => enable_loaded (with_ms st s')
             | _ => enable_loaded (clear_unsaved (with_ms st s'))
             end
         | _ => with_ms st s'
         end, x)
    | FLvfo v =>
        let (s1, x1) := step H (ms st) (OLoad v) in
        match x1 with
        | XInt _ =>
            let st1 :=
              match forest (ms st) with
              | [] => enable_loaded (with_ms st s1)
              | _ => enable_loaded (clear_unsaved (with_ms st s1))
              end in
            let (s2, x2) := step H (ms st) (OLvfo v) in
            let st2 :=
              if latest_version (ms st) <? v + 1 then with_ms st1 s2
              else
                match mlabel st1 with
                | Some _ => FS s2 (fidx st1) None None (skipf st1) (adds st1) (rems st1)
                | None => with_ms st1 s2
                end in
            (enable_loaded st2, x2)
        | _ => (with_ms st s1, XErr)
        end
    | _ => fstep H st o
    end.

  (** With the operations of an OPEN tree object the variant (b) cannot be observed: every
      rebuild of a coherent state happens with the latest version loaded ([FOpen] loads the
      latest version before anything else, a later [FLoad] finds the label current, and
      LoadVersionForOverwriting rebuilds after the later versions are gone).  Only [FOpenAt]
      (a new object that loads an old version first) exposes it:
      [rebuild_from_loaded_refuted]. *)
  Lemma enable_loaded_eq st :
    (upgradeable st = true -> version (ms st) = latest_version (ms st)) ->
    enable_loaded st = enable_if_needed st.
  Proof.
    intros A. unfold enable_loaded, enable_if_needed. destruct (upgradeable st); [|reflexivity].
    unfold rebuild_loaded, rebuild. rewrite (A eq_refl). reflexivity.
  Qed.

  Lemma enable_loaded_coh st : fcoh st -> enable_loaded st = enable_if_needed st.
  Proof.
    intros Co. unfold enable_loaded, enable_if_needed.
    rewrite (not_upgradeable st (fc_on st Co)). reflexivity.
  Qed.

  Theorem rebuild_from_loaded_unobservable st o :
    is_openat o = false ->
    contig (ms st) -> in_contract (ms st) (logical o) -> fcoh st ->
    fstep_loaded st o = fstep H st o.
  Proof.
    intros NO C IC Co. destruct o; try reflexivity; try discriminate NO;
      cbn [fstep_loaded fstep].
    - destruct (reopen_spec H (ms st) C) as (E & _ & _ & _ & EL & _ & _ & _ & EV & _).
      rewrite E. rewrite enable_loaded_eq; [reflexivity|]. intros _. cbn [ms]. congruence.
    - cbn [step]. destruct (do_load_cases (ms st) v) as [E|[(F & _ & E)|(tv & r & L & E)]];
        rewrite E; [reflexivity| |].
      + rewrite F, with_ms_same, (enable_loaded_coh st Co). reflexivity.
      + destruct (forest (ms st)) as [|p f] eqn:F; [discriminate L|]. rewrite <- F.
        rewrite enable_loaded_coh; [reflexivity|].
        apply fcoh_clear; [reflexivity|reflexivity|exact Co].
    - cbn [logical in_contract] in IC. cbn [step].
      destruct (do_load_pos (ms st) v) as [E|(r & L & E)]; [lia| |]; rewrite E; [reflexivity|].
      assert (IR : in_range (ms st) v) by (apply (in_range_lookup _ _ C); eauto).
      destruct (lvfo_removes_exactly H (ms st) v C IR) as (r2 & _ & E2 & _ & _ & _ & EL2 & _).
      cbn [step] in E2, EL2. rewrite E2 in *. cbn [fst] in EL2.
      destruct (forest (ms st)) as [|p f] eqn:F; [discriminate L|]. rewrite <- F in *.
      set (s1 := MState r v r (forest (ms st)) (init_ver (ms st)) (init_set (ms st))
                        (init_opt (ms st))) in *.
      assert (E1 : enable_loaded (clear_unsaved (with_ms st s1)) =
                   enable_if_needed (clear_unsaved (with_ms st s1))).
      { apply enable_loaded_coh, fcoh_clear; [reflexivity|reflexivity|exact Co]. }
      rewrite E1. f_equal. apply enable_loaded_eq. intros _.
      assert (V2 : forall st', version (ms (with_ms st' (MState r2 v r2
                     (filter (fun p => fst p <=? v) (forest (ms st)))
                     (init_ver (ms st)) (init_set (ms st)) (init_opt (ms st))))) = v)
        by reflexivity.
      destruct (latest_version (ms st) <? v + 1); [cbn [with_ms ms version]; congruence|].
      destruct (mlabel (enable_if_needed (clear_unsaved (with_ms st s1))));
        cbn [with_ms ms version]; congruence.
  Qed.
End Variants.

(** ** Refutations *)
Definition xk1 : bytes := [107%N; 49%N].
Definition xk2 : bytes := [107%N; 50%N].
Definition xk3 : bytes := [107%N; 51%N].
Definition xva : bytes := [97%N].
Definition xvb : bytes := [98%N].
Definition xvc : bytes := [99%N].

Definition st_on (H : bytes -> bytes) : fstate := fst (fstep H (finit 0 false) (FOpen false)).
Definition st_off (H : bytes -> bytes) : fstate := fst (fstep H (finit 0 false) (FOpen true)).

(** [fstep_logical] / [frun_logical] need [save_honest]: with a colliding hash function an
    "idempotent" re-commit replaces the working tree by a DIFFERENT stored tree while the unsaved
    additions of the replaced tree keep being served.  (With a collision-free hash function the
    hash test of SaveVersion implies equal contents; the examples below check [save_honest]
    by computation for SHA-256.) *)
Definition ops_collide : list fop :=
  [FSet xk1 xva; FSave; FSet xk1 xvb; FSave; FLoad 1; FSet xk1 xvc; FSave; FGet xk1].

Theorem recommit_colliding_hash_refuted :
  exists (H : bytes -> bytes) (ops : list fop),
    let st0 := st_on H in
    state_inv (ms st0) /\ contig (ms st0) /\ fcoh st0 /\
    run_okb H (ms st0) (map logical ops) = true /\
    last (snd (frun H st0 ops)) XErr = XBytes (Some xvc) /\
    last (snd (run H (ms st0) (map logical ops))) XErr = XBytes (Some xvb).
Proof.
  exists (fun _ => []), ops_collide. cbv zeta.
  destruct (fgood_opened (fun _ => []) 0 false false) as [I C Co]; [unfold init_ok; lia|].
  split; [exact I|]. split; [exact C|]. split; [exact Co|].
  vm_compute. repeat split; reflexivity.
Qed.

(** (a) If LoadVersionForOverwriting kept the label while the index is off, a later history
    that reaches the same version number with different contents would be served from the
    stale index. *)
Definition ops_drop : list fop :=
  [FSet xk1 xva; FSave; FSet xk1 xvb; FSave; FOpen true; FLvfo 1; FSet xk1 xvc; FSave;
   FOpen false; FGet xk1].

Theorem drop_label_refuted :
  exists ops : list fop,
    let st0 := st_on sha256 in
    frun_okb sha256 st0 ops = true /\
    last (snd (frun_with (fstep_nodrop sha256) st0 ops)) XErr = XBytes (Some xvb) /\
    last (snd (run sha256 (ms st0) (map logical ops))) XErr = XBytes (Some xvc) /\
    last (snd (frun sha256 st0 ops)) XErr = XBytes (Some xvc).
Proof. exists ops_drop. vm_compute. repeat split; reflexivity. Qed.

(** (b) If the index were rebuilt from the loaded tree (stamped with its version, labelled with
    the latest version, as upstream did), a new tree object that loads an old version first
    would serve version 1's values for version 2: index off, two commits, then
    [FOpenAt false 1]. *)
Definition ops_loaded : list fop :=
  [FSet xk1 xva; FSave; FSet xk1 xvb; FSave; FOpenAt false 1; FGetImm 2 xk1;
   FGetVersioned xk1 2].

Theorem rebuild_from_loaded_refuted :
  exists ops : list fop,
    let st0 := st_off sha256 in
    frun_okb sha256 st0 ops = true /\
    skipn 5 (snd (frun_with (fstep_loaded sha256) st0 ops)) =
      [XBytes (Some xva); XBytes (Some xva)] /\
    skipn 5 (visible ops (snd (run sha256 (ms st0) (concat (map logical_ops ops))))) =
      [XBytes (Some xvb); XBytes (Some xvb)] /\
    skipn 5 (snd (frun sha256 st0 ops)) = [XBytes (Some xvb); XBytes (Some xvb)].
Proof. exists ops_loaded. vm_compute. repeat split; reflexivity. Qed.

(** A finding: a tree object whose first LoadVersion FAILED (or that has not loaded anything
    yet) is outside the invariant: it was created with the index on, nothing has compared the
    persisted label with the store, and GetImmutable(v).Get goes through the stale index.
    Index on, two commits, reopen with the index off, a third commit changing the key, then
    [FOpenAt false 9] (fails: no such version), then [FGetImm 3 k]: the code answers version
    2's value.  ([fin_contract] excludes failing [FOpenAt]s for this reason.) *)
Definition ops_failed : list fop :=
  [FSet xk1 xva; FSave; FSet xk1 xvb; FSave; FOpen true; FSet xk1 xvc; FSave; FOpenAt false 9;
   FGetImm 3 xk1].

Theorem openat_failed_refuted :
  exists ops : list fop,
    let st0 := st_on sha256 in
    frun_okb sha256 st0 (firstn 7 ops) = true /\
    skipn 7 (snd (frun sha256 st0 ops)) = [XErr; XBytes (Some xvb)] /\
    skipn 7 (visible ops (snd (run sha256 (ms st0) (concat (map logical_ops ops))))) =
      [XErr; XBytes (Some xvc)] /\
    let st := fst (frun sha256 st0 (firstn 8 ops)) in
    skipf st = false /\ mlabel st = Some 2 /\ latest_version (ms st) = 3.
Proof. exists ops_failed. vm_compute. repeat split; reflexivity. Qed.

(** ** Examples: a history with the index toggled across reopens, a load of an old version, an
    idempotent re-commit, a rollback, LoadVersionForOverwriting, a different re-commit of the
    same version number, pruning, and new tree objects that load a version directly (one of
    them an old version while the label is stale, so that the index is rebuilt from the latest
    version while an older one is loaded) *)
Definition ops_example : list fop :=
  [FSet xk1 xva; FSet xk2 xvb; FSave; FGet xk1; FIter; FSet xk1 xvc; FRemove xk2; FGet xk2; FIter;
   FSave; FGetImm 1 xk2; FGetVersioned xk1 1; FOpen true; FSet xk3 xva; FSave; FOpen false;
   FGet xk3; FIterImm 3; FLoad 2; FGet xk1; FIter; FSet xk3 xva; FSave; FGet xk3; FIter;
   FSet xk2 xva; FRollback; FGet xk2; FLvfo 2; FGet xk3; FIter; FSet xk1 xva; FSave; FGet xk1;
   FGetImm 3 xk1; FGetImm 2 xk1; FPrune 1; FGetVersioned xk1 2; FGetVersioned xk1 1;
   FIterImm 3; FIterImm 2;
   FOpen true; FSet xk2 xvb; FSave; FOpenAt false 3; FGet xk2; FGetImm 4 xk2;
   FGetVersioned xk2 4; FIter; FIterImm 4; FSet xk2 xvb; FSave; FGet xk2; FIter;
   FOpenAt true 2; FGet xk1; FOpenAt false 0; FGet xk2; FIter].

Definition example_trace : list (fstate * out) :=
  Eval vm_compute in ftrace sha256 (st_on sha256) ops_example.

Lemma example_trace_eq : ftrace sha256 (st_on sha256) ops_example = example_trace.
Proof. vm_compute. reflexivity. Qed.

Example example_in_contract :
  init_ok 0 false /\ frun_okb sha256 (st_on sha256) ops_example = true.
Proof.
  split; [unfold init_ok; lia|]. rewrite frun_okb_ftrace, example_trace_eq. vm_compute. reflexivity.
Qed.

Definition example_outs : list out := snd (frun sha256 (st_on sha256) ops_example).
Definition example_final : fstate := fst (frun sha256 (st_on sha256) ops_example).

(** the idempotent re-commits (23rd and 52nd operations) succeed and return the hash of the
    first commit of that version; the [FOpenAt false 3] with a stale label rebuilds the index
    for version 4 while version 3 is loaded; the index is in use at the end *)
Example example_nontrivial :
  nth 22 example_outs XErr = nth 14 example_outs XOk /\
  nth 14 example_outs XErr <> XErr /\
  nth 51 example_outs XErr = nth 43 example_outs XOk /\
  nth 43 example_outs XErr <> XErr /\
  (let st := fst (frun sha256 (st_on sha256) (firstn 45 ops_example)) in
   version (ms st) = 3 /\ latest_version (ms st) = 4 /\ dlabel st = Some 4 /\
   fidx st = [(xk1, (4, xva)); (xk2, (4, xvb))]) /\
  nth 45 example_outs XErr = XBytes None /\
  nth 46 example_outs XErr = XBytes (Some xvb) /\
  fidx example_final = [(xk1, (4, xva)); (xk2, (4, xvb))] /\
  dlabel example_final = Some 4 /\ skipf example_final = false /\
  available (ms example_final) = [2; 3; 4].
Proof.
  unfold example_outs, example_final. rewrite !frun_ftrace, ftrace_firstn, example_trace_eq.
  vm_compute. split; [reflexivity|]. split; [discriminate|]. split; [reflexivity|].
  split; [discriminate|]. repeat split; reflexivity.
Qed.

Example fcoh_init_example : fcoh (st_on sha256) /\ fcoh (st_off sha256).
Proof. split; apply fcoh_init; unfold init_ok; lia. Qed.

Lemma example_good :
  fgood example_final /\
  ms example_final =
    fst (run sha256 (ms (st_on sha256)) (concat (map logical_ops ops_example))) /\
  example_outs =
    visible ops_example
      (snd (run sha256 (ms (st_on sha256)) (concat (map logical_ops ops_example)))).
Proof.
  exact (frun_logical_from sha256 ops_example (st_on sha256)
           (fgood_opened sha256 0 false false (proj1 example_in_contract))
           (frun_okb_sound sha256 _ _ (proj2 example_in_contract))).
Qed.

Example fcoh_step_example :
  fcoh example_final /\
  fcoh (fst (fstep sha256 example_final (FSet xk2 xvb))) /\
  fcoh (fst (fstep sha256 example_final (FOpenAt false 2))).
Proof.
  destruct example_good as (G & _ & _).
  split; [exact (fg_coh _ G)|]. split.
  - apply fcoh_step; [exact (fg_inv _ G)|exact (fg_contig _ G)| |exact (fg_coh _ G)].
    split; exact Logic.I.
  - apply fcoh_step; [exact (fg_inv _ G)|exact (fg_contig _ G)| |exact (fg_coh _ G)].
    apply fin_contractb_sound. unfold example_final. rewrite frun_ftrace, example_trace_eq.
    vm_compute. reflexivity.
Qed.

Example frun_logical_example_computed :
  snd (frun sha256 (st_on sha256) ops_example) =
  visible ops_example
    (snd (run sha256 (ms (st_on sha256)) (concat (map logical_ops ops_example)))).
Proof. vm_compute. reflexivity. Qed.

Example frun_logical_example :
  example_outs =
    visible ops_example
      (snd (run sha256 (ms (st_on sha256)) (concat (map logical_ops ops_example)))) /\
  fcoh example_final.
Proof. destruct example_good as (G & _ & E). split; [exact E|exact (fg_coh _ G)]. Qed.

Example fstep_logical_example :
  let st := fst (frun sha256 (st_on sha256) (firstn 19 ops_example)) in
  (* index on, version 2 loaded while 3 is the latest *)
  skipf st = false /\ version (ms st) = 2 /\ latest_version (ms st) = 3 /\
  snd (fstep sha256 st (FGet xk3)) = XBytes None /\
  snd (fstep sha256 st (FGet xk3)) = snd (step sha256 (ms st) (logical (FGet xk3))) /\
  snd (fstep sha256 st (FGetImm 3 xk3)) = XBytes (Some xva) /\
  snd (fstep sha256 st (FGetImm 3 xk3)) = snd (step sha256 (ms st) (logical (FGetImm 3 xk3))).
Proof.
  rewrite frun_ftrace, ftrace_firstn, example_trace_eq. vm_compute. repeat split; reflexivity.
Qed.

Example fstep_logical_openat_example :
  let st := fst (frun sha256 (st_on sha256) (firstn 44 ops_example)) in
  (* index off, label stale: Some 3 while 4 is the latest *)
  skipf st = true /\ dlabel st = Some 3 /\ latest_version (ms st) = 4 /\
  snd (do_load (fresh_ms (ms st)) 2) <> XErr /\
  ms (fst (fstep sha256 st (FOpenAt false 2))) = fst (run sha256 (ms st) [OReopen; OLoad 2]) /\
  snd (fstep sha256 st (FOpenAt false 2)) = XInt 4 /\
  last (snd (run sha256 (ms st) [OReopen; OLoad 2])) XErr = XInt 4 /\
  dlabel (fst (fstep sha256 st (FOpenAt false 2))) = Some 4 /\
  (* a failing one: the object stays unloaded *)
  fstep sha256 st (FOpenAt false 7) =
    (FS (fresh_ms (ms st)) (fidx st) (dlabel st) (dlabel st) false [] [], XErr).
Proof.
  rewrite frun_ftrace, ftrace_firstn, example_trace_eq.
  vm_compute. split; [reflexivity|]. split; [reflexivity|]. split; [reflexivity|].
  split; [discriminate|]. repeat split; reflexivity.
Qed.

Example idx_valid_example :
  mapv (fun e : Z * bytes => snd e) (fidx example_final) = oelems (ltree (ms example_final)).
Proof.
  unfold example_final. rewrite frun_ftrace, example_trace_eq. vm_compute. reflexivity.
Qed.

Print Assumptions fcoh_init.
Print Assumptions fcoh_step.
Print Assumptions fstep_logical.
Print Assumptions fstep_logical_openat.
Print Assumptions fstep_openat_error.
Print Assumptions frun_logical.
Print Assumptions frun_logical_from_init.
Print Assumptions recommit_colliding_hash_refuted.
Print Assumptions drop_label_refuted.
Print Assumptions rebuild_from_loaded_refuted.
Print Assumptions openat_failed_refuted.
Print Assumptions rebuild_from_loaded_unobservable.
