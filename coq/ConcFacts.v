(** C06: committed versions can be read concurrently with the writer.
    Theorems about the interleaving model Conc.v.

    For every schedule, writer program and reader programs, [out_ok] says what a completed
    Get or iteration on version v can return: the contents of v as of its commit; or, for Get,
    "absent", when its fast-node read came after the batch of a newer version was written
    while latestVersion still said v; or, for an iteration, the contents of a newer version,
    when latestVersion said v and the fast iterator was created after that newer batch.  Both
    really happen ([commit_window_refuted]): Commit() and resetLatestVersion() are two
    critical sections.  Publishing inside the critical section of the batch write repairs
    Get; the iterator additionally needs its latestVersion check and its creation to be
    atomic.  Last come the version pins against DeleteVersionsTo and the footprints of the
    steps.  Go memory-model data races are not expressible in this model (see Conc.v). *)
From IAVL Require Import Bytes Tree VMap MTree MTreeFacts Conc.
Local Open Scope Z_scope.

Lemma lookup_bound {A} (h : list (Z * A)) b v a :
  Forall (fun e => fst e <= b) h -> lookup v h = Some a -> v <= b.
Proof.
  intros F L. apply lookup_In in L. rewrite Forall_forall in F. apply (F _ L).
Qed.

Lemma assoc_fast_kvs k f : assoc k (fast_kvs f) = option_map snd (fassoc k f).
Proof.
  induction f as [|[k' [u val]] f IH]; [reflexivity|].
  cbn [fast_kvs map fst snd assoc fassoc]. destruct (beq k k'); [reflexivity|exact IH].
Qed.

Lemma fast_kvs_refresh v old c : fast_kvs (refresh v old c) = c.
Proof.
  unfold fast_kvs, refresh. rewrite map_map. cbn [fst snd].
  induction c as [|[k val] c IH]; [reflexivity|]. cbn [map fst snd]. rewrite IH. reflexivity.
Qed.

Lemma fassoc_refresh v old c k u val :
  fassoc k (refresh v old c) = Some (u, val) ->
  assoc k c = Some val /\
  (u = v \/ fassoc k old = Some (u, val)).
Proof.
  induction c as [|[k' val'] c IH]; [discriminate|].
  cbn [refresh map fst snd fassoc assoc]. destruct (beq k k') eqn:E.
  - btests. subst k'. intros H. inversion H; subst. split; [reflexivity|].
    destruct (fassoc k old) as [[u0 val0]|]; [|left; reflexivity].
    destruct (beq val val0) eqn:E2; [|left; reflexivity]. btests. subst. right. reflexivity.
  - exact IH.
Qed.

Record inv (sh : shared) : Prop := Inv {
  i_bound : Forall (fun e => fst e <= sh_batch sh) (sh_hist sh);
  i_forest : forall v c, lookup v (sh_forest sh) = Some c -> lookup v (sh_hist sh) = Some c;
  i_pub : sh_latest sh <= sh_batch sh;
  i_fast_all : lookup (sh_batch sh) (sh_hist sh) = Some (fast_kvs (sh_fast sh));
  i_fast_each : forall k u val, fassoc k (sh_fast sh) = Some (u, val) ->
      u <= sh_batch sh /\
      forall w c, u <= w <= sh_batch sh -> lookup w (sh_hist sh) = Some c -> assoc k c = Some val
}.

Definition ext (sh sh' : shared) : Prop :=
  sh_batch sh <= sh_batch sh' /\
  forall v, v <= sh_batch sh -> lookup v (sh_hist sh') = lookup v (sh_hist sh).

Lemma ext_refl sh : ext sh sh.
Proof. split; [lia|reflexivity]. Qed.

Lemma inv_init : inv init_shared.
Proof.
  split; cbn.
  - constructor; [cbn; lia|constructor].
  - discriminate.
  - lia.
  - reflexivity.
  - discriminate.
Qed.

Lemma commit_batch_inv sh c : inv sh -> inv (commit_batch sh c) /\ ext sh (commit_batch sh c).
Proof.
  intros I. destruct I as [IB IF IP IA IE].
  set (v := sh_batch sh + 1).
  assert (NV : lookup v (sh_hist sh) = None) by (apply (lookup_above _ (sh_batch sh)); [exact IB|unfold v; lia]).
  assert (LS : forall w, lookup w (sh_hist sh ++ [(v, c)]) = if w =? v then Some c else lookup w (sh_hist sh)).
  { intros w. apply lookup_snoc. exact NV. }
  split.
  - split; unfold commit_batch; cbn [sh_forest sh_fast sh_latest sh_pins sh_hist sh_batch]; fold v.
    + apply Forall_app. split.
      * eapply Forall_impl; [|exact IB]. cbn. intros e He. unfold v. lia.
      * constructor; [cbn; lia|constructor].
    + intros w cw L. rewrite LS.
      assert (NF : lookup v (sh_forest sh) = None).
      { destruct (lookup v (sh_forest sh)) as [x|] eqn:Lf; [|reflexivity]. rewrite (IF _ _ Lf) in NV. discriminate. }
      rewrite lookup_snoc in L by exact NF.
      destruct (w =? v); [exact L|]. apply IF, L.
    + unfold v. lia.
    + rewrite LS, Z.eqb_refl, fast_kvs_refresh. reflexivity.
    + intros k u val Fk. apply fassoc_refresh in Fk. destruct Fk as [Ak Cases]. split.
      * destruct Cases as [->|Fold]; [lia|]. destruct (IE _ _ _ Fold) as [Hu _]. unfold v. lia.
      * intros w cw Hw L. rewrite LS in L. destruct (w =? v) eqn:Ew; [inversion L; subst; exact Ak|].
        apply Z.eqb_neq in Ew. pose proof (lookup_bound _ _ _ _ IB L) as Hb.
        destruct Cases as [->|Fold]; [unfold v in *; lia|].
        destruct (IE _ _ _ Fold) as [_ Hall]. apply (Hall w cw); [lia|exact L].
  - split; unfold commit_batch; cbn [sh_hist sh_batch]; [lia|].
    intros w Hw. fold v. rewrite LS. destruct (Z.eqb_spec w v); [unfold v in *; lia|reflexivity].
Qed.

Lemma publish_inv sh : inv sh -> inv (publish sh) /\ ext sh (publish sh).
Proof.
  intros [IB IF IP IA IE]. split; [|split; cbn; [lia|reflexivity]].
  split; unfold publish; cbn [sh_forest sh_fast sh_latest sh_pins sh_hist sh_batch]; auto. lia.
Qed.

Lemma prune_del_inv sh n : inv sh -> inv (prune_del sh n) /\ ext sh (prune_del sh n).
Proof.
  intros [IB IF IP IA IE]. split; [|split; cbn; [lia|reflexivity]].
  split; unfold prune_del; cbn [sh_forest sh_fast sh_latest sh_pins sh_hist sh_batch]; auto.
  intros v c L. rewrite lookup_filter_gt in L. destruct (n <? v); [auto|discriminate].
Qed.

Lemma ext_trans a b c : ext a b -> ext b c -> ext a c.
Proof.
  intros [L1 E1] [L2 E2]. split; [lia|]. intros v Hv. rewrite E2 by lia. apply E1, Hv.
Qed.

Lemma wexec_inv sh ok s :
  inv sh -> inv (fst (fst (wexec sh ok s))) /\ ext sh (fst (fst (wexec sh ok s))).
Proof.
  intros I. destruct s as [c| |c|n|n]; cbn [wexec fst].
  - apply commit_batch_inv, I.
  - apply publish_inv, I.
  - destruct (commit_batch_inv sh c I) as [I1 E1]. destruct (publish_inv _ I1) as [I2 E2].
    split; [exact I2|eapply ext_trans; eauto].
  - split; [exact I|apply ext_refl].
  - destruct ok; cbn [fst]; [apply prune_del_inv, I|split; [exact I|apply ext_refl]].
Qed.

(** [right]: the contents of its version as of its commit.  The only other possibilities:
    - Get: "absent", when the fast node was read after the batch of a NEWER version was
      written ([v < b1]) and latestVersion still said [v] ([lat = Some v]);
    - iteration: the contents of a NEWER version [b2], when latestVersion said [v] and the
      iterator was created after the batch of [b2] was written. *)
Definition out_ok (h : list (Z * kvs)) (o : rout) : Prop :=
  match o with
  | OGet v k r b1 lat =>
      exists c, lookup v h = Some c /\
                (r = assoc k c \/ (v < b1 /\ lat = Some v /\ r = None))
  | OIter v r lat b2 =>
      exists c, lookup v h = Some c /\
                (r = c \/ (lat = v /\ v < b2 /\ lookup b2 h = Some r))
  | _ => True
  end.

Definition pc_ok (sh : shared) (p : rpc) : Prop :=
  match p with
  | PGetLatest v k b1 =>
      (exists c, lookup v (sh_hist sh) = Some c) /\ v <= b1 <= sh_batch sh /\
      (forall c1, lookup b1 (sh_hist sh) = Some c1 -> assoc k c1 = None)
  | PIterScan v lat =>
      lat = v /\ (exists c, lookup v (sh_hist sh) = Some c)
  | _ => True
  end.

Lemma ext_lookup sh sh' v c :
  inv sh -> ext sh sh' -> lookup v (sh_hist sh) = Some c -> lookup v (sh_hist sh') = Some c.
Proof.
  intros I [_ E] L. rewrite E; [exact L|]. eapply lookup_bound; [apply (i_bound _ I)|exact L].
Qed.

Lemma out_ok_ext sh sh' o : inv sh -> ext sh sh' -> out_ok (sh_hist sh) o -> out_ok (sh_hist sh') o.
Proof.
  intros I E H. pose proof (fun v c => ext_lookup sh sh' v c I E) as X.
  destruct o as [v k r b1 lat|v r lat b2| | |]; cbn [out_ok] in *; auto.
  - destruct H as (c & L & Cases). exists c. split; [apply X, L|exact Cases].
  - destruct H as (c & L & Cases). exists c. split; [apply X, L|].
    destruct Cases as [->|(A & B & C)]; [left; reflexivity|right; auto].
Qed.

Lemma pc_ok_ext sh sh' p : inv sh -> ext sh sh' -> pc_ok sh p -> pc_ok sh' p.
Proof.
  intros I E H. pose proof (fun v c => ext_lookup sh sh' v c I E) as X. destruct E as [Lb E].
  destruct p as [|v k b1|v k b1 lat|v lat|v lat]; cbn [pc_ok] in *; auto.
  - destruct H as ((c & L) & Hb & N). split; [eauto|]. split; [lia|].
    intros c1 L1. apply N. rewrite <- E; [exact L1|lia].
  - destruct H as (-> & (c & L)). eauto.
Qed.

Lemma has_version_hist sh v :
  inv sh -> has_version v (sh_forest sh) = true -> exists c, lookup v (sh_hist sh) = Some c.
Proof.
  intros I H. unfold has_version in H. destruct (lookup v (sh_forest sh)) as [c|] eqn:L; [|discriminate].
  exists c. apply (i_forest _ I), L.
Qed.

Definition same_but_pins (sh sh' : shared) : Prop :=
  sh_forest sh' = sh_forest sh /\ sh_fast sh' = sh_fast sh /\ sh_latest sh' = sh_latest sh /\
  sh_hist sh' = sh_hist sh /\ sh_batch sh' = sh_batch sh.

(** Every step of [rstep], with what the reader found.  The invariants below are proved by cases
    on this relation; [T_err], [T_pins], [T_get_newer] and [T_iter_slow] stand for several branches
    each and keep only what those proofs need. *)
Inductive rtrans (sh : shared) (r : rstate) : shared -> rstate -> Prop :=
| T_idle : r_pc r = PIdle -> r_prog r = [] -> rtrans sh r sh r
| T_err v : rtrans sh r sh (r_done r (OErr v))
| T_pins p v o : o = OPin v \/ o = OUnpin v -> rtrans sh r (set_pins sh p) (r_done r o)
| T_get_fast v k rest u val :
    r_pc r = PIdle -> r_prog r = RGet v k :: rest -> has_version v (sh_forest sh) = true ->
    fassoc k (sh_fast sh) = Some (u, val) -> u <= v ->
    rtrans sh r sh (r_done r (OGet v k (Some val) (sh_batch sh) None))
| T_get_newer v k rest :
    r_pc r = PIdle -> r_prog r = RGet v k :: rest ->
    rtrans sh r sh (r_goto r (PGetWalk v k (sh_batch sh) None))
| T_get_nil v k rest :
    r_pc r = PIdle -> r_prog r = RGet v k :: rest -> has_version v (sh_forest sh) = true ->
    fassoc k (sh_fast sh) = None ->
    rtrans sh r sh (r_goto r (PGetLatest v k (sh_batch sh)))
| T_latest_same v k b1 :
    r_pc r = PGetLatest v k b1 -> v = sh_latest sh ->
    rtrans sh r sh (r_done r (OGet v k None b1 (Some (sh_latest sh))))
| T_latest_other v k b1 :
    r_pc r = PGetLatest v k b1 -> v <> sh_latest sh ->
    rtrans sh r sh (r_goto r (PGetWalk v k b1 (Some (sh_latest sh))))
| T_get_walk v k b1 lat c :
    r_pc r = PGetWalk v k b1 lat -> lookup v (sh_forest sh) = Some c ->
    rtrans sh r sh (r_done r (OGet v k (assoc k c) b1 lat))
| T_iter_fast v rest :
    r_pc r = PIdle -> r_prog r = RIter v :: rest -> has_version v (sh_forest sh) = true ->
    v = sh_latest sh ->
    rtrans sh r sh (r_goto r (PIterScan v (sh_latest sh)))
| T_iter_slow v :
    r_pc r = PIdle -> v <> sh_latest sh ->
    rtrans sh r sh (r_goto r (PIterWalk v (sh_latest sh)))
| T_iter_atomic v rest :
    r_pc r = PIdle -> r_prog r = RIterAtomic v :: rest -> has_version v (sh_forest sh) = true ->
    v = sh_latest sh ->
    rtrans sh r sh (r_done r (OIter v (fast_kvs (sh_fast sh)) (sh_latest sh) (sh_batch sh)))
| T_scan v lat :
    r_pc r = PIterScan v lat ->
    rtrans sh r sh (r_done r (OIter v (fast_kvs (sh_fast sh)) lat (sh_batch sh)))
| T_iter_walk v lat c :
    r_pc r = PIterWalk v lat -> lookup v (sh_forest sh) = Some c ->
    rtrans sh r sh (r_done r (OIter v c lat (sh_batch sh))).

Lemma rstep_rtrans sh r : rtrans sh r (fst (rstep sh r)) (snd (rstep sh r)).
Proof.
  destruct r as [prog pc out]. unfold rstep. cbn [r_pc r_prog].
  destruct pc as [|v k b1|v k b1 lat|v lat|v lat].
  - destruct prog as [|[v k|v|v|v|v] rest]; [apply T_idle; reflexivity|..];
      try (destruct (has_version v (sh_forest sh)) eqn:HV; cbn [negb fst snd]; [|apply T_err]).
    + destruct (fassoc k (sh_fast sh)) as [[u val]|] eqn:Fk; [destruct (u <=? v) eqn:Le|]; cbn [fst snd].
      * apply Z.leb_le in Le. eapply T_get_fast; first [reflexivity|eassumption].
      * eapply T_get_newer; reflexivity.
      * eapply T_get_nil; first [reflexivity|eassumption].
    + destruct (Z.eqb_spec v (sh_latest sh)) as [E|E]; cbn [fst snd].
      * eapply T_iter_fast; first [reflexivity|eassumption].
      * apply T_iter_slow; [reflexivity|exact E].
    + destruct (Z.eqb_spec v (sh_latest sh)) as [E|E]; cbn [fst snd].
      * eapply T_iter_atomic; first [reflexivity|eassumption].
      * apply T_iter_slow; [reflexivity|exact E].
    + apply (T_pins _ _ _ v). left. reflexivity.
    + apply (T_pins _ _ _ v). right. reflexivity.
  - destruct (Z.eqb_spec v (sh_latest sh)) as [E|E]; cbn [fst snd].
    + eapply T_latest_same; first [reflexivity|eassumption].
    + eapply T_latest_other; first [reflexivity|eassumption].
  - destruct (lookup v (sh_forest sh)) as [c|] eqn:L; cbn [fst snd]; [eapply T_get_walk; first [reflexivity|eassumption]|apply T_err].
  - eapply T_scan; reflexivity.
  - destruct (lookup v (sh_forest sh)) as [c|] eqn:L; cbn [fst snd]; [eapply T_iter_walk; first [reflexivity|eassumption]|apply T_err].
Qed.

Lemma rtrans_frame sh r sh' r' : rtrans sh r sh' r' -> same_but_pins sh sh'.
Proof. destruct 1; repeat split. Qed.

Lemma rstep_frame sh r : same_but_pins sh (fst (rstep sh r)).
Proof. exact (rtrans_frame _ _ _ _ (rstep_rtrans sh r)). Qed.

Lemma Forall_snoc {A} (P : A -> Prop) l x : Forall P l -> P x -> Forall P (l ++ [x]).
Proof. intros F Px. apply Forall_app. split; [exact F|constructor; [exact Px|constructor]]. Qed.

Definition r_ok (sh : shared) (r : rstate) : Prop :=
  pc_ok sh (r_pc r) /\ Forall (out_ok (sh_hist sh)) (r_out r).

(** the fast index describes the newest batch: a scan of it on behalf of [v] is right when [v]
    is that batch and otherwise shows the newer one *)
Lemma scan_ok sh v c :
  inv sh -> lookup v (sh_hist sh) = Some c ->
  out_ok (sh_hist sh) (OIter v (fast_kvs (sh_fast sh)) v (sh_batch sh)).
Proof.
  intros I Lc. exists c. split; [exact Lc|].
  pose proof (lookup_bound _ _ _ _ (i_bound _ I) Lc) as Hb.
  destruct (Z.eq_dec v (sh_batch sh)) as [Eb|Nb].
  - left. rewrite Eb, (i_fast_all _ I) in Lc. inversion Lc. reflexivity.
  - right. split; [reflexivity|]. split; [lia|]. apply (i_fast_all _ I).
Qed.

Lemma rtrans_ok sh r sh' r' : inv sh -> r_ok sh r -> rtrans sh r sh' r' -> r_ok sh r'.
Proof.
  intros I [PC OUT] T.
  assert (DONE : forall o, out_ok (sh_hist sh) o -> r_ok sh (r_done r o)).
  { intros o Ho. split; [exact Logic.I|apply Forall_snoc; assumption]. }
  assert (GOTO : forall p, pc_ok sh p -> r_ok sh (r_goto r p)) by (intros p Hp; split; assumption).
  destruct T as [| |p v o [-> | ->]|v k rest u val Ep _ HV Fk Le| |v k rest Ep _ HV Fk|v k b1 Ep E|
                 |v k b1 lat c Ep L|v rest _ _ HV E| |v rest _ _ HV E|v lat Ep|v lat c Ep L];
    try (apply DONE; exact Logic.I); try (apply GOTO; exact Logic.I);
    try rewrite Ep in PC; cbn [pc_ok] in PC.
  - (* T_idle *) split; assumption.
  - (* T_get_fast *) destruct (has_version_hist sh v I HV) as (c & Lc). destruct (i_fast_each _ I _ _ _ Fk) as [Hu Hall].
    apply DONE. exists c. split; [exact Lc|]. left. symmetry. apply (Hall v c); [|exact Lc].
    pose proof (lookup_bound _ _ _ _ (i_bound _ I) Lc). lia.
  - (* T_get_nil *) destruct (has_version_hist sh v I HV) as (c & Lc).
    apply GOTO. split; [eauto|]. pose proof (lookup_bound _ _ _ _ (i_bound _ I) Lc). split; [lia|].
    intros c1 L1. rewrite (i_fast_all _ I) in L1. inversion L1; subst.
    rewrite assoc_fast_kvs, Fk. reflexivity.
  - (* T_latest_same *) destruct PC as ((c & Lc) & Hb & N).
    apply DONE. exists c. split; [exact Lc|]. destruct (Z.eq_dec v b1) as [Eb|Nb].
    + left. subst b1. symmetry. apply N, Lc.
    + right. split; [lia|]. split; [rewrite <- E; reflexivity|reflexivity].
  - (* T_get_walk *) apply DONE. exists c. split; [apply (i_forest _ I), L|left; reflexivity].
  - (* T_iter_fast *) apply GOTO. split; [symmetry; exact E|apply has_version_hist; assumption].
  - (* T_iter_atomic *) destruct (has_version_hist sh v I HV) as (c & Lc). apply DONE. rewrite <- E. eapply scan_ok; eauto.
  - (* T_scan *) destruct PC as (-> & (c & Lc)). apply DONE. eapply scan_ok; eauto.
  - (* T_iter_walk *) apply DONE. exists c. split; [apply (i_forest _ I), L|left; reflexivity].
Qed.

Definition ginv (s : cstate) : Prop :=
  inv (c_sh s) /\ Forall (r_ok (c_sh s)) (c_rs s).

Lemma same_but_pins_inv sh sh' : same_but_pins sh sh' -> inv sh -> inv sh'.
Proof.
  intros (Ef & Ea & El & Eh & Eb) [IB IF IP IA IE].
  split; rewrite ?Ef, ?Ea, ?El, ?Eh, ?Eb; assumption.
Qed.

Lemma same_but_pins_ext sh sh' : same_but_pins sh sh' -> ext sh sh'.
Proof. intros (_ & _ & _ & Eh & Eb). unfold ext. rewrite Eh, Eb. split; [lia|reflexivity]. Qed.

Lemma r_ok_ext sh sh' r : inv sh -> ext sh sh' -> r_ok sh r -> r_ok sh' r.
Proof.
  intros I E [PC OUT]. split; [apply (pc_ok_ext sh); assumption|].
  eapply Forall_impl; [|exact OUT]. intros o. apply out_ok_ext; assumption.
Qed.

Lemma Forall_upd_nth {A} (P : A -> Prop) i x l : Forall P l -> P x -> Forall P (upd_nth i x l).
Proof.
  revert i. induction l as [|y l IH]; intros i F Px; [destruct i; constructor|].
  inversion F; subst. destruct i; cbn [upd_nth]; constructor; auto.
Qed.

Lemma nth_error_Forall {A} (P : A -> Prop) l i x : Forall P l -> nth_error l i = Some x -> P x.
Proof. intros F E. apply nth_error_In in E. rewrite Forall_forall in F. auto. Qed.

Lemma sched_step_inv tid s :
  ginv s -> ginv (sched_step tid s) /\ ext (c_sh s) (c_sh (sched_step tid s)).
Proof.
  intros [I RS].
  assert (KEEP : forall sh' w rs, inv sh' -> ext (c_sh s) sh' ->
            (Forall (r_ok sh') (c_rs s) -> Forall (r_ok sh') rs) ->
            ginv (CState sh' w rs) /\ ext (c_sh s) sh').
  { intros sh' w rs I' E K. split; [split; [exact I'|]|exact E]. apply K.
    eapply Forall_impl; [|exact RS]. intros r. apply r_ok_ext; assumption. }
  destruct tid as [|i]; cbn [sched_step].
  - unfold wstep_thread. destruct (w_prog (c_w s)) as [|st rest]; [split; [split; assumption|apply ext_refl]|].
    destruct (wexec_inv (c_sh s) (w_ok (c_w s)) st I) as [I' E].
    destruct (wexec (c_sh s) (w_ok (c_w s)) st) as [[sh' ok'] o]. apply KEEP; auto.
  - destruct (nth_error (c_rs s) i) as [r|] eqn:N; [|split; [split; assumption|apply ext_refl]].
    pose proof (rstep_rtrans (c_sh s) r) as T. pose proof (rtrans_frame _ _ _ _ T) as SP.
    pose proof (rtrans_ok _ _ _ _ I (nth_error_Forall _ _ _ _ RS N) T) as R'.
    destruct (rstep (c_sh s) r) as [sh' r']. cbn [fst snd] in *.
    pose proof (same_but_pins_ext _ _ SP) as E.
    apply KEEP; [eapply same_but_pins_inv; eauto|exact E|].
    intros RS'. apply Forall_upd_nth; [exact RS'|]. apply (r_ok_ext (c_sh s)); assumption.
Qed.

Lemma sched_step_ginv tid s : ginv s -> ginv (sched_step tid s).
Proof. apply sched_step_inv. Qed.

Lemma run_schedule_ginv sched : forall s, ginv s -> ginv (run_schedule sched s).
Proof.
  unfold run_schedule. induction sched as [|tid sched IH]; intros s G; [exact G|].
  cbn [fold_left]. apply IH, sched_step_ginv, G.
Qed.

Lemma ginv_init wp rps : ginv (init_cstate wp rps).
Proof.
  split; cbn [init_cstate c_sh c_rs]; [exact inv_init|].
  apply Forall_forall. intros r Hr. apply in_map_iff in Hr. destruct Hr as (p & <- & _).
  split; cbn; [exact Logic.I|constructor].
Qed.

Lemma all_outs_ok s : ginv s -> forall o, In o (all_outs s) -> out_ok (sh_hist (c_sh s)) o.
Proof.
  intros [_ RS] o Ho. unfold all_outs in Ho. apply in_flat_map in Ho. destruct Ho as (r & Hr & Hor).
  rewrite Forall_forall in RS. destruct (RS r Hr) as [_ OUT]. rewrite Forall_forall in OUT. auto.
Qed.

(** Every interleaving of a writer running ANY program (commits in the real or the variant
    protocol, prunes) with any number of readers: what every completed read returned. *)
Theorem reads_outcomes wp rps sched :
  let s := run_schedule sched (init_cstate wp rps) in
  forall o, In o (all_outs s) -> out_ok (sh_hist (c_sh s)) o.
Proof. cbv zeta. apply all_outs_ok, run_schedule_ginv, ginv_init. Qed.

(** The reads that are safe in the real protocol, in terms of what the reader itself saw:
    a Get that did not see its own version as latestVersion (it did not look, or saw another
    value), and an iteration that saw another latestVersion, return exactly the contents of
    their version as of its commit. *)
Theorem reads_linearize_safe wp rps sched :
  let s := run_schedule sched (init_cstate wp rps) in
  (forall v k r b1 lat, In (OGet v k r b1 lat) (all_outs s) -> lat <> Some v ->
     exists c, lookup v (sh_hist (c_sh s)) = Some c /\ r = assoc k c) /\
  (forall v r lat b2, In (OIter v r lat b2) (all_outs s) -> lat <> v ->
     exists c, lookup v (sh_hist (c_sh s)) = Some c /\ r = c) /\
  (* ghost view: the fast node was read / the iterator created while v was the newest batch *)
  (forall v k r lat, In (OGet v k r v lat) (all_outs s) ->
     exists c, lookup v (sh_hist (c_sh s)) = Some c /\ r = assoc k c) /\
  (forall v r lat, In (OIter v r lat v) (all_outs s) ->
     exists c, lookup v (sh_hist (c_sh s)) = Some c /\ r = c) /\
  (* a Get never invents a value: the only wrong answer is "absent" *)
  (forall v k r b1 lat val, In (OGet v k r b1 lat) (all_outs s) -> r = Some val ->
     exists c, lookup v (sh_hist (c_sh s)) = Some c /\ assoc k c = Some val).
Proof.
  cbv zeta. pose proof (reads_outcomes wp rps sched) as RO. cbv zeta in RO.
  split; [|split; [|split; [|split]]].
  - intros v k r b1 lat Hin Hl. destruct (RO _ Hin) as (c & L & [->|(_ & E & _)]); [eauto|congruence].
  - intros v r lat b2 Hin Hl. destruct (RO _ Hin) as (c & L & [->|(E & _)]); [eauto|congruence].
  - intros v k r lat Hin. destruct (RO _ Hin) as (c & L & [->|(E & _)]); [eauto|lia].
  - intros v r lat Hin. destruct (RO _ Hin) as (c & L & [->|(_ & E & _)]); [eauto|lia].
  - intros v k r b1 lat val Hin ->. destruct (RO _ Hin) as (c & L & [E|(_ & _ & E)]); [eauto|discriminate].
Qed.

(** * The variant protocol: publish inside the critical section of the batch write *)
Definition out_right (h : list (Z * kvs)) (o : rout) : Prop :=
  match o with
  | OGet v k r _ _ => exists c, lookup v h = Some c /\ r = assoc k c
  | OIter v r _ _ => exists c, lookup v h = Some c /\ r = c
  | _ => True
  end.

Definition wvariant (s : wstep) : bool :=
  match s with WCommitBatch _ | WPublish => false | _ => true end.
Definition rvariant (o : rop) : bool := match o with RIter _ => false | _ => true end.

(** published = batch, and the writer will keep it so *)
Definition vbase (s : cstate) : Prop :=
  sh_latest (c_sh s) = sh_batch (c_sh s) /\ forallb wvariant (w_prog (c_w s)) = true.

(** Get part: the latestVersion a Get saw is at least the batch version its fast read saw *)
Definition out_vg (o : rout) : Prop :=
  match o with OGet _ _ _ b1 (Some lat) => b1 <= lat | _ => True end.
Definition pc_vg (p : rpc) : Prop :=
  match p with PGetWalk _ _ b1 (Some lat) => b1 <= lat | _ => True end.
Definition r_vg (r : rstate) : Prop := pc_vg (r_pc r) /\ Forall out_vg (r_out r).

(** Iterator part (needs the atomic creation): an iteration that saw its own version as
    latestVersion was created while it was the batch version *)
Definition out_vi (o : rout) : Prop :=
  match o with OIter v _ lat b2 => lat = v -> b2 = v | _ => True end.
Definition pc_vi (p : rpc) : Prop :=
  match p with PIterScan _ _ => False | PIterWalk v lat => lat <> v | _ => True end.
Definition r_vi (r : rstate) : Prop :=
  forallb rvariant (r_prog r) = true /\ pc_vi (r_pc r) /\ Forall out_vi (r_out r).

Lemma forallb_tl {A} (f : A -> bool) l : forallb f l = true -> forallb f (tl l) = true.
Proof. destruct l; cbn; [auto|]. intros H. apply andb_true_iff in H. tauto. Qed.

Lemma rtrans_vg sh r sh' r' :
  sh_latest sh = sh_batch sh -> pc_ok sh (r_pc r) -> r_vg r -> rtrans sh r sh' r' -> r_vg r'.
Proof.
  intros PB PC (VC & VO) T.
  assert (DONE : forall o, out_vg o -> r_vg (r_done r o)).
  { intros o Ho. split; [exact Logic.I|apply Forall_snoc; assumption]. }
  assert (GOTO : forall p, pc_vg p -> r_vg (r_goto r p)) by (intros p Hp; split; assumption).
  destruct T as [| |p v o [-> | ->]| | | |v k b1 Ep E|v k b1 Ep E|v k b1 lat c Ep L| | | | |];
    try (apply DONE; exact Logic.I); try (apply GOTO; exact Logic.I);
    try rewrite Ep in PC, VC; cbn [pc_ok pc_vg] in PC, VC.
  - (* T_idle *) split; assumption.
  - (* T_latest_same *) apply DONE. cbn [out_vg]. destruct PC as (_ & Hb & _). lia.
  - (* T_latest_other *) apply GOTO. cbn [pc_vg]. destruct PC as (_ & Hb & _). lia.
  - (* T_get_walk *) apply DONE. destruct lat; [exact VC|exact Logic.I].
Qed.

Lemma rtrans_vi sh r sh' r' :
  sh_latest sh = sh_batch sh -> r_vi r -> rtrans sh r sh' r' -> r_vi r'.
Proof.
  intros PB (VP & VC & VO) T.
  assert (DONE : forall o, out_vi o -> r_vi (r_done r o)).
  { intros o Ho. split; [apply forallb_tl, VP|]. split; [exact Logic.I|apply Forall_snoc; assumption]. }
  assert (GOTO : forall p, pc_vi p -> r_vi (r_goto r p)) by (intros p Hp; repeat split; assumption).
  destruct T as [| |p v o [-> | ->]| | | | | | |v rest _ Eg _ _|v _ N|v rest _ _ _ E|v lat Ep|v lat c Ep L];
    try (apply DONE; exact Logic.I); try (apply GOTO; exact Logic.I);
    try rewrite Ep in VC; cbn [pc_vi] in VC.
  - (* T_idle *) repeat split; assumption.
  - (* T_iter_fast *) rewrite Eg in VP. discriminate.
  - (* T_iter_slow *) apply GOTO. cbn [pc_vi]. congruence.
  - (* T_iter_atomic *) apply DONE. intros _. congruence.
  - (* T_scan *) contradiction.
  - (* T_iter_walk *) apply DONE. intros E. congruence.
Qed.

Lemma wexec_v sh ok s :
  wvariant s = true -> sh_latest sh = sh_batch sh ->
  sh_latest (fst (fst (wexec sh ok s))) = sh_batch (fst (fst (wexec sh ok s))).
Proof.
  destruct s as [c| |c|n|n]; cbn [wvariant wexec fst]; intros V PB; try discriminate; auto.
  destruct ok; cbn [fst prune_del sh_latest sh_batch]; exact PB.
Qed.

(** [Q]: a property of single readers that reader steps preserve while published = batch.
    The scheduler keeps [vbase] and [Forall Q]. *)
Section PerReader.
  Variable Q : rstate -> Prop.
  Hypothesis HQ : forall sh r sh' r', sh_latest sh = sh_batch sh -> pc_ok sh (r_pc r) -> Q r ->
    rtrans sh r sh' r' -> Q r'.

  Lemma sched_step_v tid s :
    ginv s -> vbase s -> Forall Q (c_rs s) ->
    vbase (sched_step tid s) /\ Forall Q (c_rs (sched_step tid s)).
  Proof.
    intros [I RS] (PB & VW) VR. destruct tid as [|i]; cbn [sched_step].
    - unfold wstep_thread. destruct (w_prog (c_w s)) as [|st rest] eqn:EP.
      { unfold vbase. cbn [c_sh c_w c_rs]. rewrite EP. auto. }
      cbn [forallb] in VW. apply andb_true_iff in VW. destruct VW as [V1 V2].
      pose proof (wexec_v (c_sh s) (w_ok (c_w s)) st V1 PB) as PB'.
      destruct (wexec (c_sh s) (w_ok (c_w s)) st) as [[sh' ok'] o]. cbn [fst] in *.
      split; [split; [exact PB'|exact V2]|exact VR].
    - destruct (nth_error (c_rs s) i) as [r|] eqn:N; [|unfold vbase; auto].
      destruct (nth_error_Forall _ _ _ _ RS N) as [PC _].
      pose proof (rstep_rtrans (c_sh s) r) as T.
      destruct (rtrans_frame _ _ _ _ T) as (_ & _ & El & _ & Eb).
      pose proof (HQ _ _ _ _ PB PC (nth_error_Forall _ _ _ _ VR N) T) as Vr'.
      destruct (rstep (c_sh s) r) as [sh' r']. cbn [fst snd] in *.
      split; cbn [c_sh c_w c_rs]; [split; [cbn [c_sh]; congruence|exact VW]|].
      apply Forall_upd_nth; assumption.
  Qed.

  Lemma run_schedule_v sched : forall s,
    ginv s -> vbase s -> Forall Q (c_rs s) -> Forall Q (c_rs (run_schedule sched s)).
  Proof.
    unfold run_schedule. induction sched as [|tid sched IH]; intros s G V F; [exact F|].
    cbn [fold_left]. destruct (sched_step_v tid s G V F) as [V' F'].
    apply IH; [apply sched_step_ginv, G|exact V'|exact F'].
  Qed.

  Lemma variant_outs (P : rout -> Prop) wp rps sched :
    (forall r, Q r -> Forall P (r_out r)) ->
    forallb wvariant wp = true -> (forall p, In p rps -> Q (RState p PIdle [])) ->
    let s := run_schedule sched (init_cstate wp rps) in
    forall o, In o (all_outs s) -> out_ok (sh_hist (c_sh s)) o /\ P o.
  Proof.
    intros HP VW QI. cbv zeta. intros o Ho.
    split; [apply all_outs_ok; [apply run_schedule_ginv, ginv_init|exact Ho]|].
    assert (V : Forall Q (c_rs (run_schedule sched (init_cstate wp rps)))).
    { apply run_schedule_v; [apply ginv_init|split; [reflexivity|exact VW]|].
      apply Forall_forall. intros r Hr. apply in_map_iff in Hr. destruct Hr as (p & <- & Hp). auto. }
    apply in_flat_map in Ho. destruct Ho as (r & Hr & Hor).
    rewrite Forall_forall in V. specialize (HP r (V r Hr)). rewrite Forall_forall in HP. auto.
  Qed.
End PerReader.

(** In the variant protocol EVERY completed Get of every interleaving is right, whatever
    the readers do. *)
Theorem get_linearize_variant wp rps sched :
  forallb wvariant wp = true ->
  let s := run_schedule sched (init_cstate wp rps) in
  forall v k r b1 lat, In (OGet v k r b1 lat) (all_outs s) ->
    exists c, lookup v (sh_hist (c_sh s)) = Some c /\ r = assoc k c.
Proof.
  intros VW. cbv zeta. intros v k res b1 lat Ho.
  destruct (variant_outs r_vg rtrans_vg out_vg wp rps sched (fun r => @proj2 _ _) VW
              (fun p _ => conj Logic.I (Forall_nil _)) _ Ho) as [OK OV].
  cbn [out_ok out_vg] in *.
  destruct OK as (c & L & [->|(Lt & -> & _)]); [eauto|]. exfalso. lia.
Qed.

(** ... and with the atomic iterator creation ([RIterAtomic] instead of [RIter]) every
    completed read returns exactly the contents of its version as of its commit. *)
Theorem reads_linearize_variant wp rps sched :
  forallb wvariant wp = true -> Forall (fun p => forallb rvariant p = true) rps ->
  let s := run_schedule sched (init_cstate wp rps) in
  forall o, In o (all_outs s) -> out_right (sh_hist (c_sh s)) o.
Proof.
  intros VW VR. cbv zeta. intros o Ho. rewrite Forall_forall in VR.
  destruct o as [v k res b1 lat|v res lat b2| | |]; cbn [out_right]; auto.
  { eapply (get_linearize_variant wp rps sched VW); exact Ho. }
  destruct (variant_outs r_vi (fun sh r sh' r' PB _ => rtrans_vi sh r sh' r' PB) out_vi wp rps sched
              (fun r H => proj2 (proj2 H)) VW
              (fun p Hp => conj (VR p Hp) (conj Logic.I (Forall_nil _))) _ Ho) as [OK OV].
  cbn [out_ok out_vi] in *.
  destruct OK as (c & L & [->|(E & Lt & _)]); [eauto|]. exfalso. specialize (OV E). lia.
Qed.

(** * The real protocol is NOT linearizable for readers of the published latest version *)
Definition ex_ka : bytes := [97%N].
Definition ex_kb : bytes := [98%N].
Definition ex_c1 : kvs := [(ex_ka, [1%N]); (ex_kb, [2%N])].
Definition ex_c2 : kvs := [(ex_kb, [2%N])].             (* version 2 removes "a" *)

(** Writer: SaveVersion(c1) = version 1, SaveVersion(c2) = version 2, real protocol.
    Reader 0 holds version 1 (the published latest) and calls Get("a"); reader 1 holds
    version 1 and iterates.  Schedule: commit+publish v1; reader 1 checks latest (= 1: fast
    iterator); the writer writes the batch of v2; reader 0 reads the fast node of "a" (gone)
    and latestVersion (still 1): "absent"; reader 1 creates the fast iterator: sees v2;
    the writer publishes v2. *)
Theorem commit_window_refuted :
  exists (wp : list wstep) (rps : list (list rop)) (sched : list nat),
    wp = save_real ex_c1 ++ save_real ex_c2 /\
    let s := run_schedule sched (init_cstate wp rps) in
    lookup 1 (sh_hist (c_sh s)) = Some ex_c1 /\ assoc ex_ka ex_c1 = Some [1%N] /\
    In (OGet 1 ex_ka None 2 (Some 1)) (all_outs s) /\
    In (OIter 1 ex_c2 1 2) (all_outs s) /\ ex_c2 <> ex_c1.
Proof.
  exists (save_real ex_c1 ++ save_real ex_c2), [[RGet 1 ex_ka]; [RIter 1]],
         [0; 0; 2; 0; 1; 1; 2; 0]%nat.
  split; [reflexivity|]. vm_compute.
  split; [reflexivity|]. split; [reflexivity|]. split; [left; reflexivity|].
  split; [right; left; reflexivity|discriminate].
Qed.

(** The variant protocol does not repair the non-atomic [RIter]: latestVersion is checked,
    a whole SaveVersion happens, then the iterator is created. *)
Theorem iter_toctou_variant_refuted :
  exists (wp : list wstep) (rps : list (list rop)) (sched : list nat),
    wp = save_variant ex_c1 ++ save_variant ex_c2 /\
    let s := run_schedule sched (init_cstate wp rps) in
    lookup 1 (sh_hist (c_sh s)) = Some ex_c1 /\
    In (OIter 1 ex_c2 1 2) (all_outs s) /\ ex_c2 <> ex_c1.
Proof.
  exists (save_variant ex_c1 ++ save_variant ex_c2), [[RIter 1]], [0; 1; 0; 1]%nat.
  split; [reflexivity|]. vm_compute.
  split; [reflexivity|]. split; [left; reflexivity|discriminate].
Qed.

Lemma pin_count_In v p : pin_count v p <> 0%nat -> In (v, pin_count v p) p.
Proof.
  induction p as [|[w n] p IH]; cbn [pin_count]; [congruence|].
  destruct (w =? v) eqn:E; intros H.
  - apply Z.eqb_eq in E. subst. left. reflexivity.
  - right. apply IH, H.
Qed.

Lemma pin_count_set_same v n p : pin_count v (pin_set v n p) = n.
Proof.
  induction p as [|[w m] p IH]; cbn [pin_set pin_count]; [rewrite Z.eqb_refl; reflexivity|].
  destruct (w =? v) eqn:E; cbn [pin_count]; rewrite E; [reflexivity|exact IH].
Qed.

Lemma pin_count_set_other v w n p : w <> v -> pin_count w (pin_set v n p) = pin_count w p.
Proof.
  intros N. assert (F : (v =? w) = false) by (apply Z.eqb_neq; congruence).
  induction p as [|[x m] p IH]; cbn [pin_set pin_count]; [rewrite F; reflexivity|].
  destruct (Z.eqb_spec x v) as [->|_]; cbn [pin_count]; [rewrite F; reflexivity|].
  destruct (x =? w); [reflexivity|exact IH].
Qed.

(** While version [v] is pinned (an export of it is open), DeleteVersionsTo(n) with
    first <= v <= n is refused by its check, and the deletion loop that follows a refused
    check deletes nothing -- whatever happened in between. *)
Theorem pin_blocks_delete sh ok n v :
  (0 < pin_count v (sh_pins sh))%nat -> first_of (sh_forest sh) <= v <= n ->
  wexec sh ok (WPruneCheck n) = (sh, false, WRefused) /\
  forall sh', wexec sh' false (WPruneDel n) = (sh', false, WRefused).
Proof.
  intros Hp Hv. split; [|reflexivity]. cbn [wexec].
  assert (C : prune_check sh n = false).
  { unfold prune_check. destruct (sh_latest sh <=? n); [reflexivity|].
    apply negb_false_iff. unfold pinned_in. apply existsb_exists.
    exists (v, pin_count v (sh_pins sh)). split; [apply pin_count_In; lia|].
    cbn [fst snd]. apply andb_true_iff. split; [apply andb_true_iff; split; apply Z.leb_le; lia|].
    apply negb_true_iff. apply Nat.eqb_neq. lia. }
  rewrite C. reflexivity.
Qed.

Theorem export_pins sh prog out v :
  has_version v (sh_forest sh) = true ->
  pin_count v (sh_pins (fst (rstep sh (RState (RExportOpen v :: prog) PIdle out))))
    = S (pin_count v (sh_pins sh)) /\
  pin_count v (sh_pins (fst (rstep sh (RState (RExportClose v :: prog) PIdle out))))
    = Nat.pred (pin_count v (sh_pins sh)).
Proof.
  intros HV. unfold rstep. cbn [r_pc r_prog]. rewrite HV. cbn [negb fst set_pins sh_pins].
  split; apply pin_count_set_same.
Qed.

(** when nothing in [first, n] is pinned and n is below the published latest version, the
    check passes and the deletion removes exactly the versions <= n *)
Theorem unpinned_delete_proceeds sh ok n :
  pinned_in (first_of (sh_forest sh)) n (sh_pins sh) = false -> n < sh_latest sh ->
  wexec sh ok (WPruneCheck n) = (sh, true, WOk) /\
  forall v, lookup v (sh_forest (fst (fst (wexec sh true (WPruneDel n)))))
            = if n <? v then lookup v (sh_forest sh) else None.
Proof.
  intros NP Hn. split.
  - cbn [wexec]. unfold prune_check. destruct (Z.leb_spec (sh_latest sh) n); [lia|].
    rewrite NP. reflexivity.
  - intros v. cbn [wexec fst prune_del sh_forest]. apply lookup_filter_gt.
Qed.

(** The check and the deletion are two critical sections: a pin taken in between is NOT
    honoured.  (Export of a version that a concurrent DeleteVersionsTo is about to delete.) *)
Theorem late_pin_refuted :
  exists (wp : list wstep) (rps : list (list rop)) (sched : list nat),
    wp = save_real ex_c1 ++ save_real ex_c2 ++ prune 1 /\
    let s := run_schedule sched (init_cstate wp rps) in
    In (OPin 1) (all_outs s) /\ ~ In (OUnpin 1) (all_outs s) /\
    pin_count 1 (sh_pins (c_sh s)) = 1%nat /\
    lookup 1 (sh_forest (c_sh s)) = None /\ w_log (c_w s) = [WOk; WOk; WOk; WOk; WOk; WOk].
Proof.
  exists (save_real ex_c1 ++ save_real ex_c2 ++ prune 1), [[RExportOpen 1]],
         [0; 0; 0; 0; 0; 1; 0]%nat.
  split; [reflexivity|]. vm_compute.
  split; [left; reflexivity|]. split; [intros [H|[]]; discriminate|]. repeat split.
Qed.

(** No step of anybody rewrites the contents of a committed version: a writer step leaves
    each version of the store as it is, or (only [WPruneDel]) deletes it wholesale; it writes
    only the objects of its footprint; readers write nothing but the pins. *)
Theorem persisted_immutable sh ok s :
  inv sh ->
  let sh' := fst (fst (wexec sh ok s)) in
  (forall v c, lookup v (sh_forest sh) = Some c ->
     lookup v (sh_forest sh') = Some c \/
     (In ODelVersions (wfootprint s) /\ lookup v (sh_forest sh') = None)) /\
  (~ In ONewVersion (wfootprint s) -> ~ In ODelVersions (wfootprint s) ->
     sh_forest sh' = sh_forest sh) /\
  (~ In OFast (wfootprint s) -> sh_fast sh' = sh_fast sh) /\
  (~ In OLatest (wfootprint s) -> sh_latest sh' = sh_latest sh) /\
  sh_pins sh' = sh_pins sh /\
  (forall r, same_but_pins sh (fst (rstep sh r))).
Proof.
  intros _. cbv zeta.
  assert (NEW : forall c v cv, lookup v (sh_forest sh) = Some cv ->
            lookup v (sh_forest sh ++ [(sh_batch sh + 1, c)]) = Some cv).
  { intros c v cv L. rewrite lookup_app, L. reflexivity. }
  (* each remaining conjunct is [reflexivity], or has a footprint hypothesis that is false *)
  split; [|destruct s as [c0| |c0|n|n]; [| | | |destruct ok]; cbn [wexec fst wfootprint In];
           repeat split; try reflexivity; try apply rstep_frame; intros; exfalso; intuition auto].
  intros v c L. destruct s as [c0| |c0|n|n]; cbn [wexec fst wfootprint];
    [left; apply NEW, L|left; exact L|left; apply NEW, L|left; exact L|].
  destruct ok; cbn [fst]; [|left; exact L].
  cbn [prune_del sh_forest]. rewrite lookup_filter_gt. destruct (n <? v); [left; exact L|].
  right. split; [left; reflexivity|reflexivity].
Qed.

Theorem hist_records_commit sh c :
  inv sh ->
  lookup (sh_batch sh + 1) (sh_hist (commit_batch sh c)) = Some c /\
  sh_batch (commit_batch sh c) = sh_batch sh + 1.
Proof.
  intros I. split; [|reflexivity]. cbn [commit_batch sh_hist].
  rewrite lookup_snoc, Z.eqb_refl; [reflexivity|].
  apply (lookup_above _ (sh_batch sh)); [apply (i_bound _ I)|lia].
Qed.

Theorem hist_stable sched : forall s v c,
  ginv s -> lookup v (sh_hist (c_sh s)) = Some c ->
  lookup v (sh_hist (c_sh (run_schedule sched s))) = Some c.
Proof.
  unfold run_schedule. induction sched as [|tid sched IH]; intros s v c G L; [exact L|].
  cbn [fold_left]. destruct (sched_step_inv tid s G) as [G' E].
  apply IH; [exact G'|]. exact (ext_lookup _ _ _ _ (proj1 G) E L).
Qed.
