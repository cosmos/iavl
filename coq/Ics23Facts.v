(** C03: facts about the ICS-23 proof model (Ics23.v).

    Completeness: the proofs built by [get_membership_proof] / [get_nonmembership_proof]
    verify with the transcribed ICS-23 verifier against the tree's root hash.
    Soundness (constructive collision form): a membership proof that verifies against the
    root hash of a tree either states a true membership or exhibits two different inputs of
    [H] with the same hash. *)
From IAVL Require Import Bytes Varint VarintFacts Tree VMap ListFacts VMapFacts TreeFacts MTreeFacts
  HashFacts HashTable Sha256 Ics23 CostFacts.
From Coq Require Import Lia ZifyBool ZifyNat ZifyN.
Local Open Scope Z_scope.

Lemma blen_app a b : blen (a ++ b) = blen a + blen b.
Proof. unfold blen. rewrite app_length. lia. Qed.
Lemma blen_cons x a : blen (x :: a) = 1 + blen a.
Proof. unfold blen. cbn [length]. lia. Qed.
Lemma blen_nil : blen [] = 0.
Proof. reflexivity. Qed.
Lemma blen_nonneg a : 0 <= blen a.
Proof. unfold blen. lia. Qed.

Lemma beq_refl a : beq a a = true.
Proof. apply beq_true. reflexivity. Qed.

Lemma beq_len_false a b : length a <> length b -> beq a b = false.
Proof. intros L. apply beq_false. intros ->. apply L. reflexivity. Qed.

Lemma forallb_rev {A} (f : A -> bool) l : forallb f (rev l) = forallb f l.
Proof.
  induction l as [|x l IH]; [reflexivity|]. cbn [rev forallb].
  rewrite forallb_app, IH. cbn [forallb]. destruct (f x), (forallb f l); reflexivity.
Qed.

Definition i63 (x : Z) : Prop := 0 <= x < 2 ^ 63.

Lemma varint_enc_0 : varint_enc 0 = [0%N].
Proof. reflexivity. Qed.
Lemma varint_enc_1 : varint_enc 1 = [2%N].
Proof. reflexivity. Qed.
Lemma uvarint_enc_32 : uvarint_enc 32 = [32%N].
Proof. reflexivity. Qed.

Lemma varint_first_nonzero h : 1 <= h -> exists b rest, varint_enc h = b :: rest /\ b <> 0%N.
Proof.
  intros Hh. unfold varint_enc. destruct (uvarint_enc_head (zigzag h)) as (b & tl & E & C).
  exists b, tl. split; [exact E|].
  assert (zigzag h <> 0%N) by (unfold zigzag; destruct (h <? 0) eqn:?; lia). lia.
Qed.

Lemma uvarint_enc_fuel_len_le f : forall n u, (n <= f)%nat -> (0 < n)%nat ->
  (u < 2 ^ (7 * N.of_nat n))%N -> (length (uvarint_enc_fuel f u) <= n)%nat.
Proof.
  induction f as [|f IH]; intros n u Hn Hp Hu; [lia|].
  cbn [uvarint_enc_fuel]. destruct (u <? 128)%N eqn:E; [cbn [length]; lia|].
  cbn [length]. destruct n as [|n]; [lia|]. destruct n as [|n].
  - cbn in Hu. lia.
  - apply le_n_S. apply IH; try lia.
    replace (7 * N.of_nat (S (S n)))%N with (7 * N.of_nat (S n) + 7)%N in Hu by lia.
    rewrite N.pow_add_r in Hu. apply N.div_lt_upper_bound; lia.
Qed.

Lemma varint_enc_len_le (n : nat) x : (0 < n <= 10)%nat -> 0 <= x < 2 ^ (7 * Z.of_nat n - 1) ->
  (length (varint_enc x) <= n)%nat.
Proof.
  intros Hn Hx. unfold varint_enc, uvarint_enc. apply uvarint_enc_fuel_len_le; try lia.
  unfold zigzag. replace (x <? 0) with false by lia.
  assert (2 * x < 2 ^ (7 * Z.of_nat n)).
  { replace (7 * Z.of_nat n) with (7 * Z.of_nat n - 1 + 1) by lia.
    rewrite Z.pow_add_r by lia. lia. }
  assert (E : (2 ^ (7 * N.of_nat n))%N = Z.to_N (2 ^ (7 * Z.of_nat n))).
  { rewrite Z2N.inj_pow by lia. f_equal. lia. }
  rewrite E. lia.
Qed.

Lemma varint_dec_app buf rest x n :
  varint_dec buf = Some (x, n) -> varint_dec (buf ++ rest) = Some (x, n).
Proof.
  intros E. pose proof (varint_dec_prefix buf x n (skipn n buf ++ rest) E) as P.
  rewrite app_assoc, firstn_skipn in P. exact P.
Qed.

Lemma skipn_app_le {A} n (a b : list A) : (n <= length a)%nat -> skipn n (a ++ b) = skipn n a ++ b.
Proof.
  intros L. rewrite skipn_app. replace (n - length a)%nat with 0%nat by lia. reflexivity.
Qed.

(** the three leading varints of an op prefix *)
Definition vlen (a b c : Z) : nat :=
  (length (varint_enc a) + length (varint_enc b) + length (varint_enc c))%nat.

Definition int64 (x : Z) : Prop := - 2 ^ 63 <= x < 2 ^ 63.

Definition pre3 (h s v : Z) : bytes := varint_enc h ++ varint_enc s ++ varint_enc v.

Lemma pre3_len h s v : length (pre3 h s v) = vlen h s v.
Proof. unfold pre3, vlen. rewrite !app_length. lia. Qed.

Lemma vlen_bounds a b c : (3 <= vlen a b c <= 30)%nat.
Proof.
  unfold vlen. pose proof (varint_enc_length a). pose proof (varint_enc_length b).
  pose proof (varint_enc_length c). lia.
Qed.

Lemma pre3_not_zero h s v rest : 1 <= h -> is_prefix [0%N] (pre3 h s v ++ rest) = false.
Proof.
  intros Hh. destruct (varint_first_nonzero h Hh) as (b & r & E & Nz).
  unfold pre3. rewrite E. cbn [app is_prefix]. apply andb_false_intro1. apply N.eqb_neq. lia.
Qed.

Definition dec3 (buf : bytes) : option (Z * Z * Z * nat) :=
  match varint_dec buf with
  | None => None
  | Some (x0, n0) =>
      match varint_dec (skipn n0 buf) with
      | None => None
      | Some (x1, n1) =>
          match varint_dec (skipn n1 (skipn n0 buf)) with
          | None => None
          | Some (x2, n2) => Some (x0, x1, x2, (n0 + n1 + n2)%nat)
          end
      end
  end.

Lemma dec3_inv buf x0 x1 x2 n : dec3 buf = Some (x0, x1, x2, n) ->
  exists n0 n1 n2, n = (n0 + n1 + n2)%nat /\ varint_dec buf = Some (x0, n0) /\
    varint_dec (skipn n0 buf) = Some (x1, n1) /\
    varint_dec (skipn n1 (skipn n0 buf)) = Some (x2, n2) /\
    (0 < n0 + n1 + n2 <= length buf)%nat.
Proof.
  unfold dec3.
  destruct (varint_dec buf) as [[y0 n0]|] eqn:E0; [|discriminate].
  destruct (varint_dec (skipn n0 buf)) as [[y1 n1]|] eqn:E1; [|discriminate].
  destruct (varint_dec (skipn n1 (skipn n0 buf))) as [[y2 n2]|] eqn:E2; [|discriminate].
  intros E; inversion E; subst. exists n0, n1, n2.
  destruct (varint_dec_guard _ _ _ E0) as (A0 & _). destruct (varint_dec_guard _ _ _ E1) as (A1 & _).
  destruct (varint_dec_guard _ _ _ E2) as (A2 & _).
  rewrite skipn_length in A1. rewrite !skipn_length in A2.
  repeat split; auto; lia.
Qed.

Lemma dec3_app buf rest r : dec3 buf = Some r -> dec3 (buf ++ rest) = Some r.
Proof.
  destruct r as [[[x0 x1] x2] n]. intros D.
  destruct (dec3_inv _ _ _ _ _ D) as (n0 & n1 & n2 & -> & E0 & E1 & E2 & L).
  unfold dec3. rewrite (varint_dec_app _ rest _ _ E0), (skipn_app_le n0 buf rest) by lia.
  rewrite (varint_dec_app _ rest _ _ E1), (skipn_app_le n1) by (rewrite skipn_length; lia).
  rewrite (varint_dec_app _ rest _ _ E2). reflexivity.
Qed.

Lemma dec3_enc a b c rest : int64 a -> int64 b -> int64 c ->
  dec3 (pre3 a b c ++ rest) = Some (a, b, c, vlen a b c).
Proof.
  intros Ha Hb Hc. unfold dec3, pre3. rewrite <- !app_assoc.
  rewrite (varint_roundtrip a _ Ha), skipn_length_app.
  rewrite (varint_roundtrip b _ Hb), skipn_length_app.
  rewrite (varint_roundtrip c _ Hc). reflexivity.
Qed.

Lemma validate_dec3 p b : validate_iavl_ops p b =
  match dec3 p with
  | None => false
  | Some (v0, v1, v2, n) =>
      if v0 <? 0 then false else if v1 <? 0 then false else if v2 <? 0 then false else
      if v0 <? b then false else
      let r := Z.of_nat (length p - n) in if b =? 0 then r =? 0 else (r =? 1) || (r =? 34)
  end.
Proof.
  unfold validate_iavl_ops, dec3.
  destruct (varint_dec p) as [[v0 n0]|]; [|reflexivity].
  destruct (varint_dec (skipn n0 p)) as [[v1 n1]|]; [|destruct (v0 <? 0); reflexivity].
  destruct (varint_dec (skipn n1 (skipn n0 p))) as [[v2 n2]|];
    [|destruct (v0 <? 0), (v1 <? 0); reflexivity].
  unfold blen. rewrite !skipn_length.
  replace (length p - n0 - n1 - n2)%nat with (length p - (n0 + n1 + n2))%nat by lia. reflexivity.
Qed.

Lemma validate_produced a b c rest layer : i63 a -> i63 b -> i63 c ->
  validate_iavl_ops (pre3 a b c ++ rest) layer =
    if a <? layer then false
    else if layer =? 0 then blen rest =? 0 else (blen rest =? 1) || (blen rest =? 34).
Proof.
  unfold i63. intros Ha Hb Hc. rewrite validate_dec3, dec3_enc by (unfold int64; lia).
  replace (a <? 0) with false by lia. replace (b <? 0) with false by lia.
  replace (c <? 0) with false by lia. rewrite app_length, pre3_len. unfold blen.
  replace (vlen a b c + length rest - vlen a b c)%nat with (length rest) by lia. reflexivity.
Qed.

Lemma validate_inv prefix layer : validate_iavl_ops prefix layer = true ->
  exists x n, dec3 prefix = Some (x, n) /\ (0 < n)%nat /\
    (if layer =? 0 then length prefix = n
     else length prefix = (n + 1)%nat \/ length prefix = (n + 34)%nat).
Proof.
  rewrite validate_dec3. destruct (dec3 prefix) as [[[[v0 v1] v2] n]|] eqn:D; [|discriminate].
  destruct (dec3_inv _ _ _ _ _ D) as (n0 & n1 & n2 & -> & _ & _ & _ & L).
  destruct (v0 <? 0); [discriminate|]. destruct (v1 <? 0); [discriminate|].
  destruct (v2 <? 0); [discriminate|]. destruct (v0 <? layer); [discriminate|].
  intros V. exists (v0, v1, v2), (n0 + n1 + n2)%nat. split; [reflexivity|]. split; [lia|].
  cbv zeta in V. destruct (layer =? 0); lia.
Qed.

(** * The inner op produced at a node: [d = false] when the path goes on in the left child
    (the hash [rh] of the right one is the suffix), [d = true] when it goes on in the right
    child (the hash [lh] of the left one ends the prefix) *)
Definition dir_op (d : bool) (h s v : Z) (lh rh : bytes) : inner_op :=
  if d then InnerOp (pre3 h s v ++ [32%N] ++ lh ++ [32%N]) []
  else InnerOp (pre3 h s v ++ [32%N]) (32%N :: rh).

Lemma conv_dir (d : bool) h s v (lh rh : bytes) : length lh = 32%nat ->
  convert_inner_op (PIN h s v (if d then lh else []) (if d then [] else rh)) = dir_op d h s v lh rh.
Proof. intros L. destruct d; [destruct lh; [discriminate|]|]; reflexivity. Qed.

Lemma step_dir d h s v lh rh :
  io_prefix (dir_op d h s v lh rh) ++ (if d then rh else lh) ++ io_suffix (dir_op d h s v lh rh) =
  inner_preimage h s v lh rh.
Proof.
  destruct d; cbn [dir_op io_prefix io_suffix]; unfold inner_preimage, pre3;
    rewrite <- ?app_assoc; cbn [app]; rewrite ?app_nil_r, <- ?app_assoc; reflexivity.
Qed.

Lemma dir_op_blen d h s v lh rh : length lh = 32%nat -> length rh = 32%nat ->
  blen (io_prefix (dir_op d h s v lh rh)) = Z.of_nat (vlen h s v) + (if d then 34 else 1) /\
  blen (io_suffix (dir_op d h s v lh rh)) = if d then 0 else 33.
Proof.
  intros Ll Lr. unfold blen.
  destruct d; cbn [dir_op io_prefix io_suffix]; rewrite !app_length, pre3_len; cbn [length];
    rewrite ?app_length, ?Ll, ?Lr; cbn [length]; lia.
Qed.

Lemma check_dir d h s v lh rh layer :
  i63 h -> i63 s -> i63 v -> (vlen h s v <= 11)%nat -> 1 <= layer <= h ->
  length lh = 32%nat -> length rh = 32%nat ->
  inner_check_against_spec (dir_op d h s v lh rh) layer = true.
Proof.
  intros Hh Hs Hv Hl Hy Ll Lr. destruct (dir_op_blen d h s v lh rh Ll Lr) as [Bp Bs].
  pose proof (vlen_bounds h s v). unfold inner_check_against_spec. rewrite Bp, Bs.
  assert (E : exists rest, io_prefix (dir_op d h s v lh rh) = pre3 h s v ++ rest /\
                blen rest = if d then 34 else 1).
  { destruct d; eexists; (split; [reflexivity|]); unfold blen; cbn [length];
      rewrite ?app_length, ?Ll; reflexivity. }
  destruct E as (rest & -> & Br).
  rewrite (pre3_not_zero h s v _ ltac:(lia)), (validate_produced h s v _ layer Hh Hs Hv), Br.
  replace (h <? layer) with false by lia. replace (layer =? 0) with false by lia.
  destruct d; lia.
Qed.

Lemma has_padding_for_iff io branch : has_padding_for io branch = true <->
  branch * 33 + 4 <= blen (io_prefix io) <= branch * 33 + 12 /\
  blen (io_suffix io) = (1 - branch) * 33.
Proof.
  unfold has_padding_for, get_padding, has_padding.
  destruct (blen (io_prefix io) <? _) eqn:A; [lia|]. destruct (_ <? blen (io_prefix io)) eqn:B; lia.
Qed.

Lemma pad_dir d h s v lh rh : (vlen h s v <= 11)%nat -> length lh = 32%nat -> length rh = 32%nat ->
  has_padding_for (dir_op d h s v lh rh) (if d then 1 else 0) = true.
Proof.
  intros Hl Ll Lr. destruct (dir_op_blen d h s v lh rh Ll Lr) as [A B].
  pose proof (vlen_bounds h s v). apply has_padding_for_iff. destruct d; lia.
Qed.

Lemma order_dir d h s v lh rh : (vlen h s v <= 11)%nat -> length lh = 32%nat -> length rh = 32%nat ->
  order_from_padding (dir_op d h s v lh rh) = Some (if d then 1 else 0).
Proof.
  intros Hl Ll Lr. pose proof (pad_dir d h s v lh rh Hl Ll Lr) as P. unfold order_from_padding.
  destruct d; rewrite P; [|reflexivity].
  destruct (has_padding_for _ 0) eqn:P0; [|reflexivity].
  apply has_padding_for_iff in P0. apply has_padding_for_iff in P. lia.
Qed.

Lemma order_from_padding_cases io idx : order_from_padding io = Some idx ->
  (idx = 0 /\ has_padding_for io 0 = true) \/ (idx = 1 /\ has_padding_for io 1 = true).
Proof.
  unfold order_from_padding. destruct (has_padding_for io 0) eqn:P0.
  - intros E; inversion E; auto.
  - destruct (has_padding_for io 1) eqn:P1; [|discriminate]. intros E; inversion E; auto.
Qed.

Lemma left_right_neq h s v lh rh :
  inner_op_eqb (dir_op false h s v lh rh) (dir_op true h s v lh rh) = false.
Proof.
  unfold inner_op_eqb. cbn [dir_op io_prefix io_suffix].
  rewrite beq_len_false; [reflexivity|]. rewrite !app_length. cbn [length]. lia.
Qed.

Lemma is_left_most_rev l : is_left_most (rev l) = is_left_most l.
Proof. apply forallb_rev. Qed.
Lemma is_right_most_rev l : is_right_most (rev l) = is_right_most l.
Proof. apply forallb_rev. Qed.

Lemma inner_checks_app a x b :
  inner_checks (a ++ [x]) b =
    inner_checks a b && inner_check_against_spec x (b + Z.of_nat (length a)).
Proof.
  revert b. induction a as [|y a IH]; intros b.
  - cbn [app inner_checks length]. rewrite Z.add_0_r, andb_true_r. reflexivity.
  - cbn [app inner_checks length]. rewrite IH, andb_assoc. do 2 f_equal. lia.
Qed.

(** the body of [is_left_neighbor] on root-first lists *)
Definition nb_root (l r : list inner_op) : option bool :=
  match strip_common l r with
  | None => None
  | Some (topleft, l', topright, r') =>
      match order_from_padding topleft, order_from_padding topright with
      | Some li, Some ri =>
          if negb (ri =? li + 1) then Some false
          else if negb (is_right_most (rev l')) then Some false
          else if negb (is_left_most (rev r')) then Some false
          else Some true
      | _, _ => None
      end
  end.

Lemma is_left_neighbor_eq l r : is_left_neighbor l r = nb_root (rev l) (rev r).
Proof. reflexivity. Qed.

Lemma nb_root_same x a b : nb_root (x :: a) (x :: b) = nb_root a b.
Proof. unfold nb_root. cbn [strip_common]. unfold inner_op_eqb. rewrite !beq_refl. reflexivity. Qed.

(** [IsLeftNeighbor] accepts when, below the common part, the left path takes the left child
    and goes on rightmost, and the right path takes the right child and goes on leftmost *)
Lemma nb_root_cons x y l r : nb_root (x :: l) (y :: r) = Some true <->
  if inner_op_eqb x y then nb_root l r = Some true
  else order_from_padding x = Some 0 /\ order_from_padding y = Some 1 /\
       is_right_most l = true /\ is_left_most r = true.
Proof.
  unfold nb_root. cbn [strip_common]. destruct (inner_op_eqb x y); [reflexivity|].
  rewrite is_right_most_rev, is_left_most_rev.
  destruct (order_from_padding x) as [li|] eqn:Ox; [|intuition discriminate].
  destruct (order_from_padding y) as [ri|] eqn:Oy; [|intuition discriminate].
  destruct (order_from_padding_cases x li Ox) as [[-> _]|[-> _]],
    (order_from_padding_cases y ri Oy) as [[-> _]|[-> _]], (is_right_most l), (is_left_most r);
    cbn [Z.eqb Z.add Pos.eqb negb]; intuition discriminate.
Qed.

Lemma convert_inner_ops_cons pin p :
  convert_inner_ops (pin :: p) = convert_inner_ops p ++ [convert_inner_op pin].
Proof. unfold convert_inner_ops. cbn [rev]. rewrite map_app. reflexivity. Qed.

Lemma convert_inner_ops_length p : length (convert_inner_ops p) = length p.
Proof. unfold convert_inner_ops. rewrite map_length, rev_length. reflexivity. Qed.

Lemma rev_convert p : rev (convert_inner_ops p) = map convert_inner_op p.
Proof. unfold convert_inner_ops. rewrite map_rev, rev_involutive. reflexivity. Qed.

Lemma gbi_nth t j : wf t -> 0 <= j ->
  get_by_index t j = nth_error (elems t) (Z.to_nat j).
Proof.
  intros W Hj. rewrite (get_by_index_spec t j W). replace (j <? 0) with false by lia. reflexivity.
Qed.

Lemma gbi_range t j x : wf t -> get_by_index t j = Some x -> 0 <= j < size t.
Proof.
  intros W G. rewrite (get_by_index_spec t j W) in G. destruct (j <? 0) eqn:E; [discriminate|].
  assert (N : nth_error (elems t) (Z.to_nat j) <> None) by congruence.
  apply nth_error_Some in N. rewrite (size_elems t W). lia.
Qed.

Lemma gbi_some t j : wf t -> 0 <= j < size t -> exists a va, get_by_index t j = Some (a, va).
Proof.
  intros W Hj. rewrite (gbi_nth t j W) by lia. rewrite (size_elems t W) in Hj.
  destruct (nth_error (elems t) (Z.to_nat j)) as [[a va]|] eqn:E; [eauto|].
  apply nth_error_None in E. lia.
Qed.

(** * Bracketing: the leaves at [rank - 1] and [rank] surround an absent key *)
Lemma rank_le_length k l : rank k l <= Z.of_nat (length l).
Proof.
  unfold rank. induction l as [|x l IH]; cbn [filter length]; [lia|].
  destruct (blt (fst x) k); cbn [length]; lia.
Qed.

Lemma sorted_bracket l : forall k n a va, sorted l -> assoc k l = None ->
  nth_error l n = Some (a, va) ->
  (Z.of_nat n < rank k l -> a <b k) /\ (rank k l <= Z.of_nat n -> k <b a).
Proof.
  induction l as [|[k' v'] rest IH]; intros k n a va S A N.
  - destruct n; discriminate.
  - cbn [sorted] in S. destruct S as [F S]. cbn [assoc] in A.
    destruct (beq k k') eqn:B; [discriminate|]. btests.
    rewrite rank_cons. pose proof (rank_nonneg k rest) as Rn.
    destruct (blt k' k) eqn:C; btests.
    + destruct n as [|n]; cbn [nth_error] in N.
      * inversion N; subst. split; [auto|lia].
      * destruct (IH k n a va S A N) as [I1 I2]. split; intros; [apply I1|apply I2]; lia.
    + assert (K : k <b k') by border.
      assert (R0 : rank k rest = 0).
      { apply rank_all_ge. eapply Forall_impl; [|exact F]. intros; border. }
      rewrite R0. destruct n as [|n]; cbn [nth_error] in N.
      * inversion N; subst. split; [lia|auto].
      * split; [lia|]. intros _. apply nth_error_In in N. rewrite Forall_forall in F.
        specialize (F _ N). cbn [fst] in F. border.
Qed.

(** * Trees: bounds needed by the spec's prefix window *)
Section Facts.
  Variable H : bytes -> bytes.
  Hypothesis Hlen : forall x, length (H x) = 32%nat.
  Variable wv : Z.

  Notation ph := (pure_hash H wv).

  Lemma ph_len t : length (ph t) = 32%nat.
  Proof. destruct t; apply Hlen. Qed.

  Lemma len32_cons (x : bytes) : length x = 32%nat -> exists b r, x = b :: r.
  Proof. destruct x as [|b r]; [discriminate|]. eauto. Qed.

  (** The explicit guard: every height / size / effective version is a non-negative int64,
      heights are at most 128 (a path is no longer than the height, and the verifier rejects
      paths longer than its default MaxDepth 128; Go's int8 heights are at most 127), and on
      every inner node the three varints take at most 11 bytes, so that the inner-op prefix
      (varints + 1 byte, or varints + 34 bytes) lies in the spec's window 4..12 (+33). *)
  Fixpoint bounds (t : node) : Prop :=
    match t with
    | Leaf _ _ m => i63 (eff_ver wv m)
    | Inner _ h s m l r =>
        i63 h /\ h <= 128 /\ i63 s /\ i63 (eff_ver wv m) /\
        (vlen h s (eff_ver wv m) <= 11)%nat /\ bounds l /\ bounds r
    end.

  Lemma bounds_leaf k v m : bounds (Leaf k v m) <-> 0 <= eff_ver wv m < 2 ^ 63.
  Proof. reflexivity. Qed.

  Lemma bounds_inner k h s m l r :
    bounds (Inner k h s m l r) <->
    (0 <= h < 2 ^ 63) /\ h <= 128 /\ (0 <= s < 2 ^ 63) /\ (0 <= eff_ver wv m < 2 ^ 63) /\
    (length (varint_enc h) + length (varint_enc s) + length (varint_enc (eff_ver wv m)) <= 11)%nat /\
    bounds l /\ bounds r.
  Proof. reflexivity. Qed.

  Fixpoint simple_bounds (t : node) : Prop :=
    match t with
    | Leaf _ _ m => 0 <= eff_ver wv m < 2 ^ 34
    | Inner _ h s m l r =>
        0 <= h < 64 /\ 0 <= s < 2 ^ 34 /\ 0 <= eff_ver wv m < 2 ^ 34 /\
        simple_bounds l /\ simple_bounds r
    end.

  Lemma simple_bounds_ok t : simple_bounds t -> bounds t.
  Proof.
    clear Hlen H.
    induction t as [k v m|k h s m l IHl r IHr]; cbn [simple_bounds bounds].
    - unfold i63. lia.
    - intros (A & B & C & D & E). unfold i63.
      repeat split; try lia; auto.
      unfold vlen.
      pose proof (varint_enc_len_le 1 h ltac:(lia) ltac:(cbn; lia)).
      pose proof (varint_enc_len_le 5 s ltac:(lia) ltac:(cbn; lia)).
      pose proof (varint_enc_len_le 5 (eff_ver wv m) ltac:(lia) ltac:(cbn; lia)).
      lia.
  Qed.

  Lemma apply_path_app c a b :
    apply_path H c (a ++ b) =
      match apply_path H c a with Some c' => apply_path H c' b | None => None end.
  Proof.
    revert c. induction a as [|x a IH]; intros c; [reflexivity|].
    cbn [app apply_path]. destruct (inner_apply H x c) as [r|]; [|reflexivity].
    destruct (33 <? blen r); [reflexivity|]. apply IH.
  Qed.

  Lemma apply_path_len c p c' : length c = 32%nat -> apply_path H c p = Some c' -> length c' = 32%nat.
  Proof.
    revert c. induction p as [|x p IH]; intros c L; cbn [apply_path].
    - intros E; inversion E; subst; exact L.
    - unfold inner_apply. destruct c as [|b0 c0]; [discriminate|].
      destruct (33 <? blen _); [discriminate|]. apply IH. apply Hlen.
  Qed.

  Lemma inner_apply_32 io c : length c = 32%nat ->
    inner_apply H io c = Some (H (io_prefix io ++ c ++ io_suffix io)).
  Proof. intros L. destruct c; [discriminate|]. reflexivity. Qed.

  Lemma step_32 io c rest : length c = 32%nat ->
    apply_path H c (io :: rest) = apply_path H (H (io_prefix io ++ c ++ io_suffix io)) rest.
  Proof.
    intros L. cbn [apply_path]. rewrite (inner_apply_32 io c L).
    replace (33 <? blen _) with false; [reflexivity|].
    unfold blen. rewrite Hlen. reflexivity.
  Qed.

  (** * The ops produced along a list of directions, root first *)
  Definition path_ops (t : node) (ds : list bool) : list inner_op :=
    map convert_inner_op (path_nodes ph wv t ds).

  Lemma convert_path_ops t ds : convert_inner_ops (path_nodes ph wv t ds) = rev (path_ops t ds).
  Proof. unfold convert_inner_ops, path_ops. apply map_rev. Qed.

  Lemma path_ops_cons d nk h s m l r ds :
    path_ops (Inner nk h s m l r) (d :: ds) =
    dir_op d h s (eff_ver wv m) (ph l) (ph r) :: path_ops (if d then r else l) ds.
  Proof. unfold path_ops. cbn [path_nodes map]. rewrite (conv_dir _ _ _ _ _ _ (ph_len l)). reflexivity. Qed.

  (** * 1. The existence proof recomputes the root *)
  Lemma calc_path : forall ds t lk lv m, descend t ds = Some (Leaf lk lv m) ->
    apply_path H (H (leaf_preimage H (eff_ver wv m) lk lv)) (rev (path_ops t ds)) = Some (ph t).
  Proof.
    induction ds as [|d ds IH]; intros [k0 v0 m0|nk h s m0 l r] lk lv m D; cbn [descend] in D;
      try discriminate.
    - inversion D; subst. reflexivity.
    - rewrite path_ops_cons. cbn [rev]. rewrite apply_path_app, (IH _ _ _ _ D).
      rewrite step_32 by apply ph_len. cbn [apply_path].
      replace (ph (if d then r else l)) with (if d then ph r else ph l) by (destruct d; reflexivity).
      rewrite step_dir. reflexivity.
  Qed.

  Lemma leaf_apply_produced v k val : k <> [] -> val <> [] ->
    leaf_apply H (convert_leaf_op v) k val = Some (H (leaf_preimage H v k val)).
  Proof.
    intros Hk Hv. destruct k as [|k0 k']; [contradiction|]. destruct val as [|v0 v']; [contradiction|].
    cbn [leaf_apply convert_leaf_op lo_prefix]. f_equal. f_equal.
    unfold leaf_preimage, var_proto. repeat rewrite <- app_assoc. do 4 f_equal.
    unfold bytes_enc. rewrite Hlen. reflexivity.
  Qed.

  Definition mk_ep (p : list proof_inner_node) (lk lv : bytes) (m : meta) : existence_proof :=
    ExistenceProof lk lv (convert_leaf_op (eff_ver wv m)) (convert_inner_ops p).

  Theorem calculate_path t k p lv m :
    path_to_leaf ph wv t k = (p, (k, lv, m), true) -> k <> [] -> lv <> [] ->
    calculate H (mk_ep p k lv m) = Some (ph t).
  Proof.
    intros E Hk Hv. destruct (path_to_leaf_spec _ _ _ _ _ _ _ _ _ E) as (-> & D & _).
    unfold calculate, mk_ep. cbn [ep_leaf ep_key ep_value ep_path].
    rewrite (leaf_apply_produced _ _ _ Hk Hv), convert_path_ops. apply (calc_path _ _ _ _ _ D).
  Qed.

  Lemma path_get (hf : node -> bytes) t k p lk lv m ok :
    path_to_leaf hf wv t k = (p, (lk, lv, m), ok) ->
    if ok then lk = k /\ snd (get t k) = Some lv else snd (get t k) = None.
  Proof.
    intros E. destruct (path_to_leaf_spec _ _ _ _ _ _ _ _ _ E) as (_ & D & ->).
    destruct (search_path_get t k) as (lk' & lv' & m' & D' & ->). rewrite D in D'. inversion D'; subst.
    destruct (beq lk' k) eqn:B; btests; auto.
  Qed.

  Lemma get_path (hf : node -> bytes) t k v : snd (get t k) = Some v ->
    exists p m, path_to_leaf hf wv t k = (p, (k, v, m), true).
  Proof.
    intros G. destruct (path_to_leaf hf wv t k) as [[p [[lk lv] m]] ok] eqn:E.
    pose proof (path_get hf t _ _ _ _ _ _ E) as P. destruct ok.
    - destruct P as [-> P]. rewrite G in P. inversion P; subst. eauto.
    - rewrite G in P. discriminate.
  Qed.

  (** * check_against_spec on produced proofs *)
  Lemma path_checks t : wf t -> bounds t -> forall ds,
    Z.of_nat (length (path_ops t ds)) <= height t /\ inner_checks (rev (path_ops t ds)) 1 = true.
  Proof.
    induction t as [k0 v0 m0|nk h s m0 l IHl r IHr]; intros W B ds.
    - split; [cbn; lia|reflexivity].
    - pose proof (height_nonneg _ W) as H0. destruct ds as [|d ds]; [split; [exact H0|reflexivity]|].
      cbn [wf] in W. destruct W as (Wl & Wr & _ & _ & _ & Hh & _).
      cbn [bounds] in B. destruct B as (Bh & Bh' & Bs & Bv & Bl & Bbl & Bbr).
      pose proof (height_nonneg l Wl). pose proof (height_nonneg r Wr).
      assert (I : Z.of_nat (length (path_ops (if d then r else l) ds)) <= h - 1 /\
                  inner_checks (rev (path_ops (if d then r else l) ds)) 1 = true).
      { destruct d; [destruct (IHr Wr Bbr ds)|destruct (IHl Wl Bbl ds)]; split; auto; lia. }
      destruct I as [L C]. rewrite path_ops_cons. cbn [rev length height]. split; [lia|].
      rewrite inner_checks_app, C, rev_length. apply check_dir; auto using ph_len; lia.
  Qed.

  Lemma leaf_check_produced v : i63 v -> leaf_check_against_spec (convert_leaf_op v) = true.
  Proof.
    intros Hv. unfold leaf_check_against_spec, convert_leaf_op. cbn [lo_prefix].
    fold (pre3 0 1 v). rewrite <- (app_nil_r (pre3 0 1 v)).
    rewrite (validate_produced 0 1 v [] 0); try (unfold i63; lia); auto.
  Qed.

  Lemma leaf_bounds : forall ds t lk lv m,
    bounds t -> descend t ds = Some (Leaf lk lv m) -> i63 (eff_ver wv m).
  Proof.
    induction ds as [|d ds IH]; intros [k0 v0 m0|nk h s m0 l r] lk lv m B D; cbn [descend] in D;
      try discriminate.
    - inversion D; subst. exact B.
    - cbn [bounds] in B. destruct B as (_ & _ & _ & _ & _ & Bbl & Bbr).
      apply (IH _ _ _ _ (if d return bounds (if d then r else l) then Bbr else Bbl) D).
  Qed.

  Lemma height_le_128 t : bounds t -> height t <= 128.
  Proof. destruct t; cbn [bounds height]; intros B; [lia|tauto]. Qed.

  Lemma ep_verifies t k p lv m :
    wf t -> bounds t -> path_to_leaf ph wv t k = (p, (k, lv, m), true) -> k <> [] -> lv <> [] ->
    verify_existence H (ph t) (mk_ep p k lv m) k lv = true.
  Proof.
    intros W B E Hk Hv. unfold verify_existence.
    rewrite (calculate_path _ _ _ _ _ E Hk Hv).
    destruct (path_to_leaf_spec _ _ _ _ _ _ _ _ _ E) as (-> & D & _).
    destruct (path_checks t W B (search_path t k)) as [L C].
    unfold check_against_spec, mk_ep. cbn [ep_leaf ep_path ep_key ep_value].
    rewrite (leaf_check_produced _ (leaf_bounds _ _ _ _ _ B D)).
    rewrite convert_path_ops, C, rev_length, !beq_refl.
    pose proof (height_le_128 t B).
    replace (Z.of_nat (length (path_ops t (search_path t k))) <=? 128) with true by lia. reflexivity.
  Qed.

  (** * 2. Completeness of membership proofs *)
  Theorem complete_member_pure t k v :
    wf t -> bounds t -> snd (get t k) = Some v -> k <> [] -> v <> [] ->
    exists ep, get_membership_proof_gen ph wv (Some t) k = Some (PExist ep) /\
               ep_key ep = k /\ ep_value ep = v /\
               calculate H ep = Some (ph t) /\
               verify_membership H (ph t) (PExist ep) k v = true.
  Proof.
    intros W B G Hk Hv. destruct (get_path ph t k v G) as (p & m & E).
    exists (mk_ep p k v m). unfold get_membership_proof_gen, create_existence_proof.
    rewrite E. split; [reflexivity|]. split; [reflexivity|]. split; [reflexivity|].
    split; [apply (calculate_path _ _ _ _ _ E Hk Hv)|].
    unfold verify_membership. cbn [mk_ep ep_key]. rewrite beq_refl.
    apply ep_verifies; auto.
  Qed.

  (** * Left-most / right-most / neighbouring paths, by leaf index *)
  Lemma first_leftmost t : bounds t -> sizes_pos t -> is_left_most (path_ops t (index_path t 0)) = true.
  Proof.
    induction t as [k0 v0 m0|nk h s m0 l IHl r IHr]; intros B S; [reflexivity|].
    cbn [bounds] in B. destruct B as (_ & _ & _ & _ & Bl & Bbl & _).
    cbn [sizes_pos] in S. destruct S as (Sl & _ & Sp).
    cbn [index_path]. replace (0 <? size l) with true by lia. rewrite path_ops_cons.
    unfold is_left_most. cbn [forallb]. fold (is_left_most (path_ops l (index_path l 0))).
    rewrite (IHl Bbl Sl), (pad_dir false _ _ _ _ _ Bl (ph_len l) (ph_len r) : has_padding_for _ 0 = true).
    reflexivity.
  Qed.

  Lemma last_rightmost t : wf t -> bounds t ->
    is_right_most (path_ops t (index_path t (size t - 1))) = true.
  Proof.
    intros W. induction W as [k0 v0 m0|nk m0 l r Wl Wr _ IHr _ _ _] using wf_ind; intros B; [reflexivity|].
    cbn [bounds] in B. destruct B as (_ & _ & _ & _ & Bl & _ & Bbr).
    pose proof (size_pos r Wr) as Sr.
    cbn [index_path size]. replace (size l + size r - 1 <? size l) with false by lia.
    replace (size l + size r - 1 - size l) with (size r - 1) by lia. rewrite path_ops_cons.
    unfold is_right_most. cbn [forallb]. fold (is_right_most (path_ops r (index_path r (size r - 1)))).
    rewrite (IHr Bbr), (pad_dir true _ _ _ _ _ Bl (ph_len l) (ph_len r) : has_padding_for _ 1 = true).
    reflexivity.
  Qed.

  Lemma neighbor_paths t : wf t -> bounds t -> forall j, 0 <= j -> j + 1 < size t ->
    nb_root (path_ops t (index_path t j)) (path_ops t (index_path t (j + 1))) = Some true.
  Proof.
    intros W. induction W as [k0 v0 m0|nk m0 l r Wl Wr IHl IHr _ _ _] using wf_ind; intros B j J0 J1;
      [cbn [size] in J1; lia|].
    cbn [bounds] in B. destruct B as (_ & _ & _ & _ & Bl & Bbl & Bbr).
    cbn [size] in J1. cbn [index_path].
    destruct (j <? size l) eqn:Ja; destruct (j + 1 <? size l) eqn:Jb; try lia; rewrite !path_ops_cons.
    - rewrite nb_root_same. apply (IHl Bbl); lia.
    - assert (J : j = size l - 1) by lia. subst j.
      replace (size l - 1 + 1 - size l) with 0 by lia.
      apply nb_root_cons. rewrite left_right_neq.
      rewrite !(order_dir _ _ _ _ _ _ Bl (ph_len l) (ph_len r)).
      repeat split; auto using last_rightmost, first_leftmost, wf_sizes_pos.
    - replace (j + 1 - size l) with (j - size l + 1) by lia.
      rewrite nb_root_same. apply (IHr Bbr); lia.
  Qed.

  (** * 3. Completeness of non-membership proofs *)
  Definition kv_of (e : existence_proof) : bytes * bytes := (ep_key e, ep_value e).
  Definition nonempty_kvs (t : node) : Prop :=
    Forall (fun p => fst p <> [] /\ snd p <> []) (elems t).

  Lemma leaf_info t j : wf t -> bounds t -> nonempty_kvs t -> 0 <= j < size t ->
    exists e, get_by_index t j = Some (kv_of e) /\
      nth_error (elems t) (Z.to_nat j) = Some (kv_of e) /\
      ep_path e = rev (path_ops t (index_path t j)) /\
      create_existence_proof ph wv (Some t) (ep_key e) = Some e /\
      calculate H e = Some (ph t) /\
      verify_existence H (ph t) e (ep_key e) (ep_value e) = true.
  Proof.
    intros W B Ne Hj. destruct (gbi_some t j W Hj) as (a & va & G).
    destruct (proj1 (get_by_index_get t j a va W) G) as [_ Gg].
    destruct (get_path ph t a va ltac:(rewrite Gg; reflexivity)) as (p & m & E).
    pose proof G as Gn. rewrite (gbi_nth t j W) in Gn by lia.
    pose proof (nth_error_In _ _ Gn) as I. unfold nonempty_kvs in Ne. rewrite Forall_forall in Ne.
    destruct (Ne _ I) as [N1 N2]. cbn [fst snd] in N1, N2.
    exists (mk_ep p a va m). split; [exact G|]. split; [exact Gn|]. split.
    { destruct (path_to_leaf_spec _ _ _ _ _ _ _ _ _ E) as (-> & _).
      cbn [mk_ep ep_path]. rewrite convert_path_ops, (search_index t W _ _ _ G). reflexivity. }
    split; [unfold create_existence_proof; cbn [mk_ep ep_key]; rewrite E; reflexivity|].
    split; [apply (calculate_path _ _ _ _ _ E N1 N2)|apply ep_verifies; auto].
  Qed.

  (** what [VerifyNonMembership] asks of each neighbour given, and of the two together *)
  Definition side_ok (root : bytes) (P : bytes -> Prop) (o : option existence_proof) : Prop :=
    match o with
    | Some e => verify_existence H root e (ep_key e) (ep_value e) = true /\ P (ep_key e)
    | None => True
    end.

  Definition sides_ok (ol or : option existence_proof) : Prop :=
    match ol, or with
    | Some l, Some r => is_left_neighbor (ep_path l) (ep_path r) = Some true
    | Some l, None => is_right_most (ep_path l) = true
    | None, Some r => is_left_most (ep_path r) = true
    | None, None => False
    end.

  Lemma verify_nonmembership_iff root k k0 ol or :
    verify_nonmembership_x H root (PNonexist (NonExistenceProof k0 ol or)) k = Some true <->
    side_ok root (fun a => a <b k) ol /\ side_ok root (fun b => k <b b) or /\ sides_ok ol or.
  Proof.
    unfold verify_nonmembership_x, nonexist_verify. cbn [np_left np_right].
    destruct ol as [l|], or as [r|]; cbn [side_ok sides_ok]; rewrite <- ?blt_true.
    - destruct (blt (ep_key l) k), (blt k (ep_key r)), (verify_existence H root l _ _),
        (verify_existence H root r _ _); cbn [andb negb]; intuition congruence.
    - destruct (blt (ep_key l) k), (verify_existence H root l _ _); cbn [andb negb];
        intuition congruence.
    - destruct (blt k (ep_key r)), (verify_existence H root r _ _); cbn [andb negb];
        intuition congruence.
    - cbn [andb negb]. intuition congruence.
  Qed.

  Theorem complete_nonmember_pure t k :
    wf t -> bounds t -> nonempty_kvs t -> snd (get t k) = None ->
    exists np, get_nonmembership_proof_gen ph wv (Some t) k = Some (PNonexist np) /\
      np_key np = k /\
      option_map kv_of (np_left np) =
        (if 1 <=? rank k (elems t) then nth_error (elems t) (Z.to_nat (rank k (elems t) - 1)) else None) /\
      option_map kv_of (np_right np) = nth_error (elems t) (Z.to_nat (rank k (elems t))) /\
      (forall e, np_left np = Some e ->
         ep_key e <b k /\ create_existence_proof ph wv (Some t) (ep_key e) = Some e /\
         calculate H e = Some (ph t) /\
         verify_existence H (ph t) e (ep_key e) (ep_value e) = true) /\
      (forall e, np_right np = Some e ->
         k <b ep_key e /\ create_existence_proof ph wv (Some t) (ep_key e) = Some e /\
         calculate H e = Some (ph t) /\
         verify_existence H (ph t) e (ep_key e) (ep_value e) = true) /\
      verify_nonmembership_x H (ph t) (PNonexist np) k = Some true.
  Proof.
    intros W B Ne G. pose proof (get_spec t k W) as Gs. rewrite Gs in G. cbn [snd] in G.
    (* on which side of [k] the key of a leaf lies *)
    pose proof (fun n a va => sorted_bracket (elems t) k n a va (wf_sorted t W) G) as Br.
    set (i := rank k (elems t)) in *.
    assert (Ri : 0 <= i <= size t).
    { subst i. pose proof (rank_nonneg k (elems t)). pose proof (rank_le_length k (elems t)).
      rewrite (size_elems t W). lia. }
    pose proof (size_pos t W) as Sp.
    unfold get_nonmembership_proof_gen, get_with_index, get_by_index_o. rewrite Gs, G. fold i.
    destruct (1 <=? i) eqn:I1.
    - (* a left neighbour exists *)
      destruct (leaf_info t (i - 1) W B Ne ltac:(lia)) as (l & Gl & Nl & Pl & Cl & Ql & Vl).
      destruct (Br _ _ _ Nl) as [Ll _]. specialize (Ll ltac:(lia)).
      rewrite Gl. cbn [kv_of]. rewrite Cl.
      destruct (i <? size t) eqn:I2.
      + destruct (leaf_info t i W B Ne ltac:(lia)) as (r & Gr & Nr & Pr & Cr & Qr & Vr).
        destruct (Br _ _ _ Nr) as [_ Lr]. specialize (Lr ltac:(lia)).
        rewrite Gr. cbn [kv_of]. rewrite Cr.
        eexists. split; [reflexivity|]. cbn [np_key np_left np_right option_map].
        split; [reflexivity|]. split; [symmetry; exact Nl|]. split; [symmetry; exact Nr|].
        split; [intros e [= <-]; auto|]. split; [intros e [= <-]; auto|].
        apply verify_nonmembership_iff. cbn [side_ok sides_ok]. repeat split; auto.
        rewrite is_left_neighbor_eq, Pl, Pr, !rev_involutive.
        replace i with (i - 1 + 1) at 2 by lia. apply neighbor_paths; auto; lia.
      + rewrite (get_by_index_out_of_range t i W) by lia.
        eexists. split; [reflexivity|]. cbn [np_key np_left np_right option_map].
        split; [reflexivity|]. split; [symmetry; exact Nl|].
        split; [symmetry; apply nth_error_None; rewrite (size_elems t W) in *; lia|].
        split; [intros e [= <-]; auto|]. split; [discriminate|].
        apply verify_nonmembership_iff. cbn [side_ok sides_ok]. repeat split; auto.
        rewrite Pl, is_right_most_rev. replace (i - 1) with (size t - 1) by lia.
        apply last_rightmost; auto.
    - (* no left neighbour: the key is below the least key *)
      assert (I0 : i = 0) by lia.
      destruct (leaf_info t i W B Ne ltac:(lia)) as (r & Gr & Nr & Pr & Cr & Qr & Vr).
      destruct (Br _ _ _ Nr) as [_ Lr]. specialize (Lr ltac:(lia)).
      rewrite Gr. cbn [kv_of]. rewrite Cr.
      eexists. split; [reflexivity|]. cbn [np_key np_left np_right option_map].
      split; [reflexivity|]. split; [reflexivity|]. split; [symmetry; exact Nr|].
      split; [discriminate|]. split; [intros e [= <-]; auto|].
      apply verify_nonmembership_iff. cbn [side_ok sides_ok]. repeat split; auto.
      rewrite Pr, is_left_most_rev, I0. apply first_leftmost; [exact B|apply wf_sizes_pos, W].
  Qed.

  (** * 4. Wrong-kind requests and the empty tree *)
  Theorem member_absent_none (hf : node -> bytes) t k :
    snd (get t k) = None -> get_membership_proof_gen hf wv (Some t) k = None.
  Proof.
    intros G. unfold get_membership_proof_gen, create_existence_proof.
    destruct (path_to_leaf hf wv t k) as [[p [[lk lv] m]] ok] eqn:E.
    pose proof (path_get hf t _ _ _ _ _ _ E) as P. destruct ok; [|reflexivity].
    destruct P as [_ P]. congruence.
  Qed.

  Theorem nonmember_present_none (hf : node -> bytes) t k v :
    snd (get t k) = Some v -> get_nonmembership_proof_gen hf wv (Some t) k = None.
  Proof.
    intros G. unfold get_nonmembership_proof_gen, get_with_index.
    destruct (get t k) as [i o]. cbn [snd] in G. subst. reflexivity.
  Qed.

  (** On the empty tree [GetMembershipProof] and [GetProof] fail; [GetNonMembershipProof]
      returns (without error) a proof with no neighbour, which the verifier rejects. *)
  Theorem empty_tree_errors (hf : node -> bytes) k :
    get_membership_proof_gen hf wv None k = None /\
    get_proof_gen hf wv None k = None /\
    get_nonmembership_proof_gen hf wv None k = Some (PNonexist (NonExistenceProof k None None)) /\
    forall root k', verify_nonmembership_x H root (PNonexist (NonExistenceProof k None None)) k' = Some false.
  Proof. repeat split. Qed.

  Theorem get_proof_kind (hf : node -> bytes) t k : wf t ->
    get_proof_gen hf wv (Some t) k =
      match snd (get t k) with
      | Some _ => get_membership_proof_gen hf wv (Some t) k
      | None => get_nonmembership_proof_gen hf wv (Some t) k
      end.
  Proof.
    intros W. unfold get_proof_gen. rewrite (has_spec t k W), (get_spec t k W). cbn [snd].
    unfold mem. destruct (assoc k (elems t)); reflexivity.
  Qed.

  (** * The entry points (sibling hashes = [node_hash]) on hash-consistent trees *)
  Lemma path_node_hash t : hash_ok H t -> forall k,
    path_to_leaf (node_hash H wv) wv t k = path_to_leaf ph wv t k.
  Proof.
    induction t as [k0 v0 m0|nk h s m0 l IHl r IHr]; intros Hok k; [reflexivity|].
    destruct (hash_ok_children H _ _ _ _ _ _ Hok) as [Hl Hr]. cbn [path_to_leaf].
    rewrite (IHl Hl), (IHr Hr), (node_hash_pure H wv l Hl), (node_hash_pure H wv r Hr).
    reflexivity.
  Qed.

  Lemma create_node_hash t k : hash_ok H t ->
    create_existence_proof (node_hash H wv) wv (Some t) k = create_existence_proof ph wv (Some t) k.
  Proof. intros Hok. unfold create_existence_proof. rewrite (path_node_hash t Hok). reflexivity. Qed.

  Lemma membership_node_hash t k : hash_ok H t ->
    get_membership_proof H wv (Some t) k = get_membership_proof_gen ph wv (Some t) k.
  Proof.
    intros Hok. unfold get_membership_proof, get_membership_proof_gen.
    rewrite (create_node_hash t k Hok). reflexivity.
  Qed.

  Lemma nonmembership_node_hash t k : hash_ok H t ->
    get_nonmembership_proof H wv (Some t) k = get_nonmembership_proof_gen ph wv (Some t) k.
  Proof.
    intros Hok. unfold get_nonmembership_proof, get_nonmembership_proof_gen.
    destruct (get_with_index (Some t) k) as [i o]. destruct o; [reflexivity|].
    destruct (1 <=? i).
    - rewrite (create_node_hash t _ Hok).
      destruct (create_existence_proof ph wv (Some t) _); [|reflexivity].
      destruct (get_by_index_o (Some t) i) as [[rk rv]|]; [|reflexivity].
      rewrite (create_node_hash t _ Hok). reflexivity.
    - destruct (get_by_index_o (Some t) i) as [[rk rv]|]; [|reflexivity].
      rewrite (create_node_hash t _ Hok). reflexivity.
  Qed.

  Lemma get_proof_node_hash t k : hash_ok H t ->
    get_proof H wv (Some t) k = get_proof_gen ph wv (Some t) k.
  Proof.
    intros Hok. unfold get_proof, get_proof_gen.
    fold (get_membership_proof H wv (Some t) k). fold (get_nonmembership_proof H wv (Some t) k).
    rewrite (membership_node_hash t k Hok), (nonmembership_node_hash t k Hok). reflexivity.
  Qed.

  (** 2'. completeness of membership proofs, for the code's hashes *)
  Theorem complete_member t k v :
    wf t -> hash_ok H t -> bounds t -> snd (get t k) = Some v -> k <> [] -> v <> [] ->
    exists ep, get_membership_proof H wv (Some t) k = Some (PExist ep) /\
               get_proof H wv (Some t) k = Some (PExist ep) /\
               ep_key ep = k /\ ep_value ep = v /\
               calculate H ep = Some (node_hash H wv t) /\
               verify_membership H (node_hash H wv t) (PExist ep) k v = true.
  Proof.
    intros W Hok B G Hk Hv.
    destruct (complete_member_pure t k v W B G Hk Hv) as (ep & A1 & A2 & A3 & A4 & A5).
    exists ep. rewrite (get_proof_node_hash t k Hok), (get_proof_kind ph t k W), G.
    rewrite (membership_node_hash t k Hok), (node_hash_pure H wv t Hok). repeat split; auto.
  Qed.

  (** 3'. completeness of non-membership proofs, for the code's hashes *)
  Theorem complete_nonmember t k :
    wf t -> hash_ok H t -> bounds t -> nonempty_kvs t -> snd (get t k) = None ->
    exists np, get_nonmembership_proof H wv (Some t) k = Some (PNonexist np) /\
      get_proof H wv (Some t) k = Some (PNonexist np) /\
      np_key np = k /\
      option_map kv_of (np_left np) =
        (if 1 <=? rank k (elems t) then nth_error (elems t) (Z.to_nat (rank k (elems t) - 1)) else None) /\
      option_map kv_of (np_right np) = nth_error (elems t) (Z.to_nat (rank k (elems t))) /\
      (forall e, np_left np = Some e ->
         ep_key e <b k /\ get_membership_proof H wv (Some t) (ep_key e) = Some (PExist e) /\
         calculate H e = Some (node_hash H wv t)) /\
      (forall e, np_right np = Some e ->
         k <b ep_key e /\ get_membership_proof H wv (Some t) (ep_key e) = Some (PExist e) /\
         calculate H e = Some (node_hash H wv t)) /\
      verify_nonmembership H (node_hash H wv t) (PNonexist np) k = true.
  Proof.
    intros W Hok B Ne G.
    destruct (complete_nonmember_pure t k W B Ne G) as (np & A1 & A2 & A3 & A4 & A5 & A6 & A7).
    exists np. rewrite (get_proof_node_hash t k Hok), (get_proof_kind ph t k W), G.
    rewrite (nonmembership_node_hash t k Hok), (node_hash_pure H wv t Hok).
    split; [exact A1|]. split; [exact A1|]. split; [exact A2|]. split; [exact A3|].
    split; [exact A4|].
    assert (T : forall e, create_existence_proof ph wv (Some t) (ep_key e) = Some e ->
                get_membership_proof H wv (Some t) (ep_key e) = Some (PExist e)).
    { intros e Ce. rewrite (membership_node_hash t _ Hok). unfold get_membership_proof_gen.
      rewrite Ce. reflexivity. }
    split.
    { intros e Ee. destruct (A5 e Ee) as (X1 & X2 & X3 & X4). auto. }
    split.
    { intros e Ee. destruct (A6 e Ee) as (X1 & X2 & X3 & X4). auto. }
    unfold verify_nonmembership. rewrite A7. reflexivity.
  Qed.

  (** * 5. Empty keys and values have no verifying proof *)
  Lemma verify_existence_empty_value root ep k v :
    ep_value ep = [] -> verify_existence H root ep k v = false.
  Proof.
    intros E. unfold verify_existence, calculate. rewrite E.
    replace (leaf_apply H (ep_leaf ep) (ep_key ep) []) with (@None bytes)
      by (unfold leaf_apply; destruct (ep_key ep); reflexivity).
    apply andb_false_r.
  Qed.

  Lemma verify_existence_empty_key root ep k v :
    ep_key ep = [] -> verify_existence H root ep k v = false.
  Proof.
    intros E. unfold verify_existence, calculate. rewrite E. cbn [leaf_apply]. apply andb_false_r.
  Qed.

  Theorem empty_value_no_proof root p k : verify_membership H root p k [] = false.
  Proof.
    destruct p as [ep|np]; [|reflexivity]. cbn [verify_membership].
    destruct (beq (ep_key ep) k); [|reflexivity].
    destruct (beq [] (ep_value ep)) eqn:B.
    - apply beq_true in B. apply verify_existence_empty_value. auto.
    - unfold verify_existence. rewrite B. rewrite andb_false_r. reflexivity.
  Qed.

  Theorem empty_key_no_proof root p v : verify_membership H root p [] v = false.
  Proof.
    destruct p as [ep|np]; [|reflexivity]. cbn [verify_membership].
    destruct (beq (ep_key ep) []) eqn:B; [|reflexivity].
    apply beq_true in B. apply verify_existence_empty_key. exact B.
  Qed.

  Theorem empty_neighbour_no_proof root np k :
    (exists l, np_left np = Some l /\ (ep_value l = [] \/ ep_key l = [])) \/
    (exists r, np_right np = Some r /\ (ep_value r = [] \/ ep_key r = [])) ->
    verify_nonmembership H root (PNonexist np) k = false.
  Proof.
    intros Hn. unfold verify_nonmembership, verify_nonmembership_x.
    destruct (_ && _); [|reflexivity]. unfold nonexist_verify.
    destruct Hn as [(l & El & Ev)|(r & Er & Ev)].
    - rewrite El.
      replace (verify_existence H root l (ep_key l) (ep_value l)) with false; [reflexivity|].
      symmetry. destruct Ev; [apply verify_existence_empty_value|apply verify_existence_empty_key]; auto.
    - rewrite Er. destruct (negb _); [reflexivity|].
      replace (verify_existence H root r (ep_key r) (ep_value r)) with false; [reflexivity|].
      symmetry. destruct Ev; [apply verify_existence_empty_value|apply verify_existence_empty_key]; auto.
  Qed.

  (** * 6. Soundness of membership proofs (constructive collision form) *)

  (** Go slices have fewer than 2^63 bytes; the length prefix is injective below that. *)
  Definition klen_ok (k : bytes) : Prop := (N.of_nat (length k) < 2 ^ 63 - 1)%N.

  Fixpoint int64_tree (t : node) : Prop :=
    match t with
    | Leaf _ _ m => int64 (eff_ver wv m)
    | Inner _ h s m l r =>
        int64 h /\ int64 s /\ int64 (eff_ver wv m) /\ int64_tree l /\ int64_tree r
    end.

  Lemma bounds_int64_tree t : bounds t -> int64_tree t.
  Proof.
    clear Hlen H.
    induction t as [k v m|k h s m l IHl r IHr]; cbn [bounds int64_tree]; unfold i63, int64.
    - lia.
    - intros (A & B & C & D & E & F & G). repeat split; try lia; auto.
  Qed.

  Definition node_preimage (t : node) : bytes :=
    match t with
    | Leaf k v m => leaf_preimage H (eff_ver wv m) k v
    | Inner _ h s m l r => inner_preimage h s (eff_ver wv m) (ph l) (ph r)
    end.

  Lemma ph_preimage t : ph t = H (node_preimage t).
  Proof. destruct t; reflexivity. Qed.

  Fixpoint tree_inputs (t : node) : list bytes :=
    match t with
    | Leaf k v m => [node_preimage t; v]
    | Inner _ _ _ _ l r => node_preimage t :: tree_inputs l ++ tree_inputs r
    end.

  Lemma node_preimage_in t : In (node_preimage t) (tree_inputs t).
  Proof. destruct t; left; reflexivity. Qed.

  Fixpoint path_preimages (res : bytes) (path : list inner_op) : list bytes :=
    match path with
    | [] => []
    | io :: rest =>
        let x := io_prefix io ++ res ++ io_suffix io in x :: path_preimages (H x) rest
    end.

  Definition leaf_input (ep : existence_proof) : bytes :=
    lo_prefix (ep_leaf ep) ++ var_proto (ep_key ep) ++ var_proto (H (ep_value ep)).

  Definition proof_inputs (ep : existence_proof) : list bytes :=
    ep_value ep :: leaf_input ep :: path_preimages (H (leaf_input ep)) (ep_path ep).

  Definition collision_in (A B : list bytes) : Prop :=
    exists x y, In x A /\ In y B /\ x <> y /\ H x = H y.

  Lemma collision_in_incl A B A' B' :
    collision_in A B -> incl A A' -> incl B B' -> collision_in A' B'.
  Proof. intros (x & y & Ix & Iy & N & E) IA IB. exists x, y. auto. Qed.

  Definition is_collision (xy : bytes * bytes) : bool :=
    negb (beq (fst xy) (snd xy)) && beq (H (fst xy)) (H (snd xy)).
  Definition find_collision_in (A B : list bytes) : option (bytes * bytes) :=
    find is_collision (list_prod A B).
  Definition find_collision (t : node) (ep : existence_proof) : option (bytes * bytes) :=
    find_collision_in (proof_inputs ep) (tree_inputs t).

  Lemma is_collision_spec x y : is_collision (x, y) = true <-> x <> y /\ H x = H y.
  Proof.
    unfold is_collision. cbn [fst snd]. rewrite andb_true_iff, negb_true_iff, beq_false, beq_true.
    reflexivity.
  Qed.

  Lemma find_collision_in_spec A B : collision_in A B ->
    exists x y, find_collision_in A B = Some (x, y) /\ x <> y /\ H x = H y.
  Proof.
    intros (x & y & Ix & Iy & N & E). unfold find_collision_in.
    destruct (find is_collision (list_prod A B)) as [[x' y']|] eqn:F.
    - apply find_some in F. destruct F as [_ F]. apply is_collision_spec in F.
      exists x', y'. split; [reflexivity|exact F].
    - exfalso. pose proof (find_none _ _ F (x, y) (in_prod _ _ _ _ Ix Iy)) as C.
      assert (C' : is_collision (x, y) = true) by (apply is_collision_spec; auto).
      congruence.
  Qed.

  Lemma path_preimages_snoc a : forall c op c', length c = 32%nat ->
    apply_path H c a = Some c' ->
    path_preimages c (a ++ [op]) = path_preimages c a ++ [io_prefix op ++ c' ++ io_suffix op].
  Proof.
    induction a as [|x a IH]; intros c op c' L E.
    - cbn [apply_path] in E. inversion E; subst. reflexivity.
    - rewrite (step_32 _ _ _ L) in E. cbn [app path_preimages]. f_equal.
      apply IH; [apply Hlen|exact E].
  Qed.

  Lemma inner_checks_forall path : forall b, 1 <= b -> inner_checks path b = true ->
    Forall (fun io => exists b', 1 <= b' /\ inner_check_against_spec io b' = true) path.
  Proof.
    induction path as [|io rest IH]; intros b Hb C; [constructor|].
    cbn [inner_checks] in C. apply andb_prop in C. destruct C as [C1 C2].
    constructor; [exists b; auto|]. apply (IH (b + 1)); [lia|exact C2].
  Qed.

  Lemma is_prefix_0 (p : bytes) : is_prefix [0%N] p = true -> exists p', p = 0%N :: p'.
  Proof.
    destruct p as [|b p']; cbn [is_prefix]; [discriminate|]. rewrite andb_true_r.
    intros E. apply N.eqb_eq in E. subst. eauto.
  Qed.

  Lemma in_elems_get t k v : wf t -> In (k, v) (elems t) -> snd (get t k) = Some v.
  Proof.
    intros W I. apply In_nth_error in I. destruct I as [n I].
    destruct (sorted_nth_rank _ _ _ _ (wf_sorted t W) I) as [A _].
    rewrite (get_spec t k W). exact A.
  Qed.

  (** the direction taken by an op (suffix present = the sibling is on the right = the
      child is the left one) and the leaf index reached by a root-first list of ops *)
  Definition goes_right (io : inner_op) : bool :=
    match io_suffix io with [] => true | _ :: _ => false end.

  Fixpoint walk (t : node) (rops : list inner_op) : option Z :=
    match t, rops with
    | Leaf _ _ _, [] => Some 0
    | Inner _ _ _ _ l r, op :: rest =>
        if goes_right op then option_map (Z.add (size l)) (walk r rest) else walk l rest
    | _, _ => None
    end.

  (** ** What an accepted step says about the node it produces *)

  Lemma root_preimage x t A : H x = ph t -> In x A ->
    x = node_preimage t \/ collision_in A (tree_inputs t).
  Proof.
    intros E I. rewrite ph_preimage in E. destruct (beq x (node_preimage t)) eqn:B; btests; [auto|].
    right. exists x, (node_preimage t). auto using node_preimage_in.
  Qed.

  Lemma leaf_preimage_pre3 ver k v :
    leaf_preimage H ver k v = pre3 0 1 ver ++ bytes_enc k ++ 32%N :: H v.
  Proof. unfold leaf_preimage, pre3. rewrite <- !app_assoc. reflexivity. Qed.

  Lemma inner_preimage_pre3 h s ver lh rh :
    inner_preimage h s ver lh rh = pre3 h s ver ++ (32%N :: lh) ++ 32%N :: rh.
  Proof. unfold inner_preimage, pre3. rewrite <- !app_assoc. reflexivity. Qed.

  Lemma preimage_split p y a b c z x n : dec3 p = Some (x, n) ->
    p ++ y = pre3 a b c ++ z -> int64 a -> int64 b -> int64 c ->
    n = vlen a b c /\ skipn n p ++ y = z.
  Proof.
    intros D E Ia Ib Ic. pose proof (dec3_app p y _ D) as D'.
    rewrite E, (dec3_enc a b c z Ia Ib Ic) in D'. inversion D'; subst.
    split; [reflexivity|].
    destruct (dec3_inv _ _ _ _ _ D) as (n0 & n1 & n2 & En & _ & _ & _ & L).
    rewrite <- (firstn_skipn (vlen a b c) p), <- app_assoc in E.
    apply app_inj_len in E; [apply E|]. rewrite firstn_length, pre3_len. lia.
  Qed.

  Lemma child_of_op (q c sfx lh rh : bytes) :
    length c = 32%nat -> length lh = 32%nat -> length rh = 32%nat ->
    length q = 1%nat \/ length q = 34%nat ->
    q ++ c ++ sfx = (32%N :: lh) ++ 32%N :: rh ->
    exists d : bool, c = (if d then rh else lh) /\ sfx = if d then [] else 32%N :: rh.
  Proof.
    intros Lc Ll Lr [Lq|Lq] E.
    - exists false. destruct q as [|x [|y q']]; try discriminate. cbn [app] in E.
      inversion E as [[Hx E']]. apply app_inj_len in E'; [exact E'|lia].
    - exists true.
      assert (E' : q ++ (c ++ sfx) = (32%N :: lh ++ [32%N]) ++ (rh ++ [])).
      { rewrite E. cbn [app]. rewrite <- !app_assoc. cbn [app]. rewrite app_nil_r. reflexivity. }
      apply app_inj_len in E'; [|cbn [length]; rewrite app_length, Ll; cbn [length]; lia].
      destruct E' as [_ E']. apply app_inj_len in E'; [exact E'|lia].
  Qed.

  Lemma tree_inputs_child (d : bool) nk h s m l r :
    incl (tree_inputs (if d then r else l)) (tree_inputs (Inner nk h s m l r)).
  Proof. cbn [tree_inputs]. apply incl_tl. destruct d; [apply incl_appr|apply incl_appl]; apply incl_refl. Qed.

  Section Core.
    Variables (lp k v : bytes).
    Hypothesis Lchk : leaf_check_against_spec (LeafOp lp) = true.
    Hypothesis Kok : klen_ok k.
    Let li := lp ++ var_proto k ++ var_proto (H v).

    Lemma sound_core : forall rops t,
      wf t -> int64_tree t -> Forall (fun p => klen_ok (fst p)) (elems t) ->
      Forall (fun io => exists b, 1 <= b /\ inner_check_against_spec io b = true) rops ->
      apply_path H (H li) (rev rops) = Some (ph t) ->
      (exists j, walk t rops = Some j /\ get_by_index t j = Some (k, v)) \/
      collision_in (v :: li :: path_preimages (H li) (rev rops)) (tree_inputs t).
    Proof.
      unfold leaf_check_against_spec in Lchk. cbn [lo_prefix] in Lchk.
      apply andb_prop in Lchk. destruct Lchk as [Lv Lz].
      destruct (validate_inv lp 0 Lv) as (x0 & n0 & Hn0 & _ & Ln0). cbn in Ln0.
      destruct (is_prefix_0 lp Lz) as (lp' & Elp).
      induction rops as [|op rops IH]; intros t W I64 Kt Fo Ap.
      - (* the leaf op alone reaches the root *)
        cbn [rev apply_path] in Ap. inversion Ap as [Hh]. cbn [rev path_preimages].
        destruct (root_preimage li t [v; li] Hh) as [Bq|C]; [right; left; reflexivity| |right; exact C].
        destruct t as [k' v' m|nk h s m l r]; cbn [node_preimage] in Bq.
        + rewrite leaf_preimage_pre3 in Bq. cbn [int64_tree] in I64.
          destruct (preimage_split _ _ _ _ _ _ _ _ Hn0 Bq) as [_ Tl]; try (unfold int64; lia); [exact I64|].
          rewrite <- Ln0, skipn_all in Tl. cbn [app] in Tl. unfold var_proto in Tl.
          cbn [elems] in Kt. inversion Kt as [|? ? Kk' _]; subst. cbn [fst] in Kk'.
          destruct (bytes_enc_app_inj _ _ _ _ Kok Kk' Tl) as [-> Tl2].
          unfold bytes_enc in Tl2. rewrite Hlen in Tl2. cbn in Tl2. inversion Tl2 as [Hv].
          destruct (beq v v') eqn:Bv; btests.
          * subst. left. exists 0. split; reflexivity.
          * right. exists v, v'. split; [left; reflexivity|].
            split; [right; left; reflexivity|]. auto.
        + (* an inner pre-image does not start with the leaf prefix's 0 *)
          exfalso. cbn [wf] in W. destruct W as (Wl & Wr & _ & _ & _ & Hh' & _).
          pose proof (height_nonneg l Wl). pose proof (height_nonneg r Wr).
          pose proof (pre3_not_zero h s (eff_ver wv m) ((32%N :: ph l) ++ 32%N :: ph r) ltac:(lia)) as Z.
          rewrite <- inner_preimage_pre3, <- Bq in Z. unfold li in Z. rewrite Elp in Z. discriminate.
      - (* the last op produces the root *)
        cbn [rev] in Ap. rewrite apply_path_app in Ap.
        destruct (apply_path H (H li) (rev rops)) as [c|] eqn:Ec; [|discriminate].
        pose proof (apply_path_len _ _ _ (Hlen li) Ec) as Lc.
        rewrite (step_32 _ _ _ Lc) in Ap. cbn [apply_path] in Ap. inversion Ap as [Hh].
        cbn [rev]. rewrite (path_preimages_snoc _ _ op _ (Hlen li) Ec).
        set (X := io_prefix op ++ c ++ io_suffix op) in *.
        change (v :: li :: path_preimages (H li) (rev rops) ++ [X])
          with ((v :: li :: path_preimages (H li) (rev rops)) ++ [X]).
        inversion Fo as [|? ? (b & Hb & Chk) Fo']; subst.
        destruct (root_preimage X t _ Hh (in_elt X (v :: li :: path_preimages (H li) (rev rops)) []))
          as [Bq|C]; [|right; exact C].
        unfold inner_check_against_spec in Chk. rewrite !andb_true_iff, negb_true_iff in Chk.
        destruct Chk as ((((Cv & Cz) & _) & _) & _).
        destruct (validate_inv _ _ Cv) as (x & n & Hn & Np & Ln).
        replace (b =? 0) with false in Ln by lia.
        destruct t as [k' v' m|nk h s m l r]; cbn [node_preimage] in Bq.
        + (* a leaf pre-image starts with 0, an inner op's prefix does not *)
          exfalso. assert (Z : is_prefix [0%N] X = true) by (rewrite Bq; reflexivity).
          subst X. destruct (io_prefix op) as [|b0 p']; [cbn in Ln; lia|].
          cbn [app is_prefix] in Z, Cz. congruence.
        + rewrite inner_preimage_pre3 in Bq.
          cbn [int64_tree] in I64. destruct I64 as (Ih & Is & Iv & Il & Ir).
          cbn [wf] in W. destruct W as (Wl & Wr & _).
          cbn [elems] in Kt. apply Forall_app in Kt. destruct Kt as [Ktl Ktr].
          destruct (preimage_split _ _ _ _ _ _ _ _ Hn Bq Ih Is Iv) as [_ Tl].
          assert (Lq : length (skipn n (io_prefix op)) = 1%nat \/
                       length (skipn n (io_prefix op)) = 34%nat) by (rewrite skipn_length; lia).
          destruct (child_of_op _ _ _ _ _ Lc (ph_len l) (ph_len r) Lq Tl) as (d & Cc & Sx).
          assert (Dir : goes_right op = d) by (unfold goes_right; rewrite Sx; destruct d; reflexivity).
          (* the rest of the path leads into the child [ch] on that side *)
          set (ch := if d then r else l).
          assert (Ech : c = ph ch) by (subst ch; destruct d; exact Cc).
          assert (Wc : wf ch) by (subst ch; destruct d; assumption).
          destruct (IH ch Wc ltac:(subst ch; destruct d; assumption)
                      ltac:(subst ch; destruct d; assumption) Fo' (f_equal Some Ech))
            as [(j & Wj & Gj)|Col].
          * left. pose proof (gbi_range ch j _ Wc Gj). cbn [walk get_by_index]. rewrite Dir.
            subst ch. destruct d.
            -- exists (size l + j). rewrite Wj. split; [reflexivity|].
               replace (size l + j <? size l) with false by lia.
               replace (size l + j - size l) with j by lia. exact Gj.
            -- exists j. split; [exact Wj|]. replace (j <? size l) with true by lia. exact Gj.
          * right. eapply collision_in_incl; [exact Col|apply incl_appl, incl_refl|].
            apply tree_inputs_child.
    Qed.
  End Core.

  Definition keys_len_ok (t : node) : Prop := Forall (fun p => klen_ok (fst p)) (elems t).

  Lemma keys_len_ok_small t :
    forallb (fun p => (N.of_nat (length (fst p)) <=? 1000000)%N) (elems t) = true -> keys_len_ok t.
  Proof.
    clear Hlen H. intros F. unfold keys_len_ok. rewrite forallb_forall in F. apply Forall_forall.
    intros p I. specialize (F p I). apply N.leb_le in F. unfold klen_ok.
    assert (B : (1000000 < 2 ^ 63 - 1)%N) by reflexivity.
    eapply N.le_lt_trans; [exact F|exact B].
  Qed.

  (** An existence proof accepted against the root hash of [t] walks a real path of [t] down
      to a leaf carrying the claimed key and value, or exhibits a collision. *)
  Lemma sound_existence t ep k v :
    wf t -> int64_tree t -> keys_len_ok t -> klen_ok k ->
    verify_existence H (ph t) ep k v = true ->
    ep_key ep = k /\ ep_value ep = v /\
    ((exists j, walk t (rev (ep_path ep)) = Some j /\ get_by_index t j = Some (k, v)) \/
     collision_in (proof_inputs ep) (tree_inputs t)).
  Proof.
    intros W I64 Kt Kk V. unfold verify_existence, check_against_spec in V.
    rewrite !andb_true_iff in V. destruct V as (((((Vl & _) & Vp) & Vk) & Vv) & Vc). btests.
    destruct (calculate H ep) as [c|] eqn:Ec; [|discriminate]. btests. subst c.
    split; [auto|]. split; [auto|].
    unfold calculate in Ec.
    destruct (leaf_apply H (ep_leaf ep) (ep_key ep) (ep_value ep)) as [c0|] eqn:El; [|discriminate].
    unfold leaf_apply in El. destruct (ep_key ep) as [|kb kr] eqn:Ek; [discriminate|].
    destruct (ep_value ep) as [|vb vr] eqn:Ev; [discriminate|].
    inversion El; subst c0. clear El. rewrite <- Ek, <- Ev in Ec.
    assert (Lc : leaf_check_against_spec (LeafOp (lo_prefix (ep_leaf ep))) = true).
    { destruct (ep_leaf ep). exact Vl. }
    rewrite <- (rev_involutive (ep_path ep)) in Ec.
    assert (Fo : Forall (fun io => exists b, 1 <= b /\ inner_check_against_spec io b = true)
                        (rev (ep_path ep))).
    { apply Forall_rev. apply (inner_checks_forall _ 1); [lia|exact Vp]. }
    assert (Kk' : klen_ok (ep_key ep)) by (rewrite Ek, <- Vk; exact Kk).
    destruct (sound_core _ _ _ Lc Kk' _ t W I64 Kt Fo Ec) as [(j & Wj & Gj)|C].
    - left. exists j. split; [exact Wj|]. rewrite Ek, <- Vk, Ev, <- Vv in Gj. exact Gj.
    - right. rewrite rev_involutive in C. exact C.
  Qed.

  (** Any membership proof that the ICS-23 verifier accepts against the root hash of [t]
      states a true membership of [t], or two different inputs with the same hash occur
      among the inputs hashed by the verifier and those hashed by the tree. *)
  Theorem sound_member_in t p k v :
    wf t -> int64_tree t -> keys_len_ok t -> klen_ok k ->
    verify_membership H (ph t) p k v = true ->
    snd (get t k) = Some v \/
    exists ep, p = PExist ep /\ collision_in (proof_inputs ep) (tree_inputs t).
  Proof.
    intros W I64 Kt Kk V. destruct p as [ep|np]; [|discriminate]. cbn [verify_membership] in V.
    destruct (beq (ep_key ep) k) eqn:Bk; [|discriminate].
    destruct (sound_existence t ep k v W I64 Kt Kk V) as (_ & _ & [(j & _ & Gj)|C]).
    - left. destruct (proj1 (get_by_index_get t j k v W) Gj) as [_ ->]. reflexivity.
    - right. exists ep. auto.
  Qed.

  Theorem sound_member t p k v :
    wf t -> int64_tree t -> keys_len_ok t -> klen_ok k ->
    verify_membership H (ph t) p k v = true ->
    snd (get t k) = Some v \/
    exists ep x y, p = PExist ep /\ find_collision t ep = Some (x, y) /\ x <> y /\ H x = H y.
  Proof.
    intros W I64 Kt Kk V. destruct (sound_member_in t p k v W I64 Kt Kk V) as [G|(ep & -> & C)].
    - left. exact G.
    - right. destruct (find_collision_in_spec _ _ C) as (x & y & F & N & E).
      exists ep, x, y. auto.
  Qed.

  Corollary sound_member_node_hash t p k v :
    wf t -> hash_ok H t -> int64_tree t -> keys_len_ok t -> klen_ok k ->
    verify_membership H (node_hash H wv t) p k v = true ->
    snd (get t k) = Some v \/
    exists ep x y, p = PExist ep /\ find_collision t ep = Some (x, y) /\ x <> y /\ H x = H y.
  Proof. intros W Hok. rewrite (node_hash_pure H wv t Hok). apply sound_member; exact W. Qed.

  (** A proof produced for [k] on [t] is accepted (against whatever root) only for the key
      [k] and the value stored under [k] in [t]: no hash assumption is needed. *)
  Theorem produced_only_for_its_claim (hf : node -> bytes) t k p root k' v' :
    get_membership_proof_gen hf wv (Some t) k = Some p ->
    verify_membership H root p k' v' = true ->
    k' = k /\ snd (get t k) = Some v'.
  Proof.
    unfold get_membership_proof_gen, create_existence_proof.
    destruct (path_to_leaf hf wv t k) as [[pa [[lk lv] m]] ok] eqn:E.
    pose proof (path_get hf t _ _ _ _ _ _ E) as P.
    destruct ok; [|discriminate]. destruct P as [-> G]. intros Ep; inversion Ep; subst p.
    cbn [verify_membership ep_key]. destruct (beq k k') eqn:B; [|discriminate]. btests. subst k'.
    unfold verify_existence. cbn [ep_value]. intros V.
    apply andb_prop in V. destruct V as [V _]. apply andb_prop in V. destruct V as [_ Vv]. btests.
    subst. auto.
  Qed.

  (** ... and against the root of another tree [t'] only if the claim is true there, or a
      collision is exhibited (an instance of [sound_member]: that the proof was produced for
      [k] on [t] plays no part) *)
  Corollary produced_other_root (hf : node -> bytes) t k p t' v :
    get_membership_proof_gen hf wv (Some t) k = Some p ->
    wf t' -> int64_tree t' -> keys_len_ok t' -> klen_ok k ->
    verify_membership H (ph t') p k v = true ->
    snd (get t' k) = Some v \/
    exists ep x y, p = PExist ep /\ find_collision t' ep = Some (x, y) /\ x <> y /\ H x = H y.
  Proof. intros _. apply sound_member. Qed.

  (** * 7. Soundness of non-membership proofs (constructive collision form) *)

  Lemma pad_goes (d : bool) io :
    has_padding_for io (if d then 1 else 0) = true -> goes_right io = d.
  Proof.
    intros P. apply has_padding_for_iff in P. destruct P as [_ P]. unfold goes_right. destruct d, (io_suffix io) as [|x sx]; try reflexivity; [|discriminate].
    rewrite blen_cons in P. pose proof (blen_nonneg sx). lia.
  Qed.

  Lemma beq_nil_cons (x : N) (r : bytes) : beq [] (x :: r) = false.
  Proof. reflexivity. Qed.

  (** with [EmptyChild = nil] the placeholder tests never succeed *)
  Lemma right_branches_are_empty_false io : right_branches_are_empty io = false.
  Proof.
    unfold right_branches_are_empty. destruct (order_from_padding io) as [idx|] eqn:O; [|reflexivity].
    destruct (order_from_padding_cases io idx O) as [[-> P]|[-> P]]; [|reflexivity].
    apply has_padding_for_iff in P. destruct P as [_ P].
    cbn [Z.sub Z.eqb Z.mul Z.add Z.opp Z.pos_sub Pos.mul Pos.pred_double].
    replace (blen (io_suffix io) =? 33) with true by lia. cbn [negb].
    change (zrange 1) with [0]. cbn [forallb]. unfold slice. cbn [Z.mul Z.to_nat skipn].
    destruct (io_suffix io) as [|x r]; [discriminate|]. reflexivity.
  Qed.

  Lemma left_branches_are_empty_false io : left_branches_are_empty io = false.
  Proof.
    unfold left_branches_are_empty. destruct (order_from_padding io) as [idx|] eqn:O; [|reflexivity].
    destruct (order_from_padding_cases io idx O) as [[-> P]|[-> P]]; [reflexivity|].
    apply has_padding_for_iff in P. destruct P as [P _].
    replace (1 =? 0) with false by reflexivity.
    destruct (blen (io_prefix io) - 1 * 33 <? 0) eqn:A; [reflexivity|].
    change (zrange 1) with [0]. cbn [forallb]. rewrite andb_true_r. unfold slice.
    replace (blen (io_prefix io) - 1 * 33 + 0 * 33) with (blen (io_prefix io) - 33) by lia.
    assert (L : length (firstn (Z.to_nat 33) (skipn (Z.to_nat (blen (io_prefix io) - 33)) (io_prefix io))) = 33%nat).
    { rewrite firstn_length, skipn_length. unfold blen in *. lia. }
    destruct (firstn _ _) as [|x r]; [discriminate|]. reflexivity.
  Qed.

  Lemma is_left_most_dirs path : is_left_most path = true ->
    Forall (fun io => goes_right io = false) path.
  Proof.
    unfold is_left_most. intros F. rewrite forallb_forall in F. apply Forall_forall. intros io I.
    specialize (F io I). rewrite left_branches_are_empty_false, orb_false_r in F.
    apply (pad_goes false), F.
  Qed.

  Lemma is_right_most_dirs path : is_right_most path = true ->
    Forall (fun io => goes_right io = true) path.
  Proof.
    unfold is_right_most. intros F. rewrite forallb_forall in F. apply Forall_forall. intros io I.
    specialize (F io I). rewrite right_branches_are_empty_false, orb_false_r in F.
    apply (pad_goes true), F.
  Qed.

  Lemma walk_edge (d : bool) t : wf t -> forall rops j,
    Forall (fun io => goes_right io = d) rops -> walk t rops = Some j ->
    j = if d then size t - 1 else 0.
  Proof.
    intros W. induction W as [k0 v0 m0|nk m0 l r Wl Wr IHl IHr _ _ _] using wf_ind; intros rops j F Wk.
    - destruct rops; cbn [walk] in Wk; [inversion Wk; destruct d; reflexivity|discriminate].
    - destruct rops as [|op rest]; cbn [walk] in Wk; [discriminate|].
      apply Forall_cons_iff in F. destruct F as [D F']. rewrite D in Wk.
      destruct d; [|apply (IHl _ _ F' Wk)].
      destruct (walk r rest) as [j'|] eqn:Wr'; [|discriminate]. inversion Wk; subst.
      rewrite (IHr _ _ F' Wr'). cbn [size]. lia.
  Qed.

  Lemma inner_op_eqb_eq a b : inner_op_eqb a b = true -> a = b.
  Proof.
    unfold inner_op_eqb. intros E. apply andb_prop in E. destruct E as [E1 E2]. btests.
    destruct a, b. cbn in *. subst. reflexivity.
  Qed.

  (** the adjacency argument: paths accepted by [IsLeftNeighbor] end in consecutive leaves *)
  Lemma neighbor_walks t : wf t -> forall rl rr jl jr,
    nb_root rl rr = Some true -> walk t rl = Some jl -> walk t rr = Some jr -> jr = jl + 1.
  Proof.
    intros W. induction W as [k0 v0 m0|nk m0 l r Wl Wr IHl IHr _ _ _] using wf_ind;
      intros rl rr jl jr Nb Wl' Wr'.
    - destruct rl; cbn [walk] in Wl'; [|discriminate]. unfold nb_root in Nb. cbn in Nb. discriminate.
    - destruct rl as [|x rl]; cbn [walk] in Wl'; [discriminate|].
      destruct rr as [|y rr]; cbn [walk] in Wr'; [discriminate|].
      apply nb_root_cons in Nb. destruct (inner_op_eqb x y) eqn:Exy.
      + apply inner_op_eqb_eq in Exy. subst y. destruct (goes_right x).
        * destruct (walk r rl) as [a|] eqn:Wa; [|discriminate].
          destruct (walk r rr) as [b|] eqn:Wb; [|discriminate].
          cbn [option_map] in Wl', Wr'. inversion Wl'; inversion Wr'; subst.
          rewrite (IHr _ _ _ _ Nb Wa Wb). lia.
        * apply (IHl _ _ _ _ Nb Wl' Wr').
      + destruct Nb as (Ox & Oy & Rm & Lm).
        destruct (order_from_padding_cases x 0 Ox) as [[_ Px]|[? _]]; [|discriminate].
        destruct (order_from_padding_cases y 1 Oy) as [[? _]|[_ Py]]; [discriminate|].
        rewrite (pad_goes false x Px) in Wl'. rewrite (pad_goes true y Py) in Wr'.
        destruct (walk r rr) as [b|] eqn:Wb; [|discriminate]. inversion Wr'; subst.
        rewrite (walk_edge true l Wl _ _ (is_right_most_dirs _ Rm) Wl').
        rewrite (walk_edge false r Wr _ _ (is_left_most_dirs _ Lm) Wb). lia.
  Qed.

  Lemma sorted_gap l : forall (j : nat) k, sorted l -> (j <= length l)%nat ->
    (forall j' a va, j = S j' -> nth_error l j' = Some (a, va) -> a <b k) ->
    (forall b vb, nth_error l j = Some (b, vb) -> k <b b) ->
    assoc k l = None.
  Proof.
    induction l as [|[k0 v0] rest IH]; intros j k Hs Lj Hl Hr; [reflexivity|].
    cbn [sorted] in Hs. destruct Hs as [F Hs]. cbn [length] in Lj.
    destruct j as [|j'].
    - specialize (Hr k0 v0 eq_refl). apply assoc_none_lt. constructor; [exact Hr|].
      eapply Forall_impl; [|exact F]. intros p Hp. cbn beta in *. border.
    - assert (K0 : k0 <b k).
      { destruct j' as [|j''].
        - apply (Hl 0%nat k0 v0 eq_refl eq_refl).
        - destruct (nth_error rest j'') as [[a va]|] eqn:N.
          + pose proof (Hl (S j'') a va eq_refl N) as A.
            apply nth_error_In in N. rewrite Forall_forall in F. specialize (F _ N). cbn [fst] in F.
            border.
          + apply nth_error_None in N. lia. }
      cbn [assoc]. replace (beq k k0) with false by (symmetry; apply beq_false; intro; subst; border).
      apply (IH j' k Hs ltac:(lia)).
      + intros j'' a va -> N. apply (Hl (S j'') a va eq_refl N).
      + intros b vb N. apply (Hr b vb N).
  Qed.

  Definition np_inputs (np : nonexistence_proof) : list bytes :=
    match np_left np with Some l => proof_inputs l | None => [] end ++
    match np_right np with Some r => proof_inputs r | None => [] end.

  Definition find_collision_non (t : node) (np : nonexistence_proof) : option (bytes * bytes) :=
    find_collision_in (np_inputs np) (tree_inputs t).

  Definition sub_key_ok (o : option existence_proof) : Prop :=
    match o with Some e => klen_ok (ep_key e) | None => True end.

  Lemma sound_side t e :
    wf t -> int64_tree t -> keys_len_ok t -> klen_ok (ep_key e) ->
    verify_existence H (ph t) e (ep_key e) (ep_value e) = true ->
    (exists j, 0 <= j < size t /\ walk t (rev (ep_path e)) = Some j /\
               nth_error (elems t) (Z.to_nat j) = Some (ep_key e, ep_value e)) \/
    collision_in (proof_inputs e) (tree_inputs t).
  Proof.
    intros W I64 Kt Kk V.
    destruct (sound_existence t e _ _ W I64 Kt Kk V) as (_ & _ & [(j & Wj & Gj)|C]); [left|right; exact C].
    pose proof (gbi_range t _ _ W Gj) as R. rewrite (gbi_nth t _ W) in Gj by lia. eauto.
  Qed.

  Theorem sound_nonmember_in t p k :
    wf t -> int64_tree t -> keys_len_ok t ->
    (forall np, p = PNonexist np -> sub_key_ok (np_left np) /\ sub_key_ok (np_right np)) ->
    verify_nonmembership H (ph t) p k = true ->
    snd (get t k) = None \/
    exists np, p = PNonexist np /\ collision_in (np_inputs np) (tree_inputs t).
  Proof.
    intros W I64 Kt Ks V. unfold verify_nonmembership in V.
    destruct (verify_nonmembership_x H (ph t) p k) as [b|] eqn:Vx; [|discriminate]. subst b.
    destruct p as [ep|[k0 ol or]]; [discriminate|]. destruct (Ks _ eq_refl) as [Ksl Ksr]. clear Ks.
    apply verify_nonmembership_iff in Vx. destruct Vx as (Sl & Sr & Nb).
    pose proof (wf_sorted t W) as Srt. pose proof (size_elems t W) as Sz.
    rewrite (get_spec t k W). cbn [snd].
    assert (C : forall e, ol = Some e \/ or = Some e -> collision_in (proof_inputs e) (tree_inputs t) ->
                exists np, PNonexist (NonExistenceProof k0 ol or) = PNonexist np /\
                           collision_in (np_inputs np) (tree_inputs t)).
    { intros e Oe Ce. eexists. split; [reflexivity|]. unfold np_inputs. cbn [np_left np_right].
      eapply collision_in_incl; [exact Ce| |apply incl_refl].
      destruct Oe as [->| ->]; [apply incl_appl|apply incl_appr]; apply incl_refl. }
    destruct ol as [l|], or as [r|]; cbn [side_ok sides_ok sub_key_ok np_left np_right] in *.
    - (* both neighbours: consecutive leaves *)
      destruct Sl as [Vl Bl], Sr as [Vr Br].
      destruct (sound_side t l W I64 Kt Ksl Vl) as [(jl & Rl & Wl' & Gl)|Cl]; [|right; eauto].
      destruct (sound_side t r W I64 Kt Ksr Vr) as [(jr & Rr & Wr' & Gr)|Cr]; [|right; eauto].
      left. rewrite is_left_neighbor_eq in Nb.
      pose proof (neighbor_walks t W _ _ _ _ Nb Wl' Wr') as Adj. subst jr.
      apply (sorted_gap _ (Z.to_nat (jl + 1)) k Srt); [lia| |].
      + intros j' a va Ej N. replace j' with (Z.to_nat jl) in N by lia.
        rewrite Gl in N. inversion N; subst. exact Bl.
      + intros b vb N. rewrite Gr in N. inversion N; subst. exact Br.
    - (* left neighbour only: it must be the last leaf *)
      destruct Sl as [Vl Bl].
      destruct (sound_side t l W I64 Kt Ksl Vl) as [(jl & Rl & Wl' & Gl)|Cl]; [|right; eauto].
      left. apply is_right_most_dirs in Nb. apply Forall_rev in Nb.
      pose proof (walk_edge true t W _ _ Nb Wl') as Jl. subst jl.
      apply (sorted_gap _ (length (elems t)) k Srt); [lia| |].
      + intros j' a va Ej N. replace j' with (Z.to_nat (size t - 1)) in N by lia.
        rewrite Gl in N. inversion N; subst. exact Bl.
      + intros b vb N. assert (X : nth_error (elems t) (length (elems t)) = None)
          by (apply nth_error_None; lia). congruence.
    - (* right neighbour only: it must be the first leaf *)
      destruct Sr as [Vr Br].
      destruct (sound_side t r W I64 Kt Ksr Vr) as [(jr & Rr & Wr' & Gr)|Cr]; [|right; eauto].
      left. apply is_left_most_dirs in Nb. apply Forall_rev in Nb.
      pose proof (walk_edge false t W _ _ Nb Wr') as Jr. subst jr.
      apply (sorted_gap _ 0%nat k Srt); [lia| |].
      + intros j' a va Ej. discriminate.
      + intros b vb N. change (Z.to_nat 0) with 0%nat in Gr. rewrite Gr in N.
        inversion N; subst. exact Br.
    - contradiction.
  Qed.

  (** Any non-membership proof accepted against the root hash of [t] states a true absence,
      or [find_collision_non] returns two different inputs with the same hash. *)
  Theorem sound_nonmember t p k :
    wf t -> int64_tree t -> keys_len_ok t ->
    (forall np, p = PNonexist np -> sub_key_ok (np_left np) /\ sub_key_ok (np_right np)) ->
    verify_nonmembership H (ph t) p k = true ->
    snd (get t k) = None \/
    exists np x y, p = PNonexist np /\ find_collision_non t np = Some (x, y) /\ x <> y /\ H x = H y.
  Proof.
    intros W I64 Kt Ks V. destruct (sound_nonmember_in t p k W I64 Kt Ks V) as [G|(np & -> & C)].
    - left. exact G.
    - right. destruct (find_collision_in_spec _ _ C) as (x & y & F & N & E).
      exists np, x, y. auto.
  Qed.

  Corollary sound_nonmember_node_hash t p k :
    wf t -> hash_ok H t -> int64_tree t -> keys_len_ok t ->
    (forall np, p = PNonexist np -> sub_key_ok (np_left np) /\ sub_key_ok (np_right np)) ->
    verify_nonmembership H (node_hash H wv t) p k = true ->
    snd (get t k) = None \/
    exists np x y, p = PNonexist np /\ find_collision_non t np = Some (x, y) /\ x <> y /\ H x = H y.
  Proof. intros W Hok. rewrite (node_hash_pure H wv t Hok). apply sound_nonmember; exact W. Qed.
End Facts.

(** * The executable SHA-256 satisfies the length hypothesis *)
Lemma sha_round_len st kw : length st = 8%nat -> length (Sha256.round st kw) = 8%nat.
Proof.
  intros L. do 8 (destruct st as [|? st]; [discriminate|]). destruct st; [|discriminate].
  reflexivity.
Qed.

Lemma sha_rounds_len xs : forall st, length st = 8%nat -> length (fold_left Sha256.round xs st) = 8%nat.
Proof.
  induction xs as [|x xs IH]; intros st L; [exact L|]. cbn [fold_left]. apply IH, sha_round_len, L.
Qed.

Lemma sha_compress_len st blk : length st = 8%nat -> length (compress st blk) = 8%nat.
Proof.
  intros L. unfold compress. rewrite map_length, combine_length, sha_rounds_len, L; auto.
Qed.

Lemma sha_blocks_len bs : forall st, length st = 8%nat -> length (fold_left compress bs st) = 8%nat.
Proof.
  induction bs as [|b bs IH]; intros st L; [exact L|]. cbn [fold_left]. apply IH, sha_compress_len, L.
Qed.

Lemma flat_map_words_len ws : length (flat_map bytes_of_word ws) = (4 * length ws)%nat.
Proof.
  induction ws as [|w ws IH]; [reflexivity|]. cbn [flat_map length]. rewrite app_length, IH.
  cbn [bytes_of_word length]. lia.
Qed.

Theorem sha256_length x : length (sha256 x) = 32%nat.
Proof.
  unfold sha256. rewrite flat_map_words_len, sha_blocks_len; reflexivity.
Qed.

(** * The finding: a stored empty value has no verifying proof.
    [complete_member] without the hypothesis [v <> []] is false: *)
Theorem empty_value_refuted :
  exists (t : node) (k v : bytes),
    wf t /\ snd (get t k) = Some v /\ k <> [] /\
    forall (H : bytes -> bytes) (wv : Z), 0 <= wv < 2 ^ 34 ->
      hash_ok H t /\ bounds wv t /\
      exists p, get_membership_proof H wv (Some t) k = Some p /\
                verify_membership H (node_hash H wv t) p k v = false.
Proof.
  exists (Leaf [1%N] [] new_meta), [1%N], [].
  split; [exact I|]. split; [reflexivity|]. split; [discriminate|].
  intros H wv Hwv. split; [apply hash_ok_new_leaf|]. split; [cbn; unfold i63; lia|].
  eexists. split; [reflexivity|]. apply empty_value_no_proof.
Qed.

(** * Wrong-kind requests, for the entry points *)
Theorem kind_errors (H : bytes -> bytes) (wv : Z) (t : node) (k : bytes) :
  (snd (get t k) = None -> get_membership_proof H wv (Some t) k = None) /\
  (forall v, snd (get t k) = Some v -> get_nonmembership_proof H wv (Some t) k = None) /\
  get_membership_proof H wv None k = None /\
  get_proof H wv None k = None.
Proof.
  split; [apply member_absent_none|]. split; [intros v; apply nonmember_present_none|].
  split; reflexivity.
Qed.

(** * Proof construction, verification and the collision search depend on the hash function
    through its values only (so that concrete instances can be evaluated with a table of hash
    values, see HashTable.v) *)
Section HashExt.
  Variables H H' : bytes -> bytes.
  Hypothesis HE : forall b, H b = H' b.

  Lemma path_to_leaf_hext wv t k :
    path_to_leaf (node_hash H wv) wv t k = path_to_leaf (node_hash H' wv) wv t k.
  Proof.
    induction t as [|nk h s m l IHl r IHr]; cbn [path_to_leaf]; [reflexivity|].
    rewrite IHl, IHr, !(node_hash_hext H H' HE). reflexivity.
  Qed.

  Lemma create_existence_proof_hext wv t k :
    create_existence_proof (node_hash H wv) wv t k = create_existence_proof (node_hash H' wv) wv t k.
  Proof. destruct t; cbn [create_existence_proof]; rewrite ?path_to_leaf_hext; reflexivity. Qed.

  Lemma get_membership_proof_hext wv t k :
    get_membership_proof H wv t k = get_membership_proof H' wv t k.
  Proof.
    unfold get_membership_proof, get_membership_proof_gen. rewrite create_existence_proof_hext.
    reflexivity.
  Qed.

  Lemma get_nonmembership_proof_hext wv t k :
    get_nonmembership_proof H wv t k = get_nonmembership_proof H' wv t k.
  Proof.
    unfold get_nonmembership_proof, get_nonmembership_proof_gen.
    destruct (get_with_index t k) as [idx [v|]]; [reflexivity|]. cbv zeta.
    rewrite create_existence_proof_hext.
    destruct (get_by_index_o t idx) as [[rk rv]|]; rewrite ?create_existence_proof_hext; reflexivity.
  Qed.

  Lemma get_proof_hext wv t k : get_proof H wv t k = get_proof H' wv t k.
  Proof.
    destruct t as [n|]; [|reflexivity].
    change (get_proof H wv (Some n) k)
      with (if has n k then get_membership_proof H wv (Some n) k
            else get_nonmembership_proof H wv (Some n) k).
    rewrite get_membership_proof_hext, get_nonmembership_proof_hext. reflexivity.
  Qed.

  Lemma apply_path_hext path : forall res, apply_path H res path = apply_path H' res path.
  Proof.
    induction path as [|io path IH]; intros res; cbn [apply_path]; [reflexivity|].
    unfold inner_apply. rewrite HE. destruct res; [reflexivity|]. rewrite IH. reflexivity.
  Qed.

  Lemma calculate_hext ep : calculate H ep = calculate H' ep.
  Proof.
    unfold calculate, leaf_apply. rewrite !HE.
    destruct (ep_key ep), (ep_value ep); try reflexivity. apply apply_path_hext.
  Qed.

  Lemma verify_existence_hext root ep k v :
    verify_existence H root ep k v = verify_existence H' root ep k v.
  Proof. unfold verify_existence. rewrite calculate_hext. reflexivity. Qed.

  Lemma verify_membership_hext root p k v :
    verify_membership H root p k v = verify_membership H' root p k v.
  Proof. destruct p; cbn [verify_membership]; rewrite ?verify_existence_hext; reflexivity. Qed.

  Lemma verify_nonmembership_hext root p k :
    verify_nonmembership H root p k = verify_nonmembership H' root p k.
  Proof.
    unfold verify_nonmembership, verify_nonmembership_x, nonexist_verify.
    destruct p as [e|[nk [l|] [r|]]]; cbn [np_left np_right]; rewrite ?verify_existence_hext;
      reflexivity.
  Qed.

  Lemma node_preimage_hext wv t : node_preimage H wv t = node_preimage H' wv t.
  Proof.
    destruct t; cbn [node_preimage];
      rewrite ?(leaf_preimage_hext H H' HE), ?(pure_hash_hext H H' HE); reflexivity.
  Qed.

  Lemma tree_inputs_hext wv t : tree_inputs H wv t = tree_inputs H' wv t.
  Proof.
    induction t as [|nk h s m l IHl r IHr]; cbn [tree_inputs]; rewrite node_preimage_hext;
      [|rewrite IHl, IHr]; reflexivity.
  Qed.

  Lemma path_preimages_hext path : forall res,
    path_preimages H res path = path_preimages H' res path.
  Proof.
    induction path as [|io path IH]; intros res; cbn [path_preimages]; [reflexivity|].
    rewrite HE, IH. reflexivity.
  Qed.

  Lemma proof_inputs_hext ep : proof_inputs H ep = proof_inputs H' ep.
  Proof. unfold proof_inputs, leaf_input. rewrite !HE, path_preimages_hext. reflexivity. Qed.

  Lemma find_collision_in_hext A B : find_collision_in H A B = find_collision_in H' A B.
  Proof.
    unfold find_collision_in. induction (list_prod A B) as [|xy ps IH]; [reflexivity|].
    cbn [find]. unfold is_collision at 1 3. rewrite !HE, IH. reflexivity.
  Qed.

  Lemma find_collision_hext wv t ep : find_collision H wv t ep = find_collision H' wv t ep.
  Proof.
    unfold find_collision. rewrite proof_inputs_hext, tree_inputs_hext. apply find_collision_in_hext.
  Qed.

  Lemma find_collision_non_hext wv t np :
    find_collision_non H wv t np = find_collision_non H' wv t np.
  Proof.
    unfold find_collision_non, np_inputs.
    destruct (np_left np), (np_right np); rewrite ?proof_inputs_hext, tree_inputs_hext;
      apply find_collision_in_hext.
  Qed.
End HashExt.
