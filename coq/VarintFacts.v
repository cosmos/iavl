(** Facts about Go varints, length-prefixed bytes and big-endian integers (Varint.v):
    round trips, decoder guards (bounds on what a decoder reads / returns), and the
    order-preservation of the fixed-width big-endian layout. *)
From IAVL Require Import Bytes Varint.
From IAVL Require Export ListFacts.
From Coq Require Import Lia ZifyBool ZifyNat ZifyN.
Local Open Scope N_scope.

(** ** byte strings *)

Lemma length_skipn_le {A} n (l : list A) : (length (skipn n l) <= length l)%nat.
Proof. rewrite skipn_length. lia. Qed.

Lemma length_skipn_eq {A} n (l : list A) :
  (n <= length l)%nat -> (n + length (skipn n l) = length l)%nat.
Proof. rewrite skipn_length. lia. Qed.

Lemma well_formed_app a b : well_formed (a ++ b) <-> well_formed a /\ well_formed b.
Proof. unfold well_formed. apply Forall_app. Qed.

Lemma well_formed_skipn n a : well_formed a -> well_formed (skipn n a).
Proof. intros H. rewrite <- (firstn_skipn n a) in H. apply well_formed_app in H. apply H. Qed.

Lemma well_formed_firstn n a : well_formed a -> well_formed (firstn n a).
Proof. apply Forall_firstn. Qed.

Lemma bcmp_app a : forall a' b b',
  length a = length a' ->
  bcmp (a ++ b) (a' ++ b') = match bcmp a a' with Eq => bcmp b b' | c => c end.
Proof.
  induction a as [|x a IH]; intros [|y a'] b b' Hl; try discriminate; [reflexivity|].
  cbn [app bcmp]. destruct (x ?= y); auto.
Qed.

(** unlike [injection], leaves the components as they are written *)
Lemma some_pair_inj {A B} (a a' : A) (b b' : B) :
  Some (a, b) = Some (a', b') -> a = a' /\ b = b'.
Proof. intros H. inversion H. auto. Qed.

(** ** uvarint *)

Lemma uvarint_enc_fuel_length f u : (length (uvarint_enc_fuel f u) <= f)%nat.
Proof.
  revert u. induction f as [|f IH]; intros u; simpl; [lia|].
  destruct (u <? 128) eqn:E; simpl; [lia|]. specialize (IH (u / 128)). lia.
Qed.

Lemma uvarint_enc_fuel_pos f u : (0 < f)%nat -> (0 < length (uvarint_enc_fuel f u))%nat.
Proof. destruct f; [lia|]. intros _. simpl. destruct (u <? 128); simpl; lia. Qed.

Lemma uvarint_enc_length u : (0 < length (uvarint_enc u) <= 10)%nat.
Proof.
  unfold uvarint_enc. split; [apply uvarint_enc_fuel_pos; lia | apply uvarint_enc_fuel_length].
Qed.

Lemma uvarint_enc_fuel_wf f u : well_formed (uvarint_enc_fuel f u).
Proof.
  unfold well_formed. revert u. induction f as [|f IH]; intros u; simpl; [constructor|].
  destruct (u <? 128) eqn:E.
  - constructor; [lia | constructor].
  - constructor; [|apply IH]. lia.
Qed.

Lemma uvarint_enc_wf u : well_formed (uvarint_enc u).
Proof. apply uvarint_enc_fuel_wf. Qed.

Lemma pow2_split a : 2 ^ (a + 7) = 128 * 2 ^ a.
Proof. rewrite N.pow_add_r. change (2 ^ 7) with 128. lia. Qed.

Lemma uvarint_dec_at_cons i b rest :
  uvarint_dec_at i (b :: rest) =
  if Nat.leb 10 i then None
  else if b <? 128 then (if Nat.eqb i 9 && (1 <? b) then None else Some (b, 1%nat))
  else match uvarint_dec_at (S i) rest with
       | Some (v, n) => Some ((b - 128) + 128 * v, S n)
       | None => None
       end.
Proof. reflexivity. Qed.

(** round trip at index [i = 10 - f] of the original buffer; the value bound shrinks by 7
    bits per consumed byte: [u < 2^(7f-6)] is [u < 2^64] for [f = 10] and [u < 2] for [f = 1]
    (Go's "10th byte > 1 is an overflow"). *)
Lemma uvarint_dec_enc_fuel f : forall i u rest,
  (i + f = 10)%nat -> (1 <= f)%nat -> u < 2 ^ (N.of_nat (7 * f) - 6) ->
  uvarint_dec_at i (uvarint_enc_fuel f u ++ rest)
  = Some (u, length (uvarint_enc_fuel f u)).
Proof.
  induction f as [|f IH]; intros i u rest Hi Hf Hu; [lia|].
  cbn [uvarint_enc_fuel].
  destruct (u <? 128) eqn:E.
  - cbn [app length]. rewrite uvarint_dec_at_cons.
    destruct (Nat.leb 10 i) eqn:E1; [lia|].
    rewrite E.
    destruct (Nat.eqb i 9 && (1 <? u)) eqn:E2; [|reflexivity].
    exfalso. assert (f = 0%nat) by lia. subst f.
    change (2 ^ (N.of_nat (7 * 1) - 6)) with 2 in Hu. lia.
  - assert (Hf' : (1 <= f)%nat).
    { destruct f; [|lia]. exfalso.
      change (2 ^ (N.of_nat (7 * 1) - 6)) with 2 in Hu. lia. }
    assert (Hu' : u / 128 < 2 ^ (N.of_nat (7 * f) - 6)).
    { apply N.div_lt_upper_bound; [lia|].
      rewrite <- pow2_split.
      replace (N.of_nat (7 * f) - 6 + 7) with (N.of_nat (7 * S f) - 6) by lia. exact Hu. }
    cbn [app length]. rewrite uvarint_dec_at_cons.
    destruct (Nat.leb 10 i) eqn:E1; [lia|].
    assert (Hb : (u mod 128 + 128 <? 128) = false) by lia. rewrite Hb.
    rewrite (IH (S i) (u / 128) rest) by (auto; lia).
    f_equal. f_equal. lia.
Qed.

Theorem uvarint_roundtrip u rest :
  u < 2 ^ 64 ->
  uvarint_dec (uvarint_enc u ++ rest) = Some (u, length (uvarint_enc u)).
Proof.
  intros Hu. unfold uvarint_dec, uvarint_enc.
  apply uvarint_dec_enc_fuel; try lia. exact Hu.
Qed.

(** the first byte tells a one-byte encoding from a longer one *)
Lemma uvarint_enc_head u :
  exists b tl, uvarint_enc u = b :: tl /\ ((u < 128 /\ b = u) \/ (128 <= u /\ 128 <= b)).
Proof.
  unfold uvarint_enc. cbn [uvarint_enc_fuel].
  destruct (u <? 128) eqn:E.
  - exists u, []. split; [reflexivity|]. left. lia.
  - eexists _, _. split; [reflexivity|]. right. lia.
Qed.

Lemma uvarint_dec_at_guard buf : forall i v n,
  uvarint_dec_at i buf = Some (v, n) ->
  (0 < n <= length buf)%nat /\ (i + n <= 10)%nat /\
  (well_formed buf -> v < 2 ^ (64 - 7 * N.of_nat i)).
Proof.
  induction buf as [|b rest IH]; intros i v n H; [discriminate|]; rewrite uvarint_dec_at_cons in H.
  destruct (Nat.leb 10 i) eqn:E1; [discriminate|].
  destruct (b <? 128) eqn:E2.
  - destruct (Nat.eqb i 9 && (1 <? b)) eqn:E3; [discriminate|].
    apply some_pair_inj in H; destruct H as [<- <-]. simpl length. repeat split; try lia.
    intros _.
    destruct (Nat.eqb i 9) eqn:E4.
    + assert (i = 9%nat) by lia. subst i.
      change (2 ^ (64 - 7 * N.of_nat 9)) with 2. lia.
    + apply N.lt_le_trans with (2 ^ 7); [change (2 ^ 7) with 128; lia|].
      apply N.pow_le_mono_r; lia.
  - destruct (uvarint_dec_at (S i) rest) as [[v' n']|] eqn:E3; [|discriminate].
    apply some_pair_inj in H; destruct H as [<- <-].
    destruct (IH _ _ _ E3) as (Hn & Hi & Hv).
    simpl length. repeat split; try lia.
    intros Hw. inversion Hw as [|x l Hb Hw']; subst.
    specialize (Hv Hw').
    replace (64 - 7 * N.of_nat i) with ((64 - 7 * N.of_nat (S i)) + 7) by lia.
    rewrite pow2_split.
    remember (2 ^ (64 - 7 * N.of_nat (S i))) as P eqn:HP. clear HP.
    assert (b < 256) by assumption. lia.
Qed.

Theorem uvarint_dec_guard buf v n :
  uvarint_dec buf = Some (v, n) ->
  (0 < n <= length buf)%nat /\ (n <= 10)%nat /\ (well_formed buf -> v < 2 ^ 64).
Proof.
  intros H. destruct (uvarint_dec_at_guard _ _ _ _ H) as (H1 & H2 & H3).
  repeat split; try lia. exact H3.
Qed.

Lemma uvarint_dec_at_prefix buf : forall i v n rest,
  uvarint_dec_at i buf = Some (v, n) ->
  uvarint_dec_at i (firstn n buf ++ rest) = Some (v, n).
Proof.
  induction buf as [|b tl IH]; intros i v n rest H; [discriminate|]; rewrite uvarint_dec_at_cons in H.
  destruct (Nat.leb 10 i) eqn:E1; [discriminate|].
  destruct (b <? 128) eqn:E2.
  - destruct (Nat.eqb i 9 && (1 <? b)) eqn:E3; [discriminate|].
    apply some_pair_inj in H; destruct H as [<- <-]. cbn [firstn app]. rewrite uvarint_dec_at_cons, E1, E2, E3. reflexivity.
  - destruct (uvarint_dec_at (S i) tl) as [[v' n']|] eqn:E3; [|discriminate].
    apply some_pair_inj in H; destruct H as [<- <-]. cbn [firstn app]. rewrite uvarint_dec_at_cons, E1, E2.
    rewrite (IH _ _ _ rest E3). reflexivity.
Qed.

(** non-canonical encodings are accepted (as by Go): [0x80, 0x00] decodes to 0. *)
Example uvarint_noncanonical : uvarint_dec [128; 0] = Some (0, 2%nat).
Proof. reflexivity. Qed.

(** ** zig-zag *)

Lemma unzigzag_zigzag x : unzigzag (zigzag x) = x.
Proof.
  unfold zigzag, unzigzag.
  destruct (x <? 0)%Z eqn:E.
  - assert (Hk : Z.to_N (2 * - x - 1) = 2 * Z.to_N (- x - 1) + 1) by lia.
    rewrite Hk.
    rewrite N.add_comm, N.even_add_mul_2. cbn [N.even].
    replace ((1 + 2 * Z.to_N (- x - 1)) / 2) with (Z.to_N (- x - 1)) by lia. lia.
  - assert (Hk : Z.to_N (2 * x) = 0 + 2 * Z.to_N x) by lia.
    rewrite Hk. rewrite N.even_add_mul_2. cbn [N.even].
    replace ((0 + 2 * Z.to_N x) / 2) with (Z.to_N x) by lia. lia.
Qed.

Lemma zigzag_unzigzag u : zigzag (unzigzag u) = u.
Proof.
  unfold zigzag, unzigzag.
  pose proof (N.div_mod u 2 ltac:(lia)) as Hd.
  destruct (N.even u) eqn:E.
  - apply N.even_spec in E. destruct E as [k Hk]. subst u.
    assert (2 * k / 2 = k) as -> by lia.
    destruct (Z.of_N k <? 0)%Z eqn:E2; lia.
  - assert (Ho : N.odd u = true) by (rewrite <- N.negb_even, E; reflexivity).
    apply N.odd_spec in Ho. destruct Ho as [k Hk]. subst u.
    assert ((2 * k + 1) / 2 = k) as -> by lia.
    destruct (- Z.of_N k - 1 <? 0)%Z eqn:E2; lia.
Qed.

Lemma zigzag_eq x u : zigzag x = u -> x = unzigzag u.
Proof. intros <-. symmetry. apply unzigzag_zigzag. Qed.

Lemma zigzag_range x : (- 2 ^ 63 <= x < 2 ^ 63)%Z -> zigzag x < 2 ^ 64.
Proof. unfold zigzag. intros H. destruct (x <? 0)%Z eqn:E; lia. Qed.

Lemma unzigzag_range u : u < 2 ^ 64 -> (- 2 ^ 63 <= unzigzag u < 2 ^ 63)%Z.
Proof.
  unfold unzigzag. intros H.
  destruct (N.even u); lia.
Qed.

(** ** varint *)

Lemma varint_enc_length x : (0 < length (varint_enc x) <= 10)%nat.
Proof. apply uvarint_enc_length. Qed.

Lemma varint_enc_wf x : well_formed (varint_enc x).
Proof. apply uvarint_enc_wf. Qed.

Lemma varint_enc_length_small h : (-64 <= h <= 63)%Z -> length (varint_enc h) = 1%nat.
Proof.
  intros H. unfold varint_enc, uvarint_enc. cbn [uvarint_enc_fuel].
  assert (zigzag h <? 128 = true) as ->; [|reflexivity].
  unfold zigzag. destruct (h <? 0)%Z; lia.
Qed.

Theorem varint_roundtrip x rest :
  (- 2 ^ 63 <= x < 2 ^ 63)%Z ->
  varint_dec (varint_enc x ++ rest) = Some (x, length (varint_enc x)).
Proof.
  intros Hx. unfold varint_dec, varint_enc.
  rewrite uvarint_roundtrip by (apply zigzag_range; exact Hx).
  rewrite unzigzag_zigzag. reflexivity.
Qed.

Theorem varint_dec_guard buf x n :
  varint_dec buf = Some (x, n) ->
  (0 < n <= length buf)%nat /\ (n <= 10)%nat /\
  (well_formed buf -> (- 2 ^ 63 <= x < 2 ^ 63)%Z).
Proof.
  unfold varint_dec. destruct (uvarint_dec buf) as [[u m]|] eqn:E; [|discriminate].
  intros H. apply some_pair_inj in H; destruct H as [<- <-].
  destruct (uvarint_dec_guard _ _ _ E) as (H1 & H2 & H3).
  repeat split; try lia; apply unzigzag_range; auto.
Qed.

Lemma varint_dec_prefix buf x n rest :
  varint_dec buf = Some (x, n) -> varint_dec (firstn n buf ++ rest) = Some (x, n).
Proof.
  unfold varint_dec, uvarint_dec.
  destruct (uvarint_dec_at 0 buf) as [[u m]|] eqn:E; [|discriminate].
  intros H. apply some_pair_inj in H; destruct H as [<- <-].
  rewrite (uvarint_dec_at_prefix _ _ _ _ rest E). reflexivity.
Qed.

(** ** length-prefixed bytes *)

Lemma bytes_enc_length b :
  length (bytes_enc b) = (length (uvarint_enc (N.of_nat (length b))) + length b)%nat.
Proof. unfold bytes_enc. apply app_length. Qed.

Theorem bytes_roundtrip b rest :
  N.of_nat (length b) < 2 ^ 63 - 1 ->
  bytes_dec (bytes_enc b ++ rest) = Some (b, length (bytes_enc b)).
Proof.
  intros Hb. unfold bytes_dec, bytes_enc.
  rewrite <- app_assoc.
  rewrite uvarint_roundtrip by lia.
  destruct (max_int <=? N.of_nat (length b)) eqn:E1; [unfold max_int in E1; lia|].
  rewrite skipn_length_app.
  destruct (N.of_nat (length (b ++ rest)) <? N.of_nat (length b)) eqn:E2.
  { rewrite app_length in E2. lia. }
  rewrite Nat2N.id, firstn_length_app, app_length. reflexivity.
Qed.

(** A decoder that gives the value back whatever follows the encoding makes the encoding
    prefix-free: an encoding followed by anything determines the value and what follows. *)
Lemma roundtrip_app_inj {A} (enc : A -> bytes) (dec : bytes -> option (A * nat)) (ok : A -> Prop) :
  (forall a rest, ok a -> dec (enc a ++ rest) = Some (a, length (enc a))) ->
  forall a b r1 r2, ok a -> ok b -> enc a ++ r1 = enc b ++ r2 -> a = b /\ r1 = r2.
Proof.
  intros RT a b r1 r2 Ha Hb E. pose proof (RT a r1 Ha) as R. rewrite E, (RT b r2 Hb) in R.
  injection R as -> _. split; [reflexivity|]. exact (app_inv_head _ _ _ E).
Qed.

Lemma varint_enc_app_inj x y r1 r2 :
  (- 2 ^ 63 <= x < 2 ^ 63)%Z -> (- 2 ^ 63 <= y < 2 ^ 63)%Z ->
  varint_enc x ++ r1 = varint_enc y ++ r2 -> x = y /\ r1 = r2.
Proof.
  exact (roundtrip_app_inj _ _ (fun x => - 2 ^ 63 <= x < 2 ^ 63)%Z varint_roundtrip x y r1 r2).
Qed.

Lemma bytes_enc_app_inj a b r1 r2 :
  N.of_nat (length a) < 2 ^ 63 - 1 -> N.of_nat (length b) < 2 ^ 63 - 1 ->
  bytes_enc a ++ r1 = bytes_enc b ++ r2 -> a = b /\ r1 = r2.
Proof.
  exact (roundtrip_app_inj _ _ (fun b => N.of_nat (length b) < 2 ^ 63 - 1) bytes_roundtrip a b r1 r2).
Qed.

Lemma bytes_dec_inv buf b n :
  bytes_dec buf = Some (b, n) ->
  exists s m, uvarint_dec buf = Some (s, m) /\ s < max_int /\
    (N.to_nat s <= length (skipn m buf))%nat /\
    b = firstn (N.to_nat s) (skipn m buf) /\ n = (m + N.to_nat s)%nat.
Proof.
  unfold bytes_dec. destruct (uvarint_dec buf) as [[s m]|]; [|discriminate].
  destruct (max_int <=? s) eqn:E1; [discriminate|].
  destruct (N.of_nat (length (skipn m buf)) <? s) eqn:E2; [discriminate|].
  intros H. injection H as <- <-. exists s, m. repeat split; lia.
Qed.

Theorem bytes_dec_guard buf b n :
  bytes_dec buf = Some (b, n) ->
  (0 < n <= length buf)%nat /\ (length b <= length buf)%nat /\ (length b < n)%nat /\
  exists m, (0 < m <= 10)%nat /\ (n = m + length b)%nat /\ b = firstn (length b) (skipn m buf).
Proof.
  intros H. destruct (bytes_dec_inv _ _ _ H) as (s & m & E & _ & Hl & -> & ->).
  destruct (uvarint_dec_guard _ _ _ E) as (H1 & H2 & _).
  pose proof (length_skipn_eq m buf ltac:(lia)) as Hk.
  rewrite firstn_length_le by exact Hl. repeat split; try lia.
  exists m. repeat split; lia.
Qed.

Lemma bytes_dec_short buf b n : bytes_dec buf = Some (b, n) -> N.of_nat (length b) < 2 ^ 63 - 1.
Proof.
  intros H. destruct (bytes_dec_inv _ _ _ H) as (s & m & _ & Hs & Hl & -> & _).
  rewrite firstn_length_le by exact Hl. unfold max_int in Hs. lia.
Qed.

Lemma bytes_dec_wf buf b n : bytes_dec buf = Some (b, n) -> well_formed buf -> well_formed b.
Proof.
  intros H Hw. destruct (bytes_dec_guard _ _ _ H) as (_ & _ & _ & m & _ & _ & ->).
  apply well_formed_firstn, well_formed_skipn, Hw.
Qed.

(** ** big-endian fixed width *)

Lemma be_enc_length w x : length (be_enc w x) = w.
Proof.
  revert x. induction w as [|w IH]; intros x; cbn [be_enc]; [reflexivity|].
  rewrite app_length, IH. simpl. lia.
Qed.

Lemma be_enc_wf w x : well_formed (be_enc w x).
Proof.
  revert x. induction w as [|w IH]; intros x; cbn [be_enc]; [constructor|].
  apply well_formed_app. split; [apply IH|].
  constructor; [apply N.mod_lt; lia | constructor].
Qed.

Lemma be_dec_snoc a c : be_dec (a ++ [c]) = be_dec a * 256 + c.
Proof. unfold be_dec. rewrite fold_left_app. reflexivity. Qed.

Lemma pow256_S w : 256 ^ N.of_nat (S w) = 256 * 256 ^ N.of_nat w.
Proof. rewrite Nat2N.inj_succ, N.pow_succ_r'. reflexivity. Qed.

Lemma be_dec_enc w x : be_dec (be_enc w x) = x mod 256 ^ N.of_nat w.
Proof.
  revert x. induction w as [|w IH]; intros x; cbn [be_enc].
  - change (256 ^ N.of_nat 0) with 1. rewrite N.mod_1_r. reflexivity.
  - rewrite be_dec_snoc, IH, pow256_S.
    assert (Hp : 256 ^ N.of_nat w <> 0) by (apply N.pow_nonzero; lia).
    rewrite N.mod_mul_r by lia.
    generalize ((x / 256) mod 256 ^ N.of_nat w), (x mod 256). intros; lia.
Qed.

Theorem be_roundtrip w x : x < 256 ^ N.of_nat w -> be_dec (be_enc w x) = x.
Proof. intros H. rewrite be_dec_enc. apply N.mod_small, H. Qed.

Lemma be_dec_bound b : well_formed b -> be_dec b < 256 ^ N.of_nat (length b).
Proof.
  induction b as [|c b IH] using rev_ind; intros Hw.
  - cbn. lia.
  - apply well_formed_app in Hw. destruct Hw as [Hb Hc]. inversion Hc; subst.
    rewrite be_dec_snoc, app_length. cbn [length].
    replace (length b + 1)%nat with (S (length b)) by lia.
    rewrite pow256_S. specialize (IH Hb). lia.
Qed.

Lemma compare_divmod x y :
  (x ?= y) = match (x / 256 ?= y / 256) with Eq => (x mod 256 ?= y mod 256) | c => c end.
Proof.
  destruct (N.compare_spec (x / 256) (y / 256)) as [E|L|G].
  - destruct (N.compare_spec (x mod 256) (y mod 256)) as [E'|L'|G'].
    + apply N.compare_eq_iff. lia.
    + apply N.compare_lt_iff. lia.
    + apply N.compare_gt_iff. lia.
  - apply N.compare_lt_iff. lia.
  - apply N.compare_gt_iff. lia.
Qed.

Theorem be_enc_compare w : forall x y,
  x < 256 ^ N.of_nat w -> y < 256 ^ N.of_nat w ->
  bcmp (be_enc w x) (be_enc w y) = (x ?= y).
Proof.
  induction w as [|w IH]; intros x y Hx Hy.
  - cbn in Hx, Hy. assert (x = 0) by lia. assert (y = 0) by lia. subst. reflexivity.
  - rewrite pow256_S in Hx, Hy.
    cbn [be_enc]. rewrite bcmp_app by (now rewrite !be_enc_length).
    rewrite IH by (apply N.div_lt_upper_bound; lia).
    rewrite (compare_divmod x y).
    destruct (x / 256 ?= y / 256); auto.
    cbn [bcmp]. destruct (x mod 256 ?= y mod 256); auto.
Qed.

Corollary be_enc_lt w x y :
  x < 256 ^ N.of_nat w -> y < 256 ^ N.of_nat w ->
  (bcmp (be_enc w x) (be_enc w y) = Lt <-> x < y).
Proof. intros Hx Hy. rewrite be_enc_compare by auto. apply N.compare_lt_iff. Qed.

Corollary be_enc_inj w x y :
  x < 256 ^ N.of_nat w -> y < 256 ^ N.of_nat w -> be_enc w x = be_enc w y -> x = y.
Proof.
  intros Hx Hy E. apply N.compare_eq_iff. rewrite <- (be_enc_compare w) by auto.
  rewrite E. apply bcmp_refl.
Qed.
