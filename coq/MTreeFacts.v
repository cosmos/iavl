(** Proofs about the MutableTree state machine (MTree.v): stamping only touches node
    metadata, every reachable state carries well-formed AVL trees, reads and writes refine
    the sorted-association-list specification (VMap.v), and the version bookkeeping of
    save / load / prune / rollback only moves whole trees around. *)
From IAVL Require Import Bytes Varint Tree VMap TreeFacts MTree HashTable.
Local Open Scope Z_scope.

(** ** List-level helpers *)

Lemma del_absent_sorted k (l : kvs) : sorted l -> assoc k l = None -> del k l = l.
Proof. intros _. apply del_absent. Qed.

Lemma fst_if {A B} (c : bool) (a b : A * B) (P : A -> Prop) :
  P (fst a) -> P (fst b) -> P (fst (if c then a else b)).
Proof. destruct c; auto. Qed.

Lemma lookup_In {A} v (l : list (Z * A)) a : lookup v l = Some a -> In (v, a) l.
Proof.
  induction l as [|[w b] l IH]; cbn [lookup]; [discriminate|].
  destruct (w =? v) eqn:E; intros Hl.
  - apply Z.eqb_eq in E. inversion Hl; subst. left; reflexivity.
  - right; auto.
Qed.

Lemma lookup_None {A} v (l : list (Z * A)) : lookup v l = None -> ~ In v (map fst l).
Proof.
  induction l as [|[w b] l IH]; cbn [lookup map fst In]; [tauto|].
  destruct (w =? v) eqn:E; [discriminate|]. apply Z.eqb_neq in E.
  intros Hl [C|C]; [congruence|]. exact (IH Hl C).
Qed.

Lemma lookup_above {A} (h : list (Z * A)) b v :
  Forall (fun e => fst e <= b) h -> b < v -> lookup v h = None.
Proof.
  induction h as [|[w a] h IH]; intros F L; [reflexivity|]. inversion F; subst. cbn [lookup fst] in *.
  replace (w =? v) with false by (symmetry; apply Z.eqb_neq; lia). auto.
Qed.

Lemma lookup_app {A} v (l1 l2 : list (Z * A)) :
  lookup v (l1 ++ l2) = match lookup v l1 with Some a => Some a | None => lookup v l2 end.
Proof.
  induction l1 as [|[w b] l1 IH]; cbn [lookup app]; [reflexivity|].
  destruct (w =? v); auto.
Qed.

Lemma lookup_snoc {A} v w (a : A) (l : list (Z * A)) :
  lookup w l = None ->
  lookup v (l ++ [(w, a)]) = if v =? w then Some a else lookup v l.
Proof.
  intros N. rewrite lookup_app. cbn [lookup]. rewrite (Z.eqb_sym w v).
  destruct (v =? w) eqn:E.
  - apply Z.eqb_eq in E. subst. rewrite N. reflexivity.
  - destruct (lookup v l); reflexivity.
Qed.

Lemma lookup_filter {A} (f : Z -> bool) v (l : list (Z * A)) :
  lookup v (filter (fun p => f (fst p)) l) = if f v then lookup v l else None.
Proof.
  induction l as [|[w b] l IH]; cbn [filter lookup fst].
  - destruct (f v); reflexivity.
  - destruct (w =? v) eqn:E.
    + apply Z.eqb_eq in E. subst w. destruct (f v) eqn:F.
      * cbn [lookup]. rewrite Z.eqb_refl. reflexivity.
      * rewrite IH. rewrite ?F. reflexivity.
    + destruct (f w); [cbn [lookup]; rewrite E|]; exact IH.
Qed.

Lemma lookup_filter_gt {A} n v (l : list (Z * A)) :
  lookup v (filter (fun p => n <? fst p) l) = if n <? v then lookup v l else None.
Proof. exact (lookup_filter (fun x => n <? x) v l). Qed.

Lemma lookup_filter_le {A} n v (l : list (Z * A)) :
  lookup v (filter (fun p => fst p <=? n) l) = if v <=? n then lookup v l else None.
Proof. exact (lookup_filter (fun x => x <=? n) v l). Qed.

Lemma lookup_filter_gt_keep {A} n v (l : list (Z * A)) :
  n < v -> lookup v (filter (fun p => n <? fst p) l) = lookup v l.
Proof. intros L. rewrite lookup_filter_gt, (proj2 (Z.ltb_lt n v) L). reflexivity. Qed.
Lemma lookup_filter_gt_drop {A} n v (l : list (Z * A)) :
  v <= n -> lookup v (filter (fun p => n <? fst p) l) = None.
Proof. intros L. rewrite lookup_filter_gt, (proj2 (Z.ltb_ge n v) L). reflexivity. Qed.
Lemma lookup_filter_le_keep {A} n v (l : list (Z * A)) :
  v <= n -> lookup v (filter (fun p => fst p <=? n) l) = lookup v l.
Proof. intros L. rewrite lookup_filter_le, (proj2 (Z.leb_le v n) L). reflexivity. Qed.
Lemma lookup_filter_le_drop {A} n v (l : list (Z * A)) :
  n < v -> lookup v (filter (fun p => fst p <=? n) l) = None.
Proof. intros L. rewrite lookup_filter_le, (proj2 (Z.leb_gt v n) L). reflexivity. Qed.

Lemma keys_all_elems_eq P t t' : elems t = elems t' -> keys_all P t' -> keys_all P t.
Proof. intros E K. rewrite keys_all_elems in K |- *. rewrite E. exact K. Qed.

(** ** Rank / lookup inverse at tree level (property C11) *)
Lemma rank_nonneg k (l : kvs) : 0 <= rank k l.
Proof. exact (VMapFacts.rank_nonneg k l). Qed.

Theorem get_by_index_get t i k v :
  wf t ->
  (get_by_index t i = Some (k, v) <-> (0 <= i /\ get t k = (i, Some v))).
Proof.
  intros W. pose proof (wf_sorted t W) as Hs.
  rewrite (get_by_index_spec t i W), (get_spec t k W). split.
  - destruct (i <? 0) eqn:N; [discriminate|]. apply Z.ltb_ge in N. intros E.
    destruct (sorted_nth_rank _ _ _ _ Hs E) as [A R]. split; [exact N|].
    rewrite A, R. f_equal. lia.
  - intros [N E]. injection E as R A.
    replace (i <? 0) with false by (symmetry; apply Z.ltb_ge; exact N).
    rewrite <- R. apply sorted_assoc_nth; assumption.
Qed.

Theorem get_by_index_out_of_range t i :
  wf t -> i < 0 \/ size t <= i -> get_by_index t i = None.
Proof.
  intros W O. rewrite (get_by_index_spec t i W).
  destruct (i <? 0) eqn:N; [reflexivity|]. apply Z.ltb_ge in N.
  apply nth_error_None. rewrite (size_elems t W) in O. lia.
Qed.

(** ** The state invariant *)
Definition oinv (t : option node) : Prop :=
  match t with None => True | Some n => wf n /\ avl n end.

(** Every tree the state holds is a well-formed AVL tree; retained versions are
    pairwise distinct and non-negative.  (Strict ascent of the retained versions is NOT
    an invariant of the model: see [versions_not_ascending] below.
    Positivity fails for [init_state 0 true], whose first save is version 0.) *)
Record state_inv (s : mstate) : Prop := StateInv {
  inv_root : oinv (root s);
  inv_saved : oinv (last_saved s);
  inv_trees : Forall (fun p => oinv (snd p)) (forest s);
  inv_vers : Forall (fun p => 0 <= fst p) (forest s);
  inv_nodup : NoDup (map fst (forest s));
  inv_version : 0 <= version s;
  inv_init : 0 <= init_ver s
}.

Lemma state_inv_iff s :
  state_inv s <->
  (oinv (root s) /\ oinv (last_saved s) /\
   Forall (fun p => oinv (snd p)) (forest s) /\ Forall (fun p => 0 <= fst p) (forest s) /\
   NoDup (map fst (forest s)) /\ 0 <= version s /\ 0 <= init_ver s).
Proof.
  split.
  - intros I. repeat split; apply I.
  - intros (A1 & A2 & A3 & A4 & A5 & A6 & A7). constructor; assumption.
Qed.

Lemma state_inv_init iv b : 0 <= iv -> state_inv (init_state iv b).
Proof.
  intros Hiv. constructor; cbn; auto; try constructor; lia.
Qed.

Lemma state_inv_lookup s v t :
  state_inv s -> lookup v (forest s) = Some t -> oinv t /\ 0 <= v.
Proof.
  intros I L. apply lookup_In in L.
  pose proof (inv_trees s I) as F1. pose proof (inv_vers s I) as F2.
  rewrite Forall_forall in F1, F2. split; [exact (F1 _ L) | exact (F2 _ L)].
Qed.

Lemma working_version_nonneg s : state_inv s -> 0 <= working_version s.
Proof.
  intros I. pose proof (inv_version s I). pose proof (inv_init s I).
  unfold working_version. destruct ((version s + 1 =? 1) && init_set s); lia.
Qed.

Definition same_but_root (s s' : mstate) : Prop :=
  version s' = version s /\ last_saved s' = last_saved s /\ forest s' = forest s /\
  init_ver s' = init_ver s /\ init_set s' = init_set s /\ init_opt s' = init_opt s.

(** ** List-level specification of the reads *)
Definition list_read (r : read) : bool :=
  match r with RHeight | RHash | RTouch => false | _ => true end.

Definition spec_read (l : kvs) (r : read) : out :=
  match r with
  | RGet k => XBytes (assoc k l)
  | RHas k => XBool (mem k l)
  | RGetWithIndex k => XPair (XInt (rank k l)) (XBytes (assoc k l))
  | RGetByIndex i =>
      match (if i <? 0 then None else nth_error l (Z.to_nat i)) with
      | Some (k, v) => XPair (XBytes (Some k)) (XBytes (Some v))
      | None => XPair (XBytes None) (XBytes None)
      end
  | RSize => XInt (Z.of_nat (length l))
  | RIter start stop incl asc => XKvs (range_spec l start stop incl asc)
  | RHeight | RHash | RTouch => XErr   (* not list-level reads: excluded by [list_read] *)
  end.

(** ** Writes (independent of the hash function) *)
Lemma same_but_root_refl s : same_but_root s s.
Proof. unfold same_but_root. tauto. Qed.

Lemma same_but_root_trans s1 s2 s3 : same_but_root s1 s2 -> same_but_root s2 s3 -> same_but_root s1 s3.
Proof.
  unfold same_but_root. intros (A1 & A2 & A3 & A4 & A5 & A6) (B1 & B2 & B3 & B4 & B5 & B6).
  repeat split; congruence.
Qed.

Lemma do_set_same s k v : same_but_root s (fst (do_set s k v)).
Proof.
  unfold do_set, same_but_root. destruct (root s) as [n|]; [destruct (set n k v)|]; cbn; tauto.
Qed.

Lemma do_remove_same s k : same_but_root s (fst (do_remove s k)).
Proof.
  unfold do_remove, same_but_root. cbv zeta.
  destruct (root s) as [n|]; [destruct (rm_val (remove n k))|]; cbn; tauto.
Qed.

Theorem do_set_refines s k v :
  state_inv s ->
  oelems (root (fst (do_set s k v))) = ins k v (oelems (root s)) /\
  snd (do_set s k v) = XBool (mem k (oelems (root s))) /\
  same_but_root s (fst (do_set s k v)).
Proof.
  intros I. pose proof (inv_root s I) as Ir.
  rewrite <- and_assoc. split; [|apply do_set_same]. unfold do_set.
  destruct (root s) as [n|]; [|split; reflexivity].
  destruct Ir as [W _]. destruct (set_spec n k v W) as (_ & E & U & _).
  destruct (set n k v) as [n' upd]. cbn [fst snd root oelems] in *. rewrite E, U. split; reflexivity.
Qed.

Theorem do_remove_refines s k :
  state_inv s ->
  oelems (root (fst (do_remove s k))) = del k (oelems (root s)) /\
  snd (do_remove s k) =
    XPair (XBytes (assoc k (oelems (root s)))) (XBool (mem k (oelems (root s)))) /\
  same_but_root s (fst (do_remove s k)).
Proof.
  intros I. pose proof (inv_root s I) as Ir.
  rewrite <- and_assoc. split; [|apply do_remove_same]. unfold do_remove. cbv zeta.
  destruct (root s) as [n|] eqn:R; [|cbn [fst snd]; rewrite R; split; reflexivity].
  destruct Ir as [W A]. pose proof (remove_spec n k W A) as P. unfold rm_post in P. unfold mem.
  destruct (rm_val (remove n k)) as [val|] eqn:EV; cbn [fst snd root]; rewrite ?R; cbn [oelems].
  - destruct P as [-> P]. destruct (rm_self (remove n k)) as [t'|] eqn:ES; cbn [oelems].
    + destruct P as (_ & _ & -> & _). split; reflexivity.
    + destruct P as ((m & ->) & _). cbn [elems del]. rewrite bcmp_refl. split; reflexivity.
  - rewrite P, (del_absent k _ P). split; reflexivity.
Qed.

Lemma oinv_set n k v : oinv (Some n) -> oinv (Some (fst (set n k v))).
Proof. intros [W A]. split; [apply set_spec, W|apply set_avl; assumption]. Qed.

Lemma oinv_remove n k :
  oinv (Some n) -> rm_val (remove n k) <> None -> oinv (rm_self (remove n k)).
Proof.
  intros [W A] V. pose proof (remove_spec n k W A) as P. unfold rm_post in P.
  destruct (rm_val (remove n k)); [|congruence].
  destruct (rm_self (remove n k)); [|exact I]. split; apply P.
Qed.

(** ** Loading, pruning, reopening (independent of the hash function) *)
Lemma do_load_cases s v :
  do_load s v = (s, XErr) \/
  (forest s = [] /\ v <= 0 /\ do_load s v = (s, XInt 0)) \/
  (exists tv r, lookup tv (forest s) = Some r /\
     do_load s v = (MState r tv r (forest s) (init_ver s) (init_set s) (init_opt s),
                    XInt (latest_version s))).
Proof.
  unfold do_load. cbv zeta.
  destruct ((0 <? first_version s) && (first_version s <? init_ver s)); [left; reflexivity|].
  destruct (latest_version s <? v); [left; reflexivity|].
  destruct (forest s) as [|p f] eqn:F.
  - destruct (v <=? 0) eqn:C; [|left; reflexivity].
    apply Z.leb_le in C. right; left. auto.
  - rewrite <- F.
    destruct (lookup (if v <=? 0 then latest_version s else v) (forest s)) as [r|] eqn:L;
      [|left; reflexivity].
    right; right. eauto.
Qed.

Lemma do_prune_cases s n :
  (latest_version s <= n /\ do_prune s n = (s, XErr)) \/
  (n < latest_version s /\
   do_prune s n =
     (MState (root s) (version s) (last_saved s) (filter (fun p => n <? fst p) (forest s))
             (init_ver s) (init_set s) (init_opt s), XOk)).
Proof.
  unfold do_prune. destruct (latest_version s <=? n) eqn:C.
  - apply Z.leb_le in C. left; auto.
  - apply Z.leb_gt in C. right; auto.
Qed.

Lemma do_lvfo_cases s v :
  do_lvfo s v = (s, XErr) \/
  (forest s = [] /\ v <= 0 /\
   do_lvfo s v = (MState (root s) (version s) (last_saved s) [] (init_ver s) (init_set s)
                         (init_opt s), XOk)) \/
  (exists tv r, lookup tv (forest s) = Some r /\
     do_lvfo s v = (MState r tv r (filter (fun p => fst p <=? v) (forest s))
                           (init_ver s) (init_set s) (init_opt s), XOk)).
Proof.
  unfold do_lvfo.
  destruct (do_load_cases s v) as [E|[(F & C & E)|(tv & r & L & E)]]; rewrite E.
  - left; reflexivity.
  - right; left. rewrite F. cbn [filter]. auto.
  - right; right. exists tv, r. split; [exact L|reflexivity].
Qed.

Lemma do_reopen_cases s :
  do_reopen s = (MState None 0 None (forest s) (init_ver s) (init_opt s) (init_opt s), XErr) \/
  (forest s = [] /\
   do_reopen s = (MState None 0 None (forest s) (init_ver s) (init_opt s) (init_opt s), XOk)) \/
  (exists tv r, lookup tv (forest s) = Some r /\
     do_reopen s = (MState r tv r (forest s) (init_ver s) (init_opt s) (init_opt s), XOk)).
Proof.
  unfold do_reopen. cbv zeta.
  set (fresh := MState None 0 None (forest s) (init_ver s) (init_opt s) (init_opt s)).
  destruct (do_load_cases fresh 0) as [E|[(F & C & E)|(tv & r & L & E)]]; rewrite E.
  - left; reflexivity.
  - right; left. split; [exact F|reflexivity].
  - right; right. exists tv, r. split; [exact L|reflexivity].
Qed.

Lemma do_load_forest s v : forest (fst (do_load s v)) = forest s.
Proof.
  destruct (do_load_cases s v) as [E|[(_ & _ & E)|(tv & r & _ & E)]]; rewrite E; reflexivity.
Qed.

Lemma do_reopen_forest s : forest (fst (do_reopen s)) = forest s.
Proof.
  destruct (do_reopen_cases s) as [E|[(_ & E)|(tv & r & _ & E)]]; rewrite E; reflexivity.
Qed.

Section WithHash.
  Variable H : bytes -> bytes.

  (** ** Stamping (saveNewNodes) only changes node metadata *)
  Lemma stamp_leaf wv n k v m :
    stamp H wv n (Leaf k v m) =
      if negb (is_new (Leaf k v m)) then (Leaf k v m, n)
      else (Leaf k v (Meta wv (n + 1) (H (leaf_preimage H wv k v))), n + 1).
  Proof. reflexivity. Qed.

  Lemma stamp_inner wv n k h s m l r :
    stamp H wv n (Inner k h s m l r) =
      if negb (is_new (Inner k h s m l r)) then (Inner k h s m l r, n)
      else
        let (l', n1) := stamp H wv (n + 1) l in
        let (r', n2) := stamp H wv n1 r in
        (Inner k h s (Meta wv (n + 1)
           (H (inner_preimage h s wv (hs (nmeta l')) (hs (nmeta r'))))) l' r', n2).
  Proof. reflexivity. Qed.

  Lemma stamp_old wv n t : ver (nmeta t) <> 0 -> stamp H wv n t = (t, n).
  Proof.
    intros N. apply Z.eqb_neq in N.
    destruct t; [rewrite stamp_leaf|rewrite stamp_inner]; unfold is_new; rewrite N; reflexivity.
  Qed.

  Lemma stamp_new_leaf wv n k v m : ver m = 0 ->
    stamp H wv n (Leaf k v m) = (Leaf k v (Meta wv (n + 1) (H (leaf_preimage H wv k v))), n + 1).
  Proof. intros E. rewrite stamp_leaf. unfold is_new. cbn [nmeta]. rewrite E. reflexivity. Qed.

  Lemma stamp_new_inner wv n k h s m l r : ver m = 0 ->
    stamp H wv n (Inner k h s m l r) =
      let (l', n1) := stamp H wv (n + 1) l in
      let (r', n2) := stamp H wv n1 r in
      (Inner k h s (Meta wv (n + 1)
         (H (inner_preimage h s wv (hs (nmeta l')) (hs (nmeta r'))))) l' r', n2).
  Proof. intros E. rewrite stamp_inner. unfold is_new. cbn [nmeta]. rewrite E. reflexivity. Qed.

  Lemma stamp_metas wv n t :
    fst (stamp H wv n t) = t \/
    match t with
    | Leaf k v _ => exists m', fst (stamp H wv n t) = Leaf k v m'
    | Inner k h s _ l r =>
        exists m' n1,
          fst (stamp H wv n t) = Inner k h s m' (fst (stamp H wv (n + 1) l)) (fst (stamp H wv n1 r))
    end.
  Proof.
    destruct t as [k v m|k h s m l r]; [rewrite stamp_leaf|rewrite stamp_inner];
      (destruct (negb _); [left; reflexivity|right]).
    - eexists. reflexivity.
    - destruct (stamp H wv (n + 1) l) as [l' n1]. exists (Meta wv (n + 1) (H (inner_preimage h s wv (hs (nmeta l')) (hs (nmeta (fst (stamp H wv n1 r))))))), n1.
      destruct (stamp H wv n1 r) as [r' n2]. reflexivity.
  Qed.

  Lemma stamp_shape wv t : forall n,
    elems (fst (stamp H wv n t)) = elems t /\
    height (fst (stamp H wv n t)) = height t /\
    size (fst (stamp H wv n t)) = size t.
  Proof.
    induction t as [k v m|k h s m l IHl r IHr]; intros n.
    - destruct (stamp_metas wv n (Leaf k v m)) as [->|[m' ->]]; auto.
    - destruct (stamp_metas wv n (Inner k h s m l r)) as [->|(m' & n1 & ->)]; auto.
      cbn [elems height size]. rewrite (proj1 (IHl _)), (proj1 (IHr _)). auto.
  Qed.

  Lemma stamp_elems wv n t : elems (fst (stamp H wv n t)) = elems t.
  Proof. apply stamp_shape. Qed.
  Lemma stamp_height wv n t : height (fst (stamp H wv n t)) = height t.
  Proof. apply stamp_shape. Qed.
  Lemma stamp_size wv n t : size (fst (stamp H wv n t)) = size t.
  Proof. apply stamp_shape. Qed.

  Lemma stamp_wf wv t : forall n, wf t -> wf (fst (stamp H wv n t)).
  Proof.
    induction t as [k v m|k h s m l IHl r IHr]; intros n W.
    - destruct (stamp_metas wv n (Leaf k v m)) as [->|[m' ->]]; exact W.
    - destruct (stamp_metas wv n (Inner k h s m l r)) as [->|(m' & n1 & ->)]; [exact W|].
      cbn [wf] in *. destruct W as (Wl & Wr & Kl & Kr & Hk & Hh & Hs).
      rewrite !stamp_height, !stamp_size, (min_key_elems_eq _ r (stamp_elems wv n1 r)).
      repeat split; auto; eapply keys_all_elems_eq; eauto using stamp_elems.
  Qed.

  Lemma stamp_avl wv t : forall n, avl t -> avl (fst (stamp H wv n t)).
  Proof.
    induction t as [k v m|k h s m l IHl r IHr]; intros n A.
    - destruct (stamp_metas wv n (Leaf k v m)) as [->|[m' ->]]; exact A.
    - destruct (stamp_metas wv n (Inner k h s m l r)) as [->|(m' & n1 & ->)]; [exact A|].
      cbn [avl] in *. rewrite !stamp_height. destruct A as (Al & Ar & D). auto.
  Qed.

  (** ** Read refinement *)
  Theorem tree_read_refines wv t r :
    oinv t -> list_read r = true -> tree_read H wv t r = spec_read (oelems t) r.
  Proof.
    intros O LR. destruct t as [n|]; cbn [oinv] in O.
    - (* on a tree each read is its characterisation over [elems] *)
      destruct O as [W _]. destruct r; try discriminate LR; cbn [tree_read spec_read oelems];
        rewrite ?(get_spec n _ W), ?(has_spec n _ W), ?(get_by_index_spec n _ W), ?(size_elems n W);
        reflexivity.
    - destruct r as [| | |i| | | | |]; try discriminate LR; try reflexivity.
      cbn [tree_read spec_read oelems]. destruct (i <? 0); [reflexivity|]. destruct (Z.to_nat i); reflexivity.
  Qed.

  Theorem read_working_refines s r :
    state_inv s -> list_read r = true ->
    step H s (ORead TWorking r) = (s, spec_read (oelems (root s)) r).
  Proof.
    intros I LR. cbn [step]. rewrite (tree_read_refines _ _ _ (inv_root s I) LR). reflexivity.
  Qed.

  Theorem read_version_refines s v t r :
    state_inv s -> lookup v (forest s) = Some t -> list_read r = true ->
    step H s (ORead (TVersion v) r) = (s, spec_read (oelems t) r).
  Proof.
    intros I L LR. cbn [step]. rewrite L.
    destruct (state_inv_lookup s v t I L) as [O _].
    rewrite (tree_read_refines _ _ _ O LR). reflexivity.
  Qed.

  Theorem read_version_missing s v r :
    lookup v (forest s) = None -> step H s (ORead (TVersion v) r) = (s, XErr).
  Proof. intros L. cbn [step]. rewrite L. reflexivity. Qed.

  Theorem set_nil_rejected s k : step H s (OSetNil k) = (s, XErr).
  Proof. reflexivity. Qed.

  (** ** Saving *)

  (** the tree a commit persists: the working tree with its new nodes stamped *)
  Definition ostamp (wv : Z) (t : option node) : option node :=
    match t with None => None | Some n => Some (fst (stamp H wv 0 n)) end.

  Lemma ostamp_elems wv t : oelems (ostamp wv t) = oelems t.
  Proof. destruct t; cbn [ostamp oelems]; [apply stamp_elems|reflexivity]. Qed.

  Lemma ostamp_inv wv t : oinv t -> oinv (ostamp wv t).
  Proof.
    destruct t as [n|]; cbn [ostamp oinv]; [|auto].
    intros [W A]. split; [apply stamp_wf, W|apply stamp_avl, A].
  Qed.

  Lemma do_save_fresh s :
    lookup (working_version s) (forest s) = None ->
    let wv := working_version s in
    let r' := ostamp wv (root s) in
    do_save H s =
      (MState r' wv r' (forest s ++ [(wv, r')]) (init_ver s) false (init_opt s),
       XPair (XBytes (Some (root_hash H wv r'))) (XInt wv)).
  Proof. intros L. unfold do_save, version_exists. cbv zeta. rewrite L. reflexivity. Qed.

  (** the hash test of SaveVersion on an existing version *)
  Definition same_root_hash (wv : Z) (existing r : option node) : Prop :=
    match existing, r with
    | None, None => True
    | Some e, _ => hs (nmeta e) = root_hash H wv r
    | None, Some _ => False
    end.

  (** Committing an existing version number: succeeds without effect on the store iff the
      hashes agree (the working tree becomes the stored one), otherwise fails and leaves
      root, version, last saved tree and all retained versions unchanged. *)
  Theorem save_existing_sharp s e :
    lookup (working_version s) (forest s) = Some e ->
    let wv := working_version s in
    (same_root_hash wv e (root s) /\
     do_save H s =
       (MState e wv e (forest s) (init_ver s) false (init_opt s),
        XPair (XBytes (Some (root_hash H wv (root s)))) (XInt wv))) \/
    (~ same_root_hash wv e (root s) /\
     do_save H s =
       (MState (root s) (version s) (last_saved s) (forest s) (init_ver s) false (init_opt s),
        XErr)).
  Proof.
    intros L wv. unfold do_save, version_exists. cbv zeta. rewrite L. fold wv.
    unfold same_root_hash. destruct e as [e|]; [|destruct (root s) as [n|]].
    - destruct (list_eq_dec N.eq_dec (hs (nmeta e)) (root_hash H wv (root s))) as [E|NE];
        [left|right]; split; auto.
    - right. split; [tauto|reflexivity].
    - left. split; [exact I|reflexivity].
  Qed.

  Lemma do_save_new s :
    lookup (working_version s) (forest s) = None ->
    exists r',
      oelems r' = oelems (root s) /\
      do_save H s =
        (MState r' (working_version s) r' (forest s ++ [(working_version s, r')])
                (init_ver s) false (init_opt s),
         XPair (XBytes (Some (root_hash H (working_version s) r'))) (XInt (working_version s))).
  Proof.
    intros L. exists (ostamp (working_version s) (root s)).
    split; [apply ostamp_elems|exact (do_save_fresh s L)].
  Qed.

  Lemma do_save_existing s e :
    lookup (working_version s) (forest s) = Some e ->
    do_save H s =
      (MState e (working_version s) e (forest s) (init_ver s) false (init_opt s),
       XPair (XBytes (Some (root_hash H (working_version s) (root s))))
             (XInt (working_version s))) \/
    do_save H s =
      (MState (root s) (version s) (last_saved s) (forest s) (init_ver s) false (init_opt s),
       XErr).
  Proof. intros L. destruct (save_existing_sharp s e L) as [[_ E]|[_ E]]; auto. Qed.

  (** ** What one step does to the retained versions, to the trees, to the bookkeeping *)
  Lemma step_read s t r : fst (step H s (ORead t r)) = s.
  Proof. destruct t as [|v]; cbn [step]; [|destruct (lookup v (forest s))]; reflexivity. Qed.

  Lemma step_get_versioned s k v : fst (step H s (OGetVersioned k v)) = s.
  Proof. cbn [step]. destruct (lookup v (forest s)) as [[n|]|]; reflexivity. Qed.

  (** The retained versions stay, or a commit appends the working version, or the versions
      up to [n] (DeleteVersionsTo) or above [v] (LoadVersionForOverwriting) are filtered out. *)
  Lemma step_forest s o :
    let s' := fst (step H s o) in
    let wv := working_version s in
    forest s' = forest s \/
    (o = OSave /\ lookup wv (forest s) = None /\
     forest s' = forest s ++ [(wv, ostamp wv (root s))]) \/
    (exists n, o = OPrune n /\ forest s' = filter (fun p => n <? fst p) (forest s)) \/
    (exists v, o = OLvfo v /\ forest s' = filter (fun p => fst p <=? v) (forest s)).
  Proof.
    destruct o as [k v|k|k| | | |v|n|v|t r|k v|v| | | | | ]; cbv zeta;
      rewrite ?step_read, ?step_get_versioned; cbn [step]; auto.
    - (* OSet *) left. apply do_set_same.
    - (* ORemove *) left. apply do_remove_same.
    - (* OSave *) destruct (lookup (working_version s) (forest s)) as [e|] eqn:L.
      + left. destruct (do_save_existing s e L) as [E|E]; rewrite E; reflexivity.
      + right; left. rewrite (do_save_fresh s L). auto.
    - (* OReopen *) left. apply do_reopen_forest.
    - (* OLoad *) left. apply do_load_forest.
    - (* OPrune *) destruct (do_prune_cases s n) as [[_ E]|[_ E]]; rewrite E; [left; reflexivity|].
      right; right; left. eauto.
    - (* OLvfo *) destruct (do_lvfo_cases s v) as [E|[(F & _ & E)|(tv & r & _ & E)]]; rewrite E;
        [left; reflexivity|left; rewrite F; reflexivity|].
      right; right; right. eauto.
  Qed.

  (** A property [Q] of working trees and a stronger one [Qs] of saved trees are carried from
      state to state as soon as the writes preserve [Q] and stamping turns [Q] into [Qs]:
      every other tree of the next state is one of this state. *)
  Lemma step_trees (Q Qs : option node -> Prop) s o :
    Qs None -> (forall t, Qs t -> Q t) ->
    (forall k v, Q (Some (Leaf k v new_meta))) ->
    (forall n k v, Q (Some n) -> Q (Some (fst (set n k v)))) ->
    (forall n k, Q (Some n) -> rm_val (remove n k) <> None -> Q (rm_self (remove n k))) ->
    (Q (root s) -> Qs (ostamp (working_version s) (root s))) ->
    Q (root s) -> Qs (last_saved s) -> Forall (fun p => Qs (snd p)) (forest s) ->
    let s' := fst (step H s o) in
    Q (root s') /\ Qs (last_saved s') /\ Forall (fun p => Qs (snd p)) (forest s').
  Proof.
    intros Qn QsQ Qleaf Qset Qrm Qst Hr Hs Hf.
    assert (Look : forall v t, lookup v (forest s) = Some t -> Qs t).
    { intros v t L. apply lookup_In in L. rewrite Forall_forall in Hf. exact (Hf _ L). }
    destruct o as [k v|k|k| | | |v|n|v|t r|k v|v| | | | | ]; cbv zeta;
      rewrite ?step_read, ?step_get_versioned; cbn [step]; auto.
    - (* OSet *) unfold do_set. destruct (root s) as [n|];
        [specialize (Qset n k v Hr); destruct (set n k v)|]; cbn [fst root last_saved forest]; auto.
    - (* ORemove *) unfold do_remove. cbv zeta. destruct (root s) as [n|] eqn:R; [|cbn [fst]; rewrite R; auto].
      destruct (rm_val (remove n k)) eqn:V; cbn [fst root last_saved forest]; rewrite ?R; auto.
      split; auto. apply Qrm; [exact Hr|congruence].
    - (* OSave *) destruct (lookup (working_version s) (forest s)) as [e|] eqn:L.
      + pose proof (Look _ _ L).
        destruct (do_save_existing s e L) as [E|E]; rewrite E; cbn [fst root last_saved forest];
          auto.
      + rewrite (do_save_fresh s L). cbn [fst root last_saved forest]. specialize (Qst Hr).
        repeat split; auto. apply Forall_app. auto.
    - (* ORollback *) cbn [fst root last_saved forest]. destruct (0 <? version s); auto.
    - (* OReopen *) destruct (do_reopen_cases s) as [E|[(_ & E)|(tv & r & L & E)]]; rewrite E;
        cbn [fst root last_saved forest]; auto.
      pose proof (Look _ _ L). auto.
    - (* OLoad *) destruct (do_load_cases s v) as [E|[(_ & _ & E)|(tv & r & L & E)]]; rewrite E;
        cbn [fst root last_saved forest]; auto.
      pose proof (Look _ _ L). auto.
    - (* OPrune *) destruct (do_prune_cases s n) as [[_ E]|[_ E]]; rewrite E; cbn [fst root last_saved forest];
        auto using Forall_filter.
    - (* OLvfo *) destruct (do_lvfo_cases s v) as [E|[(_ & _ & E)|(tv & r & L & E)]]; rewrite E;
        cbn [fst root last_saved forest]; auto.
      pose proof (Look _ _ L). auto using Forall_filter.
  Qed.

  Lemma step_bookkeeping s o :
    let s' := fst (step H s o) in
    init_ver s' = init_ver s /\ init_opt s' = init_opt s /\
    (init_set s' = init_set s \/ init_set s' = false \/ init_set s' = init_opt s) /\
    (version s' = version s \/ version s' = 0 \/ version s' = working_version s \/
     exists t, lookup (version s') (forest s) = Some t).
  Proof.
    destruct o as [k v|k|k| | | |v|n|v|t r|k v|v| | | | | ]; cbv zeta;
      rewrite ?step_read, ?step_get_versioned; cbn [step]; auto.
    - (* OSet *) destruct (do_set_same s k v) as (E1 & _ & _ & E4 & E5 & E6). auto.
    - (* ORemove *) destruct (do_remove_same s k) as (E1 & _ & _ & E4 & E5 & E6). auto.
    - (* OSave *) destruct (lookup (working_version s) (forest s)) as [e|] eqn:L.
      + destruct (do_save_existing s e L) as [E|E]; rewrite E; cbn; repeat apply conj; auto.
      + rewrite (do_save_fresh s L). cbn. repeat apply conj; auto.
    - (* OReopen *) destruct (do_reopen_cases s) as [E|[(_ & E)|(tv & r & L & E)]]; rewrite E; cbn;
        repeat apply conj; eauto.
    - (* OLoad *) destruct (do_load_cases s v) as [E|[(_ & _ & E)|(tv & r & L & E)]]; rewrite E; cbn;
        repeat apply conj; eauto.
    - (* OPrune *) destruct (do_prune_cases s n) as [[_ E]|[_ E]]; rewrite E; cbn; auto.
    - (* OLvfo *) destruct (do_lvfo_cases s v) as [E|[(_ & _ & E)|(tv & r & L & E)]]; rewrite E; cbn;
        repeat apply conj; eauto.
  Qed.

  (** ** Histories *)
  Lemma run_cons s o ops :
    run H s (o :: ops) =
      (fst (run H (fst (step H s o)) ops), snd (step H s o) :: snd (run H (fst (step H s o)) ops)).
  Proof.
    cbn [run]. destruct (step H s o) as [s1 x]. cbn [fst snd].
    destruct (run H s1 ops) as [s2 xs]. reflexivity.
  Qed.

  Lemma run_app s ops1 ops2 :
    run H s (ops1 ++ ops2) =
      (fst (run H (fst (run H s ops1)) ops2),
       snd (run H s ops1) ++ snd (run H (fst (run H s ops1)) ops2)).
  Proof.
    revert s. induction ops1 as [|o ops1 IH]; intros s.
    - cbn [app run fst snd]. destruct (run H s ops2); reflexivity.
    - change ((o :: ops1) ++ ops2) with (o :: (ops1 ++ ops2)). rewrite !run_cons, IH. reflexivity.
  Qed.

  Fixpoint run_all (C : mstate -> op -> Prop) (s : mstate) (ops : list op) : Prop :=
    match ops with
    | [] => True
    | o :: rest => C s o /\ run_all C (fst (step H s o)) rest
    end.

  Lemma run_invariant (P : mstate -> Prop) (C : mstate -> op -> Prop) :
    (forall s o, P s -> C s o -> P (fst (step H s o))) ->
    forall ops s, P s -> run_all C s ops -> P (fst (run H s ops)).
  Proof.
    intros St. induction ops as [|o ops IH]; intros s Ps A; [exact Ps|].
    rewrite run_cons. destruct A as [Co A]. exact (IH _ (St s o Ps Co) A).
  Qed.

  Lemma run_all_true ops : forall s, run_all (fun _ _ => True) s ops.
  Proof. induction ops; cbn [run_all]; auto. Qed.

  Lemma run_all_forallb (p : op -> bool) ops : forall s,
    forallb p ops = true -> run_all (fun _ o => p o = true) s ops.
  Proof.
    induction ops as [|o ops IH]; intros s A; [exact I|].
    apply andb_prop in A. split; [apply A|apply IH, A].
  Qed.

  Lemma run_all_and C1 C2 ops : forall s,
    run_all C1 s ops -> run_all C2 s ops -> run_all (fun s o => C1 s o /\ C2 s o) s ops.
  Proof.
    induction ops as [|o ops IH]; intros s A B; [exact I|].
    destruct A as [A1 A], B as [B1 B]. split; [split; assumption|apply IH; assumption].
  Qed.

  (** ** The invariant is preserved by every operation *)
  Theorem step_inv s o : state_inv s -> state_inv (fst (step H s o)).
  Proof.
    intros I. pose proof (working_version_nonneg s I) as Hwv.
    destruct (step_trees oinv oinv s o Logic.I (fun t O => O) (fun k v => conj Logic.I Logic.I)
                oinv_set oinv_remove (ostamp_inv _ _) (inv_root s I) (inv_saved s I) (inv_trees s I))
      as (A1 & A2 & A3).
    destruct (step_bookkeeping s o) as (B1 & _ & _ & B4).
    assert (F : Forall (fun p => 0 <= fst p) (forest (fst (step H s o))) /\
                NoDup (map fst (forest (fst (step H s o))))).
    { destruct (step_forest s o) as [E|[(_ & N & E)|[(n & _ & E)|(v & _ & E)]]]; rewrite E;
        [split; apply I| |split; [apply Forall_filter, I|apply NoDup_map_filter, I]..].
      split; [apply Forall_app; split; [apply I|auto]|].
      rewrite map_app. apply NoDup_snoc; [apply I|apply lookup_None, N]. }
    constructor; try apply F; auto.
    - destruct B4 as [->|[->|[->|[t L]]]]; [apply I|lia|exact Hwv|].
      apply (state_inv_lookup s _ t I L).
    - rewrite B1. apply I.
  Qed.

  Lemma do_save_inv s : state_inv s -> state_inv (fst (do_save H s)).
  Proof. exact (step_inv s OSave). Qed.

  Lemma do_save_keeps s v t :
    lookup v (forest s) = Some t -> lookup v (forest (fst (do_save H s))) = Some t.
  Proof.
    intros L. destruct (step_forest s OSave) as [E|[(_ & _ & E)|[(n & D & _)|(w & D & _)]]];
      try discriminate D; cbn [step] in E; rewrite E; [exact L|].
    rewrite lookup_app, L. reflexivity.
  Qed.

  Theorem run_inv ops : forall s, state_inv s -> state_inv (fst (run H s ops)).
  Proof.
    intros s I.
    exact (run_invariant state_inv _ (fun s o I _ => step_inv s o I) ops s I (run_all_true ops s)).
  Qed.

  Theorem reachable_inv iv b ops : 0 <= iv -> state_inv (fst (run H (init_state iv b) ops)).
  Proof. intros Hiv. apply run_inv, state_inv_init, Hiv. Qed.

  Theorem reachable_avl iv b ops :
    0 <= iv ->
    let s := fst (run H (init_state iv b) ops) in
    (forall n, root s = Some n -> wf n /\ avl n) /\
    (forall n, last_saved s = Some n -> wf n /\ avl n) /\
    (forall v n, In (v, Some n) (forest s) -> wf n /\ avl n) /\
    (forall v n, lookup v (forest s) = Some (Some n) -> wf n /\ avl n).
  Proof.
    intros Hiv s. pose proof (reachable_inv iv b ops Hiv) as I. fold s in I.
    split; [|split; [|split]].
    - intros n E. pose proof (inv_root s I) as O. rewrite E in O. exact O.
    - intros n E. pose proof (inv_saved s I) as O. rewrite E in O. exact O.
    - intros v n E. pose proof (inv_trees s I) as F. rewrite Forall_forall in F. exact (F _ E).
    - intros v n E. destruct (state_inv_lookup s v _ I E) as [O _]. exact O.
  Qed.

  Lemma rollback_spec s :
    step H s ORollback =
      (MState (if 0 <? version s then last_saved s else None) (version s) (last_saved s)
              (forest s) (init_ver s) (init_set s) (init_opt s), XOk).
  Proof. reflexivity. Qed.
End WithHash.

(* these three operations do not hash: [step_inv] is instantiated with any function, the identity *)
Lemma do_set_inv s k v : state_inv s -> state_inv (fst (do_set s k v)).
Proof. exact (step_inv (fun b => b) s (OSet k v)). Qed.

Lemma do_remove_inv s k : state_inv s -> state_inv (fst (do_remove s k)).
Proof. exact (step_inv (fun b => b) s (ORemove k)). Qed.

Lemma rollback_inv s :
  state_inv s ->
  state_inv (MState (if 0 <? version s then last_saved s else None) (version s) (last_saved s)
                    (forest s) (init_ver s) (init_set s) (init_opt s)).
Proof. exact (step_inv (fun b => b) s ORollback). Qed.

(** ** A finding: retained versions need not stay ascending.
    Load an old version, prune past it, save: the new version is appended after a larger one.
    (Hence [state_inv] states distinctness, not ascent, of the retained versions.) *)
Example versions_not_ascending :
  map fst (forest (fst (run (fun b => b) (init_state 0 false)
    [OSet [1%N] [1%N]; OSave; OSet [2%N] [2%N]; OSave; OSet [3%N] [3%N]; OSave;
     OLoad 1; OPrune 2; OSave]))) = [3; 2].
Proof. vm_compute. reflexivity. Qed.

(** ** The machine depends on the hash function through its values only (see HashTable.v) *)
Section HashExt.
  Variables H H' : bytes -> bytes.
  Hypothesis HE : forall b, H b = H' b.

  Lemma tree_read_hext wv t r : tree_read H wv t r = tree_read H' wv t r.
  Proof. destruct r; cbn [tree_read]; rewrite ?(root_hash_hext H H' HE); reflexivity. Qed.

  Lemma do_save_hext s : do_save H s = do_save H' s.
  Proof.
    unfold do_save. rewrite !(root_hash_hext H H' HE).
    destruct (root s) as [n|]; [rewrite (stamp_hext H H' HE)|]; reflexivity.
  Qed.

  Lemma step_hext s o : step H s o = step H' s o.
  Proof.
    destruct o as [| | | | | | | | |t r| | | | | | |]; cbn [step];
      rewrite ?do_save_hext, ?(root_hash_hext H H' HE); try reflexivity.
    destruct t as [|w]; [|destruct (lookup w (forest s))]; rewrite ?tree_read_hext; reflexivity.
  Qed.

  Lemma run_hext ops : forall s, run H s ops = run H' s ops.
  Proof.
    induction ops as [|o ops IH]; intros s; cbn [run]; [reflexivity|].
    rewrite step_hext. destruct (step H' s o) as [s1 x]. rewrite IH. reflexivity.
  Qed.
End HashExt.
