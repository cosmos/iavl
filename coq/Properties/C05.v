(** C05: if the process stops between any two physical storage writes during a commit, a
    deletion of old versions or a rollback, reopening succeeds and shows either the state before
    the operation or the state after it, never a mixture.

    On the real code this FAILS for an operation that BatchWithFlusher splits over several
    physical writes.  This file states what holds exactly:
    - segmentations = prefixes of the ordered write list; one chunk = atomic;
    - commit: cuts up to the label write leave the old node store (index/label possibly ahead:
      flagged for rebuild once the label is written, NOT flagged before: [C05_indexahead_refuted]);
      every cut strictly between the first node write and the root write is unrecoverable
      ([C05_commit_split_refuted], [C05_commit_split_witness]); the full list gives the new store;
    - rollback: every cut strictly inside the deletes is a store that is neither old nor new;
      reopening fails as soon as the old latest root key is gone (always when one version is
      rolled back) and otherwise can succeed on a mixture ([C05_rollback_split_refuted]);
    - deletion of old versions: at specification level every cut leaves all retained entries in
      place; for the algorithm the code runs (PruneAlgo.v) every disk state of every flush
      schedule reads every retained version back
      ([C05_deletion_crash_images_keep_retained_versions]), and the order of the two re-key writes
      matters ([C05_rekey_order_matters_refuted]);
    - where BatchWithFlusher cuts (Flusher.v), and the batches of a commit byte for byte
      (PhysCommit.v).
    Statements are restated in full, except where the statement is taken from the named lemma by `type of`;
    proofs are in CrashFacts.v / StoreFacts.v, PruneAlgoFacts10.v, FlusherFacts.v and
    PhysCommitFacts.v. *)
From IAVL Require Import Bytes Varint Sha256 Tree VMap TreeFacts MTree MTreeFacts HashFacts VersionFacts
  Store StoreFacts Crash CrashFacts.
Local Open Scope Z_scope.

Theorem C05_chunk_image_prefix :
  forall (d : db) (chunks : list (list wop)) (i : nat),
    exists j, chunk_image d chunks i = image d (concat chunks) j.
Proof. exact chunk_image_prefix. Qed.
Print Assumptions C05_chunk_image_prefix.

Theorem C05_prefix_is_chunk_image :
  forall (d : db) (ops : list wop) (j : nat),
    (0 < j < length ops)%nat ->
    exists chunks, concat chunks = ops /\ Forall (fun c => c <> []) chunks /\
                   chunk_image d chunks 1 = image d ops j.
Proof. exact prefix_is_chunk_image. Qed.
Print Assumptions C05_prefix_is_chunk_image.

Theorem C05_single_batch_atomic :
  forall (d : db) (ops : list wop) (i : nat),
    chunk_image d [ops] i = d \/ chunk_image d [ops] i = apply_ops d ops.
Proof. exact single_batch_atomic. Qed.
Print Assumptions C05_single_batch_atomic.

(** reopening a consistent store finds the latest version and its root (the only possible
    failures are the initial-version check and, for versions >= 2^64, the model's fuel) *)
Theorem C05_recover_expected :
  forall (iv : Z) (f : list (Z * option node)) (ivf : Z) (d : db) (r : option node),
    forest_inv f -> forest_ok f ivf -> NoDup (map fst f) -> In (latest_of f, r) f ->
    nodes d = expected_store f ->
    recover iv d = RErr ErrFuel \/ recover iv d = RErr ErrInitialVersion \/
    exists first, 0 <= first <= latest_of f /\
      recover iv d = ROk (latest_of f) first (root_key_of r) (needs_rebuild (label d) (latest_of f)).
Proof. exact recover_expected. Qed.
Print Assumptions C05_recover_expected.

(** with the initial version the store was created with, it succeeds *)
Theorem C05_recover_expected_ok :
  forall (iv : Z) (f : list (Z * option node)) (d : db) (r : option node),
    forest_inv f -> forest_ok f iv -> forest_lo iv f -> NoDup (map fst f) ->
    In (latest_of f, r) f -> nodes d = expected_store f -> latest_of f < 2 ^ 64 ->
    exists first, 0 <= first <= latest_of f /\
      recover iv d = ROk (latest_of f) first (root_key_of r) (needs_rebuild (label d) (latest_of f)).
Proof. exact recover_expected_ok. Qed.
Print Assumptions C05_recover_expected_ok.

Theorem C05_lo_ok_reachable :
  forall (H : bytes -> bytes) (iv : Z) (b : bool) (ops : list op),
    init_ok iv b -> run_ok H (init_state iv b) ops ->
    lo_ok (fst (run H (init_state iv b) ops)).
Proof. exact lo_ok_reachable. Qed.
Print Assumptions C05_lo_ok_reachable.

Theorem C05_recover_no_fuel_error :
  forall (iv : Z) (d : db), store_latest (nodes d) < 2 ^ 64 -> recover iv d <> RErr ErrFuel.
Proof. exact recover_no_fuel_error. Qed.
Print Assumptions C05_recover_no_fuel_error.

Theorem C05_recover_flag :
  forall (iv : Z) (d d' : db),
    nodes d' = nodes d ->
    recover iv d' = set_rebuild (recover iv d) (needs_rebuild (label d') (store_latest (nodes d))).
Proof. exact recover_flag. Qed.
Print Assumptions C05_recover_flag.

(** commit *)
Theorem C05_commit_prefix_classification :
  forall (H : bytes -> bytes) (iv : Z) (fast : bool) (s : mstate) (d : db) (i : nat),
    store_ok H s -> nodes d = expected_store (forest s) ->
    lookup (working_version s) (forest s) = None ->
    let P := commit_meta_ops fast s in
    let ops := commit_ops H fast s in
    let img := image d ops i in
    ((i <= length P)%nat ->
       nodes img = nodes d /\
       label img = (if fast && (i =? length P)%nat then Some (working_version s) else label d) /\
       recover iv img = set_rebuild (recover iv d)
                          (needs_rebuild (label img) (store_latest (nodes d)))) /\
    ((length P < i < length ops)%nat -> unrecoverable (recover iv img)) /\
    ((length ops <= i)%nat ->
       img = apply_ops d ops /\
       nodes img = expected_store (forest (fst (do_save H s)))).
Proof. exact commit_prefix_classification. Qed.
Print Assumptions C05_commit_prefix_classification.

Theorem C05_commit_cut_before_nodes_recovers :
  forall (H : bytes -> bytes) (fast : bool) (s : mstate) (d : db) (i : nat) (r : option node),
    store_ok H s -> lo_ok s -> nodes d = expected_store (forest s) ->
    lookup (working_version s) (forest s) = None ->
    In (latest_version s, r) (forest s) -> latest_version s < 2 ^ 64 ->
    (i <= length (commit_meta_ops fast s))%nat ->
    let img := image d (commit_ops H fast s) i in
    exists first, 0 <= first <= latest_version s /\
      recover (init_ver s) img =
        ROk (latest_version s) first (root_key_of r) (needs_rebuild (label img) (latest_version s)).
Proof. exact commit_cut_before_nodes_recovers. Qed.
Print Assumptions C05_commit_cut_before_nodes_recovers.

Theorem C05_commit_complete_recovers :
  forall (H : bytes -> bytes) (fast : bool) (s : mstate) (d : db),
    store_ok H s -> lo_ok s -> nodes d = expected_store (forest s) ->
    lookup (working_version s) (forest s) = None -> working_version s < 2 ^ 64 ->
    let d' := apply_ops d (commit_ops H fast s) in
    exists first, 0 <= first <= working_version s /\
      recover (init_ver s) d' =
        ROk (working_version s) first (root_key_of (saved_root H s))
            (needs_rebuild (label d') (working_version s)).
Proof. exact commit_complete_recovers. Qed.
Print Assumptions C05_commit_complete_recovers.

Theorem C05_commit_split_refuted :
  forall (H : bytes -> bytes) (iv : Z) (fast : bool) (s : mstate) (d : db),
    store_ok H s -> nodes d = expected_store (forest s) ->
    lookup (working_version s) (forest s) = None ->
    (2 <= length (node_writes H s))%nat ->
    exists i, (i < length (commit_ops H fast s))%nat /\
              is_err (recover iv (image d (commit_ops H fast s) i)) = true.
Proof. exact commit_split_refuted. Qed.
Print Assumptions C05_commit_split_refuted.

Theorem C05_commit_split_witness :
  exists s d i,
    store_ok sha256 s /\ d = expected_db (forest s) /\
    (i < length (commit_ops sha256 true s))%nat /\
    recover 0 (image d (commit_ops sha256 true s) i) = RErr ErrVersionDoesNotExist /\
    recover 0 d = REmpty false /\
    recover 0 (apply_ops d (commit_ops sha256 true s)) = ROk 1 1 (Some (1, 1)) false.
Proof. exact commit_split_witness. Qed.
Print Assumptions C05_commit_split_witness.

Theorem C05_indexahead_refuted :
  exists s d i,
    store_ok sha256 s /\ d = expected_db (forest s) /\
    (i < length (commit_meta_ops true s))%nat /\
    let img := image d (commit_ops sha256 true s) i in
    nodes img = nodes d /\
    recover 0 img = ROk 1 1 (Some (1, 1)) false /\
    fastidx img <> expected_fast (forest s).
Proof. exact indexahead_refuted. Qed.
Print Assumptions C05_indexahead_refuted.

(** rollback *)
Theorem C05_rollback_prefix_classification :
  forall (iv : Z) (f : list (Z * option node)) (ivf : Z) (d : db) (v : Z) (i : nat),
    forest_inv f -> forest_ok f ivf -> NoDup (map fst f) -> In v (map fst f) -> v < latest_of f ->
    nodes d = expected_store f ->
    let D := map fst (filter (fun p => v <? fst (fst p)) (nodes d)) in
    let ops := rollback_ops d v in
    let img := image d ops i in
    let new := expected_store (filter (fun p => fst p <=? v) f) in
    ops = map del_node D ++ match label d with None => [] | Some _ => [set_label None] end /\
    (i = 0%nat -> img = d) /\
    ((length D <= i)%nat -> nodes img = new /\ (label img = label d \/ label img = None)) /\
    ((0 < i < length D)%nat ->
       nodes img <> nodes d /\ nodes img <> new /\
       store_latest (nodes img) = latest_of f /\
       (In (latest_of f, 1) (firstn i D) -> unrecoverable (recover iv img))).
Proof. exact rollback_prefix_classification. Qed.
Print Assumptions C05_rollback_prefix_classification.

Theorem C05_rollback_complete_recovers :
  forall (iv : Z) (f : list (Z * option node)) (d : db) (v : Z) (i : nat) (r : option node),
    forest_inv f -> forest_ok f iv -> forest_lo iv f -> NoDup (map fst f) ->
    In (v, r) f -> v < latest_of f -> v < 2 ^ 64 -> nodes d = expected_store f ->
    let D := map fst (filter (fun p => v <? fst (fst p)) (nodes d)) in
    let img := image d (rollback_ops d v) i in
    (length D <= i)%nat ->
    exists first, 0 <= first <= v /\
      recover iv img = ROk v first (root_key_of r) (needs_rebuild (label img) v).
Proof. exact rollback_complete_recovers. Qed.
Print Assumptions C05_rollback_complete_recovers.

(** a cut inside the index rebuild that follows leaves the label untouched (so the next
    reopening rebuilds again) and the node store untouched *)
Theorem C05_rebuild_prefix_label :
  forall (d : db) (latest : Z) (t : option node) (i : nat),
    (i < length (rebuild_ops d latest t))%nat ->
    label (apply_ops d (firstn i (rebuild_ops d latest t))) = label d /\
    nodes (apply_ops d (firstn i (rebuild_ops d latest t))) = nodes d.
Proof. exact rebuild_prefix_label. Qed.
Print Assumptions C05_rebuild_prefix_label.

Theorem C05_rollback_one_version_split :
  forall (iv : Z) (f : list (Z * option node)) (ivf : Z) (d : db) (v : Z) (i : nat),
    forest_inv f -> forest_ok f ivf -> NoDup (map fst f) -> In v (map fst f) ->
    latest_of f = v + 1 -> nodes d = expected_store f ->
    let D := map fst (filter (fun p => v <? fst (fst p)) (nodes d)) in
    (0 < i < length D)%nat -> unrecoverable (recover iv (image d (rollback_ops d v) i)).
Proof. exact rollback_one_version_split. Qed.
Print Assumptions C05_rollback_one_version_split.

Theorem C05_rollback_split_refuted :
  exists s d i,
    store_ok sha256 s /\ d = expected_db (forest s) /\
    (0 < i < length (rollback_ops d 1))%nat /\
    let img := image d (rollback_ops d 1) i in
    recover 0 img = ROk 3 1 (Some (3, 1)) false /\
    mfind kcmp (2, 1) (nodes img) = None /\
    nodes img <> nodes d /\
    nodes img <> expected_store (filter (fun p => fst p <=? 1) (forest s)).
Proof. exact rollback_split_refuted. Qed.
Print Assumptions C05_rollback_split_refuted.

Theorem C05_rollback_split_witness :
  exists s d i,
    store_ok sha256 s /\ d = expected_db (forest s) /\
    (0 < i < length (rollback_ops d 1))%nat /\
    recover 0 (image d (rollback_ops d 1) i) = RErr ErrVersionDoesNotExist.
Proof. exact rollback_split_witness. Qed.
Print Assumptions C05_rollback_split_witness.

(** deletion of old versions, specification level: no cut damages a retained version *)
Theorem C05_drop_prefix_safe :
  forall (keep : Z -> bool) (f : list (Z * option node)) (d : db) (i : nat) (k : Z * Z) (e : entry),
    forest_inv f -> NoDup (map fst f) -> nodes d = expected_store f ->
    In (k, e) (reach (filter (fun p => keep (fst p)) f)) ->
    mfind kcmp k (nodes (apply_ops d (firstn i (drop_ops keep f)))) = Some e.
Proof. exact drop_prefix_safe. Qed.
Print Assumptions C05_drop_prefix_safe.

(** ** Crash tables of a concrete history (SHA-256): what reopening reports at every cut *)
Definition c05_a : bytes := [97%N].
Definition c05_b : bytes := [98%N].
Definition c05_c : bytes := [99%N].
Definition c05_d : bytes := [100%N].

(** second commit: one updated key, one removed key: index write, index delete, label, leaf,
    root.  Cuts 0-2 old without rebuild (index ahead at 1-2), cut 3 old with rebuild, cut 4
    unrecoverable, cut 5 new. *)
Example c05_commit_table :
  let s := fst (run sha256 (init_state 0 false)
                  [OSet c05_a c05_a; OSet c05_b c05_b; OSet c05_c c05_c; OSave;
                   OSet c05_b c05_d; ORemove c05_a]) in
  run_okb sha256 (init_state 0 false)
    [OSet c05_a c05_a; OSet c05_b c05_b; OSet c05_c c05_c; OSave; OSet c05_b c05_d; ORemove c05_a] = true /\
  length (commit_meta_ops true s) = 3%nat /\ length (commit_ops sha256 true s) = 5%nat /\
  crash_table 0 (expected_db (forest s)) (commit_ops sha256 true s) =
    [ROk 1 1 (Some (1, 1)) false; ROk 1 1 (Some (1, 1)) false; ROk 1 1 (Some (1, 1)) false;
     ROk 1 1 (Some (1, 1)) true; RErr ErrVersionDoesNotExist; ROk 2 1 (Some (2, 1)) false].
Proof. vm_compute. repeat split; reflexivity. Qed.

(** three versions (the third emptied, the second a commit without writes are covered in C12);
    here: three versions with writes, rollback to 1 and to 2 *)
Example c05_rollback_tables :
  let s := fst (run sha256 (init_state 0 false)
                  [OSet c05_a c05_a; OSet c05_b c05_b; OSet c05_c c05_c; OSave;
                   OSet c05_b c05_d; OSave; OSet c05_d c05_d; OSave]) in
  let d := expected_db (forest s) in
  crash_table 0 d (rollback_ops d 1) =
    [ROk 3 1 (Some (3, 1)) false; ROk 3 1 (Some (3, 1)) false; ROk 3 1 (Some (3, 1)) false;
     ROk 3 1 (Some (3, 1)) false; RErr ErrVersionDoesNotExist; RErr ErrVersionDoesNotExist;
     RErr ErrVersionDoesNotExist; ROk 1 1 (Some (1, 1)) true; ROk 1 1 (Some (1, 1)) true] /\
  crash_table 0 d (rollback_ops d 2) =
    [ROk 3 1 (Some (3, 1)) false; RErr ErrVersionDoesNotExist; RErr ErrVersionDoesNotExist;
     RErr ErrVersionDoesNotExist; ROk 2 1 (Some (2, 1)) true; ROk 2 1 (Some (2, 1)) true].
Proof. vm_compute. split; reflexivity. Qed.

(** a commit without writes and the commit of an emptied tree have a single node write: every
    cut is old or new *)
Example c05_single_write_commits :
  let s1 := fst (run sha256 (init_state 0 false) [OSet c05_a c05_a; OSave]) in
  let s2 := fst (run sha256 (init_state 0 false) [OSet c05_a c05_a; OSave; ORemove c05_a]) in
  crash_table 0 (expected_db (forest s1)) (commit_ops sha256 true s1) =
    [ROk 1 1 (Some (1, 1)) false; ROk 1 1 (Some (1, 1)) true; ROk 2 1 (Some (1, 1)) false] /\
  crash_table 0 (expected_db (forest s2)) (commit_ops sha256 true s2) =
    [ROk 1 1 (Some (1, 1)) false; ROk 1 1 (Some (1, 1)) false; ROk 1 1 (Some (1, 1)) true;
     ROk 2 1 None false].
Proof. vm_compute. split; reflexivity. Qed.

(** *** Deletion of old versions under crashes: the physical algorithm (PruneAlgo.v) flushes its
    write batch at arbitrary points; a crash leaves one of the disk states it went through.  In
    every one of them every retained version loads back node for node - for every reachable
    in-contract state, every flush schedule. *)
From IAVL Require Import Ics23Facts Store StoreFacts PruneAlgo PruneAlgoFacts1 PruneAlgoFacts2 PruneAlgoFacts5 PruneAlgoFacts6 PruneAlgoFacts7 PruneAlgoFacts8 PruneAlgoFacts9 PruneAlgoFacts10 PruneAlgoFacts11 PruneAlgoFacts12 PruneAlgoFacts13 PruneAlgoFacts.
Local Open Scope Z_scope.

Theorem C05_deletion_crash_images_keep_retained_versions :
  forall (H : bytes -> bytes), (forall x, length (H x) = 32%nat) ->
  forall (iv : Z) (b : bool) (ops : list op) (r : list Z) (sched : list bool) (eff : bool) (n : Z),
    init_ok iv b -> run_ok H (init_state iv b) ops ->
    let s := fst (run H (init_state iv b) ops) in
    forest_bounds (forest s) -> rekey_ok r (forest s) -> n < version s -> n < latest_version s ->
    (exists disks,
       prune_forest_disks H eff r (forest s) sched n = POk disks /\
       Forall (fun d => readable H d (filter (fun p => n <? fst p) (forest s)) = true) disks)
    \/ collision H.
Proof. exact PruneAlgoFacts10.prune_safe_reachable. Qed.
Print Assumptions C05_deletion_crash_images_keep_retained_versions.

Theorem C05_rekey_order_matters_refuted : ltac:(let t := type of rekey_order_matters_refuted in exact t).
Proof. exact rekey_order_matters_refuted. Qed.
Print Assumptions C05_rekey_order_matters_refuted.

Example C05_deletion_disks_example : ltac:(let t := type of pa_disks in exact t).
Proof. exact pa_disks. Qed.

(** *** BatchWithFlusher (Flusher.v: batch.go over a MemDB batch).  The wrapper that cuts the
    writes of one operation into physical batches loses, duplicates and reorders nothing, and
    after any number [i] of physical batches the database is the one reached by a PREFIX of the
    operation's write list - the prefix ending at one of the cut positions the model computes
    ([cut_positions], compared with the batches of the real library by [wsave]).  This is the
    hypothesis under which the crash theorems above quantify over prefixes. *)
From IAVL Require Flusher FlusherFacts.

Theorem C05_flusher_loses_nothing :
  forall (th : Z) (ops : list Flusher.bop), concat (Flusher.fl_batches th ops) = ops.
Proof. exact FlusherFacts.fl_concat. Qed.
Print Assumptions C05_flusher_loses_nothing.

Theorem C05_crash_images_are_prefixes :
  forall (th : Z) (ops : list Flusher.bop) (m : VMap.kvs) (i : nat),
    exists n : nat,
      In n (0%nat :: Flusher.cut_positions th ops ++ [length ops]) /\
      Flusher.kv_apply_batches m (firstn i (Flusher.fl_batches th ops)) =
      Flusher.kv_apply_ops m (firstn n ops).
Proof. exact FlusherFacts.fl_prefix_db_exists. Qed.
Print Assumptions C05_crash_images_are_prefixes.

Theorem C05_flush_threshold_irrelevant_for_the_result :
  forall (th1 th2 : Z) (ops : list Flusher.bop) (m : VMap.kvs),
    Flusher.kv_apply_batches m (Flusher.fl_batches th1 ops) =
    Flusher.kv_apply_batches m (Flusher.fl_batches th2 ops).
Proof. exact FlusherFacts.fl_threshold_independent. Qed.
Print Assumptions C05_flush_threshold_irrelevant_for_the_result.

Theorem C05_batches_are_maximal_and_bounded :
  forall (th : Z) (ops : list Flusher.bop),
    FlusherFacts.maximal th (Flusher.fl_batches th ops) /\
    forall b, 0 <= th -> In b (Flusher.fl_batches th ops) -> length b <> 1%nat ->
              Flusher.batch_size b <= th.
Proof.
  intros th ops. split.
  - exact (FlusherFacts.fl_batch_maximal th ops).
  - intros b. exact (FlusherFacts.fl_batch_bound th ops b).
Qed.
Print Assumptions C05_batches_are_maximal_and_bounded.

(** *** The physical batches of a commit, byte for byte (PhysCommit.v / PhysCommitFacts.v).
    [commit_bops] is the stream of keys and values SaveVersion hands to the batch (compared with
    the real library by [wsave]: sizes, cut points, MD5 of the bytes); [img r st] is the byte image
    of the whole database of FastLife state [st].  For EVERY flush threshold the batches, applied
    in order, turn the image of the state before the commit into the image of the state after it;
    after any number of them the database is the image plus a prefix of the stream ending at a
    computed cut position; a prefix that contains the index part is the image of the store after
    the corresponding prefix of [Store.commit_ops] - the list [CrashFacts] classifies. *)
From IAVL Require Import Store StoreFacts PruneAlgo FastLife DbImage DbImageFacts PhysCommit PhysCommitFacts.
From IAVL Require PruneAlgoFacts6 PruneAlgoFacts10.

Theorem C05_commit_batches_produce_the_new_image :
  forall (H : bytes -> bytes) (th : Z) (r : list Z) (st : fstate),
    store_ok H (ms st) ->
    PruneAlgoFacts6.rekey_ok r (forest (ms st)) ->
    store_okb (phys_of r (forest (ms st))) = true ->
    store_okb (phys_of r (forest (ms (fst (fstep H st FSave))))) = true ->
    version_exists (ms st) (working_version (ms st)) = false ->
    Flusher.kv_apply_batches (img r st) (commit_batches H th st) =
    img r (fst (fstep H st FSave)).
Proof. exact commit_batches_apply. Qed.
Print Assumptions C05_commit_batches_produce_the_new_image.

Theorem C05_commit_crash_images :
  forall (H : bytes -> bytes) (th : Z) (r : list Z) (st : fstate) (i : nat),
    exists n : nat,
      In n (0%nat :: Flusher.cut_positions th (commit_bops H st) ++ [length (commit_bops H st)]) /\
      Flusher.kv_apply_batches (img r st) (firstn i (commit_batches H th st)) =
      Flusher.kv_apply_ops (img r st) (firstn n (commit_bops H st)).
Proof. exact commit_crash_images. Qed.
Print Assumptions C05_commit_crash_images.

Theorem C05_commit_prefix_is_the_image_of_a_store_prefix :
  forall (H : bytes -> bytes) (r : list Z) (st : fstate) (n : nat),
    store_ok H (ms st) ->
    PruneAlgoFacts6.rekey_ok r (forest (ms st)) ->
    store_okb (phys_of r (forest (ms st))) = true ->
    store_okb (phys_of r (forest (ms (fst (fstep H st FSave))))) = true ->
    version_exists (ms st) (working_version (ms st)) = false ->
    Flusher.kv_apply_ops (img r st)
      (firstn (length (commit_fast_bops st) + n) (commit_bops H st)) =
    encode_image
      (sapply_all (phys_of r (forest (ms st))) (firstn n (Store.commit_ops H false (ms st))))
      (fidx (fst (fstep H st FSave))) (dlabel (fst (fstep H st FSave))).
Proof. exact commit_prefix_image. Qed.
Print Assumptions C05_commit_prefix_is_the_image_of_a_store_prefix.
