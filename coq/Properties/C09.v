(** C09: discarding uncommitted changes (Rollback) returns the working state exactly to the last
    committed version.  Rolling back to version v (LoadVersionForOverwriting) removes every version
    greater than v and nothing else, and from then on the tree is indistinguishable from a tree
    whose history simply ended at v.

    The results hold under the usage contract of VersionFacts.v ([contig] states reached by
    [in_contract] steps).  Statements are restated in full; proofs are in VersionFacts.v,
    that of the node-cache theorem at the end in NodeCacheFacts.v. *)
From IAVL Require Import Bytes Varint Sha256 Tree VMap TreeFacts MTree MTreeFacts VersionFacts.
Local Open Scope Z_scope.

Theorem C09_defs :
  (forall o, root_only o =
     match o with
     | OSet _ _ | OSetNil _ | ORemove _ | ORead _ _ | OGetVersioned _ _ | OVersionExists _
     | OLatest | OAvailable | OWorkingHash | OWorkingVersion | OHash => true
     | _ => false
     end) /\
  (forall v o, no_prune_above v o =
     match o with OPrune _ => false | OLvfo w => v <=? w | _ => true end) /\
  (forall s b, set_init_set s b =
     MState (root s) (version s) (last_saved s) (forest s) (init_ver s) b (init_opt s)) /\
  (forall s v, base_state s v =
     (contig s /\ 1 <= v /\ version s = v /\ latest_version s = v /\ root s = last_saved s)) /\
  (forall s s', same_but_root s s' =
     (version s' = version s /\ last_saved s' = last_saved s /\ forest s' = forest s /\
      init_ver s' = init_ver s /\ init_set s' = init_set s /\ init_opt s' = init_opt s)) /\
  (forall H s o ops, run_ok H s (o :: ops) = (in_contract s o /\ run_ok H (fst (step H s o)) ops)) /\
  (forall H s, run_ok H s [] = True).
Proof. repeat split; intros; try destruct o; reflexivity. Qed.
Print Assumptions C09_defs.

(** *** 1. Rollback *)

Theorem C09_rollback_is_last_saved :
  forall (H : bytes -> bytes) (s : mstate),
    contig s ->
    let s' := fst (step H s ORollback) in
    snd (step H s ORollback) = XOk /\
    root s' = last_saved s /\
    same_but_root s s' /\
    contig s' /\
    (version s = 0 -> root s' = None /\ forest s' = []) /\
    (version s <> 0 ->
     lookup (version s) (forest s') = Some (root s') /\
     s' = fst (step H s (OLoad (version s))) /\
     working_version s' = version s + 1 /\
     (forall r : read,
        step H s' (ORead TWorking r) = step H s' (ORead (TVersion (version s)) r))).
Proof. exact rollback_is_last_saved. Qed.
Print Assumptions C09_rollback_is_last_saved.

(** whatever was written and read since the last commit / load, rollback restores that state
    exactly (every field) *)
Theorem C09_rollback_restores :
  forall (H : bytes -> bytes) (s0 : mstate) (ops : list op),
    contig s0 ->
    root s0 = last_saved s0 ->
    forallb root_only ops = true ->
    step H (fst (run H s0 ops)) ORollback = (s0, XOk).
Proof. exact rollback_restores. Qed.
Print Assumptions C09_rollback_restores.

(** *** 2. LoadVersionForOverwriting removes exactly the later versions *)

Theorem C09_lvfo_removes_exactly :
  forall (H : bytes -> bytes) (s : mstate) (v : Z),
    contig s -> in_range s v ->
    let s' := fst (step H s (OLvfo v)) in
    exists t : option node,
      lookup v (forest s) = Some t /\
      step H s (OLvfo v) =
        (MState t v t (filter (fun p => fst p <=? v) (forest s))
                (init_ver s) (init_set s) (init_opt s), XOk) /\
      (forall w : Z, w <= v -> lookup w (forest s') = lookup w (forest s)) /\
      (forall w : Z, v < w -> lookup w (forest s') = None) /\
      first_version s' = first_version s /\
      latest_version s' = v /\
      available s' = zrange (first_version s) v /\
      contig s'.
Proof. exact lvfo_removes_exactly. Qed.
Print Assumptions C09_lvfo_removes_exactly.

Theorem C09_lvfo_out_of_range :
  forall (H : bytes -> bytes) (s : mstate) (v : Z),
    contig s -> 0 < v -> ~ in_range s v -> step H s (OLvfo v) = (s, XErr).
Proof. exact lvfo_out_of_range. Qed.
Print Assumptions C09_lvfo_out_of_range.

(** *** 3. Afterwards the tree is the tree whose history ended at v *)

(** [s1]: any state right after committing / loading-for-overwriting its latest version [v].
    [ops]: any in-contract continuation without pruning and without rollbacks below [v].
    Then LoadVersionForOverwriting(v) restores [s1] in every field except the
    [initialVersionSet] flag, which keeps its current value. *)
Theorem C09_lvfo_equals_history_ended_at_v :
  forall (H : bytes -> bytes) (s1 : mstate) (v : Z) (ops : list op),
    base_state s1 v ->
    run_ok H s1 ops ->
    forallb (no_prune_above v) ops = true ->
    let s2 := fst (run H s1 ops) in
    step H s2 (OLvfo v) = (set_init_set s1 (init_set s2), XOk).
Proof. exact lvfo_equals_history_ended_at_v. Qed.
Print Assumptions C09_lvfo_equals_history_ended_at_v.

Theorem C09_lvfo_same_future :
  forall (H : bytes -> bytes) (s1 : mstate) (v : Z) (ops ops' : list op),
    base_state s1 v ->
    run_ok H s1 ops ->
    forallb (no_prune_above v) ops = true ->
    let s2 := fst (run H s1 ops) in
    run H (fst (step H s2 (OLvfo v))) ops' = run H (set_init_set s1 (init_set s2)) ops'.
Proof. exact lvfo_same_future. Qed.
Print Assumptions C09_lvfo_same_future.

(** the states are equal outright when the flag did not move (e.g. no reopen with the
    initial-version option in between) *)
Theorem C09_lvfo_restores_exactly :
  forall (H : bytes -> bytes) (s1 : mstate) (v : Z) (ops : list op),
    base_state s1 v ->
    run_ok H s1 ops ->
    forallb (no_prune_above v) ops = true ->
    init_set (fst (run H s1 ops)) = init_set s1 ->
    step H (fst (run H s1 ops)) (OLvfo v) = (s1, XOk).
Proof. exact lvfo_restores_exactly. Qed.
Print Assumptions C09_lvfo_restores_exactly.

(** the flag is unobservable once a version exists: states differing only in it give the same
    outputs along every in-contract history *)
Theorem C09_run_upto_init_set :
  forall (H : bytes -> bytes) (ops : list op) (s : mstate) (b : bool),
    contig s ->
    forest s <> [] ->
    run_ok H s ops ->
    snd (run H (set_init_set s b) ops) = snd (run H s ops) /\
    (exists b' : bool, fst (run H (set_init_set s b) ops) = set_init_set (fst (run H s ops)) b').
Proof. exact run_upto_init_set. Qed.
Print Assumptions C09_run_upto_init_set.

(** hence: every in-contract future of the rolled-back tree yields exactly the outputs (reads,
    commit hashes and version numbers, prune / reopen results) of the tree whose history ended
    at [v] *)
Theorem C09_lvfo_indistinguishable :
  forall (H : bytes -> bytes) (s1 : mstate) (v : Z) (ops ops' : list op),
    base_state s1 v ->
    run_ok H s1 ops ->
    forallb (no_prune_above v) ops = true ->
    run_ok H s1 ops' ->
    let s2 := fst (run H s1 ops) in
    snd (step H s2 (OLvfo v)) = XOk /\
    snd (run H (fst (step H s2 (OLvfo v))) ops') = snd (run H s1 ops') /\
    (exists b' : bool,
       fst (run H (fst (step H s2 (OLvfo v))) ops') = set_init_set (fst (run H s1 ops')) b').
Proof. exact lvfo_indistinguishable. Qed.
Print Assumptions C09_lvfo_indistinguishable.

(** *** Non-vacuity (SHA-256).  Base: three commits (the second without writes).  Continuation:
    two more commits, a load of an old version, a reopen, uncommitted writes, a rollback.
    Then LoadVersionForOverwriting(3). *)
Definition C09_k1 : bytes := [1%N].
Definition C09_k2 : bytes := [2%N].
Definition C09_k3 : bytes := [3%N].

Definition C09_base_ops : list op :=
  [OSet C09_k1 [10%N]; OSave; OSave; OSet C09_k2 [20%N]; OSave].
Definition C09_later_ops : list op :=
  [OSet C09_k3 [30%N]; OSave; ORemove C09_k1; OSave; OLoad 4; OReopen;
   OSet C09_k1 [11%N]; ORemove C09_k2; ORollback; OLvfo 4; OAvailable].
Definition C09_future_ops : list op :=
  [OAvailable; OSet C09_k3 [33%N]; OSave; ORead (TVersion 4) RHash; OReopen;
   ORead TWorking (RIter None None false true); OPrune 2; OAvailable].

(** The base history, and the continuation and the future from its state, are each run once,
    here; the examples check their claims on these values. *)
Definition C09_base : mstate :=
  Eval vm_compute in fst (run sha256 (init_state 0 false) C09_base_ops).
Lemma C09_base_eq : fst (run sha256 (init_state 0 false) C09_base_ops) = C09_base.
Proof. vm_compute. reflexivity. Qed.

Definition C09_later := Eval vm_compute in run sha256 C09_base C09_later_ops.
Lemma C09_later_eq : run sha256 C09_base C09_later_ops = C09_later.
Proof. vm_compute. reflexivity. Qed.

Definition C09_future := Eval vm_compute in run sha256 C09_base C09_future_ops.
Lemma C09_future_eq : run sha256 C09_base C09_future_ops = C09_future.
Proof. vm_compute. reflexivity. Qed.

Example C09_example :
  let s1 := fst (run sha256 (init_state 0 false) C09_base_ops) in
  let s2 := fst (run sha256 s1 C09_later_ops) in
  (* hypotheses *)
  base_state s1 3 /\
  run_okb sha256 s1 C09_later_ops = true /\
  forallb (no_prune_above 3) C09_later_ops = true /\
  run_okb sha256 s1 C09_future_ops = true /\
  (* what the continuation did: versions 4 and 5 were committed, 5 removed again *)
  last (snd (run sha256 s1 C09_later_ops)) XErr = XInts [1; 2; 3; 4] /\
  (* conclusions observed *)
  step sha256 s2 (OLvfo 3) = (s1, XOk) /\
  available (fst (step sha256 s2 (OLvfo 3))) = [1; 2; 3] /\
  snd (run sha256 (fst (step sha256 s2 (OLvfo 3))) C09_future_ops) =
    snd (run sha256 s1 C09_future_ops) /\
  exists h4,
    snd (run sha256 s1 C09_future_ops) =
      [XInts [1; 2; 3]; XBool false; XPair (XBytes (Some h4)) (XInt 4); XBytes (Some h4); XOk;
       XKvs [(C09_k1, [10%N]); (C09_k2, [20%N]); (C09_k3, [33%N])]; XOk; XInts [3; 4]].
Proof.
  cbv zeta.
  assert (C : contig (fst (run sha256 (init_state 0 false) C09_base_ops))).
  { apply reachable_contig; [unfold init_ok; lia|]. apply run_okb_iff. vm_compute. reflexivity. }
  rewrite C09_base_eq in *.
  split.
  { split; [exact C|]. split; [lia|]. repeat split; vm_compute; reflexivity. }
  split; [vm_compute; reflexivity|]. split; [vm_compute; reflexivity|].
  split; [vm_compute; reflexivity|].
  rewrite C09_later_eq, C09_future_eq.
  split; [vm_compute; reflexivity|]. split; [vm_compute; reflexivity|].
  split; [vm_compute; reflexivity|]. split; [vm_compute; reflexivity|].
  vm_compute. eexists. reflexivity.
Qed.

(** rollback: after a commit, uncommitted writes and reads are discarded exactly *)
Example C09_example_rollback :
  let s0 := fst (run sha256 (init_state 0 false) C09_base_ops) in
  let ops := [OSet C09_k3 [30%N]; ORemove C09_k1; ORead TWorking RSize; OSet C09_k2 [21%N]] in
  let s := fst (run sha256 s0 ops) in
  contig s0 /\ root s0 = last_saved s0 /\ forallb root_only ops = true /\
  root s <> root s0 /\
  step sha256 s ORollback = (s0, XOk) /\
  (forall r, r = RHash \/ r = RSize \/ r = RGet C09_k1 ->
     step sha256 (fst (step sha256 s ORollback)) (ORead TWorking r) =
     step sha256 (fst (step sha256 s ORollback)) (ORead (TVersion 3) r)).
Proof.
  cbv zeta.
  split.
  { apply reachable_contig; [unfold init_ok; lia|]. apply run_okb_iff. vm_compute. reflexivity. }
  rewrite C09_base_eq.
  split; [vm_compute; reflexivity|]. split; [vm_compute; reflexivity|].
  split; [vm_compute; discriminate|]. split; [vm_compute; reflexivity|].
  intros r [->|[->| ->]]; vm_compute; reflexivity.
Qed.

(** *** Node keys of the erased future are reused, the node cache is never invalidated
    (NodeCache.v).  From ANY cache state (no coherence needed - the cache may be full of nodes of
    the erased timeline) and for EVERY capacity: delete the keys of the versions above [v], commit,
    save the new nodes under the reused keys, commit: GetNode of a reused key returns the NEW
    node.  What makes it true is that SaveNode replaces the cached entry of the key it writes;
    the two variants without that are refuted in Properties/C01. *)
From IAVL Require Import Store StoreFacts NodeCache NodeCacheFacts.

Theorem C09_reused_node_keys_read_the_new_nodes :
  forall (V : Type) (is_node : V -> bool) (cap : nat) (st : cstate V)
         (dels : list (Z * Z)) (news : list (Z * Z * V)) (k : Z * Z) (v : V),
    lru_wf (cache st) -> NoDup (map fst news) -> In (k, v) news -> is_node v = true ->
    last (fst (crun is_node cap st
                 (map (@CDel V) dels ++ [CCommit] ++ save_ops news ++ [CCommit; CGet k])))
         OUnit = OGot (Some v).
Proof. exact rollback_recommit. Qed.
Print Assumptions C09_reused_node_keys_read_the_new_nodes.
