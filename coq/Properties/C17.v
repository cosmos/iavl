(** C17: storage failures surface as errors, never as wrong or partial answers.

    Model: Fault.v (readers of node.go / iterator.go / immutable_tree.go / export.go / proof.go
    and the commit, over a store whose i-th call can fail).  Proofs: FaultFacts.v.

      M A := nat (calls so far) -> result A * nat        result A := Ok a | Err | Fuel
      FS m := forall i c,
                c <= snd (m None c) /\
                (i < c \/ snd (m None c) <= i -> m (Some i) c = m None c) /\
                (c <= i < snd (m None c)      -> m (Some i) c = (Err, S i))
      fail_stop_to m a := forall i c,
                fst (m None c) = Ok a /\
                (fst (m (Some i) c) = Err \/
                 ((i < c \/ snd (m None c) <= i) /\ m (Some i) c = m None c))
      repr st t := every child of every inner node of t is in st under its node key *)
From IAVL Require Import Bytes Varint Sha256 Tree VMap TreeFacts Iter IterFacts ExportImport
  Fault FaultFacts.
Local Open Scope Z_scope.

(** 1. Every reader with an error result is fail-stop and, without fault, returns the M1
    answer: for every store containing a well-formed persisted tree, every key / index /
    bounds and EVERY fault position. *)
Theorem C17_reads_fail_stop :
  forall (st : store) (t : node),
    wf t -> repr st t ->
    let root := snode_of t in
    (forall key, fail_stop_to (fun fa => f_get fa st (desc_fuel root) root key) (get t key)) /\
    (forall key, fail_stop_to (fun fa => f_has fa st (desc_fuel root) root key) (has t key)) /\
    (forall idx, fail_stop_to (fun fa => f_get_by_index fa st (desc_fuel root) root idx)
                              (get_by_index t idx)) /\
    (forall start stop asc,
       fail_stop_to (fun fa => f_iterate fa st root start stop asc)
                    (range_spec (elems t) start stop false asc)) /\
    fail_stop_to (fun fa => f_export fa st root) (export_node t) /\
    (forall key, fail_stop_to (fun fa => f_path_to_leaf fa st (desc_fuel root) root key)
                              (path_pure t key)).
Proof. exact reads_fail_stop. Qed.
Print Assumptions C17_reads_fail_stop.

(** The fail-stop half holds for ANY store and any node in hand (corrupt, incomplete...). *)
Theorem C17_reads_fail_stop_any_store :
  forall (st : store) (root : snode),
    (forall fuel key, FS (fun fa => f_get fa st fuel root key)) /\
    (forall fuel key, FS (fun fa => f_has fa st fuel root key)) /\
    (forall fuel idx, FS (fun fa => f_get_by_index fa st fuel root idx)) /\
    (forall start stop asc, FS (fun fa => f_iterate fa st root start stop asc)) /\
    FS (fun fa => f_export fa st root) /\
    (forall fuel key, FS (fun fa => f_path_to_leaf fa st fuel root key)) /\
    (forall fuel key, FS (fun fa => f_existence_proof fa st fuel root key)).
Proof. exact reads_fail_stop_any_store. Qed.
Print Assumptions C17_reads_fail_stop_any_store.

(** a store built from a tree whose node keys are distinct contains it *)
Theorem C17_to_store_repr :
  forall t : node, NoDup (map fst (to_store t)) -> repr (to_store t) t.
Proof. exact to_store_repr. Qed.
Print Assumptions C17_to_store_repr.

(** what the consumer of a failing export has received is a prefix of the full export,
    and (C17_reads_fail_stop) it ends with the error *)
Theorem C17_export_partial_prefix :
  forall (st : store) (root : snode) (i c : nat),
    exists rest, f_export_partial None st root c = f_export_partial (Some i) st root c ++ rest.
Proof. exact export_partial_prefix. Qed.
Print Assumptions C17_export_partial_prefix.

(** ImmutableTree.Get through the fast index: a failing GetFastNode falls back to the tree
    walk; whatever the fault, the answer is the error or the right value. *)
Theorem C17_imm_get_fail_stop :
  forall (st : store) (t : node) (fidx : fastidx) (latest version : Z) (key : bytes)
         (fa : option nat) (c : nat),
    wf t -> repr st t ->
    (forall k, match fassoc k fidx with
               | Some (u, v) => u <= version -> assoc k (elems t) = Some v
               | None => version = latest -> assoc k (elems t) = None
               end) ->
    let r := fst (f_imm_get fa st fidx latest version (desc_fuel (snode_of t)) (snode_of t) key c) in
    r = Err \/ r = Ok (assoc key (elems t)).
Proof. exact imm_get_fail_stop. Qed.
Print Assumptions C17_imm_get_fail_stop.

(** 2. The exception: IterateRange / IterateRangeInclusive (node.traverseInRange) have no error
    result and drop the error of t.next(): whatever the fault they answer [Ok] of a prefix
    of the right list ... *)
Theorem C17_iterate_range_never_fails :
  forall (st : store) (t : node) (start stop : option bytes) (asc incl : bool) (i c : nat),
    wf t -> repr st t ->
    exists l, fst (f_iterate_range (Some i) st (snode_of t) start stop asc incl c) = Ok l /\
              exists rest, range_spec (elems t) start stop incl asc = l ++ rest.
Proof. exact iterate_range_never_fails. Qed.
Print Assumptions C17_iterate_range_never_fails.

(** ... and the prefix can be strict: fail-stop is REFUTED for them. *)
Theorem C17_iterate_range_swallows_refuted :
  exists (st : store) (t : node) (i : nat) (l : list (bytes * bytes)),
    wf t /\ repr st t /\
    fst (f_iterate_range_top None st (snode_of t) None None true false) = Ok (elems t) /\
    fst (f_iterate_range_top (Some i) st (snode_of t) None None true false) = Ok l /\
    l = [([1%N], [10%N]); ([2%N], [20%N])] /\
    elems t = [([1%N], [10%N]); ([2%N], [20%N]); ([3%N], [30%N]); ([4%N], [40%N]); ([5%N], [50%N])].
Proof. exact iterate_range_swallows_refuted. Qed.
Print Assumptions C17_iterate_range_swallows_refuted.

(** 3. A commit (SaveVersion / DeleteVersionsTo / rollback / import: [length ops] batch
    operations, then the batch write) during which a write failed is not reported successful;
    one reported successful saw no fault and wrote everything. *)
Theorem C17_commit_not_ok :
  forall (ops : list wop) (s : store) (i c : nat),
    (c <= i < c + length ops + 1)%nat -> f_commit (Some i) ops s c = (Err, S i).
Proof. exact commit_not_ok. Qed.
Print Assumptions C17_commit_not_ok.

Theorem C17_commit_ok_inv :
  forall (ops : list wop) (s : store) (i c : nat) (s' : store) (c' : nat),
    f_commit (Some i) ops s c = (Ok s', c') ->
    (i < c \/ c + length ops + 1 <= i)%nat /\ s' = fold_left apply_wop ops s /\
    c' = (c + length ops + 1)%nat.
Proof. exact commit_ok_inv. Qed.
Print Assumptions C17_commit_ok_inv.

(** 4. Cost by-product (C11): storage calls of the descents with a cold node cache. *)
Theorem C17_get_cost :
  forall (st : store) (t : node) (key : bytes),
    wf t -> repr st t ->
    Z.of_nat (snd (f_get_top None st (snode_of t) key)) <= height t /\
    fst (f_get_top None st (snode_of t) key) = Ok (get t key).
Proof. exact get_cost. Qed.
Print Assumptions C17_get_cost.

Theorem C17_has_cost :
  forall (st : store) (t : node) (key : bytes),
    wf t -> repr st t ->
    Z.of_nat (snd (f_has_top None st (snode_of t) key)) <= height t /\
    fst (f_has_top None st (snode_of t) key) = Ok (has t key).
Proof. exact has_cost. Qed.
Print Assumptions C17_has_cost.

Theorem C17_get_by_index_cost :
  forall (st : store) (t : node) (idx : Z),
    wf t -> repr st t ->
    Z.of_nat (snd (f_get_by_index_top None st (snode_of t) idx)) <= 2 * height t /\
    fst (f_get_by_index_top None st (snode_of t) idx) = Ok (get_by_index t idx).
Proof. exact get_by_index_cost. Qed.
Print Assumptions C17_get_by_index_cost.

Theorem C17_get_cost_avl :
  forall (st : store) (t : node) (key : bytes),
    wf t -> avl t -> repr st t ->
    fib (snd (f_get_top None st (snode_of t) key) + 2) <= size t.
Proof. exact get_cost_avl. Qed.
Print Assumptions C17_get_cost_avl.

(** *** Non-vacuity: [ex_tree] (FaultFacts) = keys 1..5 saved at version 1 with SHA-256:
    9 nodes, height 3; [ex_store] its store.  A fault at EVERY position. *)
Example C17_example_tree :
  wf ex_tree /\ avl ex_tree /\ repr ex_store ex_tree /\ NoDup (map fst ex_store) /\
  height ex_tree = 3 /\ size ex_tree = 5 /\ length ex_store = 9%nat.
Proof.
  split; [exact ex_wf|]. split; [exact ex_avl|]. split; [exact ex_repr|].
  split; [|vm_compute; repeat split].
  vm_compute. repeat (constructor; [cbn; intuition discriminate|]). constructor.
Qed.

(** get: 3 storage calls; a fault at 0,1,2 is reported, at 3.. it is never reached *)
Example C17_example_get :
  f_get_top None ex_store ex_root [4%N] = (Ok (3, Some [40%N]), 3%nat) /\
  map (fun i => fst (f_get_top (Some i) ex_store ex_root [4%N])) (List.seq 0 5)
  = [Err; Err; Err; Ok (3, Some [40%N]); Ok (3, Some [40%N])] /\
  map (fun i => fst (f_has_top (Some i) ex_store ex_root [5%N])) (List.seq 0 4)
  = [Err; Err; Ok true; Ok true] /\
  map (fun i => fst (f_get_by_index_top (Some i) ex_store ex_root 3)) (List.seq 0 6)
  = [Err; Err; Err; Err; Err; Ok (Some ([4%N], [40%N]))].
Proof. vm_compute. repeat split. Qed.

(** Iterate (Iterator + Error() check), export and the proof path: every one of the 8
    fetches failing gives [Err]; from position 8 on, the complete answer. *)
Example C17_example_iterate :
  let full := [([1%N], [10%N]); ([2%N], [20%N]); ([3%N], [30%N]); ([4%N], [40%N]); ([5%N], [50%N])] in
  f_iterate_top None ex_store ex_root None None true = (Ok full, 8%nat) /\
  forallb (fun i => match f_iterate_top (Some i) ex_store ex_root None None true with
                    | (Err, c) => Nat.eqb c (S i) | _ => false end) (List.seq 0 8) = true /\
  fst (f_iterate_top (Some 8%nat) ex_store ex_root None None true) = Ok full /\
  fst (f_iterate_top None ex_store ex_root (Some [2%N]) (Some [5%N]) false) =
    Ok [([4%N], [40%N]); ([3%N], [30%N]); ([2%N], [20%N])] /\
  forallb (fun i => match f_export_top (Some i) ex_store ex_root with
                    | (Err, c) => Nat.eqb c (S i) | _ => false end) (List.seq 0 8) = true /\
  fst (f_export_top None ex_store ex_root) = Ok (export_node ex_tree) /\
  length (export_node ex_tree) = 9%nat /\
  map (fun i => match fst (f_path_to_leaf_top (Some i) ex_store ex_root [4%N]) with
                | Err => 0 | Fuel => 1 | Ok _ => 2 end) (List.seq 0 8)
  = [0; 0; 0; 0; 0; 0; 2; 2].
Proof. vm_compute. repeat split. Qed.

(** IterateRange with the same faults: never an error, the list silently shrinks
    (lengths of the answers for a fault at 0..8; the full answer has 5 pairs). *)
Example C17_example_iterate_range :
  map (fun i => match f_iterate_range_top (Some i) ex_store ex_root None None true false with
                | (Ok l, _) => Z.of_nat (length l) | _ => -1 end) (List.seq 0 9)
  = [0; 0; 0; 0; 2; 2; 3; 3; 5].
Proof. vm_compute. reflexivity. Qed.

(** commit of 3 batch operations: a fault at 0..3 (3 ops + the batch write) fails it *)
Example C17_example_commit :
  let ops := [WSet (2, 1) (SLeaf [7%N] [70%N] (Meta 2 1 [])); WDel (1, 5); WDel (1, 9)] in
  map (fun i => match fst (f_commit_top (Some i) ops ex_store) with
                | Ok s => Z.of_nat (length s) | _ => -1 end) (List.seq 0 5)
  = [-1; -1; -1; -1; 8] /\
  snd (f_commit_top None ops ex_store) = 4%nat.
Proof. vm_compute. repeat split. Qed.

(** *** Faults during the physical DeleteVersionsTo (PruneFault.v: the algorithm of PruneAlgo.v over
    a storage whose k-th call - a read of GetNode / GetRoot, a batch Set / Delete, a flush, the
    final Commit - fails).  For every reachable in-contract state, every flush schedule and EVERY
    fault position: the deletion reports an error or is the fault-free run; what it leaves behind
    - every state the disk went through AND the disk after the pending batch is written by a later
    Commit - still reads every retained version back node for node; it issues no write the
    fault-free run would not have issued.  The loop as it was before commit 9c131ef of
    cosmos/iavl's repository (under /repo) is refuted by a concrete fault position. *)
From IAVL Require Import Ics23Facts Store StoreFacts MTree VersionFacts PruneAlgo PruneAlgoFacts6 PruneAlgoFacts9 PruneAlgoFacts10 PruneFault PruneFaultFacts1 PruneFaultFacts.
Local Open Scope Z_scope.

Theorem C17_deletion_fault_is_reported :
  forall (H : bytes -> bytes), (forall x, length (H x) = 32%nat) ->
  forall iv b ops (r : list Z) (sched : list bool) (eff : bool) (n : Z) (k : nat),
    init_ok iv b -> run_ok H (init_state iv b) ops ->
    let s := fst (run H (init_state iv b) ops) in
    forest_bounds (forest s) -> rekey_ok r (forest s) -> n < version s -> n < latest_version s ->
    (prune_forest_fault H true eff r (forest s) sched n (Some k) =
       prune_forest_fault H true eff r (forest s) sched n None \/
     exists p, prune_forest_fault H true eff r (forest s) sched n (Some k) = FErr p)
    \/ collision H.
Proof. exact fault_reported_reachable. Qed.
Print Assumptions C17_deletion_fault_is_reported.

Theorem C17_deletion_fault_leaves_retained_versions_intact :
  forall (H : bytes -> bytes), (forall x, length (H x) = 32%nat) ->
  forall iv b ops (r : list Z) (sched : list bool) (eff : bool) (n : Z) (k : nat) (p : pdb),
    init_ok iv b -> run_ok H (init_state iv b) ops ->
    let s := fst (run H (init_state iv b) ops) in
    forest_bounds (forest s) -> rekey_ok r (forest s) -> n < version s -> n < latest_version s ->
    prune_forest_fault H true eff r (forest s) sched n (Some k) = FErr p ->
    (let f' := filter (fun q => n <? fst q) (forest s) in
     Forall (fun d => readable H d f' = true) (dhist p) /\
     readable H (disk (pflush p)) f' = true)
    \/ collision H.
Proof. exact fault_leaves_retained_intact_reachable. Qed.
Print Assumptions C17_deletion_fault_leaves_retained_versions_intact.

Theorem C17_deletion_fault_causes_no_extra_write :
  forall (H : bytes -> bytes), (forall x, length (H x) = 32%nat) ->
  forall (s : mstate) (r : list Z) (sched : list bool) (eff : bool) (n : Z) (k : nat) (p : pdb),
    store_ok H s -> forest_bounds (forest s) -> rekey_ok r (forest s) -> n < latest_version s ->
    prune_forest_fault H true eff r (forest s) sched n (Some k) = FErr p ->
    (exists p0 W, prune_forest_fault H true eff r (forest s) sched n None = FOk p0 /\
                  wlog p0 = wlog p ++ W)
    \/ collision H.
Proof. exact fault_prefix. Qed.
Print Assumptions C17_deletion_fault_causes_no_extra_write.

(** the fault-free instance of the fault model IS the algorithm tied to the code (PruneAlgo) *)
Theorem C17_fault_model_is_the_tied_algorithm :
  forall (H : bytes -> bytes) (eff : bool) (st : store) (schedule : list bool) (first latest to : Z),
    pf_result eff (prune_fault H true eff st schedule first latest to None) =
    prune_phys H eff st schedule first latest to /\
    pf_disks (prune_fault H true eff st schedule first latest to None) =
    prune_phys_disks H eff st schedule first latest to.
Proof. exact PF_fault_free_same. Qed.
Print Assumptions C17_fault_model_is_the_tied_algorithm.

Theorem C17_unfixed_orphan_loop_refuted : ltac:(let t := type of unfixed_read_fault_refuted in exact t).
Proof. exact unfixed_read_fault_refuted. Qed.
Print Assumptions C17_unfixed_orphan_loop_refuted.

(** every fault position of one deletion, enumerated *)
Example C17_all_fault_positions_example : ltac:(let t := type of pf_all_positions_1 in exact t).
Proof. exact pf_all_positions_1. Qed.

(** *** BatchWithFlusher over a backend whose n-th physical write fails (Flusher.v, batch.go):
    the failure is returned by the Set / Delete / Write that triggered the flush (never
    swallowed), the database holds exactly the first n-1 batches - a prefix of the operation's
    writes ending at a cut position - and nothing issued later was applied. *)
From IAVL Require Flusher FlusherFacts.

Theorem C17_flusher_write_failure_reported :
  forall (th : Z) (n : nat) (ops : list Flusher.bop),
    FlusherFacts.keys_ok ops -> (1 <= n <= length (Flusher.fl_batches th ops))%nat ->
    exists s, Flusher.ffl_commit th n ops = Flusher.FErr Flusher.EWriteFailed s /\
              Flusher.nwrites s = n.
Proof. exact FlusherFacts.fl_fault_reported. Qed.
Print Assumptions C17_flusher_write_failure_reported.

Theorem C17_flusher_write_failure_leaves_a_prefix :
  forall (th : Z) (n : nat) (ops : list Flusher.bop) (s : Flusher.ffl),
    Flusher.ffl_commit th n ops = Flusher.FErr Flusher.EWriteFailed s ->
    Flusher.ffl_db_batches (Flusher.FErr Flusher.EWriteFailed s) =
      firstn (n - 1) (Flusher.fl_batches th ops) /\
    concat (Flusher.ffl_db_batches (Flusher.FErr Flusher.EWriteFailed s)) =
      firstn (nth (n - 1) (0%nat :: Flusher.cut_positions th ops ++ [length ops]) (length ops)) ops /\
    (forall m : VMap.kvs,
       Flusher.kv_apply_batches m (Flusher.ffl_db_batches (Flusher.FErr Flusher.EWriteFailed s)) =
       Flusher.kv_apply_ops m
         (firstn (nth (n - 1) (0%nat :: Flusher.cut_positions th ops ++ [length ops]) (length ops)) ops)).
Proof. exact FlusherFacts.fl_fault_prefix. Qed.
Print Assumptions C17_flusher_write_failure_leaves_a_prefix.

(** the same for the byte stream of a commit (PhysCommit.v): a failing physical write during
    SaveVersion is reported, and the database holds the first n-1 batches of the commit *)
From IAVL Require Import FastLife PhysCommit PhysCommitFacts.

Theorem C17_commit_write_failure_reported :
  forall (H : bytes -> bytes) (th : Z) (n : nat) (st : fstate),
    (1 <= n <= length (commit_batches H th st))%nat ->
    exists s : Flusher.ffl,
      Flusher.ffl_commit th n (commit_bops H st) = Flusher.FErr Flusher.EWriteFailed s /\
      Flusher.nwrites s = n /\
      Flusher.ffl_db_batches (Flusher.FErr Flusher.EWriteFailed s) =
        firstn (n - 1) (commit_batches H th st) /\
      (forall m : VMap.kvs,
         Flusher.kv_apply_batches m (Flusher.ffl_db_batches (Flusher.FErr Flusher.EWriteFailed s)) =
         Flusher.kv_apply_ops m
           (firstn (nth (n - 1)
                      (0%nat :: Flusher.cut_positions th (commit_bops H st) ++ [length (commit_bops H st)])
                      (length (commit_bops H st))) (commit_bops H st))).
Proof. exact commit_write_failure_reported. Qed.
Print Assumptions C17_commit_write_failure_reported.
