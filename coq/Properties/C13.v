(** C13: encodings. Every encoder/decoder pair round-trips; every decoder is guarded (reads
    within the buffer, returns outputs bounded by the input, enforces the int8 / uint32 /
    mode ranges, rejects node keys that are not 12 bytes and legacy children that are not
    32 bytes, and never panics); the big-endian node
    key layout is order preserving; the three kinds of root entries are distinguishable.
    The last part is about the whole database as bytes (DbImage.v).
    Statements are restated in full, except where the statement is taken from the named lemma by `type of`;
    proofs are in VarintFacts.v / CodecFacts.v and DbImageFacts.v / DiscoverFacts.v. *)
From IAVL Require Import Bytes Varint VarintFacts Codec CodecFacts.
Local Open Scope Z_scope.

(** *** 1. varints, length-prefixed bytes *)

Theorem C13_uvarint_roundtrip :
  forall (u : N) (rest : bytes),
    (u < 2 ^ 64)%N ->
    uvarint_dec (uvarint_enc u ++ rest) = Some (u, length (uvarint_enc u)).
Proof. exact uvarint_roundtrip. Qed.
Print Assumptions C13_uvarint_roundtrip.

Theorem C13_uvarint_length :
  forall u : N, (0 < length (uvarint_enc u) <= 10)%nat.
Proof. exact uvarint_enc_length. Qed.
Print Assumptions C13_uvarint_length.

Theorem C13_zigzag_inverse :
  forall x : Z, unzigzag (zigzag x) = x.
Proof. exact unzigzag_zigzag. Qed.
Print Assumptions C13_zigzag_inverse.

Theorem C13_zigzag_range :
  forall x : Z, - 2 ^ 63 <= x < 2 ^ 63 -> (zigzag x < 2 ^ 64)%N.
Proof. exact zigzag_range. Qed.
Print Assumptions C13_zigzag_range.

Theorem C13_varint_roundtrip :
  forall (x : Z) (rest : bytes),
    - 2 ^ 63 <= x < 2 ^ 63 ->
    varint_dec (varint_enc x ++ rest) = Some (x, length (varint_enc x)).
Proof. exact varint_roundtrip. Qed.
Print Assumptions C13_varint_roundtrip.

Theorem C13_bytes_roundtrip :
  forall (b rest : bytes),
    (N.of_nat (length b) < 2 ^ 63 - 1)%N ->
    bytes_dec (bytes_enc b ++ rest) = Some (b, length (bytes_enc b)).
Proof. exact bytes_roundtrip. Qed.
Print Assumptions C13_bytes_roundtrip.

(** *** 2. decoder guards *)

Theorem C13_uvarint_guard :
  forall (buf : bytes) (v : N) (n : nat),
    uvarint_dec buf = Some (v, n) ->
    (0 < n <= length buf)%nat /\ (n <= 10)%nat /\ (well_formed buf -> (v < 2 ^ 64)%N).
Proof. exact uvarint_dec_guard. Qed.
Print Assumptions C13_uvarint_guard.

Theorem C13_varint_guard :
  forall (buf : bytes) (x : Z) (n : nat),
    varint_dec buf = Some (x, n) ->
    (0 < n <= length buf)%nat /\ (n <= 10)%nat /\
    (well_formed buf -> - 2 ^ 63 <= x < 2 ^ 63).
Proof. exact varint_dec_guard. Qed.
Print Assumptions C13_varint_guard.

Theorem C13_bytes_guard :
  forall (buf b : bytes) (n : nat),
    bytes_dec buf = Some (b, n) ->
    (0 < n <= length buf)%nat /\ (length b <= length buf)%nat /\ (length b < n)%nat /\
    exists m, (0 < m <= 10)%nat /\ (n = m + length b)%nat /\
              b = firstn (length b) (skipn m buf).
Proof. exact bytes_dec_guard. Qed.
Print Assumptions C13_bytes_guard.

(** [legacy_guard]: inner legacy nodes have child hashes of exactly 32 bytes.
    [MakeNode]: [node_guard L n] = height in int8, key/value/hash lengths <= L, legacy
    children exactly 32 bytes, new-child nonces in uint32, leaf <-> value and no children,
    inner <-> two children;
    [node_guard_wf n] = size and versions in int64, outputs byte-valued. *)
Theorem C13_node_guard :
  forall (nk buf : bytes) (n : raw_node) (c : nat),
    decode_node_n nk buf = DOk (n, c) ->
    (0 < c <= length buf)%nat /\ length nk = 12%nat /\
    node_guard (length buf) n /\ (well_formed buf -> node_guard_wf n).
Proof. exact decode_node_n_guard. Qed.
Print Assumptions C13_node_guard.

Theorem C13_legacy_guard :
  forall (hash buf : bytes) (n : raw_legacy_node) (c : nat),
    decode_legacy_node_n hash buf = DOk (n, c) ->
    (0 < c <= length buf)%nat /\ legacy_guard (length buf) n /\
    (well_formed buf -> legacy_guard_wf n).
Proof. exact decode_legacy_node_n_guard. Qed.
Print Assumptions C13_legacy_guard.

Theorem C13_fast_guard :
  forall (key buf : bytes) (n : raw_fast_node) (c : nat),
    decode_fast_node_n key buf = DOk (n, c) ->
    (0 < c <= length buf)%nat /\ fn_key n = key /\
    (length (fn_value n) <= length buf)%nat /\
    (well_formed buf -> - 2 ^ 63 <= fn_version n < 2 ^ 63 /\ well_formed (fn_value n)).
Proof. exact decode_fast_node_n_guard. Qed.
Print Assumptions C13_fast_guard.

(** no decoder panics *)
Theorem C13_node_never_panics :
  forall nk buf : bytes, decode_node nk buf <> DPanic /\ decode_node_n nk buf <> DPanic.
Proof.
  intros nk buf.
  exact (conj (decode_node_never_panics nk buf) (decode_node_n_never_panics nk buf)).
Qed.
Print Assumptions C13_node_never_panics.

Theorem C13_node_bad_key :
  forall nk buf : bytes, length nk <> 12%nat -> decode_node nk buf = DErr.
Proof. exact decode_node_bad_key. Qed.
Print Assumptions C13_node_bad_key.

(** what [MakeNode] returns can be re-encoded ([writeBytes]) and sized ([encodedSize])
    without error or panic; those two only panic on hand-built nodes with a child key of
    fewer than 12 bytes *)
Theorem C13_decoded_node_writes :
  forall (nk buf : bytes) (n : raw_node) (c : nat),
    decode_node_n nk buf = DOk (n, c) ->
    (exists bz, write_node n = DOk bz) /\ (exists sz, encoded_size n = DOk sz).
Proof. exact decoded_node_writes. Qed.
Print Assumptions C13_decoded_node_writes.

Theorem C13_legacy_no_panic :
  forall hash buf : bytes, decode_legacy_node hash buf <> DPanic.
Proof. exact decode_legacy_node_no_panic. Qed.
Print Assumptions C13_legacy_no_panic.

Theorem C13_fast_no_panic :
  forall key buf : bytes, decode_fast_node key buf <> DPanic.
Proof. exact decode_fast_node_no_panic. Qed.
Print Assumptions C13_fast_no_panic.

(** *** 3. node round trips *)

Theorem C13_node_roundtrip :
  forall (nk : bytes) (n : raw_node) (rest : bytes),
    wf_raw n -> length nk = 12%nat ->
    decode_node nk (encode_node n ++ rest) = DOk n /\
    decode_node_n nk (encode_node n ++ rest) = DOk (n, length (encode_node n)) /\
    write_node n = DOk (encode_node n).
Proof.
  intros nk n rest Hw Hnk.
  exact (conj (decode_node_roundtrip nk n rest Hw Hnk)
        (conj (decode_node_n_roundtrip nk n rest Hw Hnk) (write_node_encode n Hw))).
Qed.
Print Assumptions C13_node_roundtrip.

Theorem C13_legacy_roundtrip :
  forall (hash : bytes) (n : raw_legacy_node) (rest : bytes),
    wf_legacy n -> decode_legacy_node hash (encode_legacy_node n ++ rest) = DOk n.
Proof. exact decode_legacy_node_roundtrip. Qed.
Print Assumptions C13_legacy_roundtrip.

Theorem C13_fast_roundtrip :
  forall (key : bytes) (version : Z) (value rest : bytes),
    - 2 ^ 63 <= version < 2 ^ 63 -> (N.of_nat (length value) < 2 ^ 63 - 1)%N ->
    decode_fast_node key (encode_fast_node version value ++ rest)
    = DOk (mk_raw_fast_node key version value).
Proof. exact decode_fast_node_roundtrip. Qed.
Print Assumptions C13_fast_roundtrip.

Theorem C13_node_key_roundtrip :
  forall v n : Z,
    - 2 ^ 63 <= v < 2 ^ 63 -> 0 <= n < 2 ^ 32 ->
    parse_node_key (node_key_bytes v n) = DOk (v, n) /\
    length (node_key_bytes v n) = 12%nat.
Proof.
  intros v n Hv Hn.
  exact (conj (parse_node_key_roundtrip v n Hv Hn) (node_key_bytes_length v n)).
Qed.
Print Assumptions C13_node_key_roundtrip.

(** *** 4. key order *)

Theorem C13_be_enc_monotone :
  forall (w : nat) (x y : N),
    (x < 256 ^ N.of_nat w)%N -> (y < 256 ^ N.of_nat w)%N ->
    (bcmp (be_enc w x) (be_enc w y) = Lt <-> (x < y)%N).
Proof. exact be_enc_lt. Qed.
Print Assumptions C13_be_enc_monotone.

Theorem C13_key_order :
  forall v n v' n' : Z,
    0 <= v < 2 ^ 63 -> 0 <= v' < 2 ^ 63 -> 0 <= n < 2 ^ 32 -> 0 <= n' < 2 ^ 32 ->
    (bcmp (node_key_bytes v n) (node_key_bytes v' n') = Lt <-> (v < v' \/ (v = v' /\ n < n'))).
Proof. exact node_key_order. Qed.
Print Assumptions C13_key_order.

Theorem C13_db_key_order :
  forall v n v' n' : Z,
    0 <= v < 2 ^ 63 -> 0 <= v' < 2 ^ 63 -> 0 <= n < 2 ^ 32 -> 0 <= n' < 2 ^ 32 ->
    (bcmp (db_node_key (node_key_bytes v n)) (db_node_key (node_key_bytes v' n')) = Lt
     <-> (v < v' \/ (v = v' /\ n < n'))).
Proof. exact db_node_key_order. Qed.
Print Assumptions C13_db_key_order.

Theorem C13_version_prefix :
  forall v n : Z,
    is_prefix (db_node_prefix_key v) (db_node_key (node_key_bytes v n)) = true.
Proof. exact db_node_prefix_key_prefix. Qed.
Print Assumptions C13_version_prefix.

(** *** 5. root entries *)

Theorem C13_root_node :
  forall n : raw_node, rn_height n <> -58 -> classify_root (encode_node n) = RootNode.
Proof. exact classify_root_node. Qed.
Print Assumptions C13_root_node.

Theorem C13_root_ref :
  forall v n : Z,
    - 2 ^ 63 <= v < 2 ^ 63 -> 0 <= n < 2 ^ 32 ->
    classify_root (root_ref_value v n) = RootRef13 v n.
Proof. exact classify_root_ref13. Qed.
Print Assumptions C13_root_ref.

Theorem C13_root_ref9 :
  forall v : Z, - 2 ^ 63 <= v < 2 ^ 63 -> classify_root (db_node_prefix_key v) = RootRef9 v.
Proof. exact classify_root_ref9. Qed.
Print Assumptions C13_root_ref9.

Theorem C13_root_empty :
  forall v : bytes, classify_root v = RootEmpty <-> v = [].
Proof. exact classify_root_empty. Qed.
Print Assumptions C13_root_empty.

Theorem C13_root_kinds_distinct :
  forall (n : raw_node) (v k : Z),
    rn_height n <> -58 -> - 2 ^ 63 <= v < 2 ^ 63 -> 0 <= k < 2 ^ 32 ->
    encode_node n <> root_ref_value v k /\ encode_node n <> root_empty_value /\
    root_ref_value v k <> root_empty_value.
Proof. exact root_kinds_distinct. Qed.
Print Assumptions C13_root_kinds_distinct.

(** even at the (accepted but never produced) height -58 a well-formed inner node body is
    not taken for a valid reference: GetRoot answers "invalid reference root" *)
Theorem C13_root_inner_never_ref :
  forall n : raw_node,
    wf_raw n -> rn_height n <> 0 ->
    classify_root (encode_node n) = RootNode \/ classify_root (encode_node n) = RootBadRef.
Proof. exact classify_root_inner_never_ref. Qed.
Print Assumptions C13_root_inner_never_ref.

(** *** 6. storage version label *)

Theorem C13_storage_label :
  forall v latest : Z,
    0 <= v ->
    parse_storage_label (fast_storage_label v) = Some (fast_storage_version, Some v) /\
    should_force_upgrade (fast_storage_label v) latest = negb (v =? latest) /\
    set_fast_storage_version (fast_storage_label v) latest = Some (fast_storage_label latest).
Proof.
  intros v latest Hv.
  exact (conj (parse_storage_label_roundtrip v Hv)
        (conj (should_force_upgrade_label v latest Hv)
              (set_fast_storage_version_label v latest Hv))).
Qed.
Print Assumptions C13_storage_label.

(** *** 7. size hints *)

Theorem C13_fast_encoded_size :
  forall (version : Z) (value : bytes),
    - 2 ^ 63 <= version < 2 ^ 63 -> (N.of_nat (length value) < 2 ^ 63 - 1)%N ->
    fast_encoded_size version value = length (encode_fast_node version value).
Proof. exact fast_encoded_size_spec. Qed.
Print Assumptions C13_fast_encoded_size.

Theorem C13_encoded_size_leaf :
  forall n : raw_node,
    wf_raw n -> rn_height n = 0 -> encoded_size n = DOk (length (encode_node n)).
Proof. exact encoded_size_leaf. Qed.
Print Assumptions C13_encoded_size_leaf.

(** [Node.encodedSize] undercounts inner nodes (no mode byte; legacy children mis-sized) *)
Theorem C13_encoded_size_refuted :
  exists n, wf_raw n /\ exists sz, encoded_size n = DOk sz /\ (sz < length (encode_node n))%nat.
Proof. exact encoded_size_refuted. Qed.
Print Assumptions C13_encoded_size_refuted.

(** *** Non-vacuity: concrete nodes and malformed inputs *)

Definition C13_nk : bytes := node_key_bytes (2 ^ 40) (2 ^ 31).

Definition C13_leaf : raw_node :=
  mk_raw_node 0 1 [107; 101; 121]%N (Some [118; 97; 108; 117; 101]%N) [] RefNone RefNone.

Definition C13_inner : raw_node :=
  mk_raw_node 3 5 [107%N] None (repeat 7%N 32)
    (RefNew (2 ^ 40) (2 ^ 31)) (RefLegacy (repeat 9%N 32)).

Example C13_example_wf : wf_raw C13_leaf /\ wf_raw C13_inner.
Proof.
  unfold wf_raw, in_int8, in_int64, in_uint32, short; cbn.
  repeat split; try lia; try discriminate; eauto.
  exists [118; 97; 108; 117; 101]%N. split; [reflexivity | cbn; lia].
Qed.

(** the bytes are those produced by Go's writeBytes for the same nodes *)
Example C13_example_leaf :
  encode_node C13_leaf = [0; 2; 3; 107; 101; 121; 5; 118; 97; 108; 117; 101]%N /\
  decode_node C13_nk (encode_node C13_leaf ++ [99; 99]%N) = DOk C13_leaf.
Proof. vm_compute. split; reflexivity. Qed.

Example C13_example_inner :
  encode_node C13_inner =
    ([6; 10; 1; 107; 32] ++ repeat 7 32 ++ [4; 128; 128; 128; 128; 128; 64; 128; 128; 128; 128; 16; 32]
     ++ repeat 9 32)%N /\
  decode_node C13_nk (encode_node C13_inner) = DOk C13_inner /\
  write_node C13_inner = DOk (encode_node C13_inner) /\
  C13_nk = [0; 0; 1; 0; 0; 0; 0; 0; 128; 0; 0; 0]%N /\
  parse_node_key C13_nk = DOk (2 ^ 40, 2 ^ 31) /\
  encoded_size C13_inner = DOk 62%nat /\ length (encode_node C13_inner) = 82%nat.
Proof. vm_compute. repeat split; reflexivity. Qed.

(** all four child-mode combinations *)
Example C13_example_modes :
  forall l r,
    In l [RefNew (2 ^ 40) (2 ^ 31); RefLegacy (repeat 8%N 32)] ->
    In r [RefNew 3 4; RefLegacy (repeat 9%N 32)] ->
    decode_node C13_nk (encode_node (mk_raw_node 3 5 [107%N] None (repeat 7%N 32) l r))
    = DOk (mk_raw_node 3 5 [107%N] None (repeat 7%N 32) l r).
Proof.
  intros l r [<-|[<-|[]]] [<-|[<-|[]]]; vm_compute; reflexivity.
Qed.

(** malformed inputs are errors: truncated value, overlong varint (11 bytes), uvarint
    overflow (10th byte > 1), height outside int8, mode 4, nonce 2^32, nonce -1, empty *)
Example C13_example_errors :
  decode_node C13_nk [0; 2; 1; 97; 5; 98]%N = DErr /\
  decode_node C13_nk [128; 128; 128; 128; 128; 128; 128; 128; 128; 128; 0]%N = DErr /\
  decode_node C13_nk [255; 255; 255; 255; 255; 255; 255; 255; 255; 2]%N = DErr /\
  decode_node C13_nk [128; 2; 2; 1; 97; 1; 98]%N = DErr /\
  decode_node C13_nk [2; 4; 1; 97; 0; 8; 2; 4; 2; 4]%N = DErr /\
  decode_node C13_nk [2; 4; 1; 97; 0; 0; 2; 128; 128; 128; 128; 32; 2; 4]%N = DErr /\
  decode_node C13_nk [2; 4; 1; 97; 0; 0; 2; 1; 2; 4]%N = DErr /\
  decode_node C13_nk [] = DErr /\
  decode_fast_node [107%N] [2; 5; 1]%N = DErr /\
  decode_legacy_node [] [2; 4; 2; 1; 97; 32]%N = DErr /\
  bytes_dec [255; 255; 255; 255; 255; 255; 255; 255; 127; 1]%N = None.
Proof. vm_compute. repeat split; reflexivity. Qed.

(** non-canonical varints are accepted, as by Go's binary.Uvarint *)
Example C13_example_noncanonical :
  decode_node C13_nk [128; 0; 2; 1; 97; 1; 98]%N
  = DOk (mk_raw_node 0 1 [97%N] (Some [98%N]) [] RefNone RefNone).
Proof. vm_compute. reflexivity. Qed.

(** the former panic inputs (short node key; 5-byte "legacy" child) are errors now, as is an
    over-long node key *)
Example C13_example_former_panics :
  decode_node [1; 2; 3; 4; 5]%N [0; 2; 1; 97; 1; 98]%N = DErr /\
  decode_node C13_nk [2; 4; 1; 97; 0; 2; 5; 1; 2; 3; 4; 5; 2; 4]%N = DErr /\
  decode_node (repeat 1%N 20) [0; 2; 1; 97; 1; 98]%N = DErr /\
  decode_node C13_nk [0; 2; 1; 97; 1; 98]%N
  = DOk (mk_raw_node 0 1 [97%N] (Some [98%N]) [] RefNone RefNone) /\
  (* legacy node whose left child hash has 5 bytes *)
  decode_legacy_node (repeat 5%N 32) [2; 4; 2; 1; 97; 5; 1; 2; 3; 4; 5; 0]%N = DErr.
Proof. vm_compute. repeat split; reflexivity. Qed.

Example C13_example_legacy_fast :
  let ln := mk_raw_legacy_node 2 3 (2 ^ 40) [107%N] None (repeat 1%N 32) (repeat 2%N 32) in
  wf_legacy ln /\
  decode_legacy_node (repeat 5%N 32) (encode_legacy_node ln) = DOk ln /\
  decode_fast_node [107%N] (encode_fast_node (2 ^ 40) [118; 97; 108]%N ++ [1; 2; 3]%N)
  = DOk (mk_raw_fast_node [107%N] (2 ^ 40) [118; 97; 108]%N) /\
  encode_fast_node (2 ^ 40) [118; 97; 108]%N = [128; 128; 128; 128; 128; 64; 3; 118; 97; 108]%N.
Proof.
  cbv zeta. split.
  - unfold wf_legacy, in_int8, in_int64, short; cbn. repeat split; try lia.
  - vm_compute. repeat split; reflexivity.
Qed.

Example C13_example_keys :
  bcmp (node_key_bytes 255 (2 ^ 32 - 1)) (node_key_bytes 256 0) = Lt /\
  bcmp (node_key_bytes 256 0) (node_key_bytes 256 1) = Lt /\
  db_node_key C13_nk = [115; 0; 0; 1; 0; 0; 0; 0; 0; 128; 0; 0; 0]%N /\
  db_legacy_root_key (2 ^ 40 + 5) = [114; 0; 0; 1; 0; 0; 0; 0; 5]%N /\
  db_fast_key [97; 98]%N = [102; 97; 98]%N /\
  classify_root (root_ref_value 7 1) = RootRef13 7 1 /\
  classify_root (encode_node C13_inner) = RootNode /\
  classify_root [] = RootEmpty /\
  classify_root [115; 1; 2]%N = RootBadRef /\
  fast_storage_label 1234567 = [49; 46; 49; 46; 48; 45; 49; 50; 51; 52; 53; 54; 55]%N /\
  should_force_upgrade (fast_storage_label 12) 13 = true /\
  should_force_upgrade (fast_storage_label 12) 12 = false.
Proof. vm_compute. repeat split; reflexivity. Qed.

(** *** The whole database as bytes (DbImage.v): the image of a store, an index and a label under
    the Codec encoders in key order; decoding is its inverse on encodable databases; and opening
    the image of the physical store of ANY reachable in-contract state - decode, discover the
    version range by the binary search, load every discovered version node by node - returns
    exactly the model's forest (every retained version, hashes included, and no other version),
    provided no stale root key survives (finding C14-stale-root-key; without the proviso every
    retained version still loads back exactly and only the discovered range may start earlier). *)
From IAVL Require Import MTree VersionFacts Store StoreFacts PruneAlgo PruneAlgoFacts6 FastLife Discover DiscoverFacts DbImage DbImageFacts.
Local Open Scope Z_scope.

Theorem C13_decode_encode_image :
  forall st fi l, image_ok st fi l = true -> decode_image (encode_image st fi l) = Some (st, fi, l).
Proof. exact decode_encode_image. Qed.
Print Assumptions C13_decode_encode_image.

Theorem C13_encode_image_injective : ltac:(let t := type of encode_image_injective in exact t).
Proof. exact encode_image_injective. Qed.
Print Assumptions C13_encode_image_injective.

Theorem C13_reopen_reads_back_the_model :
  forall (H : bytes -> bytes) iv b ops r fi l,
    init_ok iv b -> run_ok H (init_state iv b) ops ->
    let s := fst (run H (init_state iv b) ops) in
    rekey_ok r (forest s) -> stale_free_rel r (forest s) -> latest_version s < 2 ^ 63 ->
    image_ok (phys_of r (forest s)) fi l = true ->
    let img := encode_image (phys_of r (forest s)) fi l in
    decode_image img = Some (phys_of r (forest s), fi, l) /\
    open_image H iv img = DbOk (map (fun p => (fst p, POk (snd p))) (forest s)) /\
    open_forest H iv img = DbOk (forest s).
Proof. exact reopen_reads_back_the_model. Qed.
Print Assumptions C13_reopen_reads_back_the_model.

Theorem C13_reopen_retained_versions : ltac:(let t := type of reopen_retained_versions in exact t).
Proof. exact reopen_retained_versions. Qed.
Print Assumptions C13_reopen_retained_versions.

Example C13_image_example : ltac:(let t := type of ex_open in exact t).
Proof. exact ex_open. Qed.
