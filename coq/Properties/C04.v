(** C04: deleting versions up to n makes the versions <= n unavailable and leaves every later
    version unchanged in contents, root hash and every query answer -- including versions that
    share their whole tree with a deleted version (commits without writes) and empty versions; the
    working tree is untouched; the result survives a restart; repeated pruning composes.  A
    request that would delete the latest version is rejected with an error and has no effect.

    (M1 level: a retained version is its tree value, so "unchanged" is equality of the
    [option node] value, from which equality of every read follows.)
    Statements are restated in full; proofs are in VersionFacts.v, those of the physical-store part
    at the end in PruneAlgoFacts.v and PruneAlgoFacts1.v .. PruneAlgoFacts13.v. *)
From IAVL Require Import Bytes Varint Sha256 Tree VMap TreeFacts MTree MTreeFacts VersionFacts.
Local Open Scope Z_scope.

Theorem C04_prune_rejects_latest :
  forall (H : bytes -> bytes) (s : mstate) (n : Z),
    latest_version s <= n -> step H s (OPrune n) = (s, XErr).
Proof. exact prune_rejects_latest. Qed.
Print Assumptions C04_prune_rejects_latest.

Theorem C04_prune_keeps_later_versions :
  forall (H : bytes -> bytes) (s : mstate) (n : Z),
    n < latest_version s ->
    let s' := fst (step H s (OPrune n)) in
    step H s (OPrune n) =
      (MState (root s) (version s) (last_saved s) (filter (fun p => n <? fst p) (forest s))
              (init_ver s) (init_set s) (init_opt s), XOk) /\
    (forall v : Z, n < v -> lookup v (forest s') = lookup v (forest s)) /\
    (forall v : Z, v <= n -> lookup v (forest s') = None) /\
    root s' = root s /\
    version s' = version s /\
    last_saved s' = last_saved s /\
    init_ver s' = init_ver s /\
    init_set s' = init_set s /\
    init_opt s' = init_opt s /\
    working_version s' = working_version s /\
    latest_version s' = latest_version s.
Proof. exact prune_keeps_later_versions. Qed.
Print Assumptions C04_prune_keeps_later_versions.

(** every read of a surviving version -- contents, iteration, root hash, existence -- answers as
    before *)
Theorem C04_prune_reads_unchanged :
  forall (H : bytes -> bytes) (s : mstate) (n v : Z),
    n < latest_version s -> n < v ->
    let s' := fst (step H s (OPrune n)) in
    (forall r : read,
       snd (step H s' (ORead (TVersion v) r)) = snd (step H s (ORead (TVersion v) r))) /\
    (forall k : bytes,
       snd (step H s' (OGetVersioned k v)) = snd (step H s (OGetVersioned k v))) /\
    snd (step H s' (OVersionExists v)) = snd (step H s (OVersionExists v)).
Proof. exact prune_reads_unchanged. Qed.
Print Assumptions C04_prune_reads_unchanged.

Theorem C04_prune_deleted_unavailable :
  forall (H : bytes -> bytes) (s : mstate) (n v : Z),
    n < latest_version s -> v <= n ->
    let s' := fst (step H s (OPrune n)) in
    (forall r : read, step H s' (ORead (TVersion v) r) = (s', XErr)) /\
    (forall k : bytes, step H s' (OGetVersioned k v) = (s', XBytes None)) /\
    step H s' (OVersionExists v) = (s', XBool false) /\
    ~ In v (available s').
Proof. exact prune_deleted_unavailable. Qed.
Print Assumptions C04_prune_deleted_unavailable.

Theorem C04_prune_working_unchanged :
  forall (H : bytes -> bytes) (s : mstate) (n : Z),
    n < latest_version s ->
    let s' := fst (step H s (OPrune n)) in
    (forall r : read, snd (step H s' (ORead TWorking r)) = snd (step H s (ORead TWorking r))) /\
    snd (step H s' OWorkingHash) = snd (step H s OWorkingHash) /\
    snd (step H s' OHash) = snd (step H s OHash) /\
    snd (step H s' OLatest) = snd (step H s OLatest).
Proof. exact prune_working_unchanged. Qed.
Print Assumptions C04_prune_working_unchanged.

(** a version that shares its whole tree with a deleted one (commit without writes; [t] may also
    be the empty tree [None]) keeps that very tree *)
Theorem C04_prune_keeps_shared_and_empty :
  forall (H : bytes -> bytes) (s : mstate) (n v1 v2 : Z) (t : option node),
    n < latest_version s ->
    v1 <= n < v2 ->
    lookup v1 (forest s) = Some t ->
    lookup v2 (forest s) = Some t ->
    let s' := fst (step H s (OPrune n)) in
    lookup v1 (forest s') = None /\
    lookup v2 (forest s') = Some t /\
    (forall r : read, step H s' (ORead (TVersion v2) r) = (s', tree_read H (v2 + 1) t r)).
Proof. exact prune_keeps_shared_and_empty. Qed.
Print Assumptions C04_prune_keeps_shared_and_empty.

(** under the contract (n below the version the working tree is based on) the range shrinks from
    below only and stays contiguous *)
Theorem C04_prune_range :
  forall (H : bytes -> bytes) (s : mstate) (n : Z),
    contig s -> forest s <> [] -> n < version s ->
    let s' := fst (step H s (OPrune n)) in
    snd (step H s (OPrune n)) = XOk /\
    first_version s' = Z.max (first_version s) (n + 1) /\
    latest_version s' = latest_version s /\
    available s' = zrange (Z.max (first_version s) (n + 1)) (latest_version s) /\
    version s' = version s /\ in_range s' (version s') /\
    contig s'.
Proof. exact prune_range. Qed.
Print Assumptions C04_prune_range.

Theorem C04_prune_then_reopen :
  forall (H : bytes -> bytes) (s : mstate) (n : Z),
    contig s -> forest s <> [] -> n < version s ->
    let s' := fst (step H s (OPrune n)) in
    let s'' := fst (step H s' OReopen) in
    snd (step H s' OReopen) = XOk /\
    forest s'' = forest s' /\
    version s'' = latest_version s /\
    (forall v : Z, n < v -> lookup v (forest s'') = lookup v (forest s)) /\
    (forall v : Z, v <= n -> lookup v (forest s'') = None) /\
    contig s''.
Proof. exact prune_then_reopen. Qed.
Print Assumptions C04_prune_then_reopen.

Theorem C04_prune_compose :
  forall (H : bytes -> bytes) (s : mstate) (n1 n2 : Z),
    n1 < latest_version s -> n2 < latest_version s ->
    step H (fst (step H s (OPrune n1))) (OPrune n2) = step H s (OPrune (Z.max n1 n2)).
Proof. exact prune_compose. Qed.
Print Assumptions C04_prune_compose.

Theorem C04_filter_compose :
  forall (A : Type) (n1 n2 : Z) (f : list (Z * A)),
    filter (fun p => n2 <? fst p) (filter (fun p => n1 <? fst p) f) =
    filter (fun p => Z.max n1 n2 <? fst p) f.
Proof. exact @filter_gt_gt. Qed.
Print Assumptions C04_filter_compose.

(** *** Non-vacuity (SHA-256): version 1 is empty, 2 and 3 share one tree (3 is a commit without
    writes), 4 and 5 differ.  Prune 2: versions 1, 2 go; 3 (sharing its whole tree with the
    deleted 2), 4 and 5 answer exactly as before, also after a restart; pruning the latest is
    rejected. *)
Definition C04_k1 : bytes := [1%N].
Definition C04_k2 : bytes := [2%N].

Definition C04_example_ops : list op :=
  [OSave; OSet C04_k1 [10%N]; OSave; OSave; OSet C04_k2 [20%N]; OSave; ORemove C04_k1; OSave].

Definition C04_probe (v : Z) : list op :=
  [OVersionExists v; ORead (TVersion v) RHash; ORead (TVersion v) (RIter None None false true);
   ORead (TVersion v) RSize; OGetVersioned C04_k1 v].

(** The history is run once, here; the example checks each of its claims on this state. *)
Definition C04_example_state : mstate :=
  Eval vm_compute in fst (run sha256 (init_state 0 false) C04_example_ops).
Lemma C04_example_state_eq :
  fst (run sha256 (init_state 0 false) C04_example_ops) = C04_example_state.
Proof. vm_compute. reflexivity. Qed.

Example C04_example :
  let s := fst (run sha256 (init_state 0 false) C04_example_ops) in
  let s' := fst (step sha256 s (OPrune 2)) in
  (* hypotheses *)
  contig s /\ forest s <> [] /\ in_contract s (OPrune 2) /\ 2 < latest_version s /\
  available s = [1; 2; 3; 4; 5] /\
  lookup 1 (forest s) = Some None /\                       (* an empty version *)
  (exists t, lookup 2 (forest s) = Some (Some t) /\ lookup 3 (forest s) = Some (Some t)) /\
  (* conclusions observed *)
  snd (step sha256 s (OPrune 2)) = XOk /\
  available s' = [3; 4; 5] /\
  snd (run sha256 s' (C04_probe 3 ++ C04_probe 4 ++ C04_probe 5)) =
    snd (run sha256 s (C04_probe 3 ++ C04_probe 4 ++ C04_probe 5)) /\
  snd (run sha256 s' (C04_probe 2)) = [XBool false; XErr; XErr; XErr; XBytes None] /\
  snd (run sha256 s (C04_probe 2)) <> snd (run sha256 s' (C04_probe 2)) /\
  (* restart *)
  available (fst (step sha256 s' OReopen)) = [3; 4; 5] /\
  snd (run sha256 (fst (step sha256 s' OReopen)) (C04_probe 3)) = snd (run sha256 s (C04_probe 3)) /\
  (* deleting the latest is rejected, twice pruning = pruning once *)
  step sha256 s (OPrune 5) = (s, XErr) /\ step sha256 s (OPrune 7) = (s, XErr) /\
  step sha256 s' (OPrune 3) = step sha256 s (OPrune 3) /\
  available (fst (step sha256 s' (OPrune 3))) = [4; 5].
Proof.
  cbv zeta.
  split.
  { apply reachable_contig; [unfold init_ok; lia|]. apply run_okb_iff. vm_compute. reflexivity. }
  rewrite C04_example_state_eq.
  split; [vm_compute; discriminate|].
  split; [apply in_contractb_iff; vm_compute; reflexivity|].
  split; [vm_compute; reflexivity|].
  split; [vm_compute; reflexivity|]. split; [vm_compute; reflexivity|].
  split; [vm_compute; eexists; split; reflexivity|].
  split; [vm_compute; reflexivity|]. split; [vm_compute; reflexivity|].
  split; [vm_compute; reflexivity|]. split; [vm_compute; reflexivity|].
  split; [vm_compute; discriminate|].
  split; [vm_compute; reflexivity|]. split; [vm_compute; reflexivity|].
  split; [vm_compute; reflexivity|]. split; [vm_compute; reflexivity|].
  split; vm_compute; reflexivity.
Qed.

(** *** The ALGORITHM the code runs (PruneAlgo.v): deleteVersionsTo / deleteVersion /
    traverseOrphans over two node iterators, GetNode / GetRoot fall-backs, the root-key cache and
    the write batch whose flushes are given by an arbitrary schedule.  For every reachable
    in-contract state, every schedule and both ways of indexing it: in EVERY state the disk goes
    through while versions <= n are deleted, every retained version loads back node for node
    (hashes included); and the final store is the physical store of the retained versions.
    The alternative "collision" is an explicit pair of different inputs with the same hash. *)
From IAVL Require Import Ics23Facts Store StoreFacts PruneAlgo PruneAlgoFacts1 PruneAlgoFacts2 PruneAlgoFacts5 PruneAlgoFacts6 PruneAlgoFacts7 PruneAlgoFacts8 PruneAlgoFacts9 PruneAlgoFacts10 PruneAlgoFacts11 PruneAlgoFacts12 PruneAlgoFacts13 PruneAlgoFacts.
Local Open Scope Z_scope.

Theorem C04_physical_deletion_safe_at_every_moment :
  forall (H : bytes -> bytes), (forall x, length (H x) = 32%nat) ->
  forall (iv : Z) (b : bool) (ops : list op) (r : list Z) (sched : list bool) (eff : bool) (n : Z),
    init_ok iv b -> run_ok H (init_state iv b) ops ->
    let s := fst (run H (init_state iv b) ops) in
    forest_bounds (forest s) -> rekey_ok r (forest s) -> n < version s -> n < latest_version s ->
    (exists disks,
       prune_forest_disks H eff r (forest s) sched n = POk disks /\
       Forall (fun d => readable H d (filter (fun p => n <? fst p) (forest s)) = true) disks)
    \/ collision H.
Proof. exact PruneAlgoFacts10.prune_safe_reachable. Qed.
Print Assumptions C04_physical_deletion_safe_at_every_moment.

Theorem C04_physical_deletion_refines_spec :
  forall (H : bytes -> bytes), (forall x, length (H x) = 32%nat) ->
  forall (iv : Z) (b : bool) (ops : list op) (r : list Z) (sched : list bool) (eff : bool) (n : Z),
    init_ok iv b -> run_ok H (init_state iv b) ops ->
    let s := fst (run H (init_state iv b) ops) in
    forest_bounds (forest s) -> rekey_ok r (forest s) -> n < version s -> n < latest_version s ->
    (exists st' log fl,
       prune_forest H eff r (forest s) sched n = POk (st', log, fl) /\
       let f' := filter (fun p => n <? fst p) (forest s) in
       st' = phys_of (rekeyed st') f' /\ rekey_ok (rekeyed st') f' /\
       norm_store st' = expected_store f')
    \/ collision H.
Proof. exact PruneAlgoFacts10.prune_refines_reachable. Qed.
Print Assumptions C04_physical_deletion_refines_spec.

(** the physical store of a reachable state reads every retained version back *)
Theorem C04_physical_store_readable :
  forall (H : bytes -> bytes) (s : mstate) (r : list Z),
    store_ok H s -> rekey_ok r (forest s) ->
    readable H (phys_of r (forest s)) (forest s) = true.
Proof. exact PruneAlgoFacts10.phys_readable. Qed.
Print Assumptions C04_physical_deletion_refines_spec.

(** why the ORDER of the two re-key writes matters: with [del (v,1)] before [set (v,0)] and a
    flush between them some disk state cannot read a retained version; the faithful order on the same input is safe *)
Theorem C04_rekey_order_matters_refuted : ltac:(let t := type of rekey_order_matters_refuted in exact t).
Proof. exact rekey_order_matters_refuted. Qed.
Print Assumptions C04_rekey_order_matters_refuted.

(** the hypotheses are satisfiable: five SHA-256 versions, a first deletion re-keys root (1,1),
    the second starts from r = [1] *)
Example C04_physical_example : ltac:(let t := type of pa_second_deletion in exact t).
Proof. exact pa_second_deletion. Qed.
