(** C10: export / import fidelity, the compress codec, and total importers.
    Statements are restated in full, except the three at the end of the file that take theirs
    by [type of] from ImportPhysFacts.v; models in ExportImport.v, proofs in ExportImportFacts.v
    and ImportPhysFacts.v.
    The hostile streams that panicked the importers before the fixes f7b1f2c / a7a4939 (commits
    of cosmos/iavl's repository under /repo) are kept as Examples
    ([C10_example_former_panics]): the importers return errors on them. *)
From IAVL Require Import Bytes Varint Sha256 Tree VMap TreeFacts ExportImport ExportImportFacts.
From IAVL Require ImportPhysFacts.
Local Open Scope Z_scope.

(** ** 1. The exporter emits 2n-1 nodes, post-order, leaves in key order *)
Theorem C10_export_complete :
  forall t : node,
    wf t ->
    Z.of_nat (length (export (Some t))) = 2 * Z.of_nat (length (elems t)) - 1 /\
    Z.of_nat (length (export (Some t))) = 2 * size t - 1 /\
    filter is_leaf_enode (export (Some t)) = map leaf_enode (leaves t) /\
    map fst (leaves t) = elems t /\
    sorted (elems t) /\
    export None = [].
Proof. exact export_length. Qed.
Print Assumptions C10_export_complete.

Theorem C10_export_root_last :
  forall t : node,
    exists pre, export_node t =
      pre ++ [ENode (Some (nkey t)) (match t with Leaf _ v _ => Some v | _ => None end)
                (ver (nmeta t)) (height t)].
Proof. exact export_last. Qed.
Print Assumptions C10_export_root_last.

(** ** 2. Import of an export gives back the same tree up to nonces *)
Theorem C10_roundtrip :
  forall (H : bytes -> bytes) (v : Z) (t : node),
    wf t -> versions_in v t -> v < max_nonces_len ->
    exists t',
      imp_run H v (map Some (export (Some t))) = IOk (Some t') /\
      shape_eq t' t /\ hashed H t' /\ nonce (nmeta t') = 1.
Proof. exact ImportPhysFacts.import_export_roundtrip. Qed.
Print Assumptions C10_roundtrip.

Theorem C10_roundtrip_same_hash :
  forall (H : bytes -> bytes) (v : Z) (t : node),
    wf t -> versions_in v t -> v < max_nonces_len ->
    exists t',
      imp_run H v (map Some (export (Some t))) = IOk (Some t') /\
      wf t' /\ (avl t -> avl t') /\ versions_in v t' /\ elems t' = elems t /\
      (forall (H' : bytes -> bytes) wv, pure_hash H' wv t' = pure_hash H' wv t) /\
      (forall wv, root_hash H wv (Some t') = pure_hash H wv t).
Proof. exact ImportPhysFacts.import_export_same_hash. Qed.
Print Assumptions C10_roundtrip_same_hash.

Theorem C10_shape_eq_same_hash :
  forall (H : bytes -> bytes) (wv : Z) (a b : node),
    shape_eq a b -> pure_hash H wv a = pure_hash H wv b.
Proof. exact shape_eq_pure_hash. Qed.
Print Assumptions C10_shape_eq_same_hash.

Theorem C10_import_empty :
  forall (H : bytes -> bytes) (v : Z), 0 <= v < max_nonces_len -> imp_run H v [] = IOk None.
Proof. exact import_empty. Qed.
Print Assumptions C10_import_empty.

Theorem C10_import_single_leaf :
  forall (H : bytes -> bytes) (v : Z) (k w : bytes) (m : meta),
    1 <= ver m <= v -> v < max_nonces_len ->
    imp_run H v [Some (ENode (Some k) (Some w) (ver m) 0)] =
      IOk (Some (Leaf k w (Meta (ver m) 1 (H (leaf_preimage H (ver m) k w))))).
Proof. exact import_single_leaf. Qed.
Print Assumptions C10_import_single_leaf.

Theorem C10_import_reference_root :
  forall (H : bytes -> bytes) (v : Z) (t : node),
    wf t -> versions_in v t -> v < max_nonces_len -> ver (nmeta t) < v ->
    exists t',
      imp_run H v (map Some (export (Some t))) = IOk (Some t') /\ shape_eq t' t /\
      ver (nmeta t') < v.
Proof. exact ImportPhysFacts.import_reference_root. Qed.
Print Assumptions C10_import_reference_root.

(** ** 3. The compress codec *)
Theorem C10_compress_roundtrip :
  forall t : node,
    wf t -> keys_all key_small t -> versions_int64 t ->
    ibind (compress (export (Some t))) decompress = IOk (export (Some t)).
Proof. exact compress_decompress. Qed.
Print Assumptions C10_compress_roundtrip.

Theorem C10_compress_roundtrip_len :
  forall t : node,
    wf t -> keys_all key_small t -> versions_int64 t ->
    exists cs,
      compress (export (Some t)) = IOk cs /\
      decompress cs = IOk (export (Some t)) /\
      length cs = length (export (Some t)).
Proof. exact compress_roundtrip. Qed.
Print Assumptions C10_compress_roundtrip_len.

Theorem C10_compress_import_roundtrip :
  forall (H : bytes -> bytes) (v : Z) (t : node),
    wf t -> keys_all key_small t -> versions_in v t -> v < max_nonces_len ->
    exists cs t',
      compress (export (Some t)) = IOk cs /\
      cimp_run H v (map Some cs) = IOk (Some t') /\
      shape_eq t' t /\ hashed H t' /\ nonce (nmeta t') = 1.
Proof. exact ImportPhysFacts.compress_import_roundtrip. Qed.
Print Assumptions C10_compress_import_roundtrip.

(** ** 4. The importers are total: no stream whatsoever makes them panic
    (every slice index / stack access of the models sits behind an explicit bounds check
    whose failure branch is [IPanic]; the guards of the code make them unreachable) *)
Theorem C10_importer_total :
  forall (H : bytes -> bytes) (v : Z) (stream : list (option enode)),
    0 <= v < max_nonces_len -> imp_run H v stream <> IPanic.
Proof. exact importer_total. Qed.
Print Assumptions C10_importer_total.

Theorem C10_compress_importer_total :
  forall (H : bytes -> bytes) (v : Z) (stream : list (option cnode)),
    0 <= v < max_nonces_len -> cimp_run H v stream <> IPanic.
Proof. exact compress_importer_total. Qed.
Print Assumptions C10_compress_importer_total.

Theorem C10_decompress_total : forall l : list cnode, decompress l <> IPanic.
Proof. exact decompress_total. Qed.
Print Assumptions C10_decompress_total.

Theorem C10_importer_steps_total :
  forall (H : bytes -> bytes) (st : imp_state) (on : option enode) (cs : cimp_state)
         (oc : option cnode),
    imp_add H st on <> IPanic /\ imp_commit H st <> IPanic /\ cimp_add cs oc <> IPanic.
Proof.
  intros H st on cs oc.
  exact (conj (imp_add_no_panic H st on) (conj (imp_commit_no_panic H st) (cimp_add_no_panic cs oc))).
Qed.
Print Assumptions C10_importer_steps_total.

(** Documented limitations, outside the quantifiers above: the import version is the
    caller's trusted parameter ([make([]uint32, version+1)] in newImporter), and the
    compress EXPORTER trusts the exporter it wraps. *)
Theorem C10_importer_new_panics_refuted :
  forall H : bytes -> bytes, imp_run H 9223372036854775807 [] = IPanic.
Proof. exact importer_new_panics_refuted. Qed.
Print Assumptions C10_importer_new_panics_refuted.

Theorem C10_importer_panic_only_new :
  forall (H : bytes -> bytes) (v : Z) (stream : list (option enode)),
    imp_run H v stream = IPanic -> max_nonces_len <= v.
Proof. exact importer_panic_only_new. Qed.
Print Assumptions C10_importer_panic_only_new.

Theorem C10_compress_exporter_panics_refuted :
  compress [ENode (Some [97%N]) None 1 1] = IPanic.
Proof. exact compress_panics_refuted. Qed.
Print Assumptions C10_compress_exporter_panics_refuted.

(** ** 5. Errors expose nothing *)
Theorem C10_import_error_no_effect :
  forall (H : bytes -> bytes) (s : sess) (o : iop),
    snd (sess_step H s o) = IErr -> fst (sess_step H s o) = s.
Proof. exact import_error_no_effect. Qed.
Print Assumptions C10_import_error_no_effect.

Theorem C10_visible_only_by_commit :
  forall (H : bytes -> bytes) (s : sess) (o : iop),
    s_visible (fst (sess_step H s o)) = s_visible s \/
    (o = ICommit /\ exists r, imp_commit H (s_imp s) = IOk r /\
                              s_visible (fst (sess_step H s o)) = Some r /\
                              i_closed (s_imp (fst (sess_step H s o))) = true).
Proof. exact visible_only_by_commit. Qed.
Print Assumptions C10_visible_only_by_commit.

Theorem C10_closed_importer_rejects :
  forall (H : bytes -> bytes) (s : sess) (o : iop),
    i_closed (s_imp s) = true -> o <> IClose -> sess_step H s o = (s, IErr).
Proof. exact closed_importer_rejects. Qed.
Print Assumptions C10_closed_importer_rejects.

Theorem C10_no_commit_nothing_visible :
  forall (H : bytes -> bytes) (ops : list iop) (s : sess),
    ~ In ICommit ops -> s_visible (fst (sess_run H s ops)) = s_visible s.
Proof. exact no_commit_nothing_visible. Qed.
Print Assumptions C10_no_commit_nothing_visible.

Theorem C10_imp_run_root_from_commit :
  forall (H : bytes -> bytes) (v : Z) (stream : list (option enode)) (r : option node),
    imp_run H v stream = IOk r ->
    exists st0 st, imp_new 0 true v = IOk st0 /\ imp_adds H st0 stream = IOk st /\
                   imp_commit H st = IOk r.
Proof. exact imp_run_root_from_commit. Qed.
Print Assumptions C10_imp_run_root_from_commit.

Theorem C10_validate_ignores_nonce :
  forall (H : bytes -> bytes) (p : pnode) (n : Z),
    write_node H p = None <-> write_node H (set_nonce p n) = None.
Proof. exact write_node_nonce_irrelevant. Qed.
Print Assumptions C10_validate_ignores_nonce.

(** *** Non-vacuity: a 6-leaf tree built by [Tree.set] over two saved versions (SHA-256),
    exported, imported at a later version (reference root), compared. *)
Definition C10_t1 : node :=
  let t := Leaf [1%N] [10%N] new_meta in
  let t := fst (set t [2%N] [20%N]) in
  let t := fst (set t [3%N] [30%N]) in
  fst (stamp sha256 1 0 t).

Definition C10_t2 : node :=
  let t := fst (set C10_t1 [4%N] [40%N]) in
  let t := fst (set t [5%N; 1%N] [50%N]) in
  let t := fst (set t [5%N; 2%N; 7%N] []) in
  fst (stamp sha256 2 0 t).

Example C10_example_hyps :
  wf C10_t2 /\ avl C10_t2 /\ versions_in 2 C10_t2 /\ versions_in 3 C10_t2 /\
  keys_all key_small C10_t2 /\ versions_int64 C10_t2 /\
  size C10_t2 = 6 /\ height C10_t2 = 3 /\
  length (export (Some C10_t2)) = 11%nat /\
  (* both versions occur *)
  map e_version (export (Some C10_t2)) = [1; 1; 2; 1; 2; 2; 2; 2; 2; 2; 2].
Proof. vm_compute. intuition (try discriminate; auto). Qed.

Definition C10_imported : node :=
  match imp_run sha256 3 (map Some (export (Some C10_t2))) with
  | IOk (Some t) => t
  | _ => Leaf [] [] new_meta
  end.

(** SHA-256 is evaluated once on each string hashed in [C10_t2], in [C10_table_ok]; building,
    importing and rehashing the tree then look the hashes up (HashTable.v). *)
From IAVL Require Import HashTable.

Definition C10_table : kvs := Eval vm_compute in table_of sha256 (hashed_strings sha256 C10_t2).
Lemma C10_table_ok b : sha256 b = memo sha256 C10_table b.
Proof. revert b. apply memo_sound. vm_compute. reflexivity. Qed.

(** The exported tree and the imported tree are each computed once, here. *)
Definition C10_t2_val : node := Eval vm_compute in C10_t2.
Lemma C10_t2_eq : C10_t2 = C10_t2_val.
Proof.
  unfold C10_t2, C10_t1. cbv zeta. rewrite !(stamp_hext _ _ C10_table_ok). vm_compute. reflexivity.
Qed.

Definition C10_run := Eval vm_compute in imp_run sha256 3 (map Some (export (Some C10_t2_val))).
Lemma C10_run_eq : imp_run sha256 3 (map Some (export (Some C10_t2_val))) = C10_run.
Proof. rewrite (ImportPhysFacts.imp_run_hext _ _ C10_table_ok). vm_compute. reflexivity. Qed.

Example C10_example_roundtrip :
  imp_run sha256 3 (map Some (export (Some C10_t2))) = IOk (Some C10_imported) /\
  shape_eq C10_imported C10_t2 /\
  pure_hash sha256 3 C10_imported = pure_hash sha256 3 C10_t2 /\
  hs (nmeta C10_imported) = hs (nmeta C10_t2) /\
  elems C10_imported = elems C10_t2 /\
  nonce (nmeta C10_imported) = 1 /\ ver (nmeta C10_imported) = 2.
Proof.
  unfold C10_imported. rewrite C10_t2_eq, C10_run_eq, !(pure_hash_hext _ _ C10_table_ok).
  vm_compute. intuition reflexivity.
Qed.

Definition C10_cs : list cnode :=
  match compress (export (Some C10_t2)) with IOk cs => cs | _ => [] end.

Example C10_example_compress :
  let cs := C10_cs in
    compress (export (Some C10_t2)) = IOk cs /\
    decompress cs = IOk (export (Some C10_t2)) /\
    (* inner keys elided, leaf keys delta-encoded ([5;2;7] after [5;1] shares one byte) *)
    map e_key cs =
      [Some [0%N; 1%N]; Some [0%N; 2%N]; None; Some [0%N; 3%N]; Some [0%N; 4%N]; None;
       Some [0%N; 5%N; 1%N]; Some [1%N; 2%N; 7%N]; None; None; None] /\
    (* inner versions are deltas against the larger child version *)
    map e_version cs = [1; 1; 1; 1; 2; 0; 2; 2; 0; 0; 0] /\
    cimp_run sha256 3 (map Some cs) = IOk (Some C10_imported).
Proof.
  unfold C10_imported, C10_cs. rewrite C10_t2_eq, C10_run_eq. cbv zeta.
  rewrite (ImportPhysFacts.cimp_run_hext _ _ C10_table_ok). vm_compute. intuition reflexivity.
Qed.

(** the hostile streams end in errors, not roots, when they do not panic *)
Example C10_example_errors :
  imp_run sha256 1 [None] = IErr /\
  imp_run sha256 1 [Some (ENode (Some [97%N]) (Some [1%N]) 2 0)] = IErr /\
  imp_run sha256 1 [Some (ENode (Some [98%N]) None 1 1)] = IErr /\
  imp_run sha256 1 [Some (ENode (Some [97%N]) (Some [1%N]) 1 0);
                    Some (ENode (Some [98%N]) (Some [2%N]) 1 0)] = IErr /\
  imp_run sha256 0 [Some (ENode (Some [97%N]) (Some [1%N]) 0 0)] = IErr /\
  imp_run sha256 (-1) [] = IErr /\
  decompress [ENode None (Some [1%N]) 1 0] = IErr.
Proof. vm_compute. intuition reflexivity. Qed.

(** the streams that panicked the importers before the guards were added *)
Example C10_example_former_panics :
  (* negative node version, as a leaf and as an inner node above two written children *)
  imp_run sha256 1 [Some (ENode (Some [107%N]) (Some [118%N]) (-1) 0)] = IErr /\
  imp_run sha256 1 [Some (ENode (Some [97%N]) (Some [1%N]) 1 0);
                    Some (ENode (Some [98%N]) (Some [2%N]) 1 0);
                    Some (ENode (Some [98%N]) None (-9223372036854775808) 1)] = IErr /\
  (* compress importer: inner node first; one leaf then an inner node; shared prefix
     longer than the previous key; nil node *)
  cimp_run sha256 1 [Some (ENode None None 0 1)] = IErr /\
  cimp_run sha256 1 [Some (ENode (Some [0%N; 97%N]) (Some [1%N]) 1 0);
                     Some (ENode None None 0 1)] = IErr /\
  cimp_run sha256 1 [Some (ENode (Some [5%N; 97%N]) (Some [1%N]) 1 0)] = IErr /\
  cimp_run sha256 1 [None] = IErr /\
  decompress [ENode None None 0 1] = IErr /\
  decompress [ENode (Some [5%N; 97%N]) (Some [1%N]) 1 0] = IErr.
Proof. vm_compute. intuition reflexivity. Qed.

(** *** The database an import writes, end to end (ImportPhysFacts): exporting a retained version
    of any reachable state and feeding the stream to the importer yields the tree [imported H t]
    with the node keys the importer assigns (per-version nonce counters, root nonce 1); the store
    holding it - [Store.expected_store [(V, Some t')]], whose digest the correspondence check
    compares with the store the REAL importer wrote - loads version V back node for node, with the
    shape, contents and root hash of the exported tree; when the root was written in version V
    itself the imported database discovers exactly version V.  When the root is inherited from an
    earlier version the database ALSO reports that version and the ones in between (refutation
    below; observed on the real library, outside the properties' quantifiers). *)
From IAVL Require Import MTree VersionFacts Store StoreFacts PruneAlgo Discover DbImage DbImageFacts ImportPhysFacts.
Local Open Scope Z_scope.

Theorem C10_import_of_an_exported_version_reopens :
  forall (H : bytes -> bytes) iv0 b ops V t iv fi l,
    init_ok iv0 b -> run_ok H (init_state iv0 b) ops ->
    let s := fst (run H (init_state iv0 b) ops) in
    In (V, Some t) (forest s) -> V < max_nonces_len -> ncount t + 1 < 2 ^ 32 ->
    let t' := imported H t in
    let st := expected_store [(V, Some t')] in
    image_ok st fi l = true ->
    imp_run H V (map Some (export (Some t))) = IOk (Some t') /\
    shape_eq t' t /\ elems t' = elems t /\
    (forall wv, root_hash H wv (Some t') = pure_hash H wv t) /\
    load_version H (S (length st)) st V = POk (Some t') /\
    (exists m lst,
       0 <= m <= V /\
       open_image H iv (encode_image st fi l) =
         (if (0 <? m) && (m <? iv) then DbInitial m else DbOk lst) /\
       filter (fun p => V <=? fst p) lst = [(V, POk (Some t'))]) /\
    (ver (nmeta t) = V -> iv <= V ->
       open_forest H iv (encode_image st fi l) = DbOk [(V, Some t')] /\
       discovered_available st = Some [V]).
Proof. exact import_reopens_reachable. Qed.
Print Assumptions C10_import_of_an_exported_version_reopens.

Theorem C10_both_codecs_build_the_same_tree : ltac:(let t := type of cimp_run_export in exact t).
Proof. exact cimp_run_export. Qed.
Print Assumptions C10_both_codecs_build_the_same_tree.

Theorem C10_import_inherited_root_discovers_more_refuted :
  ltac:(let t := type of import_inherited_root_discovers_more_refuted in exact t).
Proof. exact import_inherited_root_discovers_more_refuted. Qed.
Print Assumptions C10_import_inherited_root_discovers_more_refuted.

Example C10_import_physical_example : ltac:(let t := type of ip_exact in exact t).
Proof. exact ip_exact. Qed.
