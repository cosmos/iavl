(** C20: iavl/v2 persistence.  Any retained version reloads exactly (checkpoint + replay of
    the leaf changelog), also after pruning; snapshots round-trip.
    Statements are restated in full; proofs are in V2Facts.v (changelog, replay, snapshots),
    V2OrphansFacts.v and V2OrphansFacts2.v (branch orphans and the tree pruner) and
    V2LeavesFacts.v (leaf rows and the leaf pruner).

    FINDINGS (outside the normal form the theorem needs):
    - a key written twice in one version makes LoadVersion fail ("sequence mismatch");
    - a key updated and then removed in the same version makes LoadVersion fail ("root hash
      mismatch"): the changelog of that version contains neither the write nor the delete. *)
From IAVL Require Import Bytes Varint Sha256 Tree VMap TreeFacts MTree MTreeFacts HashFacts V2 V2Facts.
Local Open Scope Z_scope.

(** One version from a saved tree [R] (version [a], every leaf version <= a), operations in
    normal form (each key at most once, removals only of keys present at the start): the
    operations succeed; the rows SaveVersion writes are the operations numbered 1, 2, ...;
    replaying these rows (with the sequence checks of replayChangelog) from ANY tree related
    to [R] succeeds and gives a tree related to the result. *)
Theorem C20_version_replay :
  forall (H : bytes -> bytes) (a : Z), 0 <= a ->
  forall (m0 : kvs) (R : option node) (ops : list logop),
    good H R -> oelems R = m0 -> Forall (fun x => ver (snd x) <= a) (oleaves R) ->
    nf_version m0 ops ->
    exists sp,
      v2_apply_all (V2Tree R a 0 []) ops = Some sp /\
      vt_version sp = a /\ good H (vt_root sp) /\
      oelems (vt_root sp) = apply_kvs m0 ops /\
      Forall (fun x => ver (snd x) <= a + 1) (oleaves (vt_root sp)) /\
      v2_changelog sp = numbered 1 ops /\
      forall s', oveq 0 (vt_root s') R -> good H (vt_root s') ->
        exists s'', replay_version s' (a + 1, v2_changelog sp) = Some s'' /\
                    oveq 0 (vt_root s'') (vt_root sp) /\ good H (vt_root s'').
Proof. exact version_replay. Qed.
Print Assumptions C20_version_replay.

(** After a normal-form history every version reloads, from its checkpoint and the changelog,
    to the tree the run had at that version. *)
Theorem C20_replay_deterministic :
  forall (H : bytes -> bytes) (interval : Z) (hist : list (list logop * bool)),
    nf_history [] hist ->
    exists s db,
      v2_history H interval (v2t_empty, db_empty) hist = Some (s, db) /\
      forall v, 1 <= v <= Z.of_nat (length hist) ->
        exists sv dbv s',
          v2_history H interval (v2t_empty, db_empty) (firstn (Z.to_nat v) hist) = Some (sv, dbv) /\
          v2_load H db v = Some s' /\
          vt_version s' = v /\ vt_version sv = v /\ vt_lseq s' = 0 /\ vt_dels s' = [] /\
          oveq 0 (vt_root s') (vt_root sv) /\
          oelems (vt_root s') = oelems (vt_root sv) /\
          v2_compute_hash H (vt_root s') = v2_compute_hash H (vt_root sv) /\
          good H (vt_root s').
Proof. exact replay_deterministic. Qed.
Print Assumptions C20_replay_deterministic.

(** continuing from a reloaded tree: same changelog, same hash, related tree *)
Theorem C20_continue :
  forall (H : bytes -> bytes) (a : Z) (R R' : option node) (ops : list logop),
    0 <= a -> good H R -> good H R' -> oveq 0 R' R ->
    Forall (fun x => ver (snd x) <= a) (oleaves R) -> nf_version (oelems R) ops ->
    exists sp sp',
      v2_apply_all (V2Tree R a 0 []) ops = Some sp /\
      v2_apply_all (V2Tree R' a 0 []) ops = Some sp' /\
      oveq 0 (vt_root sp') (vt_root sp) /\ good H (vt_root sp) /\ good H (vt_root sp') /\
      v2_changelog sp' = v2_changelog sp /\
      v2_compute_hash H (vt_root sp') = v2_compute_hash H (vt_root sp).
Proof. exact continue_version. Qed.
Print Assumptions C20_continue.

(** FindPrevious returns the greatest checkpoint <= v. *)
Theorem C20_find_previous :
  forall (vs : list Z) (v : Z),
    zsorted vs ->
    match vs with
    | [] => find_previous vs v = FPVal (-1)
    | v0 :: _ =>
        if v <? v0 then find_previous vs v = FPVal (-1)
        else exists c, find_previous vs v = FPVal c /\
                       In c vs /\ c <= v /\ forall x, In x vs -> x <= v -> x <= c
    end.
Proof. exact find_previous_spec. Qed.
Print Assumptions C20_find_previous.

Theorem C20_prune_keeps :
  forall (H : bytes -> bytes) (db : v2db) (n c v : Z),
    zsorted (db_ckpts db) ->
    find_previous (db_ckpts db) n = FPVal c -> c <> -1 -> In c (db_ckpts db) -> c <= v ->
    v2_load H (v2_prune db n) v = v2_load H db v.
Proof. exact prune_keeps. Qed.
Print Assumptions C20_prune_keeps.

Theorem C20_prune_removes :
  forall (db : v2db) (n c : Z),
    find_previous (db_ckpts db) n = FPVal c -> c <> -1 ->
    Forall (fun x => c <= x) (db_ckpts (v2_prune db n)) /\
    Forall (fun p => c <= fst p) (db_roots (v2_prune db n)) /\
    Forall (fun p => c <= fst p) (db_hashes (v2_prune db n)) /\
    Forall (fun p => c <= fst p) (db_log (v2_prune db n)).
Proof. exact prune_removes. Qed.
Print Assumptions C20_prune_removes.

(** pruning the database of a normal-form history keeps every version from the last
    checkpoint <= n on (their loads are unchanged, hence still correct by
    [C20_replay_deterministic]) *)
Theorem C20_prune_then_load :
  forall (H : bytes -> bytes) (interval : Z) (hist : list (list logop * bool))
         (s : v2tree) (db : v2db) (n c v : Z),
    nf_history [] hist ->
    v2_history H interval (v2t_empty, db_empty) hist = Some (s, db) ->
    find_previous (db_ckpts db) n = FPVal c -> c <> -1 -> c <= v ->
    v2_load H (v2_prune db n) v = v2_load H db v.
Proof. exact prune_then_load. Qed.
Print Assumptions C20_prune_then_load.

Theorem C20_history_checkpoints :
  forall (H : bytes -> bytes) (interval : Z) (hist : list (list logop * bool)) (s : v2tree) (db : v2db),
    nf_history [] hist ->
    v2_history H interval (v2t_empty, db_empty) hist = Some (s, db) ->
    zsorted (db_ckpts db) /\
    Forall (fun c => 1 <= c <= Z.of_nat (length hist)) (db_ckpts db) /\
    (hist <> [] -> In 1 (db_ckpts db)) /\
    vt_version s = Z.of_nat (length hist).
Proof. exact history_checkpoints. Qed.
Print Assumptions C20_history_checkpoints.

Theorem C20_snapshot_roundtrip_pre :
  forall (H : bytes -> bytes) (t : node),
    hproper t -> v2_full H t -> import_pre H (snapshot_pre t) = Some t.
Proof. exact snapshot_roundtrip_pre. Qed.
Print Assumptions C20_snapshot_roundtrip_pre.

Theorem C20_snapshot_roundtrip_post :
  forall (H : bytes -> bytes) (t : node),
    hproper t -> v2_full H t -> import_post H (snapshot_post t) = Some t.
Proof. exact snapshot_roundtrip_post. Qed.
Print Assumptions C20_snapshot_roundtrip_post.

Theorem C20_restore_post :
  forall (H : bytes -> bytes) (t : node),
    hproper t ->
    exists t', restore_post H (export_post t) = Some t' /\
               veq 0 t' t /\ v2_hash H t' = v2_hash H t /\ v2_full H t' /\
               import_post H (snapshot_post t') = Some t'.
Proof. exact restore_post_roundtrip. Qed.
Print Assumptions C20_restore_post.

Theorem C20_restore_pre :
  forall (H : bytes -> bytes) (t : node),
    hproper t ->
    exists t', restore_pre H (export_pre t) = Some t' /\
               veq 0 t' t /\ v2_hash H t' = v2_hash H t /\ v2_full H t' /\
               import_pre H (snapshot_pre t') = Some t'.
Proof. exact restore_pre_roundtrip. Qed.
Print Assumptions C20_restore_pre.

Theorem C20_wf_hproper : forall t : node, wf t -> hproper t.
Proof. exact wf_hproper. Qed.
Print Assumptions C20_wf_hproper.

(** REFUTED outside the normal form. *)
Theorem C20_load_double_write_refuted :
  exists hist s db,
    ~ nf_history [] hist /\
    v2_history idh 0 (v2t_empty, db_empty) hist = Some (s, db) /\
    vt_version s = 2 /\ v2_load idh db 1 <> None /\ v2_load idh db 2 = None.
Proof. exact load_double_write_refuted. Qed.
Print Assumptions C20_load_double_write_refuted.

Theorem C20_load_update_then_remove_refuted :
  exists hist s db,
    ~ nf_history [] hist /\
    v2_history idh 0 (v2t_empty, db_empty) hist = Some (s, db) /\
    lookup 2 (db_log db) = Some [] /\
    oelems (vt_root s) = [([2%N], [20%N])] /\
    v2_load idh db 2 = None.
Proof. exact load_update_then_remove_refuted. Qed.
Print Assumptions C20_load_update_then_remove_refuted.

(** *** Non-vacuity: five versions in normal form, checkpoint interval 2 (checkpoints 1, 3, 5),
    SHA-256.  Every version loads with the hash the run stored; version 4 is replayed from
    checkpoint 3; after pruning to 4 (i.e. to checkpoint 3) versions 3..5 still load to the
    same trees and versions 1, 2 are gone. *)
Definition C20_hist : list (list logop * bool) :=
  [([LSet [1%N] [10%N]; LSet [2%N] [20%N]; LSet [3%N] [30%N]], false);
   ([LSet [4%N] [40%N]; LDel [1%N]; LSet [2%N] [21%N]], false);
   ([LSet [5%N] [50%N]; LSet [6%N] [60%N]; LDel [3%N]], false);
   ([LSet [1%N] [11%N]; LDel [4%N]], false);
   ([LSet [7%N] [70%N]], false)].

Example C20_example_nf : nf_history [] C20_hist.
Proof.
  unfold C20_hist. cbn [nf_history fst apply_kvs fold_left apply_kv].
  repeat match goal with |- _ /\ _ => split end; try exact I;
    match goal with
    | |- nf_version _ _ =>
        split;
        [ cbn [map op_key]; repeat constructor; cbn [In]; intuition discriminate
        | intros k Hk; cbn [In] in Hk;
          repeat match type of Hk with
                 | _ \/ _ => destruct Hk as [Hk|Hk]
                 end;
          try contradiction; try discriminate Hk; injection Hk as <-; vm_compute; reflexivity ]
    end.
Qed.

Definition C20_beq (a b : option bytes) : bool :=
  match a, b with
  | Some x, Some y => if list_eq_dec N.eq_dec x y then true else false
  | None, None => true
  | _, _ => false
  end.

Definition C20_same (a b : option v2tree) : bool :=
  match a, b with
  | Some x, Some y =>
      (vt_version x =? vt_version y) &&
      C20_beq (Some (v2_compute_hash sha256 (vt_root x))) (Some (v2_compute_hash sha256 (vt_root y))) &&
      (Nat.eqb (length (oelems (vt_root x))) (length (oelems (vt_root y))))
  | None, None => true
  | _, _ => false
  end.

(** The strings the history hashes are those of the trees of its five versions (with interval 1
    the database keeps them all).  SHA-256 is evaluated on each of them once, in [C20_table_ok];
    the examples run the model with [memo sha256 C20_table], which looks them up (HashTable.v). *)
From IAVL Require Import HashTable V2OrphansFacts.

Definition C20_table : kvs := Eval vm_compute in
  table_of sha256
    (match v2_history sha256 1 (v2t_empty, db_empty) C20_hist with
     | Some (_, db) =>
         flat_map (fun p => match snd p with Some t => hashed_strings sha256 t | None => [] end)
                  (db_roots db)
     | None => []
     end).
Lemma C20_table_ok b : sha256 b = memo sha256 C20_table b.
Proof. revert b. apply memo_sound. vm_compute. reflexivity. Qed.

(** The history is run once, here; the two examples below start from its outcome. *)
Definition C20_s : v2tree := Eval vm_compute in
  match v2_history sha256 2 (v2t_empty, db_empty) C20_hist with Some (s, _) => s | None => v2t_empty end.
Definition C20_db : v2db := Eval vm_compute in
  match v2_history sha256 2 (v2t_empty, db_empty) C20_hist with Some (_, db) => db | None => db_empty end.
Lemma C20_out_eq : v2_history sha256 2 (v2t_empty, db_empty) C20_hist = Some (C20_s, C20_db).
Proof. rewrite (v2_history_hext _ _ C20_table_ok). vm_compute. reflexivity. Qed.

Example C20_example :
  match v2_history sha256 2 (v2t_empty, db_empty) C20_hist with
  | Some (s, db) =>
      let db' := v2_prune db 4 in
      Some (db_ckpts db, map fst (db_log db), lookup 2 (db_log db),
            map (fun v => match v2_load sha256 db v with
                          | Some s' => Some (vt_version s',
                                             C20_beq (Some (v2_compute_hash sha256 (vt_root s')))
                                                     (lookup v (db_hashes db)))
                          | None => None
                          end) [1; 2; 3; 4; 5; 6],
            option_map (fun s' => oelems (vt_root s')) (v2_load sha256 db 4),
            find_previous (db_ckpts db) 4,
            db_ckpts db', map fst (db_log db'),
            map (fun v => C20_same (v2_load sha256 db' v) (v2_load sha256 db v)) [3; 4; 5],
            option_map vt_version (v2_load sha256 db' 2))
  | None => None
  end =
  Some ([1; 3; 5], [1; 2; 3; 4; 5],
        Some [(1, LSet [4%N] [40%N]); (2, LDel [1%N]); (3, LSet [2%N] [21%N])],
        [Some (1, true); Some (2, true); Some (3, true); Some (4, true); Some (5, true); None],
        Some [([1%N], [11%N]); ([2%N], [21%N]); ([5%N], [50%N]); ([6%N], [60%N])],
        FPVal 3,
        [3; 5], [3; 4; 5], [true; true; true], None).
Proof.
  rewrite C20_out_eq. cbv beta iota zeta. cbn [map].
  rewrite !(v2_load_hext _ _ C20_table_ok). vm_compute. reflexivity.
Qed.

Definition C20_final : node := Eval vm_compute in
  match vt_root C20_s with Some t => t | None => Leaf [] [] new_meta end.

(** a snapshot of the final tree of the same history round-trips in both orders *)
Example C20_example_snapshot :
  match v2_history sha256 2 (v2t_empty, db_empty) C20_hist with
  | Some (s, db) =>
      match vt_root s with
      | Some t =>
          let same (x : option node) :=
            match x with
            | Some t' => C20_beq (Some (v2_hash sha256 t')) (Some (v2_hash sha256 t))
            | None => false
            end in
          Some (same (import_pre sha256 (snapshot_pre t)), same (import_post sha256 (snapshot_post t)),
                same (restore_post sha256 (export_post t)), same (restore_pre sha256 (export_pre t)),
                length (snapshot_pre t), length (export_post t))
      | None => None
      end
  | None => None
  end = Some (true, true, true, true, 9%nat, 9%nat).
Proof.
  rewrite C20_out_eq. cbv beta iota. change (vt_root C20_s) with (Some C20_final). cbv beta iota.
  set (same := fun x : option node => _). cbv zeta.
  assert (forall x, same x = match x with
                             | Some t' => C20_beq (Some (v2_hash (memo sha256 C20_table) t'))
                                                  (Some (v2_hash (memo sha256 C20_table) C20_final))
                             | None => false
                             end) as S.
  { intros [t'|]; [|reflexivity]. unfold same. rewrite !(v2_hash_hext _ _ C20_table_ok). reflexivity. }
  rewrite !S, (import_pre_hext _ _ C20_table_ok), (import_post_hext _ _ C20_table_ok),
    (restore_post_hext _ _ C20_table_ok), (restore_pre_hext _ _ C20_table_ok).
  vm_compute. reflexivity.
Qed.

(** *** Orphan bookkeeping and pruning at node level (V2Orphans.v: v2/tree.go recursiveSet /
    recursiveRemove / mutateNode / addOrphan with the branch sequence counter, sqlite_batch.go
    saveBranches / execBranchOrphan, sqlite_writer.go treeLoop: delete the branches named by orphan
    rows with [at <= n], the root rows below the previous checkpoint).  The keys recorded as
    orphans are EXACTLY the persisted branches that left the tree (a Remove of an absent key records
    nothing); an orphan row means exactly "node of the checkpoint trees from its creation to the
    checkpoint before [at], of none from [at] on"; after any history of versions and deletions every
    retained checkpoint loads back node for node (and nothing unreachable is left, as long as no
    branchless checkpoint loses pending orphans: see below).  The seeded defects (trial changes
    to the Go code, kept as patches under /verif/seeded/ and cited by directory name: orphans
    recorded before knowing whether the key exists, C20f; orphan rows tagged with the previous
    checkpoint, C20) are refuted, and so is the deletion whose bound lies beyond the latest
    version while later checkpoints are written before the pruner runs (the writer selects by
    [at <= n], not by the checkpoint-aligned bound the leaf pruner uses): the versions between
    the bound computed at the call and the newest checkpoint keep their root rows and lose
    branches - outside the property (they are below "the last checkpoint not after n" once the
    deletion has run), accepted as optional by the harness oracle, delimited here. *)
From IAVL Require Import V2Orphans V2OrphansFacts V2OrphansFacts2.

Theorem C20_orphans_exact_remove :
  forall (wv ckpt bs : Z) (t : node) (k : bytes) (res : rm_res) (os : list nkey2) (bs' : Z),
    v2_remove_o wv ckpt bs t k = Some (res, os, bs') ->
    NoDup (ikeys t) ->
    Forall (below wv bs) (ikeys t) ->
    Permutation.Permutation (pkeys ckpt t) (os ++ opkeys ckpt (rm_self res)) /\
    NoDup (okeys (rm_self res)) /\
    Forall (below wv bs') (okeys (rm_self res)) /\
    NoDup os /\
    (forall x : nkey2, In x os <-> In x (pkeys ckpt t) /\ ~ In x (okeys (rm_self res))) /\
    (forall x : nkey2, In x (okeys (rm_self res)) -> In x (ikeys t) \/ fst x = wv /\ bs < snd x).
Proof. exact orphans_exact_remove. Qed.
Print Assumptions C20_orphans_exact_remove.

Theorem C20_remove_absent_no_orphans :
  forall (wv ckpt : Z) (t : node) (k : bytes) (bs : Z) (res : rm_res) (os : list nkey2) (bs' : Z),
    v2_remove_o wv ckpt bs t k = Some (res, os, bs') ->
    rm_val res = None ->
    os = [] /\ bs' = bs /\ rm_self res = Some t.
Proof. exact remove_absent_no_orphans. Qed.
Print Assumptions C20_remove_absent_no_orphans.

Theorem C20_prune_keeps_checkpoints_node_level :
  forall H : bytes -> bytes,
    (forall x : bytes, H x <> []) ->
    forall (interval : Z) (hist : list hstep) (s : ostate) (tr : list (Z * option node))
           (n c : Z) (st' : ostore) (v : Z) (T : option node),
      os_run H false false interval ostate_empty hist = Some s ->
      os_trace H false false interval ostate_empty hist = Some tr ->
      prune_tree (os_store s) n = Some st' ->
      find_previous (ckpts (os_store s)) n = FPVal c ->
      In (v, T) tr ->
      run_floor H interval ostate_empty hist (-1) <= v ->
      c <= v -> load_checkpoint st' v = Some T.
Proof. exact prune_keeps_checkpoints. Qed.
Print Assumptions C20_prune_keeps_checkpoints_node_level.

(** Exactness ("nothing unreachable is left") holds only for histories in which no checkpoint of
    a tree WITHOUT a branch root (empty tree, single leaf) has pending orphans: there the library
    writes nothing (saveBranches does everything under isCheckpoint() = len(tree.branches) > 0) and
    SaveVersion clears the pending list - the orphans are lost and their rows are never deleted.
    The real database does so (the harness compares its raw orphan / branch / root rows with
    this model), modelled faithfully ([checkpoint_write_at], [root_is_branch]), refuted in general.
    A leak: nothing needed is lost, the property does not speak about it. *)
Theorem C20_prune_exact_node_level_partial :
  forall H : bytes -> bytes,
    (forall x : bytes, H x <> []) ->
    forall (interval : Z) (hist : list hstep) (s : ostate) (tr : list (Z * option node))
           (n c : Z) (st' : ostore) (key : nkey2) (row : node_row),
      no_loss H interval ostate_empty hist = true ->
      os_run H false false interval ostate_empty hist = Some s ->
      os_trace H false false interval ostate_empty hist = Some tr ->
      prune_tree (os_store s) n = Some st' ->
      find_previous (ckpts (os_store s)) n = FPVal c ->
      In (key, row) (branches st') ->
      exists (v : Z) (T : option node),
        In (v, T) tr /\
        Z.max (run_floor H interval ostate_empty hist (-1)) c <= v /\
        In key (okeys T).
Proof. exact prune_exact_partial. Qed.
Print Assumptions C20_prune_exact_node_level_partial.

Theorem C20_prune_exact_node_level_refuted :
  exists (hist : list hstep) (s : ostate) (tr : list (Z * option node))
         (n c : Z) (st' : ostore) (key : nkey2) (row : node_row),
    os_run sha256 false false 1 ostate_empty hist = Some s /\
    os_trace sha256 false false 1 ostate_empty hist = Some tr /\
    prune_tree (os_store s) n = Some st' /\
    find_previous (ckpts (os_store s)) n = FPVal c /\
    In (key, row) (branches st') /\
    ~ (exists (v : Z) (T : option node),
         In (v, T) tr /\
         Z.max (run_floor sha256 1 ostate_empty hist (-1)) c <= v /\
         In key (okeys T)).
Proof. exact prune_exact_refuted. Qed.
Print Assumptions C20_prune_exact_node_level_refuted.

Theorem C20_prune_with_a_stale_checkpoint_list :
  forall H : bytes -> bytes,
    (forall x : bytes, H x <> []) ->
    forall (interval : Z) (hist : list hstep) (s : ostate) (tr : list (Z * option node))
           (cks : list Z) (n c : Z) (st' : ostore) (v : Z) (T : option node),
      os_run H false false interval ostate_empty hist = Some s ->
      os_trace H false false interval ostate_empty hist = Some tr ->
      prune_tree_with cks (os_store s) n = Some st' ->
      find_previous cks n = FPVal c ->
      (forall a : Z, In a (ckpts (os_store s)) -> a <= n -> a <= c) ->
      In (v, T) tr ->
      run_floor H interval ostate_empty hist (-1) <= v ->
      c <= v -> load_checkpoint st' v = Some T.
Proof. exact prune_keeps_checkpoints_race. Qed.
Print Assumptions C20_prune_with_a_stale_checkpoint_list.

Theorem C20_remove_early_refuted :
  x_outcome true false x_hist_early 3 = Some ([1; 3], FPVal 3, true, false, false) /\
  x_outcome false false x_hist_early 3 = Some ([1; 3], FPVal 3, true, true, true).
Proof. exact remove_early_history_refuted. Qed.
Print Assumptions C20_remove_early_refuted.

Theorem C20_orphans_tagged_with_previous_checkpoint_refuted :
  x_outcome false true x_hist_prev 4 = Some ([1; 3; 5], FPVal 3, true, false, false) /\
  x_outcome false false x_hist_prev 4 = Some ([1; 3; 5], FPVal 3, true, true, true).
Proof. exact checkpoint_write_prev_refuted. Qed.
Print Assumptions C20_orphans_tagged_with_previous_checkpoint_refuted.

(** *** The leaf side: leaf / leaf_delete / leaf_orphan rows and the leaf pruner (V2Leaves.v:
    sqlite_batch.go saveLeaves, tree.go addOrphan / addDelete / nextLeafNodeKey, sqlite_writer.go
    leafLoop with its checkpoint-aligned bound, sqlite.go replayChangelog).  A leaf_orphan row
    means exactly the lifetime of the leaf; after any history of versions and deletions the rows
    a replay from any retained checkpoint to any later version reads are exactly those of the
    uninterrupted run, and every leaf that is current in a retained version is still stored.
    Exactness is refuted for the code as it is (removed leaves are never recorded as orphans:
    their rows stay; a leak) - V2LeavesFacts.prune_leaves_exact_refuted - and the seeded
    unaligned bound (/verif/seeded/C20c) loses rows a retained version needs
    (V2LeavesFacts.leaf_prune_unaligned_refuted).  Modelled for heightFilter > 0. *)
From IAVL Require Import V2Leaves V2LeavesFacts.

Theorem C20_leaf_orphans_sound :
  forall (H : bytes -> bytes) (interval : Z) (hist : list hstep) (s : lstate) (tr : ltrace)
         (nk : nkey2) (at_ : Z),
    ls_run_tr H false interval (ls_empty, []) hist = Some (s, tr) ->
    In (nk, at_) (lorphans (ls_store s)) ->
    (fst nk < at_ /\ at_ <= ls_version s) /\
    (forall (w : Z) (c : cur_t), In (w, c) tr -> fst nk <= w /\ w < at_ -> In nk (cur_keys c)) /\
    (forall (w : Z) (c : cur_t), In (w, c) tr -> at_ <= w -> ~ In nk (cur_keys c)).
Proof. exact leaf_orphans_sound. Qed.
Print Assumptions C20_leaf_orphans_sound.

Theorem C20_leaf_prune_keeps_replay :
  forall (H : bytes -> bytes) (interval : Z) (hist : list hstep) (s0 : lstate) (tr : ltrace)
         (n c : Z) (st' : lstore),
    ls_run_tr H false interval (ls_empty, []) hist = Some (s0, tr) ->
    find_previous (ls_ckpts s0) n = FPVal c ->
    prune_leaves (ls_ckpts s0) (ls_store s0) n = Some st' ->
    exists sf : lstate,
      ls_run_tr H false interval (ls_empty, []) (no_prunes hist) = Some (sf, tr) /\
      (forall c' t : Z, Z.max (ls_floor s0) c <= c' -> replay st' c' t = replay (ls_store sf) c' t) /\
      (forall (w : Z) (cur : cur_t) (k : bytes) (nk : nkey2) (v : bytes),
         In (w, cur) tr -> Z.max (ls_floor s0) c <= w -> In (k, (nk, v)) cur ->
         get_leaf nk (leaves st') =
         Some {| lr_key := k; lr_val := v; lr_hash := H (leaf_preimage H (fst nk) k v) |}).
Proof. exact prune_leaves_keeps_replay_last. Qed.
Print Assumptions C20_leaf_prune_keeps_replay.
