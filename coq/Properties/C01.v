(** C01: the MutableTree state machine refines a plain versioned sorted map.
    Statements are restated in full; proofs are in MTreeFacts.v / TreeFacts.v, those of the
    node-cache part at the end in NodeCacheFacts.v. *)
From IAVL Require Import Bytes Varint Sha256 Tree VMap TreeFacts MTree MTreeFacts.
Local Open Scope Z_scope.

(** [state_inv] spelled out: [oinv t] is "[t] is empty or a well-formed ([wf]) AVL ([avl]) tree". *)
Theorem C01_state_inv_meaning :
  forall s : mstate,
    state_inv s <->
    ((match root s with None => True | Some n => wf n /\ avl n end) /\
     (match last_saved s with None => True | Some n => wf n /\ avl n end) /\
     Forall (fun p => match snd p with None => True | Some n => wf n /\ avl n end) (forest s) /\
     Forall (fun p => 0 <= fst p) (forest s) /\
     NoDup (map fst (forest s)) /\
     0 <= version s /\ 0 <= init_ver s).
Proof. exact state_inv_iff. Qed.
Print Assumptions C01_state_inv_meaning.

Theorem C01_init_inv :
  forall (iv : Z) (b : bool), 0 <= iv -> state_inv (init_state iv b).
Proof. exact state_inv_init. Qed.
Print Assumptions C01_init_inv.

Theorem C01_step_inv :
  forall (H : bytes -> bytes) (s : mstate) (o : op),
    state_inv s -> state_inv (fst (step H s o)).
Proof. exact step_inv. Qed.
Print Assumptions C01_step_inv.

Theorem C01_reachable_inv :
  forall (H : bytes -> bytes) (iv : Z) (b : bool) (ops : list op),
    0 <= iv -> state_inv (fst (run H (init_state iv b) ops)).
Proof. exact reachable_inv. Qed.
Print Assumptions C01_reachable_inv.

(** *** Reads: every list-level read of a tree equals the answer of the sorted list *)
Theorem C01_spec_read_meaning :
  forall (l : kvs) (r : read),
    spec_read l r =
      match r with
      | RGet k => XBytes (assoc k l)
      | RHas k => XBool (mem k l)
      | RGetWithIndex k => XPair (XInt (rank k l)) (XBytes (assoc k l))
      | RGetByIndex i =>
          match (if i <? 0 then None else nth_error l (Z.to_nat i)) with
          | Some (k, v) => XPair (XBytes (Some k)) (XBytes (Some v))
          | None => XPair (XBytes None) (XBytes None)
          end
      | RSize => XInt (Z.of_nat (length l))
      | RIter start stop incl asc => XKvs (range_spec l start stop incl asc)
      | RHeight | RHash | RTouch => XErr
      end.
Proof. intros l r. reflexivity. Qed.
Print Assumptions C01_spec_read_meaning.

Theorem C01_tree_read_refines :
  forall (H : bytes -> bytes) (wv : Z) (t : option node) (r : read),
    (match t with None => True | Some n => wf n /\ avl n end) ->
    list_read r = true ->
    tree_read H wv t r = spec_read (oelems t) r.
Proof. exact tree_read_refines. Qed.
Print Assumptions C01_tree_read_refines.

Theorem C01_read_working_refines :
  forall (H : bytes -> bytes) (s : mstate) (r : read),
    state_inv s -> list_read r = true ->
    step H s (ORead TWorking r) = (s, spec_read (oelems (root s)) r).
Proof. exact read_working_refines. Qed.
Print Assumptions C01_read_working_refines.

Theorem C01_read_version_refines :
  forall (H : bytes -> bytes) (s : mstate) (v : Z) (t : option node) (r : read),
    state_inv s -> lookup v (forest s) = Some t -> list_read r = true ->
    step H s (ORead (TVersion v) r) = (s, spec_read (oelems t) r).
Proof. exact read_version_refines. Qed.
Print Assumptions C01_read_version_refines.

Theorem C01_read_version_missing :
  forall (H : bytes -> bytes) (s : mstate) (v : Z) (r : read),
    lookup v (forest s) = None -> step H s (ORead (TVersion v) r) = (s, XErr).
Proof. exact read_version_missing. Qed.
Print Assumptions C01_read_version_missing.

(** *** Writes *)
Theorem C01_set_refines :
  forall (s : mstate) (k v : bytes),
    state_inv s ->
    oelems (root (fst (do_set s k v))) = ins k v (oelems (root s)) /\
    snd (do_set s k v) = XBool (mem k (oelems (root s))) /\
    (version (fst (do_set s k v)) = version s /\
     last_saved (fst (do_set s k v)) = last_saved s /\
     forest (fst (do_set s k v)) = forest s /\
     init_ver (fst (do_set s k v)) = init_ver s /\
     init_set (fst (do_set s k v)) = init_set s /\
     init_opt (fst (do_set s k v)) = init_opt s).
Proof. exact do_set_refines. Qed.
Print Assumptions C01_set_refines.

Theorem C01_remove_refines :
  forall (s : mstate) (k : bytes),
    state_inv s ->
    oelems (root (fst (do_remove s k))) = del k (oelems (root s)) /\
    snd (do_remove s k) =
      XPair (XBytes (assoc k (oelems (root s)))) (XBool (mem k (oelems (root s)))) /\
    (version (fst (do_remove s k)) = version s /\
     last_saved (fst (do_remove s k)) = last_saved s /\
     forest (fst (do_remove s k)) = forest s /\
     init_ver (fst (do_remove s k)) = init_ver s /\
     init_set (fst (do_remove s k)) = init_set s /\
     init_opt (fst (do_remove s k)) = init_opt s).
Proof. exact do_remove_refines. Qed.
Print Assumptions C01_remove_refines.

Theorem C01_del_absent :
  forall (k : bytes) (l : kvs), sorted l -> assoc k l = None -> del k l = l.
Proof. exact del_absent_sorted. Qed.
Print Assumptions C01_del_absent.

Theorem C01_set_nil_rejected :
  forall (H : bytes -> bytes) (s : mstate) (k : bytes), step H s (OSetNil k) = (s, XErr).
Proof. exact set_nil_rejected. Qed.
Print Assumptions C01_set_nil_rejected.

(** *** Version contents *)

(** Saving a version that does not exist yet appends it, with the working contents. *)
Theorem C01_save_new :
  forall (H : bytes -> bytes) (s : mstate),
    lookup (working_version s) (forest s) = None ->
    exists r' : option node,
      oelems r' = oelems (root s) /\
      do_save H s =
        (MState r' (working_version s) r' (forest s ++ [(working_version s, r')])
                (init_ver s) false (init_opt s),
         XPair (XBytes (Some (root_hash H (working_version s) r'))) (XInt (working_version s))).
Proof. exact do_save_new. Qed.
Print Assumptions C01_save_new.

Theorem C01_lookup_after_append :
  forall (A : Type) (v w : Z) (a : A) (l : list (Z * A)),
    lookup w l = None ->
    lookup v (l ++ [(w, a)]) = if v =? w then Some a else lookup v l.
Proof. exact @lookup_snoc. Qed.
Print Assumptions C01_lookup_after_append.

(** Saving over an existing version: adopt it (same hash) or fail; the forest is untouched. *)
Theorem C01_save_existing :
  forall (H : bytes -> bytes) (s : mstate) (e : option node),
    lookup (working_version s) (forest s) = Some e ->
    do_save H s =
      (MState e (working_version s) e (forest s) (init_ver s) false (init_opt s),
       XPair (XBytes (Some (root_hash H (working_version s) (root s))))
             (XInt (working_version s))) \/
    do_save H s =
      (MState (root s) (version s) (last_saved s) (forest s) (init_ver s) false (init_opt s),
       XErr).
Proof. exact do_save_existing. Qed.
Print Assumptions C01_save_existing.

Theorem C01_save_keeps :
  forall (H : bytes -> bytes) (s : mstate) (v : Z) (t : option node),
    lookup v (forest s) = Some t -> lookup v (forest (fst (do_save H s))) = Some t.
Proof. exact do_save_keeps. Qed.
Print Assumptions C01_save_keeps.

(** Pruning keeps exactly the versions above [n], unchanged, or fails without effect. *)
Theorem C01_prune :
  forall (s : mstate) (n : Z),
    (latest_version s <= n /\ do_prune s n = (s, XErr)) \/
    (n < latest_version s /\
     do_prune s n =
       (MState (root s) (version s) (last_saved s) (filter (fun p => n <? fst p) (forest s))
               (init_ver s) (init_set s) (init_opt s), XOk)).
Proof. exact do_prune_cases. Qed.
Print Assumptions C01_prune.

Theorem C01_lookup_after_prune :
  forall (A : Type) (n v : Z) (l : list (Z * A)),
    lookup v (filter (fun p => n <? fst p) l) = if n <? v then lookup v l else None.
Proof. exact @lookup_filter_gt. Qed.
Print Assumptions C01_lookup_after_prune.

(** Loading: no effect, or the working tree becomes a retained tree; the forest is untouched. *)
Theorem C01_load :
  forall (s : mstate) (v : Z),
    do_load s v = (s, XErr) \/
    (forest s = [] /\ v <= 0 /\ do_load s v = (s, XInt 0)) \/
    (exists (tv : Z) (r : option node),
       lookup tv (forest s) = Some r /\
       do_load s v = (MState r tv r (forest s) (init_ver s) (init_set s) (init_opt s),
                      XInt (latest_version s))).
Proof. exact do_load_cases. Qed.
Print Assumptions C01_load.

(** LoadVersionForOverwriting: as load, then drop the versions above [v]. *)
Theorem C01_lvfo :
  forall (s : mstate) (v : Z),
    do_lvfo s v = (s, XErr) \/
    (forest s = [] /\ v <= 0 /\
     do_lvfo s v = (MState (root s) (version s) (last_saved s) [] (init_ver s) (init_set s)
                           (init_opt s), XOk)) \/
    (exists (tv : Z) (r : option node),
       lookup tv (forest s) = Some r /\
       do_lvfo s v = (MState r tv r (filter (fun p => fst p <=? v) (forest s))
                             (init_ver s) (init_set s) (init_opt s), XOk)).
Proof. exact do_lvfo_cases. Qed.
Print Assumptions C01_lvfo.

Theorem C01_lookup_after_lvfo :
  forall (A : Type) (n v : Z) (l : list (Z * A)),
    lookup v (filter (fun p => fst p <=? n) l) = if v <=? n then lookup v l else None.
Proof. exact @lookup_filter_le. Qed.
Print Assumptions C01_lookup_after_lvfo.

(** Reopening: the forest is untouched; the working tree is empty or a retained tree. *)
Theorem C01_reopen :
  forall s : mstate,
    do_reopen s = (MState None 0 None (forest s) (init_ver s) (init_opt s) (init_opt s), XErr) \/
    (forest s = [] /\
     do_reopen s = (MState None 0 None (forest s) (init_ver s) (init_opt s) (init_opt s), XOk)) \/
    (exists (tv : Z) (r : option node),
       lookup tv (forest s) = Some r /\
       do_reopen s = (MState r tv r (forest s) (init_ver s) (init_opt s) (init_opt s), XOk)).
Proof. exact do_reopen_cases. Qed.
Print Assumptions C01_reopen.

(** Rollback: the working tree becomes the last saved tree (or empty); nothing else moves. *)
Theorem C01_rollback :
  forall (H : bytes -> bytes) (s : mstate),
    step H s ORollback =
      (MState (if 0 <? version s then last_saved s else None) (version s) (last_saved s)
              (forest s) (init_ver s) (init_set s) (init_opt s), XOk).
Proof. exact rollback_spec. Qed.
Print Assumptions C01_rollback.

(** *** Non-vacuity: a concrete reachable state (SHA-256 as the hash) on which the
    hypotheses above hold and the conclusions can be observed. *)
Definition C01_example_ops : list op :=
  [OSet [1%N] [10%N]; OSet [2%N] [20%N]; OSet [3%N] [30%N]; OSave;
   OSet [4%N] [40%N]; ORemove [1%N]; OSave; OLoad 1; OSet [5%N] [50%N]].

Example C01_example :
  let s := fst (run sha256 (init_state 0 false) C01_example_ops) in
  (* two retained versions with distinct contents, and a modified working tree *)
  map (fun p => (fst p, oelems (snd p))) (forest s) =
    [(1, [([1%N], [10%N]); ([2%N], [20%N]); ([3%N], [30%N])]);
     (2, [([2%N], [20%N]); ([3%N], [30%N]); ([4%N], [40%N])])] /\
  oelems (root s) = [([1%N], [10%N]); ([2%N], [20%N]); ([3%N], [30%N]); ([5%N], [50%N])] /\
  version s = 1 /\
  (* the hypotheses of the read / save theorems are satisfiable here *)
  (exists t, lookup 2 (forest s) = Some t) /\
  lookup 3 (forest s) = None /\
  (exists e, lookup (working_version s) (forest s) = Some e) /\
  list_read (RGetWithIndex [3%N]) = true /\
  (* and the conclusions are observable *)
  step sha256 s (ORead (TVersion 2) (RGetWithIndex [3%N])) =
    (s, XPair (XInt 1) (XBytes (Some [30%N]))) /\
  step sha256 s (ORead TWorking (RGetByIndex 3)) =
    (s, XPair (XBytes (Some [5%N])) (XBytes (Some [50%N]))) /\
  snd (step sha256 s (ORemove [9%N])) = XPair (XBytes None) (XBool false) /\
  snd (step sha256 s OSave) = XErr.
Proof. vm_compute. repeat split; try reflexivity; eexists; reflexivity. Qed.

(** *** The node cache is transparent (NodeCache.v: nodedb.go GetNode / SaveNode / SaveRoot /
    deleteFromPruning / saveNodeFromPruning / Commit over cache/cache.go, a cache that no deletion
    ever invalidates).  "Cache sizes ... never change any result": for EVERY capacity and every
    operation list that meets the executable side condition [drun_ok] on the cache-free run
    (GetNode is not asked for a key whose only copy sits in the uncommitted batch, nor for a key
    that holds a root record, nonces of saved nodes are not 0 ...), store and batch evolve as
    without a cache, every read that succeeds without the cache returns the same node with it,
    and the invariant checked on the running library by [audit cache] ([coherentb]) holds. *)
From IAVL Require Import Store StoreFacts NodeCache NodeCacheFacts.

Theorem C01_node_cache_transparent :
  forall (V : Type) (is_node : V -> bool) (eqV : V -> V -> bool),
    (forall a b, eqV a b = true <-> a = b) ->
    forall (cap : nat) (ops : list (cop V)) (st : cstate V) (seen0 : list Z),
      cinv is_node st -> seen_inv seen0 (cache st) ->
      drun_ok eqV is_node seen0 (forget st) ops = true ->
      forget (snd (crun is_node cap st ops)) = snd (drun is_node (forget st) ops) /\
      Forall2 out_refines (fst (drun is_node (forget st) ops)) (fst (crun is_node cap st ops)) /\
      cinv is_node (snd (crun is_node cap st ops)).
Proof. exact cache_transparent. Qed.
Print Assumptions C01_node_cache_transparent.

Theorem C01_node_cache_size_irrelevant :
  forall (V : Type) (is_node : V -> bool) (eqV : V -> V -> bool),
    (forall a b, eqV a b = true <-> a = b) ->
    forall (cap1 cap2 : nat) (ops : list (cop V)) (d : list (Z * Z * V)) (b : list (cwop V)),
      msorted kcmp d -> drun_ok eqV is_node [] (DState d b) ops = true ->
      all_found (fst (drun is_node (DState d b) ops)) ->
      fst (crun is_node cap1 (CState d b []) ops) = fst (crun is_node cap2 (CState d b []) ops).
Proof. exact cache_size_irrelevant_exact. Qed.
Print Assumptions C01_node_cache_size_irrelevant.

(** the checker that the harness evaluates on dumps of the real cache and database is the
    invariant of the theorem *)
Theorem C01_cache_checker_is_the_invariant :
  forall (V : Type) (is_node : V -> bool) (eqV : V -> V -> bool),
    (forall a b, eqV a b = true <-> a = b) ->
    forall (d : list (Z * Z * V)) (c : lru V),
      coherentb eqV is_node d c = true <-> coherent is_node d [] c.
Proof. exact coherentb_spec. Qed.
Print Assumptions C01_cache_checker_is_the_invariant.

(** two defective variants of SaveNode ("leaves an already cached node alone", "no longer caches")
    break it: a read returns the node of the erased timeline *)
Theorem C01_save_keep_cached_refuted :
  exists cap ops v v',
    okb D0 ops = true /\
    last (fst (drunE D0 ops)) OUnit = OGot (Some v) /\
    last (fst (crunE cap E0 ops)) OUnit = OGot (Some v) /\
    last (fst (crun_keep_cached entry_is_node cap E0 ops)) OUnit = OGot (Some v') /\
    v <> v'.
Proof. exact save_keep_cached_refuted. Qed.
Print Assumptions C01_save_keep_cached_refuted.

Theorem C01_save_without_caching_refuted :
  exists cap ops v v',
    okb D0 ops = true /\
    last (fst (drunE D0 ops)) OUnit = OGot (Some v) /\
    last (fst (crunE cap E0 ops)) OUnit = OGot (Some v) /\
    last (fst (crun_no_cache entry_is_node cap E0 ops)) OUnit = OGot (Some v') /\
    v <> v'.
Proof. exact save_without_caching_refuted. Qed.
Print Assumptions C01_save_without_caching_refuted.
