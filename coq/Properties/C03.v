(** C03: ICS-23 proofs.  For every key the tree produces a membership proof (key present) or
    a non-membership proof bracketed by the adjacent keys (key absent) that the standard ICS-23
    verifier (transcribed in Ics23.v, specialised to IavlSpec) accepts against the tree's
    root hash; asking for the wrong kind of proof, or for any proof of an empty tree, is an
    error; and a proof that the verifier accepts against the root hash of a tree states a
    true claim about that tree, unless two explicit different inputs with the same hash are
    found (constructive collision form) -- so a produced proof never verifies for a different
    value, a different key, or the root of a version in which the claim is false.
    Statements are restated in full; proofs are in Ics23Facts.v.

    Hypotheses used below:
    - [forall x, length (H x) = 32]: the hash function returns 32 bytes (true of the
      executable SHA-256: [C03_sha256_length]);
    - [wf]: the C01 tree invariant; [hash_ok H]: the C02 hash-consistency invariant;
    - [bounds wv t] ([C03_bounds_leaf], [C03_bounds_inner], [C03_simple_bounds]): heights,
      sizes, versions are non-negative int64, heights <= 128, and the three varints of every
      inner node take at most 11 bytes -- the ICS-23 IavlSpec prefix window 4..12 (+33);
    - keys and values non-empty: ICS-23 rejects empty keys and values (known finding,
      [C03_empty_value_no_proof], [C03_empty_value_refuted]);
    - [klen_ok], [keys_len_ok], [int64_tree] (soundness): byte-slice lengths < 2^63 - 1 and
      int64 heights/sizes/versions, as in Go. *)
From IAVL Require Import Bytes Varint Sha256 Tree VMap TreeFacts MTree MTreeFacts HashFacts
  HashTable Ics23 Ics23Facts.
Local Open Scope Z_scope.

(** ** 1. The existence proof of a present key recomputes the root hash *)
Theorem C03_calculate_path :
  forall (H : bytes -> bytes), (forall x, length (H x) = 32%nat) ->
  forall (wv : Z) (t : node) (k : bytes) (p : list proof_inner_node) (lv : bytes) (m : meta),
    path_to_leaf (pure_hash H wv) wv t k = (p, (k, lv, m), true) -> k <> [] -> lv <> [] ->
    calculate H (ExistenceProof k lv (convert_leaf_op (eff_ver wv m)) (convert_inner_ops p))
      = Some (pure_hash H wv t).
Proof. exact calculate_path. Qed.
Print Assumptions C03_calculate_path.

(** ** 2. Completeness of membership proofs *)
Theorem C03_complete_member :
  forall (H : bytes -> bytes), (forall x, length (H x) = 32%nat) ->
  forall (wv : Z) (t : node) (k v : bytes),
    wf t -> hash_ok H t -> bounds wv t ->
    snd (get t k) = Some v -> k <> [] -> v <> [] ->
    exists ep,
      get_membership_proof H wv (Some t) k = Some (PExist ep) /\
      get_proof H wv (Some t) k = Some (PExist ep) /\
      ep_key ep = k /\ ep_value ep = v /\
      calculate H ep = Some (node_hash H wv t) /\
      verify_membership H (node_hash H wv t) (PExist ep) k v = true.
Proof. exact complete_member. Qed.
Print Assumptions C03_complete_member.

(** the same against the structural hash, without the hash-consistency hypothesis *)
Theorem C03_complete_member_pure :
  forall (H : bytes -> bytes), (forall x, length (H x) = 32%nat) ->
  forall (wv : Z) (t : node) (k v : bytes),
    wf t -> bounds wv t -> snd (get t k) = Some v -> k <> [] -> v <> [] ->
    exists ep,
      get_membership_proof_gen (pure_hash H wv) wv (Some t) k = Some (PExist ep) /\
      ep_key ep = k /\ ep_value ep = v /\
      calculate H ep = Some (pure_hash H wv t) /\
      verify_membership H (pure_hash H wv t) (PExist ep) k v = true.
Proof. exact complete_member_pure. Qed.
Print Assumptions C03_complete_member_pure.

(** ** 3. Completeness of non-membership proofs.
    [rank k (elems t)] is the number of stored keys below [k]; the left neighbour is the leaf
    of index [rank - 1] (none if [rank = 0]), the right neighbour the leaf of index [rank]
    (none if [rank] = number of leaves): the adjacent keys in the sorted leaf sequence. *)
Theorem C03_complete_nonmember :
  forall (H : bytes -> bytes), (forall x, length (H x) = 32%nat) ->
  forall (wv : Z) (t : node) (k : bytes),
    wf t -> hash_ok H t -> bounds wv t ->
    Forall (fun p => fst p <> [] /\ snd p <> []) (elems t) ->
    snd (get t k) = None ->
    exists np,
      get_nonmembership_proof H wv (Some t) k = Some (PNonexist np) /\
      get_proof H wv (Some t) k = Some (PNonexist np) /\
      np_key np = k /\
      option_map (fun e => (ep_key e, ep_value e)) (np_left np) =
        (if 1 <=? rank k (elems t)
         then nth_error (elems t) (Z.to_nat (rank k (elems t) - 1)) else None) /\
      option_map (fun e => (ep_key e, ep_value e)) (np_right np) =
        nth_error (elems t) (Z.to_nat (rank k (elems t))) /\
      (forall e, np_left np = Some e ->
         ep_key e <b k /\
         get_membership_proof H wv (Some t) (ep_key e) = Some (PExist e) /\
         calculate H e = Some (node_hash H wv t)) /\
      (forall e, np_right np = Some e ->
         k <b ep_key e /\
         get_membership_proof H wv (Some t) (ep_key e) = Some (PExist e) /\
         calculate H e = Some (node_hash H wv t)) /\
      verify_nonmembership H (node_hash H wv t) (PNonexist np) k = true.
Proof. exact complete_nonmember. Qed.
Print Assumptions C03_complete_nonmember.

(** ** 4. Wrong-kind requests and the empty tree are errors *)
Theorem C03_kind_errors :
  forall (H : bytes -> bytes) (wv : Z) (t : node) (k : bytes),
    (snd (get t k) = None -> get_membership_proof H wv (Some t) k = None) /\
    (forall v, snd (get t k) = Some v -> get_nonmembership_proof H wv (Some t) k = None) /\
    get_membership_proof H wv None k = None /\
    get_proof H wv None k = None.
Proof. exact kind_errors. Qed.
Print Assumptions C03_kind_errors.

(** [GetNonMembershipProof] on the empty tree returns, without error, a proof with neither
    neighbour; no verifier call accepts it. *)
Theorem C03_empty_tree_nonmembership :
  forall (H : bytes -> bytes) (wv : Z) (hf : node -> bytes) (k : bytes),
    get_membership_proof_gen hf wv None k = None /\
    get_proof_gen hf wv None k = None /\
    get_nonmembership_proof_gen hf wv None k = Some (PNonexist (NonExistenceProof k None None)) /\
    (forall root k',
       verify_nonmembership_x H root (PNonexist (NonExistenceProof k None None)) k' = Some false).
Proof. exact empty_tree_errors. Qed.
Print Assumptions C03_empty_tree_nonmembership.

(** [GetProof] picks the kind by the presence of the key *)
Theorem C03_get_proof_kind :
  forall (wv : Z) (hf : node -> bytes) (t : node) (k : bytes),
    wf t ->
    get_proof_gen hf wv (Some t) k =
      match snd (get t k) with
      | Some _ => get_membership_proof_gen hf wv (Some t) k
      | None => get_nonmembership_proof_gen hf wv (Some t) k
      end.
Proof. exact get_proof_kind. Qed.
Print Assumptions C03_get_proof_kind.

(** ** 5. Known finding: empty values (and keys) have no verifying proof *)
Theorem C03_empty_value_no_proof :
  forall (H : bytes -> bytes) (root : bytes) (p : commitment_proof) (k : bytes),
    verify_membership H root p k [] = false.
Proof. exact empty_value_no_proof. Qed.
Print Assumptions C03_empty_value_no_proof.

Theorem C03_empty_key_no_proof :
  forall (H : bytes -> bytes) (root : bytes) (p : commitment_proof) (v : bytes),
    verify_membership H root p [] v = false.
Proof. exact empty_key_no_proof. Qed.
Print Assumptions C03_empty_key_no_proof.

Theorem C03_empty_neighbour_no_proof :
  forall (H : bytes -> bytes) (root : bytes) (np : nonexistence_proof) (k : bytes),
    (exists l, np_left np = Some l /\ (ep_value l = [] \/ ep_key l = [])) \/
    (exists r, np_right np = Some r /\ (ep_value r = [] \/ ep_key r = [])) ->
    verify_nonmembership H root (PNonexist np) k = false.
Proof. exact empty_neighbour_no_proof. Qed.
Print Assumptions C03_empty_neighbour_no_proof.

(** completeness without [v <> []] is false of the faithful model *)
Theorem C03_empty_value_refuted :
  exists (t : node) (k v : bytes),
    wf t /\ snd (get t k) = Some v /\ k <> [] /\
    forall (H : bytes -> bytes) (wv : Z), 0 <= wv < 2 ^ 34 ->
      hash_ok H t /\ bounds wv t /\
      exists p, get_membership_proof H wv (Some t) k = Some p /\
                verify_membership H (node_hash H wv t) p k v = false.
Proof. exact empty_value_refuted. Qed.
Print Assumptions C03_empty_value_refuted.

(** ** 6. Soundness (constructive collision form).
    [find_collision H wv t ep] searches the inputs hashed by the verifier for [ep]
    ([proof_inputs]) and those hashed by the tree ([tree_inputs]) for a pair [x <> y] with
    [H x = H y]. *)
Theorem C03_sound_member :
  forall (H : bytes -> bytes), (forall x, length (H x) = 32%nat) ->
  forall (wv : Z) (t : node) (p : commitment_proof) (k v : bytes),
    wf t -> hash_ok H t -> int64_tree wv t -> keys_len_ok t -> klen_ok k ->
    verify_membership H (node_hash H wv t) p k v = true ->
    snd (get t k) = Some v \/
    exists ep x y, p = PExist ep /\ find_collision H wv t ep = Some (x, y) /\ x <> y /\ H x = H y.
Proof. exact sound_member_node_hash. Qed.
Print Assumptions C03_sound_member.

Theorem C03_sound_member_pure :
  forall (H : bytes -> bytes), (forall x, length (H x) = 32%nat) ->
  forall (wv : Z) (t : node) (p : commitment_proof) (k v : bytes),
    wf t -> int64_tree wv t -> keys_len_ok t -> klen_ok k ->
    verify_membership H (pure_hash H wv t) p k v = true ->
    snd (get t k) = Some v \/
    exists ep x y, p = PExist ep /\ find_collision H wv t ep = Some (x, y) /\ x <> y /\ H x = H y.
Proof. exact sound_member. Qed.
Print Assumptions C03_sound_member_pure.

(** the accepted existence proof walks a real root-to-leaf path of the tree *)
Theorem C03_sound_existence :
  forall (H : bytes -> bytes), (forall x, length (H x) = 32%nat) ->
  forall (wv : Z) (t : node) (ep : existence_proof) (k v : bytes),
    wf t -> int64_tree wv t -> keys_len_ok t -> klen_ok k ->
    verify_existence H (pure_hash H wv t) ep k v = true ->
    ep_key ep = k /\ ep_value ep = v /\
    ((exists j, walk t (rev (ep_path ep)) = Some j /\ get_by_index t j = Some (k, v)) \/
     exists x y, In x (proof_inputs H ep) /\ In y (tree_inputs H wv t) /\ x <> y /\ H x = H y).
Proof. exact sound_existence. Qed.
Print Assumptions C03_sound_existence.

(** a produced proof is accepted, against any root, only for its own key and stored value
    (no hash assumption) *)
Theorem C03_produced_only_for_its_claim :
  forall (H : bytes -> bytes) (wv : Z) (hf : node -> bytes) (t : node) (k : bytes)
         (p : commitment_proof) (root k' v' : bytes),
    get_membership_proof_gen hf wv (Some t) k = Some p ->
    verify_membership H root p k' v' = true ->
    k' = k /\ snd (get t k) = Some v'.
Proof. exact produced_only_for_its_claim. Qed.
Print Assumptions C03_produced_only_for_its_claim.

(** soundness of non-membership, including the adjacency argument from the paddings *)
Theorem C03_sound_nonmember :
  forall (H : bytes -> bytes), (forall x, length (H x) = 32%nat) ->
  forall (wv : Z) (t : node) (p : commitment_proof) (k : bytes),
    wf t -> hash_ok H t -> int64_tree wv t -> keys_len_ok t ->
    (forall np, p = PNonexist np -> sub_key_ok (np_left np) /\ sub_key_ok (np_right np)) ->
    verify_nonmembership H (node_hash H wv t) p k = true ->
    snd (get t k) = None \/
    exists np x y, p = PNonexist np /\ find_collision_non H wv t np = Some (x, y) /\
                   x <> y /\ H x = H y.
Proof. exact sound_nonmember_node_hash. Qed.
Print Assumptions C03_sound_nonmember.

Theorem C03_sound_nonmember_pure :
  forall (H : bytes -> bytes), (forall x, length (H x) = 32%nat) ->
  forall (wv : Z) (t : node) (p : commitment_proof) (k : bytes),
    wf t -> int64_tree wv t -> keys_len_ok t ->
    (forall np, p = PNonexist np -> sub_key_ok (np_left np) /\ sub_key_ok (np_right np)) ->
    verify_nonmembership H (pure_hash H wv t) p k = true ->
    snd (get t k) = None \/
    exists np x y, p = PNonexist np /\ find_collision_non H wv t np = Some (x, y) /\
                   x <> y /\ H x = H y.
Proof. exact sound_nonmember. Qed.
Print Assumptions C03_sound_nonmember_pure.

(** ** The guards, spelled out *)
Theorem C03_bounds_leaf :
  forall (wv : Z) (k v : bytes) (m : meta),
    bounds wv (Leaf k v m) <-> 0 <= eff_ver wv m < 2 ^ 63.
Proof. exact bounds_leaf. Qed.
Print Assumptions C03_bounds_leaf.

Theorem C03_bounds_inner :
  forall (wv : Z) (k : bytes) (h s : Z) (m : meta) (l r : node),
    bounds wv (Inner k h s m l r) <->
    (0 <= h < 2 ^ 63) /\ h <= 128 /\ (0 <= s < 2 ^ 63) /\ (0 <= eff_ver wv m < 2 ^ 63) /\
    (length (varint_enc h) + length (varint_enc s) + length (varint_enc (eff_ver wv m)) <= 11)%nat /\
    bounds wv l /\ bounds wv r.
Proof. exact bounds_inner. Qed.
Print Assumptions C03_bounds_inner.

(** heights < 64 and sizes, versions < 2^34 are enough (1 + 5 + 5 varint bytes) *)
Theorem C03_simple_bounds :
  forall (wv : Z) (t : node), simple_bounds wv t -> bounds wv t.
Proof. exact simple_bounds_ok. Qed.
Print Assumptions C03_simple_bounds.

Theorem C03_bounds_int64 :
  forall (wv : Z) (t : node), bounds wv t -> int64_tree wv t.
Proof. exact bounds_int64_tree. Qed.
Print Assumptions C03_bounds_int64.

Theorem C03_sha256_length : forall x, length (sha256 x) = 32%nat.
Proof. exact sha256_length. Qed.
Print Assumptions C03_sha256_length.

(** ** Examples (executable SHA-256) *)
Definition C03_key (n : N) : bytes := [107%N; n].

(** keys k10, k20, ..., values 1, 2, ... inserted in order with [Tree.set] *)
Definition C03_kvs (n : nat) : list (bytes * bytes) :=
  map (fun i => (C03_key (N.of_nat (10 * (i + 1))), [N.of_nat (i + 1)])) (seq 0 n).
Definition C03_tree (n : nat) : node :=
  match C03_kvs n with
  | [] => Leaf [] [] new_meta
  | (k, v) :: rest => fold_left (fun t kv => fst (set t (fst kv) (snd kv))) rest (Leaf k v new_meta)
  end.
(** the absent keys k5, k15, ... : below, between and above the stored keys *)
Definition C03_gaps (n : nat) : list bytes :=
  map (fun i => C03_key (N.of_nat (10 * i + 5))) (seq 0 (S n)).

(** [GetProof] returns the proof of the right kind, it verifies, and the request of the other
    kind is an error *)
Definition C03_member_ok (wv : Z) (t : node) (root : bytes) (kv : bytes * bytes) : bool :=
  match get_proof sha256 wv (Some t) (fst kv) with
  | Some (PExist ep) =>
      verify_membership sha256 root (PExist ep) (fst kv) (snd kv) &&
      match get_nonmembership_proof sha256 wv (Some t) (fst kv) with None => true | Some _ => false end
  | _ => false
  end.
Definition C03_nonmember_ok (wv : Z) (t : node) (root : bytes) (k : bytes) : bool :=
  match get_proof sha256 wv (Some t) k with
  | Some (PNonexist np) =>
      verify_nonmembership sha256 root (PNonexist np) k &&
      match get_membership_proof sha256 wv (Some t) k with None => true | Some _ => false end
  | _ => false
  end.
Definition C03_all_ok (wv : Z) (t : node) (gaps : list bytes) : bool :=
  let root := node_hash sha256 wv t in
  forallb (C03_member_ok wv t root) (elems t) && forallb (C03_nonmember_ok wv t root) gaps.

Definition C03_saved (n : nat) : node := fst (stamp sha256 1 0 (C03_tree n)).
(** a mixed tree: persisted nodes of version 1 and new nodes (working version 2) *)
Definition C03_t5 : node := C03_saved 5.
Definition C03_t6 : node := fst (set C03_t5 (C03_key 35) [9%N]).

(** The proofs of one tree hash the same strings again and again: each builds and verifies a
    whole path.  The examples are therefore evaluated with SHA-256 replaced by
    [memo sha256 C03_table], a table of the values SHA-256 takes on the strings hashed in the
    example trees ([tree_inputs]; an honest proof makes the verifier hash the same strings):
    construction, verification and collision search depend on the hash function through its
    values only (the [_hext] lemmas), and every entry of the table is checked against SHA-256
    once, in [C03_table_ok]. *)
Definition C03_table : kvs := Eval vm_compute in
  table_of sha256
    (flat_map (fun n => tree_inputs sha256 1 (C03_tree n)) [1; 2; 3; 5; 8]%nat ++
     tree_inputs sha256 2 C03_t6 ++
     tree_inputs sha256 1 (fst (set (C03_tree 3) (C03_key 25) []))).
Lemma C03_table_ok b : sha256 b = memo sha256 C03_table b.
Proof. revert b. apply memo_sound. vm_compute. reflexivity. Qed.

(** the checkers above with the hash function as a parameter: [sha256] stands under a binder
    in [C03_all_ok] *)
Definition C03_member_ok_with (H : bytes -> bytes) (wv : Z) (t : node) (root : bytes)
    (kv : bytes * bytes) : bool :=
  match get_proof H wv (Some t) (fst kv) with
  | Some (PExist ep) =>
      verify_membership H root (PExist ep) (fst kv) (snd kv) &&
      match get_nonmembership_proof H wv (Some t) (fst kv) with None => true | Some _ => false end
  | _ => false
  end.
Definition C03_nonmember_ok_with (H : bytes -> bytes) (wv : Z) (t : node) (root : bytes)
    (k : bytes) : bool :=
  match get_proof H wv (Some t) k with
  | Some (PNonexist np) =>
      verify_nonmembership H root (PNonexist np) k &&
      match get_membership_proof H wv (Some t) k with None => true | Some _ => false end
  | _ => false
  end.
Definition C03_all_ok_with (H : bytes -> bytes) (wv : Z) (t : node) (gaps : list bytes) : bool :=
  let root := node_hash H wv t in
  forallb (C03_member_ok_with H wv t root) (elems t) &&
  forallb (C03_nonmember_ok_with H wv t root) gaps.

Lemma C03_all_ok_hext H H' (HE : forall b, H b = H' b) wv t gaps :
  C03_all_ok_with H wv t gaps = C03_all_ok_with H' wv t gaps.
Proof.
  unfold C03_all_ok_with. rewrite (node_hash_hext H H' HE). cbv zeta.
  f_equal; apply forallb_ext; intros x.
  - unfold C03_member_ok_with.
    rewrite (get_proof_hext H H' HE), (get_nonmembership_proof_hext H H' HE).
    destruct (get_proof H' wv (Some t) (fst x)) as [[ep|np]|]; [|reflexivity..].
    rewrite (verify_membership_hext H H' HE). reflexivity.
  - unfold C03_nonmember_ok_with.
    rewrite (get_proof_hext H H' HE), (get_membership_proof_hext H H' HE).
    destruct (get_proof H' wv (Some t) x) as [[ep|np]|]; [reflexivity| |reflexivity].
    rewrite (verify_nonmembership_hext H H' HE). reflexivity.
Qed.

Lemma C03_all_ok_table wv t gaps :
  C03_all_ok wv t gaps = C03_all_ok_with (memo sha256 C03_table) wv t gaps.
Proof. exact (C03_all_ok_hext _ _ C03_table_ok wv t gaps). Qed.

(** trees of 1, 2, 3, 5, 8 keys saved as version 1 and read with working version 2: every key
    has a verifying membership proof, every gap a verifying non-membership proof (left-most,
    right-most and neighbour cases) *)
Example C03_example_sizes :
  map (fun n => C03_all_ok 2 (C03_saved n) (C03_gaps n)) [1; 2; 3; 5; 8]%nat
    = [true; true; true; true; true].
Proof.
  cbn [map]. unfold C03_saved. rewrite !(stamp_hext _ _ C03_table_ok), !C03_all_ok_table.
  vm_compute. reflexivity.
Qed.

(** an unsaved working tree (all nodes new, hashed with working version 1) *)
Example C03_example_working : C03_all_ok 1 (C03_tree 3) (C03_gaps 3) = true.
Proof. rewrite C03_all_ok_table. vm_compute. reflexivity. Qed.

Example C03_example_mixed :
  C03_all_ok 2 C03_t6
    [C03_key 5; C03_key 15; C03_key 25; C03_key 32; C03_key 37; C03_key 45; C03_key 55] = true.
Proof.
  unfold C03_t6, C03_t5, C03_saved. rewrite (stamp_hext _ _ C03_table_ok), C03_all_ok_table.
  vm_compute. reflexivity.
Qed.

(** the hypotheses of the theorems hold of these trees *)
Example C03_example_hyps :
  wf C03_t6 /\ hash_ok sha256 C03_t6 /\ bounds 2 C03_t6 /\
  Forall (fun p => fst p <> [] /\ snd p <> []) (elems C03_t6) /\
  int64_tree 2 C03_t6 /\ keys_len_ok C03_t6.
Proof.
  assert (B : bounds 2 C03_t6).
  { apply simple_bounds_ok. vm_compute. repeat split; discriminate. }
  split; [vm_compute; repeat split|].
  split.
  { assert (Hok5 : hash_ok sha256 (C03_tree 5)).
    { unfold C03_tree. cbn [C03_kvs map seq fold_left fst snd].
      do 4 apply set_hash_ok. apply hash_ok_new_leaf. }
    destruct (stamp_hash_ok sha256 1 0 (C03_tree 5) Hok5 eq_refl) as [X _].
    unfold C03_t6, C03_t5, C03_saved. apply set_hash_ok. exact X. }
  split; [exact B|].
  split; [vm_compute; repeat constructor; discriminate|].
  split; [apply bounds_int64_tree; exact B|].
  apply keys_len_ok_small. vm_compute. reflexivity.
Qed.

(** ... so the completeness theorems apply *)
Example C03_example_complete :
  exists ep,
    get_membership_proof sha256 2 (Some C03_t6) (C03_key 35) = Some (PExist ep) /\
    verify_membership sha256 (node_hash sha256 2 C03_t6) (PExist ep) (C03_key 35) [9%N] = true.
Proof.
  destruct C03_example_hyps as (W & Hok & B & _).
  destruct (C03_complete_member sha256 sha256_length 2 C03_t6 (C03_key 35) [9%N] W Hok B)
    as (ep & A1 & _ & _ & _ & _ & A6); [reflexivity|discriminate|discriminate|].
  exists ep. auto.
Qed.

(** Where the goal matches on the proof object returned by a closed call [f sha256 wv t k]
    and [sha256] stands under the binders of the match: that call is evaluated with the
    table and the proof object put in its place. *)
Local Ltac produced f f_hext :=
  let P := fresh in
  destruct (f sha256 _ _ _) as [?|] eqn:P; rewrite (f_hext _ _ C03_table_ok) in P;
  vm_compute in P; [injection P as <-|discriminate P].

(** negative cases: the proof of (k30, 3) is rejected for another value, another key, the
    root of another tree and the root computed for another working version; it is not a
    non-membership proof; a non-membership proof is rejected for a neighbour key, for a key
    in another gap, and against another root *)
Example C03_example_rejects :
  match get_membership_proof sha256 2 (Some C03_t5) (C03_key 30),
        get_nonmembership_proof sha256 2 (Some C03_t5) (C03_key 25) with
  | Some p, Some q =>
      let root := node_hash sha256 2 C03_t5 in
      [ verify_membership sha256 root p (C03_key 30) [3%N];
        verify_membership sha256 root p (C03_key 30) [4%N];
        verify_membership sha256 root p (C03_key 30) [3%N; 0%N];
        verify_membership sha256 root p (C03_key 20) [3%N];
        verify_membership sha256 root p (C03_key 20) [2%N];
        verify_membership sha256 (node_hash sha256 2 C03_t6) p (C03_key 30) [3%N];
        verify_membership sha256 (node_hash sha256 1 (C03_tree 3)) p (C03_key 30) [3%N];
        verify_nonmembership sha256 root p (C03_key 30);
        verify_nonmembership sha256 root q (C03_key 25);
        verify_nonmembership sha256 root q (C03_key 20);
        verify_nonmembership sha256 root q (C03_key 30);
        verify_nonmembership sha256 root q (C03_key 35);
        verify_nonmembership sha256 (node_hash sha256 2 C03_t6) q (C03_key 25);
        verify_membership sha256 root q (C03_key 25) [1%N] ]
  | _, _ => []
  end
  = [true; false; false; false; false; false; false; false;
     true; false; false; false; false; false].
Proof.
  unfold C03_t6, C03_t5, C03_saved. rewrite !(stamp_hext _ _ C03_table_ok).
  produced get_membership_proof get_membership_proof_hext.
  produced get_nonmembership_proof get_nonmembership_proof_hext.
  cbv zeta.
  rewrite !(node_hash_hext _ _ C03_table_ok), !(verify_membership_hext _ _ C03_table_ok),
    !(verify_nonmembership_hext _ _ C03_table_ok).
  vm_compute. reflexivity.
Qed.

(** the working tree of 5 keys hashed with working version 1 and the same tree saved as
    version 1 have the same root; a proof taken before the commit verifies after it *)
Example C03_example_commit :
  node_hash sha256 1 (C03_tree 5) = node_hash sha256 2 C03_t5 /\
  match get_membership_proof sha256 1 (Some (C03_tree 5)) (C03_key 10) with
  | Some p => verify_membership sha256 (node_hash sha256 2 C03_t5) p (C03_key 10) [1%N] = true
  | None => False
  end.
Proof.
  unfold C03_t5, C03_saved. rewrite (stamp_hext _ _ C03_table_ok), !(node_hash_hext _ _ C03_table_ok).
  produced get_membership_proof get_membership_proof_hext.
  rewrite (verify_membership_hext _ _ C03_table_ok). vm_compute. split; reflexivity.
Qed.

(** correspondence spot check: the protobuf encoding of the model's proof for k10 equals the
    bytes returned by the Go library ([tree.GetMembershipProof(k10)] followed by [Marshal()]
    on the same 5-key working tree; the real [ics23.VerifyMembership] accepts it) *)
Example C03_example_go_bytes :
  option_map marshal_commitment_proof (get_membership_proof sha256 1 (Some (C03_tree 5)) (C03_key 10))
  = Some [10; 110; 10; 2; 107; 10; 18; 1; 1; 26; 11; 8; 1; 24; 1; 32; 1; 42; 3; 0; 2; 2; 34; 43;
          8; 1; 18; 4; 2; 4; 2; 32; 26; 33; 32; 125; 129; 28; 255; 118; 179; 213; 56; 36; 60; 2;
          217; 198; 150; 133; 176; 40; 42; 206; 8; 66; 134; 234; 194; 175; 3; 45; 242; 147; 60;
          171; 142; 34; 43; 8; 1; 18; 4; 6; 10; 2; 32; 26; 33; 32; 179; 191; 26; 48; 224; 233;
          118; 100; 25; 0; 233; 55; 82; 70; 164; 113; 158; 232; 88; 25; 248; 30; 231; 155; 223;
          246; 235; 60; 97; 246; 85; 132]%N.
Proof. rewrite (get_membership_proof_hext _ _ C03_table_ok). vm_compute. reflexivity. Qed.

(** the empty-value finding on a concrete tree: the proof is produced but cannot verify *)
Example C03_example_empty_value :
  let t := fst (set (C03_tree 3) (C03_key 25) []) in
  snd (get t (C03_key 25)) = Some [] /\
  match get_membership_proof sha256 1 (Some t) (C03_key 25) with
  | Some p => verify_membership sha256 (node_hash sha256 1 t) p (C03_key 25) [] = false
  | None => False
  end /\
  (* and it spoils the non-membership proofs of both adjacent gaps *)
  match get_nonmembership_proof sha256 1 (Some t) (C03_key 22),
        get_nonmembership_proof sha256 1 (Some t) (C03_key 27) with
  | Some p, Some q =>
      verify_nonmembership sha256 (node_hash sha256 1 t) p (C03_key 22) = false /\
      verify_nonmembership sha256 (node_hash sha256 1 t) q (C03_key 27) = false
  | _, _ => False
  end.
Proof.
  cbv zeta. split; [reflexivity|].
  rewrite !(get_membership_proof_hext _ _ C03_table_ok),
    !(get_nonmembership_proof_hext _ _ C03_table_ok), !(node_hash_hext _ _ C03_table_ok).
  vm_compute. repeat split; reflexivity.
Qed.

(** the collision search is executable: on an honest proof it finds nothing (so the first
    disjunct of [C03_sound_member] is the one that holds) *)
Example C03_example_no_collision :
  match get_membership_proof sha256 2 (Some (C03_saved 2)) (C03_key 10),
        get_nonmembership_proof sha256 2 (Some (C03_saved 2)) (C03_key 15) with
  | Some (PExist ep), Some (PNonexist np) =>
      find_collision sha256 2 (C03_saved 2) ep = None /\
      find_collision_non sha256 2 (C03_saved 2) np = None
  | _, _ => False
  end.
Proof.
  unfold C03_saved. rewrite (stamp_hext _ _ C03_table_ok).
  produced get_membership_proof get_membership_proof_hext.
  produced get_nonmembership_proof get_nonmembership_proof_hext.
  cbv beta iota.
  rewrite (find_collision_hext _ _ C03_table_ok), (find_collision_non_hext _ _ C03_table_ok).
  vm_compute. split; reflexivity.
Qed.
