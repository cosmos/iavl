(** C02: the root hash returned by every commit (and the working hash before it) is the hash
    defined by the IAVL+ rules, recomputed from scratch ([pure_hash] / [opure_hash], which
    trust nothing stored in the tree); it is the same before the commit, at the commit, when
    read back after reopening, loading, pruning other versions and rollback-and-redo; it
    does not depend on nonces, stored hashes or routing keys (export/import re-keying); and
    read-only calls interleaved anywhere never change any later state, output or hash.
    Statements are restated in full; proofs are in HashFacts.v, those of the memoisation part at
    the end in MemoFacts.v. *)
From IAVL Require Import Bytes Varint Sha256 Tree VMap TreeFacts MTree MTreeFacts HashFacts
  HashTable Ics23Facts.
From IAVL Require Memo MemoFacts.
Local Open Scope Z_scope.

(** The code's hash (which trusts the hash stored in persisted nodes) is the structural hash
    on every hash-consistent tree. *)
Theorem C02_node_hash_is_pure :
  forall (H : bytes -> bytes) (wv : Z) (t : node),
    hash_ok H t -> node_hash H wv t = pure_hash H wv t.
Proof. exact node_hash_pure. Qed.
Print Assumptions C02_node_hash_is_pure.

(** [hash_ok], spelled out: every persisted subtree stores its structural hash and is
    persisted all the way down. *)
Theorem C02_hash_ok_meaning :
  forall (H : bytes -> bytes) (t : node),
    hash_ok H t <->
    (forall u, subtree u t -> ver (nmeta u) <> 0 ->
               hs (nmeta u) = pure_hash H 0 u /\ all_persisted u).
Proof. exact hash_ok_subtrees. Qed.
Print Assumptions C02_hash_ok_meaning.

(** saveNewNodes: the hash stored in the root by the commit is the working hash computed
    just before it, and the structural hash of the working tree; the result is persisted and
    hash-consistent. *)
Theorem C02_stamp_hash :
  forall (H : bytes -> bytes) (wv n : Z) (t : node),
    hash_ok H t -> 0 < wv ->
    hash_ok H (fst (stamp H wv n t)) /\
    all_persisted (fst (stamp H wv n t)) /\
    hs (nmeta (fst (stamp H wv n t))) = pure_hash H wv t /\
    hs (nmeta (fst (stamp H wv n t))) = node_hash H wv t.
Proof. exact stamp_hash_ok. Qed.
Print Assumptions C02_stamp_hash.

(** The writes keep trees hash-consistent. *)
Theorem C02_set_hash_ok :
  forall (H : bytes -> bytes) (t : node) (k v : bytes),
    hash_ok H t -> hash_ok H (fst (set t k v)).
Proof. exact set_hash_ok. Qed.
Print Assumptions C02_set_hash_ok.

Theorem C02_remove_hash_ok :
  forall (H : bytes -> bytes) (t : node) (k : bytes),
    hash_ok H t -> forall t', rm_self (remove t k) = Some t' -> hash_ok H t'.
Proof. exact remove_hash_ok. Qed.
Print Assumptions C02_remove_hash_ok.

Theorem C02_balance_hash_ok :
  forall (H : bytes -> bytes) (t : node), hash_ok H t -> hash_ok H (balance t).
Proof. exact balance_hash_ok. Qed.
Print Assumptions C02_balance_hash_ok.

(** The hash depends only on the shape: leaf keys and values, heights, sizes, effective
    versions -- not on nonces, stored hashes or routing keys. *)
Theorem C02_hash_ignores_nonces :
  forall (H : bytes -> bytes) (wv : Z) (t1 t2 : node),
    shape_eq wv t1 t2 -> pure_hash H wv t1 = pure_hash H wv t2.
Proof. exact pure_hash_ext. Qed.
Print Assumptions C02_hash_ignores_nonces.

Theorem C02_saved_hash_ignores_nonces :
  forall (H : bytes -> bytes) (t1 t2 : node),
    hash_ok H t1 -> hash_ok H t2 -> all_persisted t1 -> all_persisted t2 ->
    shape_eq 0 t1 t2 -> hs (nmeta t1) = hs (nmeta t2).
Proof. exact saved_hash_ext. Qed.
Print Assumptions C02_saved_hash_ignores_nonces.

(** Every reachable state is hash-consistent ([hash_inv]: the working tree is hash-consistent,
    the last saved tree and all retained versions are hash-consistent and fully persisted). *)
Theorem C02_hash_inv_reachable :
  forall (H : bytes -> bytes) (iv : Z) (ivset : bool) (ops : list op),
    0 <= iv -> iv <> 0 \/ ivset = false ->
    state_inv (fst (run H (init_state iv ivset) ops)) /\
    hash_inv H (fst (run H (init_state iv ivset) ops)).
Proof. exact hash_inv_reachable. Qed.
Print Assumptions C02_hash_inv_reachable.

Theorem C02_hash_inv_step :
  forall (H : bytes -> bytes) (s : mstate) (o : op),
    state_inv s -> hash_inv H s -> hash_inv H (fst (step H s o)).
Proof. exact step_hash_inv. Qed.
Print Assumptions C02_hash_inv_step.

(** On every reachable state, all hashes the machine reports are the from-scratch hashes. *)
Theorem C02_reachable_hashes_are_pure :
  forall (H : bytes -> bytes) (iv : Z) (ivset : bool) (ops : list op),
    0 <= iv -> iv <> 0 \/ ivset = false ->
    let s := fst (run H (init_state iv ivset) ops) in
    snd (step H s OWorkingHash) =
      XBytes (Some (opure_hash H (working_version s) (root s))) /\
    snd (step H s OHash) = XBytes (Some (opure_hash H 0 (last_saved s))) /\
    (forall v t, lookup v (forest s) = Some t ->
       snd (step H s (ORead (TVersion v) RHash)) = XBytes (Some (opure_hash H 0 t))).
Proof. exact reachable_hashes_pure. Qed.
Print Assumptions C02_reachable_hashes_are_pure.

(** The commit returns the working hash computed just before it (or fails, which can only
    happen when the version already exists). *)
Theorem C02_working_hash_eq_commit_hash :
  forall (H : bytes -> bytes) (s : mstate),
    state_inv s -> hash_inv H s ->
    (version_exists s (working_version s) = false ->
       snd (step H s OSave) = XPair (snd (step H s OWorkingHash)) (XInt (working_version s))) /\
    (snd (step H s OSave) = XErr \/
     snd (step H s OSave) = XPair (snd (step H s OWorkingHash)) (XInt (working_version s))).
Proof. exact save_returns_working_hash. Qed.
Print Assumptions C02_working_hash_eq_commit_hash.

(** After a successful commit: the commit hash is the from-scratch hash of the working tree,
    and Hash(), WorkingHash() and the hash of the saved version all return it. *)
Theorem C02_hash_same_after_commit :
  forall (H : bytes -> bytes) (s : mstate) (h : bytes) (v : Z),
    state_inv s -> hash_inv H s ->
    snd (step H s OSave) = XPair (XBytes (Some h)) (XInt v) ->
    let s' := fst (step H s OSave) in
    v = working_version s /\
    snd (step H s OWorkingHash) = XBytes (Some h) /\
    h = opure_hash H v (root s) /\
    snd (step H s' OHash) = XBytes (Some h) /\
    snd (step H s' OWorkingHash) = XBytes (Some h) /\
    snd (step H s' (ORead (TVersion v) RHash)) = XBytes (Some h) /\
    lookup v (forest s') = Some (root s') /\ last_saved s' = root s' /\ version s' = v /\
    clean s'.
Proof. exact save_then_hashes. Qed.
Print Assumptions C02_hash_same_after_commit.

(** Reopening and loading never touch a retained version. *)
Theorem C02_hash_same_after_reopen :
  forall (H : bytes -> bytes) (s : mstate) (v : Z),
    lookup v (forest (fst (step H s OReopen))) = lookup v (forest s) /\
    forall w, lookup v (forest (fst (step H s (OLoad w)))) = lookup v (forest s).
Proof. exact reopen_load_keep_versions. Qed.
Print Assumptions C02_hash_same_after_reopen.

(** The hash of a retained version is the same whenever it is read, after any history that
    does not delete that version: reopen, load, further writes and commits, rollback,
    pruning of other versions ([keeps v]: every [OPrune n] has [n < v], every [OLvfo w] has
    [v <= w]). *)
Theorem C02_version_hash_stable :
  forall (H : bytes -> bytes) (v : Z) (ops : list op) (s : mstate) (t : option node),
    forallb (keeps v) ops = true -> lookup v (forest s) = Some t ->
    snd (step H (fst (run H s ops)) (ORead (TVersion v) RHash)) =
    snd (step H s (ORead (TVersion v) RHash)).
Proof. exact version_hash_stable. Qed.
Print Assumptions C02_version_hash_stable.

Theorem C02_commit_hash_read_back :
  forall (H : bytes -> bytes) (s : mstate) (h : bytes) (v : Z) (ops : list op),
    state_inv s -> hash_inv H s ->
    snd (step H s OSave) = XPair (XBytes (Some h)) (XInt v) ->
    forallb (keeps v) ops = true ->
    snd (step H (fst (run H (fst (step H s OSave)) ops)) (ORead (TVersion v) RHash)) =
      XBytes (Some h).
Proof. exact commit_hash_read_back. Qed.
Print Assumptions C02_commit_hash_read_back.

(** Rollback and redo: uncommitted writes followed by a rollback restore the clean state
    exactly, so whatever follows behaves as if they had never happened. *)
Theorem C02_rollback_undoes_writes :
  forall (H : bytes -> bytes) (s : mstate) (ws : list op),
    clean s -> forallb root_only ws = true -> fst (run H s (ws ++ [ORollback])) = s.
Proof. exact rollback_undoes_writes. Qed.
Print Assumptions C02_rollback_undoes_writes.

Theorem C02_rollback_redo :
  forall (H : bytes -> bytes) (s : mstate) (ws ops : list op),
    clean s -> forallb root_only ws = true ->
    fst (run H s (ws ++ [ORollback] ++ ops)) = fst (run H s ops) /\
    snd (run H s (ws ++ [ORollback] ++ ops)) =
      snd (run H s (ws ++ [ORollback])) ++ snd (run H s ops).
Proof. exact rollback_redo. Qed.
Print Assumptions C02_rollback_redo.

(** Read-only calls never change the state ... *)
Theorem C02_read_only_ops_do_not_change_state :
  forall (H : bytes -> bytes) (s : mstate) (o : op),
    read_only o = true -> fst (step H s o) = s.
Proof. exact step_read_only. Qed.
Print Assumptions C02_read_only_ops_do_not_change_state.

(** ... so they can be erased from any history without changing the final state or the
    output of any other call. *)
Theorem C02_erase_read_only :
  forall (H : bytes -> bytes) (ops : list op) (s : mstate),
    run H s (erase ops) = (fst (run H s ops), erase_outs ops (snd (run H s ops))).
Proof. exact run_erase. Qed.
Print Assumptions C02_erase_read_only.

Theorem C02_erase_read_only_state :
  forall (H : bytes -> bytes) (s : mstate) (ops : list op),
    fst (run H s ops) = fst (run H s (filter (fun o => negb (read_only o)) ops)).
Proof. exact run_erase_state. Qed.
Print Assumptions C02_erase_read_only_state.

Theorem C02_same_writes_same_hashes :
  forall (H : bytes -> bytes) (s : mstate) (ops1 ops2 : list op),
    erase ops1 = erase ops2 ->
    fst (run H s ops1) = fst (run H s ops2) /\
    erase_outs ops1 (snd (run H s ops1)) = erase_outs ops2 (snd (run H s ops2)).
Proof. exact same_writes_same_hashes. Qed.
Print Assumptions C02_same_writes_same_hashes.

(** *** Non-vacuity: a concrete history with SHA-256, 4 keys, 2 versions.
    Each WorkingHash output equals the hash returned by the Save that follows it; Hash() and
    the hash read from the saved version agree with it, also after a reopen and after
    pruning version 1; the two versions have different hashes. *)
Definition C02_example_ops : list op :=
  [OSet [1%N] [10%N]; OSet [2%N] [20%N]; OSet [3%N] [30%N];
   OWorkingHash; OSave; OHash;
   OSet [4%N] [40%N]; ORemove [1%N]; OSet [2%N] [21%N];
   OWorkingHash; OSave; OHash;
   ORead (TVersion 1) RHash; ORead (TVersion 2) RHash;
   OReopen; ORead (TVersion 1) RHash; ORead (TVersion 2) RHash; OWorkingHash;
   OPrune 1; ORead (TVersion 2) RHash].

(** The history hashes each new node at WorkingHash and again at Save, and the examples run it
    four times.  They are evaluated with SHA-256 replaced by a table of its values on the
    strings hashed for the nodes of the two saved versions ([run_hext]: the state machine
    depends on the hash function through its values only); every entry is checked against
    SHA-256 once, in [C02_table_ok]. *)
Definition C02_table : kvs := Eval vm_compute in
  table_of sha256
    (flat_map (fun p => match snd p with Some t => tree_inputs sha256 0 t | None => [] end)
       (forest (fst (run sha256 (init_state 0 false) (firstn 12 C02_example_ops))))).
Lemma C02_table_ok b : sha256 b = memo sha256 C02_table b.
Proof. revert b. apply memo_sound. vm_compute. reflexivity. Qed.

Example C02_example :
  exists h1 h2,
    h1 <> h2 /\ length h1 = 32%nat /\ length h2 = 32%nat /\
    snd (run sha256 (init_state 0 false) C02_example_ops) =
      [XBool false; XBool false; XBool false;
       XBytes (Some h1); XPair (XBytes (Some h1)) (XInt 1); XBytes (Some h1);
       XBool false; XPair (XBytes (Some [10%N])) (XBool true); XBool true;
       XBytes (Some h2); XPair (XBytes (Some h2)) (XInt 2); XBytes (Some h2);
       XBytes (Some h1); XBytes (Some h2);
       XOk; XBytes (Some h1); XBytes (Some h2); XBytes (Some h2);
       XOk; XBytes (Some h2)].
Proof.
  do 2 eexists. split; [|split; [|split]].
  4: rewrite (run_hext _ _ C02_table_ok); vm_compute; reflexivity.
  - discriminate.
  - reflexivity.
  - reflexivity.
Qed.

(** the hypotheses of the state-level theorems hold on that history, and the saved tree of
    version 2 is a genuinely mixed tree (nodes of version 1 shared with version 2) *)
Example C02_example_inv :
  let s := fst (run sha256 (init_state 0 false) C02_example_ops) in
  state_inv s /\ hash_inv sha256 s /\
  exists n, lookup 2 (forest s) = Some (Some n) /\ size n = 3 /\
            (exists u, subtree u n /\ ver (nmeta u) = 1) /\ ver (nmeta n) = 2.
Proof.
  cbv zeta. split; [|split].
  - exact (proj1 (C02_hash_inv_reachable sha256 0 false C02_example_ops
                    (Z.le_refl 0) (or_intror eq_refl))).
  - exact (proj2 (C02_hash_inv_reachable sha256 0 false C02_example_ops
                    (Z.le_refl 0) (or_intror eq_refl))).
  - rewrite (run_hext _ _ C02_table_ok). vm_compute.
    eexists. split; [reflexivity|]. split; [reflexivity|]. split; [|reflexivity].
    eexists. split; [apply sub_right, sub_left, sub_refl|reflexivity].
Qed.

(** Read-only calls erased: same final state, same remaining outputs, on the example. *)
Example C02_example_erase :
  erase C02_example_ops =
    [OSet [1%N] [10%N]; OSet [2%N] [20%N]; OSet [3%N] [30%N]; OSave;
     OSet [4%N] [40%N]; ORemove [1%N]; OSet [2%N] [21%N]; OSave; OReopen; OPrune 1] /\
  fst (run sha256 (init_state 0 false) (erase C02_example_ops)) =
  fst (run sha256 (init_state 0 false) C02_example_ops).
Proof. rewrite !(run_hext _ _ C02_table_ok). vm_compute. split; reflexivity. Qed.

(** *** Why [iv <> 0 \/ ivset = false] is required (a limitation of the model, not of Go):
    the model identifies "new node" with "version 0", so with an explicitly set initial
    version 0 the first commit (version 0) leaves its nodes looking new, and the hash read
    back from version 0 is recomputed with version 1. *)
Example C02_init0_read_back_refuted :
  exists h h',
    h <> h' /\
    snd (run sha256 (init_state 0 true) [OSet [1%N] [10%N]; OSave; ORead (TVersion 0) RHash]) =
      [XBool false; XPair (XBytes (Some h)) (XInt 0); XBytes (Some h')].
Proof. vm_compute. do 2 eexists. split; [|reflexivity]. discriminate. Qed.

(** * Hash memoisation (Memo.v: node.hash, hashWithCount, saveNewNodes, resetUnsavedHashes)

    The model M1 above is pure, so "read-only calls never change a later hash" cannot fail in
    it. The code memoises hashes inside the nodes: [Memo.memo_step] transcribes that (a hash
    memoised by a read-only call is what saveNewNodes stores). On every history in which each
    memoising read uses the version the nodes will be saved under, and SetInitialVersion resets
    the memoised hashes (or there are none, or the working version does not change), the
    memoising machine returns what the pure machine returns. *)
Module MemoPart.
Import Memo MemoFacts.

Theorem C02_memo_refines_pure :
  forall (H : bytes -> bytes) (ops : list mop) (st : memo_state),
    minv H st -> run_ok H st ops = true ->
    snd (memo_run H st ops) = snd (pure_run H (erase_state st) ops) /\
    erase_state (fst (memo_run H st ops)) = fst (pure_run H (erase_state st) ops) /\
    minv H (fst (memo_run H st ops)).
Proof. exact run_refines. Qed.
Print Assumptions C02_memo_refines_pure.

Theorem C02_memo_invariant_initially :
  forall (H : bytes -> bytes) (iv : option Z), minv H (memo_init iv).
Proof. exact minv_init. Qed.
Print Assumptions C02_memo_invariant_initially.

(** Read-only calls (hash, working hash, proofs, graph dump: [MRead], [MWorkingHash]) can be
    deleted from a history without changing any output of the other calls or the final tree. *)
Theorem C02_reads_never_change_hashes :
  forall (H : bytes -> bytes) (st : memo_state) (ops : list mop),
    minv H st -> vrun_ok H (erase_state st) ops = true ->
    snd (memo_run H st (writes ops)) = write_outs ops (snd (memo_run H st ops)) /\
    erase_state (fst (memo_run H st (writes ops))) = erase_state (fst (memo_run H st ops)).
Proof. exact reads_never_change_hashes. Qed.
Print Assumptions C02_reads_never_change_hashes.

(** saveNewNodes stores the canonical hashes when the memoised ones are for its version. *)
Theorem C02_memo_save_is_stamp :
  forall (H : bytes -> bytes) (wv : Z) (t : mnode),
    memo_ok H wv t -> forall n,
    erase (fst (msave H wv n t)) = fst (stamp H wv n (erase t)) /\
    snd (msave H wv n t) = snd (stamp H wv n (erase t)).
Proof. exact msave_spec. Qed.
Print Assumptions C02_memo_save_is_stamp.

(** resetUnsavedHashes (added by commit b7ad1cb of cosmos/iavl's repository under /repo)
    re-establishes the invariant for any working version. *)
Theorem C02_reset_unsaved :
  forall (H : bytes -> bytes) (wv' : Z) (t : mnode),
    closed t -> memo_ok H wv' (reset_unsaved t) /\ erase (reset_unsaved t) = erase t.
Proof. exact reset_memo_ok. Qed.
Print Assumptions C02_reset_unsaved.

(** The repaired defects, as refutations of the unguarded statement (SHA-256, by computation):
    SetInitialVersion after WorkingHash without the reset (b7ad1cb), and a read-only call that
    hashes the working tree with version+1 instead of the initial version (Hash/WorkingHash/
    proofs before the nextVersion() fix, WriteDOTGraph before commit c402680 of the same
    repository). *)
Theorem C02_setiv_without_reset_refuted :
  exists ops,
    minv sha256 (memo_init None) /\
    (forall rv, ~ In (MRead rv) ops) /\
    snd (memo_run sha256 (memo_init None) ops) <> snd (pure_run sha256 (pure_init None) ops).
Proof. exact setiv_without_reset_refuted. Qed.
Print Assumptions C02_setiv_without_reset_refuted.

Theorem C02_read_with_wrong_version_refuted :
  exists ops,
    minv sha256 (memo_init (Some 10)) /\
    (forall v r, ~ In (MSetIV v r) ops) /\
    snd (memo_run sha256 (memo_init (Some 10)) ops) <>
      snd (pure_run sha256 (pure_init (Some 10)) ops).
Proof. exact read_with_wrong_version_refuted. Qed.
Print Assumptions C02_read_with_wrong_version_refuted.

(** non-vacuity: a 26-operation history with rotations, removals, reads of each kind, two
    SetInitialVersion calls and two commits meets the hypotheses *)
Example C02_memo_hypotheses_satisfiable :
  vrun_ok sha256 (pure_init (Some 7)) demo_ops = true /\
  run_ok sha256 (memo_init (Some 7)) demo_ops = true /\
  length (writes demo_ops) = 15%nat.
Proof. exact demo_admissible. Qed.
End MemoPart.
