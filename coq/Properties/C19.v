(** C19: iavl/v2 computes the same tree as v1: same hashes, contents and iteration.
    v2 mutates nodes in place and assigns the node version when a node is mutated; v1 clones
    and assigns it when the version is saved.  The two coincide node by node: no normal-form
    hypothesis on the history is needed.
    Statements are restated in full; proofs are in V2Facts.v. *)
From IAVL Require Import Bytes Varint Sha256 Tree VMap TreeFacts MTree MTreeFacts HashFacts V2 V2Facts
  HashTable Ics23Facts.
Local Open Scope Z_scope.

(** One [Set]: v2 on [t1] against v1 on any [veq]-related [t2] (same keys, values, heights,
    sizes, effective versions; only sequences and stored hashes may differ).  [None] is a Go
    panic/error of v2, excluded for well-formed trees by [C19_set_shape]. *)
Theorem C19_set_step :
  forall (wv sq : Z) (k v : bytes) (t1 t2 : node),
    veq wv t1 t2 ->
    match v2_set wv sq t1 k v with
    | Some (t1', upd) => veq wv t1' (fst (set t2 k v)) /\ upd = snd (set t2 k v)
    | None => True
    end.
Proof.
  intros wv sq k v t1 t2 E. pose proof (v2_set_veq wv sq k v t1 t2 E) as R.
  destruct (v2_set wv sq t1 k v) as [[t1' upd]|]; exact R.
Qed.
Print Assumptions C19_set_step.

Theorem C19_set_shape :
  forall (wv sq : Z) (t : node) (k v : bytes),
    wf t ->
    exists t', v2_set wv sq t k v = Some (t', snd (set t k v)) /\
               veq wv t' (fst (set t k v)) /\ shape_eq wv t' (fst (set t k v)).
Proof. exact v2_set_shape. Qed.
Print Assumptions C19_set_shape.

Theorem C19_remove_shape :
  forall (wv : Z) (t : node) (k : bytes),
    wf t -> avl t ->
    exists res, v2_remove wv t k = Some res /\
      rm_val res = rm_val (remove t k) /\ rm_key res = rm_key (remove t k) /\
      match rm_self res, rm_self (remove t k) with
      | Some x, Some y => veq wv x y /\ shape_eq wv x y
      | None, None => True
      | _, _ => False
      end.
Proof. exact v2_remove_shape. Qed.
Print Assumptions C19_remove_shape.

(** [veq] is finer than the shape the hash depends on *)
Theorem C19_veq_hash :
  forall (H : bytes -> bytes) (wv : Z) (t1 t2 : node),
    veq wv t1 t2 -> shape_eq wv t1 t2 /\ pure_hash H wv t1 = pure_hash H wv t2.
Proof.
  intros H wv t1 t2 E. exact (conj (veq_shape_eq wv t1 t2 E) (pure_hash_ext H wv t1 t2 (veq_shape_eq wv t1 t2 E))).
Qed.
Print Assumptions C19_veq_hash.

(** v2's hash from scratch (every node with its own node-key version) is the IAVL+ hash *)
Theorem C19_v2_hash :
  forall (H : bytes -> bytes) (t : node), v2_hash H t = pure_hash H 0 t.
Proof. exact v2_hash_pure. Qed.
Print Assumptions C19_v2_hash.

(** Whole histories of Set / Remove / SaveVersion from the empty tree: v2 never fails and
    returns exactly what the v1 MutableTree returns (updated flags, removed values, versions,
    root hashes); the working trees are related, hence equal contents and equal structural
    hash for every hash function. *)
Theorem C19_same_hash :
  forall (H : bytes -> bytes) (ops : list wop),
    let r1 := MTree.run H (init_state 0 false) (map wop_v1 ops) in
    exists s2 xs,
      v2t_run H v2t_empty ops = Some (s2, xs) /\
      xs = snd r1 /\
      vt_version s2 = version (fst r1) /\
      oveq (version (fst r1) + 1) (vt_root s2) (root (fst r1)) /\
      oelems (vt_root s2) = oelems (root (fst r1)) /\
      (forall H', opure_hash H' (version (fst r1) + 1) (vt_root s2) =
                  opure_hash H' (version (fst r1) + 1) (root (fst r1))) /\
      oinv (vt_root s2).
Proof. exact v2_same_hash_full. Qed.
Print Assumptions C19_same_hash.

(** Reads of related trees agree, and the v1 invariants transfer (C01, C11). *)
Theorem C19_reads_transfer :
  forall (wv : Z) (t2 t1 : node),
    veq wv t2 t1 ->
    (forall k, get t2 k = get t1 k) /\ (forall k, has t2 k = has t1 k) /\
    (forall i, get_by_index t2 i = get_by_index t1 i) /\
    size t2 = size t1 /\ height t2 = height t1 /\ elems t2 = elems t1 /\
    (wf t1 -> wf t2) /\ (avl t1 -> avl t2) /\
    (forall H, pure_hash H wv t2 = pure_hash H wv t1).
Proof. exact v2_reads_transfer. Qed.
Print Assumptions C19_reads_transfer.

(** The TreeIterator: Iterator(start, end, inclusive) yields the range selection of the
    sorted leaves; ReverseIterator(start, end) the reversed exclusive selection. *)
Theorem C19_iter_forward :
  forall (t : node) (start stop : option bytes) (incl : bool),
    wf t ->
    v2_iter_collect (Some t) start stop incl true =
      Some (range_spec (elems t) start stop incl true).
Proof. exact v2_iter_spec_asc. Qed.
Print Assumptions C19_iter_forward.

Theorem C19_iter_reverse :
  forall (t : node) (start stop : option bytes) (incl : bool),
    wf t ->
    v2_iter_collect (Some t) start stop incl false =
      Some (range_spec (elems t) start stop false false).
Proof. exact v2_iter_spec_desc. Qed.
Print Assumptions C19_iter_reverse.

Theorem C19_iter_spec :
  forall (root : option node) (start stop : option bytes) (incl asc : bool),
    oinv root ->
    v2_iter_collect root start stop incl asc =
      Some (range_spec (oelems root) start stop (incl && asc) asc).
Proof. exact v2_iter_spec. Qed.
Print Assumptions C19_iter_spec.

(** REFUTED (dead code): stepDescend's inclusive branch skips the end key itself. *)
Theorem C19_iter_desc_inclusive_refuted :
  exists t start stop,
    wf t /\
    v2_iter_collect (Some t) start stop true false <>
      Some (range_spec (elems t) start stop true false).
Proof. exact v2_iter_desc_inclusive_refuted. Qed.
Print Assumptions C19_iter_desc_inclusive_refuted.

(** *** Non-vacuity: three versions with insertions (rotations), updates of existing keys,
    a key written twice in one version and removals; v1 and v2 return the same outputs,
    in particular the same three SHA-256 root hashes. *)
Definition C19_example_ops : list wop :=
  [WSet [1%N] [10%N]; WSet [2%N] [20%N]; WSet [3%N] [30%N]; WSet [4%N] [40%N]; WSet [5%N] [50%N];
   WSave;
   WSet [3%N] [31%N]; WSet [6%N] [60%N]; WSet [6%N] [61%N]; WRemove [1%N]; WSet [7%N] [70%N];
   WSave;
   WRemove [4%N]; WSet [0%N] [1%N]; WRemove [9%N];
   WSave].

Definition C19_hash_of (x : out) : option bytes :=
  match x with XPair (XBytes h) _ => h | _ => None end.

(** A v2 commit hashes each new node twice ([v2t_save] calls [v2_deep_hash] for the tree and
    again for the root hash) and v1 hashes the same strings once more.  The example is
    evaluated with SHA-256 replaced by a table of its values on the strings hashed for the
    nodes of the three versions: both machines depend on the hash function through its values
    only, and every entry is checked against SHA-256 once, in [C19_table_ok]. *)
Definition C19_table : kvs := Eval vm_compute in
  table_of sha256
    (flat_map (fun p => match snd p with Some t => tree_inputs sha256 0 t | None => [] end)
       (forest (fst (MTree.run sha256 (init_state 0 false) (map wop_v1 C19_example_ops))))).
Lemma C19_table_ok b : sha256 b = memo sha256 C19_table b.
Proof. revert b. apply memo_sound. vm_compute. reflexivity. Qed.

Example C19_example :
  match v2t_run sha256 v2t_empty C19_example_ops with
  | Some (s2, xs) =>
      let xs1 := snd (MTree.run sha256 (init_state 0 false) (map wop_v1 C19_example_ops)) in
      let h i := C19_hash_of (nth i xs XErr) in
      let h1 i := C19_hash_of (nth i xs1 XErr) in
      let beq a b := match a, b with
                     | Some x, Some y => if list_eq_dec N.eq_dec x y then true else false
                     | _, _ => false
                     end in
      Some (length xs, length xs1,
            (* the three commits return the same hashes in v1 and v2, all different *)
            [beq (h 5%nat) (h1 5%nat); beq (h 11%nat) (h1 11%nat); beq (h 15%nat) (h1 15%nat)],
            [beq (h 5%nat) (h 11%nat); beq (h 11%nat) (h 15%nat)],
            (* the other outputs *)
            firstn 5 xs, firstn 5 xs1, nth 9 xs XErr, nth 9 xs1 XErr, nth 14 xs XErr, nth 14 xs1 XErr,
            vt_version s2,
            v2_iter_collect (vt_root s2) (Some [2%N]) (Some [6%N]) true true,
            v2_iter_collect (vt_root s2) (Some [2%N]) (Some [6%N]) false false)
  | None => None
  end =
  Some (16%nat, 16%nat, [true; true; true], [false; false],
        [XBool false; XBool false; XBool false; XBool false; XBool false],
        [XBool false; XBool false; XBool false; XBool false; XBool false],
        XPair (XBytes (Some [10%N])) (XBool true), XPair (XBytes (Some [10%N])) (XBool true),
        XPair (XBytes None) (XBool false), XPair (XBytes None) (XBool false),
        3,
        Some [([2%N], [20%N]); ([3%N], [31%N]); ([5%N], [50%N]); ([6%N], [61%N])],
        Some [([5%N], [50%N]); ([3%N], [31%N]); ([2%N], [20%N])]).
Proof.
  rewrite (v2t_run_hext _ _ C19_table_ok), (run_hext _ _ C19_table_ok). vm_compute. reflexivity.
Qed.
