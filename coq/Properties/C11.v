(** C11: every tree of every reachable state is a well-formed AVL tree; AVL trees have
    Fibonacci-bounded height; index and rank lookups are mutually inverse.
    Statements are restated in full; proofs are in MTreeFacts.v / TreeFacts.v, those of the
    read counts in CostFacts.v. *)
From IAVL Require Import Bytes Varint Sha256 Tree VMap TreeFacts MTree MTreeFacts.
From IAVL Require Cost CostFacts.
Local Open Scope Z_scope.

Theorem C11_avl_reachable :
  forall (H : bytes -> bytes) (iv : Z) (b : bool) (ops : list op),
    0 <= iv ->
    let s := fst (run H (init_state iv b) ops) in
    (forall n, root s = Some n -> wf n /\ avl n) /\
    (forall n, last_saved s = Some n -> wf n /\ avl n) /\
    (forall v n, In (v, Some n) (forest s) -> wf n /\ avl n) /\
    (forall v n, lookup v (forest s) = Some (Some n) -> wf n /\ avl n).
Proof. exact reachable_avl. Qed.
Print Assumptions C11_avl_reachable.

Theorem C11_fib_bound :
  forall t : node, wf t -> avl t -> fib (Z.to_nat (height t) + 2) <= size t.
Proof. exact avl_fib. Qed.
Print Assumptions C11_fib_bound.

Theorem C11_rank_inverse :
  forall (t : node) (i : Z) (k v : bytes),
    wf t ->
    (get_by_index t i = Some (k, v) <-> (0 <= i /\ get t k = (i, Some v))).
Proof. exact get_by_index_get. Qed.
Print Assumptions C11_rank_inverse.

Theorem C11_index_out_of_range :
  forall (t : node) (i : Z),
    wf t -> i < 0 \/ size t <= i -> get_by_index t i = None.
Proof. exact get_by_index_out_of_range. Qed.
Print Assumptions C11_index_out_of_range.

(** Stamping (SaveVersion's node persistence) preserves shape and both invariants. *)
Theorem C11_stamp_preserves :
  forall (H : bytes -> bytes) (wv n : Z) (t : node),
    elems (fst (stamp H wv n t)) = elems t /\
    height (fst (stamp H wv n t)) = height t /\
    size (fst (stamp H wv n t)) = size t /\
    (wf t -> wf (fst (stamp H wv n t))) /\
    (avl t -> avl (fst (stamp H wv n t))).
Proof.
  intros H wv n t.
  exact (conj (stamp_elems H wv n t) (conj (stamp_height H wv n t) (conj (stamp_size H wv n t)
        (conj (stamp_wf H wv t n) (stamp_avl H wv t n))))).
Qed.
Print Assumptions C11_stamp_preserves.

(** *** Non-vacuity: a concrete reachable state (SHA-256 as the hash) whose working tree went
    through insertions with rebalancing, a removal and a save. *)
Definition C11_example_ops : list op :=
  [OSet [1%N] [10%N]; OSet [2%N] [20%N]; OSet [3%N] [30%N]; OSet [4%N] [40%N];
   OSet [5%N] [50%N]; OSave; OSet [6%N] [60%N]; OSet [7%N] [70%N]; ORemove [1%N]].

Example C11_example :
  let s := fst (run sha256 (init_state 0 false) C11_example_ops) in
  exists n sv,
    root s = Some n /\ lookup 1 (forest s) = Some (Some sv) /\
    (* the working tree: 6 leaves at height 3 (a degenerate tree would have height 5) *)
    map fst (elems n) = [[2%N]; [3%N]; [4%N]; [5%N]; [6%N]; [7%N]] /\
    size n = 6 /\ height n = 3 /\
    (fib (Z.to_nat (height n) + 2) <=? size n) = true /\
    (* the saved tree *)
    size sv = 5 /\ height sv = 3 /\
    (* both sides of the rank/index equivalence hold at index 2; out of range is None *)
    get_by_index n 2 = Some ([4%N], [40%N]) /\ get n [4%N] = (2, Some [40%N]) /\
    get_by_index n 6 = None /\ get_by_index n (-1) = None.
Proof. vm_compute. do 2 eexists. repeat split; reflexivity. Qed.

(** * Node reads of lookups and proofs with nothing cached (Cost.v: getLeftNode/getRightNode
    fetch a child with one read and do not keep it; [Node.get], [has], [getByIndex],
    [pathToLeaf], [GetMembershipProof], [GetNonMembershipProof], [GetProof] as coded) *)
Module CostPart.
Import Cost CostFacts.

(** the second half of the property, for every well-formed tree (balance is not needed) *)
Theorem C11_read_bounds :
  forall t : node, wf t ->
    (forall k, cost_get t k <= 2 * height t + 2) /\
    (forall k, cost_has t k <= 2 * height t + 2) /\
    (forall k, cost_get_with_index t k <= 2 * height t + 2) /\
    (forall i, cost_get_by_index t i <= 2 * height t + 2) /\
    (forall k, cost_membership_proof t k <= 10 * height t + 10) /\
    (forall k, cost_nonmembership_proof t k <= 10 * height t + 10) /\
    (forall k, cost_get_proof t k <= 10 * height t + 10).
Proof. exact cost_C11. Qed.
Print Assumptions C11_read_bounds.

(** exact costs: a lookup reads one node per level of the search path, an existence proof two *)
Theorem C11_get_cost_exact :
  forall (t : node) (k : bytes), cost_get t k = depth t k.
Proof. exact cost_get_exact. Qed.
Print Assumptions C11_get_cost_exact.

Theorem C11_membership_cost_exact :
  forall (t : node) (k : bytes), cost_membership_proof t k = 2 * depth t k.
Proof. exact cost_membership_proof_exact. Qed.
Print Assumptions C11_membership_cost_exact.

(** the sharp bound for [GetProof], and a family of trees of every height that attains it: the
    margin of the property's 10h+10 is eleven reads *)
Theorem C11_proof_cost_sharp :
  forall (t : node) (k : bytes),
    heights_ok t -> sizes_pos t -> 1 <= height t -> cost_get_proof t k <= 10 * height t - 1.
Proof. exact cost_get_proof_sharp. Qed.
Print Assumptions C11_proof_cost_sharp.

(* the witnesses are spines whose keys are single bytes counting up from 0; up to n = 125 they
   stay below 256, so the keys are byte strings *)
Theorem C11_proof_cost_sharp_attained :
  forall n : nat, exists t k,
    wf t /\ height t = Z.of_nat n + 1 /\ has t k = false /\
    ((n <= 125)%nat -> keys_all well_formed t /\ well_formed k) /\
    cost_get_proof t k = 10 * height t - 1.
Proof. exact cost_get_proof_sharp_attained. Qed.
Print Assumptions C11_proof_cost_sharp_attained.

(** a lookup by rank fetches the left child at every step (for its size) and both children on a
    right step: "one read per level" is false for it, 2h is the bound *)
Theorem C11_get_by_index_one_per_level_refuted :
  exists t i, wf t /\ avl t /\ get_by_index t i <> None /\ ~ cost_get_by_index t i <= height t.
Proof. exact cost_get_by_index_le_height_refuted. Qed.
Print Assumptions C11_get_by_index_one_per_level_refuted.
End CostPart.
