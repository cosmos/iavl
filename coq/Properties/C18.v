(** C18: the in-memory, LevelDB and prefix-namespaced backends behave as the same sorted map.
    Models in KV.v, proofs in KVFacts.v.  Statements are restated in full.

    [cpIncr] is modelled as fixed by commit 179067f of cosmos/iavl's repository under /repo (the
    bound is the incremented prefix WITHOUT
    the zeroed tail).  Before that fix [cpIncr [115;255] = [116;0]], the range [p, cpIncr p)
    contained the foreign key [116], and [PrefixDB.ReverseIterator(start, nil)] of such a
    namespace was empty; [C18_fixed_riter] and [C18_fixed_isolation] are those inputs under the
    fixed function.

    Deviations from the informal C18 text, modelled faithfully:
    [GoLevelDB.Has] of an empty key answers [false] instead of an error ([C18_backend_steps]);
    a PrefixDB with an empty prefix panics / errors on nil bounds ([C18_views]). *)
From IAVL Require Import Bytes VMap KV KVFacts.
Local Open Scope N_scope.

(** * cpIncr *)

Theorem C18_cpIncr_none :
  forall p k : bytes,
    p <> [] -> cpIncr p = None -> well_formed k ->
    (ble p k = true <-> is_prefix p k = true).
Proof. exact cpIncr_spec_none. Qed.
Print Assumptions C18_cpIncr_none.

Theorem C18_cpIncr_sound :
  forall p q k : bytes,
    cpIncr p = Some q -> is_prefix p k = true -> ble p k = true /\ blt k q = true.
Proof. exact cpIncr_spec_sound. Qed.
Print Assumptions C18_cpIncr_sound.

(** exact for EVERY non-empty prefix, 0xFF runs included *)
Theorem C18_cpIncr :
  forall p q k : bytes,
    cpIncr p = Some q -> well_formed k ->
    ((ble p k = true /\ blt k q = true) <-> is_prefix p k = true).
Proof. exact cpIncr_spec. Qed.
Print Assumptions C18_cpIncr.

Theorem C18_cpIncr_none_iff :
  forall p : bytes, cpIncr p = None <-> Forall (fun x => 255 <= x) p.
Proof. exact cpIncr_none_iff. Qed.
Print Assumptions C18_cpIncr_none_iff.

(** * PrefixDB *)

(** every PrefixDB operation (point operations, both iterators for all bounds, batch programs,
    with their error results) is the spec operation on the sub-map of the namespace, and the
    entries outside the namespace are untouched *)
Theorem C18_prefix_view :
  forall (p : bytes) (m : kvs) (op : kvop),
    p <> [] -> sorted m -> wf_keys m ->
    kv_step (view p m) op =
      (view p (fst (prefix_step kv_step p m op)), snd (prefix_step kv_step p m op)) /\
    outside p (fst (prefix_step kv_step p m op)) = outside p m /\
    sorted (fst (prefix_step kv_step p m op)).
Proof. exact prefix_view. Qed.
Print Assumptions C18_prefix_view.

Theorem C18_prefix_iter :
  forall (p : bytes) (m : kvs) (start stop : option bytes),
    p <> [] -> sorted m -> bad_bound start || bad_bound stop = false ->
    piter kv_step p m start stop = (m, OPairs (kv_iter (view p m) start stop)).
Proof. exact piter_spec. Qed.
Print Assumptions C18_prefix_iter.

Theorem C18_prefix_riter :
  forall (p : bytes) (m : kvs) (start stop : option bytes),
    p <> [] -> sorted m -> bad_bound start || bad_bound stop = false ->
    (stop = None -> wf_keys m) ->
    priter kv_step p m start stop = (m, OPairs (kv_riter (view p m) start stop)).
Proof. exact priter_spec. Qed.
Print Assumptions C18_prefix_riter.

(** PrefixDB over the MemDB model / the GoLevelDB model = PrefixDB over the spec *)
Theorem C18_prefix_over_backends :
  forall (p : bytes) (m : kvs) (op : kvop),
    p <> [] -> sorted m ->
    prefix_step mem_step p m op = prefix_step kv_step p m op /\
    prefix_step ldb_step p m op = prefix_step kv_step p m op.
Proof. exact (fun p m op Hp Hs => conj (prefix_step_mem p m op Hp Hs) (prefix_step_ldb p m op Hp Hs)). Qed.
Print Assumptions C18_prefix_over_backends.

(** * Iterator adapters *)

Theorem C18_memdb_iter :
  forall (l : kvs) (start stop : option bytes),
    sorted l ->
    memdb_iter l start stop false = kv_iter l start stop /\
    memdb_iter l start stop true = kv_riter l start stop.
Proof. exact memdb_iter_spec. Qed.
Print Assumptions C18_memdb_iter.

Theorem C18_leveldb_iter :
  forall (l : kvs) (start stop : option bytes),
    sorted l ->
    ldb_collect l start stop false = Some (kv_iter l start stop) /\
    ldb_collect l start stop true = Some (kv_riter l start stop).
Proof. exact ldb_collect_spec. Qed.
Print Assumptions C18_leveldb_iter.

(** the adapter logic alone (Seek/Prev/Last positioning, Valid bound checks) is correct on any
    sorted source, i.e. also without goleveldb's own range restriction *)
Theorem C18_leveldb_adapter :
  forall (s : kvs) (start stop : option bytes),
    sorted s ->
    ldb_run s start stop false = Some (kv_iter s start stop) /\
    ldb_run s start stop true = Some (kv_riter s start stop).
Proof. exact ldb_run_spec. Qed.
Print Assumptions C18_leveldb_adapter.

(** whole steps: MemDB = spec; GoLevelDB = spec except that [Has] of an empty key answers
    [false] instead of an error *)
Theorem C18_backend_steps :
  forall (m : kvs) (op : kvop),
    sorted m ->
    mem_step m op = kv_step m op /\
    (op <> KHas [] -> ldb_step m op = kv_step m op) /\
    ldb_step m (KHas []) = (m, OBool (kv_has m [])).
Proof.
  exact (fun m op Hs => conj (mem_step_spec m op Hs)
                       (conj (ldb_step_spec m op Hs) (ldb_step_has_empty m))).
Qed.
Print Assumptions C18_backend_steps.

(** * Batches *)

Theorem C18_batch :
  (* Write applies the recorded operations in order, in one step, and closes the batch *)
  (forall b m, b_closed b = false ->
     b_write b m = (mkBatch [] true, fold_left apply_op (b_ops b) m, None)) /\
  (forall b m, b_closed (fst (fst (b_write b m))) = true) /\
  (forall b, b_closed (fst (b_close b)) = true) /\
  (* a closed batch rejects everything and stays as it is; the store is not touched *)
  (forall b k v, b_closed b = true -> exists e, b_set b k v = (b, Some e)) /\
  (forall b k, b_closed b = true -> exists e, b_delete b k = (b, Some e)) /\
  (forall b m, b_closed b = true -> b_write b m = (b, m, Some ErrBatchClosed)) /\
  (* empty keys and nil values are rejected *)
  (forall b v, b_set b [] v = (b, Some ErrKeyEmpty)) /\
  (forall b k, k <> [] -> b_set b k None = (b, Some ErrValueNil)) /\
  (forall b, b_delete b [] = (b, Some ErrKeyEmpty)) /\
  (* a whole batch program on the spec store *)
  (forall m ops1 w ops2,
     kv_step m (KBatch ops1 w ops2) =
     ((if w then fold_left apply_op (flat_map bop_accept ops1) m else m),
      OBatch (map (bop_result false) ops1 ++ [None] ++ map (bop_result true) ops2
              ++ [Some ErrBatchClosed]))) /\
  (forall o, bop_result true o <> None) /\
  (forall ops, Forall (fun x => op_key x <> []) (flat_map bop_accept ops)).
Proof.
  exact (conj b_write_open (conj b_write_closes (conj b_close_closes (conj b_set_closed
        (conj b_delete_closed (conj b_write_closed (conj b_set_rejects (conj b_set_rejects_nil
        (conj b_delete_rejects (conj batch_spec (conj bop_result_closed accepted_nonempty))))))))))).
Qed.
Print Assumptions C18_batch.

(** a batch program through a PrefixDB: same results, prefixed operations *)
Theorem C18_batch_prefix :
  forall (p : bytes) (m : kvs) (ops1 : list bop) (w : bool) (ops2 : list bop),
    batch_prog (pb_set p) (pb_delete p) m ops1 w ops2 =
    ((if w then fold_left apply_op (map (pfx_op p) (flat_map bop_accept ops1)) m else m),
     OBatch (map (bop_result false) ops1 ++ [None] ++ map (bop_result true) ops2
             ++ [Some ErrBatchClosed])).
Proof. exact batch_prog_prefix. Qed.
Print Assumptions C18_batch_prefix.

(** sortedness and "no empty key" are invariants of every model (values are [bytes], never nil,
    by construction; a nil value is rejected at the API boundary) *)
Theorem C18_store_invariant :
  forall (m : kvs) (op : kvop),
    store_inv m ->
    store_inv (fst (kv_step m op)) /\ store_inv (fst (mem_step m op)) /\
    store_inv (fst (ldb_step m op)) /\
    (forall p, store_inv (fst (prefix_step kv_step p m op))).
Proof.
  exact (fun m op H => conj (kv_step_inv m op H) (conj (mem_step_inv m op H)
        (conj (ldb_step_inv m op H) (fun p => prefix_step_inv p m op H)))).
Qed.
Print Assumptions C18_store_invariant.

(** [wf_keys] (every byte of every stored key < 256) is preserved by well-formed operations *)
Theorem C18_wf_invariant :
  forall (p : bytes) (m : kvs) (op : kvop),
    well_formed p -> op_wf op -> wf_keys m ->
    wf_keys (fst (kv_step m op)) /\ wf_keys (fst (prefix_step kv_step p m op)).
Proof.
  exact (fun p m op Hp Ho Hm => conj (kv_step_wf m op Ho Hm) (prefix_step_wf p m op Hp Ho Hm)).
Qed.
Print Assumptions C18_wf_invariant.

(** * Point reads see the last write *)

Theorem C18_last_write_wins :
  (forall m k v, kv_get (kv_set m k v) k = Some v) /\
  (forall m k v k', k' <> k -> kv_get (kv_set m k v) k' = kv_get m k') /\
  (forall m k, sorted m -> kv_get (kv_delete m k) k = None) /\
  (forall m k k', k' <> k -> kv_get (kv_delete m k) k' = kv_get m k') /\
  (forall m k v, sorted m -> sorted (kv_set m k v)) /\
  (forall m k, sorted m -> sorted (kv_delete m k)).
Proof. exact last_write_wins. Qed.
Print Assumptions C18_last_write_wins.

(** * Non-vacuity: keys over the bytes 0, 97, 255; prefixes [115;255;0] and [255;255] *)

Definition C18_store : kvs :=
  [([0], [1]); ([97], [2]); ([115; 255], [20]); ([115; 255; 0], [21]);
   ([115; 255; 0; 0], [3]); ([115; 255; 0; 97; 255], [4]); ([115; 255; 0; 255], [5]);
   ([115; 255; 1], [6]); ([255], [22]); ([255; 255], [7]); ([255; 255; 0], [8]);
   ([255; 255; 97], [9]); ([255; 255; 255], [10]); ([255; 255; 255; 255], [11])].

Example C18_store_ok : store_inv C18_store /\ wf_keys C18_store.
Proof.
  split; [split|].
  - simpl. repeat split; repeat constructor.
  - repeat constructor; simpl; discriminate.
  - repeat constructor.
Qed.

Example C18_cpIncr_examples :
  cpIncr [115; 255; 0] = Some [115; 255; 1] /\ cpIncr [255; 255] = None /\
  cpIncr [115; 255] = Some [116] /\ cpIncr [0; 97; 255; 255] = Some [0; 98] /\
  cpIncr [255; 255; 255] = None /\ cpIncr [255; 0; 255] = Some [255; 1].
Proof. vm_compute. repeat split. Qed.

(** the counterexamples to the unfixed [cpIncr]: prefix [115;255] with the foreign key [116] in the store, on
    the spec, MemDB and GoLevelDB models *)
Example C18_fixed_riter :
  let p := [115; 255] in
  let m := [([115; 255; 5], [1]); ([116], [3])] in
  store_inv m /\ wf_keys m /\
  kv_step (view p m) (KRIter None None) = (view p m, OPairs [([5], [1])]) /\
  prefix_step kv_step p m (KRIter None None) = (m, OPairs [([5], [1])]) /\
  prefix_step mem_step p m (KRIter None None) = (m, OPairs [([5], [1])]) /\
  prefix_step ldb_step p m (KRIter None None) = (m, OPairs [([5], [1])]).
Proof.
  split; [split; [simpl; repeat constructor | repeat constructor; simpl; discriminate]|].
  split; [repeat constructor|]. vm_compute. repeat split.
Qed.

(** a write through the disjoint sibling namespace [116] does not disturb [115;255;255] *)
Example C18_fixed_isolation :
  let p := [115; 255; 255] in
  let m := [([115; 255; 255; 7], [2])] in
  let m' := fst (prefix_step kv_step [116] m (KSet [0] (Some [9]))) in
  m' = [([115; 255; 255; 7], [2]); ([116; 0], [9])] /\
  view p m' = view p m /\
  snd (prefix_step kv_step p m (KRIter None None)) = OPairs [([7], [2])] /\
  snd (prefix_step kv_step p m' (KRIter None None)) = OPairs [([7], [2])] /\
  snd (prefix_step ldb_step p m' (KRIter (Some [7]) None)) = OPairs [([7], [2])].
Proof. vm_compute. repeat split. Qed.

Example C18_views :
  view [115; 255; 0] C18_store = [([0], [3]); ([97; 255], [4]); ([255], [5])] /\
  view [255; 255] C18_store = [([0], [8]); ([97], [9]); ([255], [10]); ([255; 255], [11])] /\
  prefix_step kv_step [115; 255; 0] C18_store (KRIter None None) =
    (C18_store, OPairs [([255], [5]); ([97; 255], [4]); ([0], [3])]) /\
  prefix_step ldb_step [255; 255] C18_store (KRIter (Some [0]) None) =
    (C18_store, OPairs [([255; 255], [11]); ([255], [10]); ([97], [9]); ([0], [8])]) /\
  prefix_step mem_step [255; 255] C18_store (KIter (Some [97]) (Some [255; 255])) =
    (C18_store, OPairs [([97], [9]); ([255], [10])]) /\
  snd (prefix_step mem_step [255; 255] C18_store (KIter (Some []) None)) = OErr ErrKeyEmpty /\
  snd (prefix_step mem_step [] C18_store (KIter None None)) = OPanic.
Proof. vm_compute. repeat split. Qed.

(** one program on the four models: same outputs, same final store (modulo the namespace) *)
Definition C18_prog : list kvop :=
  [KSet [255] (Some [1]); KSet [0; 255] (Some []); KSet [] (Some [1]); KSet [97] None;
   KGet [255]; KGet [97]; KHas [0; 255]; KDelete [255]; KGet [255];
   KBatch [(true, [97], Some [7]); (true, [], Some [7]); (true, [0], None); (false, [0; 255], None)]
          true [(true, [97], Some [8]); (false, [], None)];
   KIter None None; KRIter None None; KIter (Some [0]) (Some [97]); KRIter (Some [97]) (Some [0]);
   KRIter (Some [0; 255]) (Some [97; 0]); KIter None (Some [])].

Example C18_prog_agrees :
  kv_run mem_step [] C18_prog = kv_run kv_step [] C18_prog /\
  kv_run ldb_step [] C18_prog = kv_run kv_step [] C18_prog /\
  snd (kv_run (prefix_step mem_step [115; 255; 0]) C18_store C18_prog) =
    snd (kv_run kv_step (view [115; 255; 0] C18_store) C18_prog) /\
  snd (kv_run (prefix_step ldb_step [255; 255]) C18_store C18_prog) =
    snd (kv_run kv_step (view [255; 255] C18_store) C18_prog) /\
  snd (kv_run kv_step [] C18_prog) =
    [OOk; OOk; OErr ErrKeyEmpty; OErr ErrValueNil; OBytes (Some [1]); OBytes None; OBool true;
     OOk; OBytes None;
     OBatch [None; Some ErrKeyEmpty; Some ErrValueNil; None; None;
             Some ErrBatchClosed; Some ErrKeyEmpty; Some ErrBatchClosed];
     OPairs [([97], [7])]; OPairs [([97], [7])]; OPairs []; OPairs []; OPairs [([97], [7])];
     OErr ErrKeyEmpty].
Proof. vm_compute. repeat split. Qed.
