(** C14: commits are numbered consecutively from 1 or from the configured initial version; the
    available versions are exactly the contiguous range [first .. latest]; VersionExists,
    GetLatestVersion, AvailableVersions, GetImmutable (reads at a version), GetVersioned and
    LoadVersion all agree with that range, also after reopening; committing an existing version
    number succeeds without effect iff the root hash is identical and otherwise fails leaving the
    store unchanged; loading / querying outside the range fails and leaves the state unchanged.

    All of this holds under the usage contract [in_contract] (never prune the version the working
    tree is based on, never LoadVersionForOverwriting(0)) and the side condition [init_ok] on the
    initial version.  Statements are restated in full; proofs are in VersionFacts.v
    (overwriting: MTreeFacts.v / HashFacts.v; discovery: DiscoverFacts.v). *)
From IAVL Require Import Bytes Varint Sha256 Tree VMap TreeFacts MTree MTreeFacts VersionFacts.
From IAVL Require Import HashFacts Store StoreFacts PruneAlgo Discover DiscoverFacts.
Local Open Scope Z_scope.

(** *** 1. The contract, the invariant, its preservation *)

Theorem C14_contract_defs :
  (forall s o, in_contract s o =
     match o with OPrune n => n < version s | OLvfo v => 1 <= v | _ => True end) /\
  (forall iv b, init_ok iv b = if b then 0 < iv else 0 <= iv <= 1) /\
  (forall s v, in_range s v = (forest s <> [] /\ first_version s <= v <= latest_version s)) /\
  (forall lo hi, zrange lo hi = zseq lo (Z.to_nat (hi - lo + 1))) /\
  (forall l, consecutive l = (l = zseq (hd 0 l) (length l))) /\
  (forall s, contig s =
     ((consecutive (map fst (forest s)) /\
       Forall (fun v => 1 <= v /\ init_ver s <= v) (map fst (forest s))) /\
      ((version s = 0 /\ forest s = [] /\ last_saved s = None /\ init_set s = init_opt s) \/
       lookup (version s) (forest s) = Some (last_saved s)) /\
      0 <= init_ver s /\
      (if init_opt s then 0 < init_ver s else init_ver s <= 1))).
Proof. repeat split; intros; destruct o; reflexivity. Qed.
Print Assumptions C14_contract_defs.

Theorem C14_zrange_members : forall v lo hi, In v (zrange lo hi) <-> lo <= v <= hi.
Proof. exact In_zrange. Qed.
Print Assumptions C14_zrange_members.

Theorem C14_contig_init : forall iv b, init_ok iv b -> contig (init_state iv b).
Proof. exact contig_init. Qed.
Print Assumptions C14_contig_init.

Theorem C14_contig_step :
  forall (H : bytes -> bytes) (s : mstate) (o : op),
    contig s -> in_contract s o -> contig (fst (step H s o)).
Proof. exact step_contig. Qed.
Print Assumptions C14_contig_step.

Theorem C14_contig_run :
  forall (H : bytes -> bytes) (ops : list op) (s : mstate),
    contig s -> run_ok H s ops -> contig (fst (run H s ops)).
Proof. exact run_contig. Qed.
Print Assumptions C14_contig_run.

(** every in-contract history: the retained versions are exactly [first .. latest], all >= 1 and
    >= the initial version, and the working tree is based on one of them *)
Theorem C14_reachable_range :
  forall (H : bytes -> bytes) (iv : Z) (b : bool) (ops : list op),
    init_ok iv b ->
    run_ok H (init_state iv b) ops ->
    let s := fst (run H (init_state iv b) ops) in
    contig s /\
    ((forest s = [] /\ available s = [] /\ first_version s = 0 /\ latest_version s = 0 /\
      version s = 0) \/
     (forest s <> [] /\
      1 <= first_version s <= latest_version s /\
      init_ver s <= first_version s /\
      first_version s <= version s <= latest_version s /\
      available s = zrange (first_version s) (latest_version s))).
Proof. exact reachable_range. Qed.
Print Assumptions C14_reachable_range.

(** *** 2. Every query agrees with the range *)

Theorem C14_available_iff_range :
  forall (s : mstate) (v : Z), contig s -> (In v (available s) <-> in_range s v).
Proof. exact in_range_available. Qed.
Print Assumptions C14_available_iff_range.

Theorem C14_version_exists_iff_range :
  forall (s : mstate) (v : Z), contig s -> (version_exists s v = true <-> in_range s v).
Proof. exact in_range_version_exists. Qed.
Print Assumptions C14_version_exists_iff_range.

Theorem C14_lookup_iff_range :
  forall (s : mstate) (v : Z),
    contig s -> ((exists t, lookup v (forest s) = Some t) <-> in_range s v).
Proof. exact in_range_lookup. Qed.
Print Assumptions C14_lookup_iff_range.

Theorem C14_read_version_in_range :
  forall (H : bytes -> bytes) (s : mstate) (v : Z),
    contig s -> in_range s v ->
    exists t : option node,
      lookup v (forest s) = Some t /\
      (forall r : read, step H s (ORead (TVersion v) r) = (s, tree_read H (v + 1) t r)) /\
      (forall k : bytes,
         step H s (OGetVersioned k v) =
         (s, XBytes (match t with Some n => snd (get n k) | None => None end))).
Proof. exact read_version_in_range. Qed.
Print Assumptions C14_read_version_in_range.

Theorem C14_read_version_out_of_range :
  forall (H : bytes -> bytes) (s : mstate) (v : Z),
    contig s -> ~ in_range s v ->
    (forall r : read, step H s (ORead (TVersion v) r) = (s, XErr)) /\
    (forall k : bytes, step H s (OGetVersioned k v) = (s, XBytes None)).
Proof. exact read_version_out_of_range. Qed.
Print Assumptions C14_read_version_out_of_range.

Theorem C14_version_exists_step :
  forall (H : bytes -> bytes) (s : mstate) (v : Z),
    contig s ->
    exists b : bool, step H s (OVersionExists v) = (s, XBool b) /\ (b = true <-> in_range s v).
Proof. exact version_exists_step. Qed.
Print Assumptions C14_version_exists_step.

Theorem C14_latest_available_step :
  forall (H : bytes -> bytes) (s : mstate),
    contig s ->
    step H s OLatest = (s, XInt (latest_version s)) /\
    step H s OAvailable =
      (s, XInts (if list_eq_dec Z.eq_dec (available s) [] then []
                 else zrange (first_version s) (latest_version s))).
Proof. exact latest_available_step. Qed.
Print Assumptions C14_latest_available_step.

Theorem C14_load_in_range :
  forall (H : bytes -> bytes) (s : mstate) (v : Z),
    contig s -> in_range s v ->
    exists t : option node,
      lookup v (forest s) = Some t /\
      step H s (OLoad v) =
        (MState t v t (forest s) (init_ver s) (init_set s) (init_opt s),
         XInt (latest_version s)).
Proof. exact load_in_range. Qed.
Print Assumptions C14_load_in_range.

Theorem C14_load_latest :
  forall (H : bytes -> bytes) (s : mstate) (v : Z),
    contig s -> v <= 0 ->
    (forest s = [] /\ step H s (OLoad v) = (s, XInt 0)) \/
    (forest s <> [] /\
     exists t : option node,
       lookup (latest_version s) (forest s) = Some t /\
       step H s (OLoad v) =
         (MState t (latest_version s) t (forest s) (init_ver s) (init_set s) (init_opt s),
          XInt (latest_version s))).
Proof. exact load_latest. Qed.
Print Assumptions C14_load_latest.

Theorem C14_load_out_of_range :
  forall (H : bytes -> bytes) (s : mstate) (v : Z),
    contig s -> 0 < v -> ~ in_range s v -> step H s (OLoad v) = (s, XErr).
Proof. exact load_out_of_range. Qed.
Print Assumptions C14_load_out_of_range.

Theorem C14_failed_queries_harmless :
  forall (H : bytes -> bytes) (s : mstate) (v : Z),
    contig s -> 0 < v -> ~ in_range s v ->
    fst (step H s (OLoad v)) = s /\
    (forall r : read, fst (step H s (ORead (TVersion v) r)) = s) /\
    (forall k : bytes, fst (step H s (OGetVersioned k v)) = s) /\
    fst (step H s (OVersionExists v)) = s.
Proof. exact failed_queries_harmless. Qed.
Print Assumptions C14_failed_queries_harmless.

(** *** 3. Commit numbering and overwriting *)

Theorem C14_save_cases :
  forall s : mstate,
    contig s ->
    let wv := working_version s in
    (~ in_range s wv /\ lookup wv (forest s) = None) \/
    (in_range s wv /\ exists e, lookup wv (forest s) = Some e).
Proof. exact save_cases. Qed.
Print Assumptions C14_save_cases.

Theorem C14_save_new_version :
  forall (H : bytes -> bytes) (s : mstate),
    contig s ->
    lookup (working_version s) (forest s) = None ->
    let wv := working_version s in
    exists r' : option node,
      oelems r' = oelems (root s) /\
      step H s OSave =
        (MState r' wv r' (forest s ++ [(wv, r')]) (init_ver s) false (init_opt s),
         XPair (XBytes (Some (root_hash H wv r'))) (XInt wv)) /\
      ((forest s = [] /\ wv = (if init_opt s then init_ver s else 1)) \/
       (forest s <> [] /\ version s = latest_version s /\ wv = latest_version s + 1)) /\
      available (fst (step H s OSave)) = available s ++ [wv] /\
      latest_version (fst (step H s OSave)) = wv /\
      contig (fst (step H s OSave)).
Proof. exact save_new_version. Qed.
Print Assumptions C14_save_new_version.

Theorem C14_save_existing :
  forall (H : bytes -> bytes) (s : mstate) (e : option node),
    lookup (working_version s) (forest s) = Some e ->
    let wv := working_version s in
    let same :=
      match e, root s with
      | None, None => True
      | Some n, _ => hs (nmeta n) = root_hash H wv (root s)
      | None, Some _ => False
      end in
    (same /\
     step H s OSave =
       (MState e wv e (forest s) (init_ver s) false (init_opt s),
        XPair (XBytes (Some (root_hash H wv (root s)))) (XInt wv))) \/
    (~ same /\
     step H s OSave =
       (MState (root s) (version s) (last_saved s) (forest s) (init_ver s) false (init_opt s),
        XErr)).
Proof. exact save_existing_sharp. Qed.
Print Assumptions C14_save_existing.

(** *** 4. Reopening *)

Theorem C14_reopen :
  forall (H : bytes -> bytes) (s : mstate),
    contig s ->
    let s' := fst (do_reopen s) in
    step H s OReopen = (s', XOk) /\
    forest s' = forest s /\ available s' = available s /\
    first_version s' = first_version s /\ latest_version s' = latest_version s /\
    init_ver s' = init_ver s /\ init_opt s' = init_opt s /\ init_set s' = init_opt s /\
    version s' = latest_version s /\ root s' = last_saved s' /\
    (forest s = [] -> root s' = None) /\
    (forest s <> [] -> lookup (latest_version s) (forest s) = Some (root s')) /\
    contig s'.
Proof. exact reopen_spec. Qed.
Print Assumptions C14_reopen.

(** *** 5. The degenerate initial version 0 is excluded by [init_ok] for a reason *)

Theorem C14_initial_version_zero_refuted :
  exists ops,
    run_okb (fun b => b) (init_state 0 true) ops = true /\
    snd (run (fun b => b) (init_state 0 true) ops) =
      [XBool false; XPair (XBytes (Some [0; 2; 0; 1; 1; 32; 1]%N)) (XInt 0);
       XOk; XInt 0;
       XBool false; XErr;
       XInts [0]; XInt 0] /\
    ~ contig (fst (run (fun b => b) (init_state 0 true) ops)).
Proof. exact initial_version_zero_refuted. Qed.
Print Assumptions C14_initial_version_zero_refuted.

(** *** Non-vacuity (SHA-256): four commits, the second without writes, a prune, failing and
    succeeding queries, a rejected and an accepted overwrite of version 3, a reopen. *)
Definition C14_k1 : bytes := [1%N].
Definition C14_k2 : bytes := [2%N].

Definition C14_example_ops : list op :=
  [OSet C14_k1 [10%N]; OSave; OSave; OSet C14_k2 [20%N]; OSave; ORemove C14_k1; OSave;
   OPrune 1;
   OAvailable; OLatest; OVersionExists 1; OVersionExists 2; OLoad 1; OLoad 5;
   OGetVersioned C14_k1 1; OGetVersioned C14_k1 2;
   ORead (TVersion 1) RSize; ORead (TVersion 3) RSize;
   OLoad 2; OSave; OWorkingVersion; OSet C14_k2 [20%N]; OSave;
   OReopen; OAvailable; OWorkingVersion].

(** The history is run once, here; the example checks its claims on this outcome. *)
Definition C14_example_res := Eval vm_compute in run sha256 (init_state 0 false) C14_example_ops.
Lemma C14_example_res_eq : run sha256 (init_state 0 false) C14_example_ops = C14_example_res.
Proof. vm_compute. reflexivity. Qed.

Example C14_example :
  let s0 := init_state 0 false in
  let res := run sha256 s0 C14_example_ops in
  init_ok 0 false /\ run_okb sha256 s0 C14_example_ops = true /\
  contig (fst res) /\
  available (fst res) = zrange 2 4 /\ first_version (fst res) = 2 /\ latest_version (fst res) = 4 /\
  exists h1 h3 h4,
    h1 <> h3 /\
    snd res =
      [XBool false; XPair (XBytes (Some h1)) (XInt 1);   (* first commit: version 1 *)
       XPair (XBytes (Some h1)) (XInt 2);                (* commit without writes: same hash *)
       XBool false; XPair (XBytes (Some h3)) (XInt 3);
       XPair (XBytes (Some [10%N])) (XBool true); XPair (XBytes (Some h4)) (XInt 4);
       XOk;                                              (* prune 1 *)
       XInts [2; 3; 4]; XInt 4; XBool false; XBool true;
       XErr; XErr;                                       (* load below / above the range *)
       XBytes None; XBytes (Some [10%N]);                (* GetVersioned outside / inside *)
       XErr; XInt 2;                                     (* GetImmutable outside / inside *)
       XInt 4;                                           (* load 2 *)
       XErr;                                             (* commit 3 again, other contents *)
       XInt 3; XBool false;
       XPair (XBytes (Some h3)) (XInt 3);                (* commit 3 again, same contents *)
       XOk; XInts [2; 3; 4]; XInt 5].                    (* reopen: latest loaded, next is 5 *)
Proof.
  cbv zeta.
  assert (Ok : run_okb sha256 (init_state 0 false) C14_example_ops = true)
    by (vm_compute; reflexivity).
  split; [unfold init_ok; lia|]. split; [exact Ok|].
  split.
  { apply reachable_contig; [unfold init_ok; lia|]. apply run_okb_iff, Ok. }
  rewrite C14_example_res_eq.
  split; [vm_compute; reflexivity|]. split; [vm_compute; reflexivity|].
  split; [vm_compute; reflexivity|].
  vm_compute. do 3 eexists. split; [|reflexivity]. discriminate.
Qed.

(** with an initial version: numbering starts there, also across a reopen *)
Example C14_example_initial_version :
  let s0 := init_state 7 true in
  let ops := [OSet C14_k1 [10%N]; OSave; OSave; OAvailable; OReopen; OSet C14_k2 [2%N]; OSave;
              OAvailable; OVersionExists 6; OLoad 6] in
  init_ok 7 true /\ run_okb sha256 s0 ops = true /\ contig (fst (run sha256 s0 ops)) /\
  exists h7 h9,
    snd (run sha256 s0 ops) =
      [XBool false; XPair (XBytes (Some h7)) (XInt 7); XPair (XBytes (Some h7)) (XInt 8);
       XInts [7; 8]; XOk; XBool false; XPair (XBytes (Some h9)) (XInt 9); XInts [7; 8; 9];
       XBool false; XErr].
Proof.
  cbv zeta. split; [unfold init_ok; lia|]. split; [vm_compute; reflexivity|].
  split.
  { apply reachable_contig; [unfold init_ok; lia|]. apply run_okb_iff. vm_compute. reflexivity. }
  vm_compute. do 2 eexists. reflexivity.
Qed.

(** *** 6. What a freshly opened store discovers (Discover.v: getLatestVersion, the binary search
    of getFirstVersion over the root keys, versionExists / AvailableVersions)

    On the PHYSICAL store of every reachable in-contract state - the expected store with the
    roots of the versions in [r] re-keyed to nonce 0 by earlier deletions - a tree object that has
    cached nothing discovers exactly [first .. latest], PROVIDED no node stored under the root key
    of a deleted version is still part of a retained tree except the re-keyed ones
    ([stale_free_rel]).  Without that proviso the statement is false: finding C14-stale-root-key,
    whose trigger is thereby delimited exactly.
    Versions are int64: hence [latest < 2 ^ 63], and the 64 halvings of [bsearch 64], which
    exhaust every such interval ([C14_binary_search_any_store] with fuel 64). *)

Theorem C14_discovery_defs :
  (forall st v, has_version st v = mhas kcmp (v, 1) st) /\
  (forall st, discover_first st = bsearch 64 st 0 (discover_latest st)) /\
  (forall r f, stale_free_rel r f =
     forall v t u, In (v, Some t) f -> subtree u t -> nonce (nmeta u) = 1 ->
                   first_of_forest f <= ver (nmeta u) \/ In (ver (nmeta u)) r) /\
  (forall r f, phys_of r f = rekey r (expected_store f)).
Proof. repeat split. Qed.
Print Assumptions C14_discovery_defs.

Theorem C14_binary_search_any_store :
  forall st fuel lo hi, lo <= hi -> hi - lo < 2 ^ Z.of_nat fuel ->
  exists m, bsearch fuel st lo hi = Some m /\ lo <= m <= hi /\
            (has_version st m = true \/ m = hi) /\ (m = lo \/ has_version st (m - 1) = false).
Proof. exact bsearch_general. Qed.
Print Assumptions C14_binary_search_any_store.

Theorem C14_discovery_exact_on_reachable_physical_stores :
  forall (H : bytes -> bytes) (iv : Z) (b : bool) (ops : list op) (r : list Z),
  init_ok iv b -> run_ok H (init_state iv b) ops ->
  let s := fst (run H (init_state iv b) ops) in
  latest_version s < 2 ^ 63 ->
  stale_free_rel r (forest s) -> (forall x, In x r -> x < first_version s) ->
  discovered_range (phys_of r (forest s)) = Some (first_version s, latest_version s) /\
  discovered_available (phys_of r (forest s)) = Some (available s).
Proof. exact discover_reachable_rel. Qed.
Print Assumptions C14_discovery_exact_on_reachable_physical_stores.

Theorem C14_discovery_never_above_first :
  forall (r : list Z) (f : forest_t) iv,
  f <> [] -> forest_inv f -> forest_ok f iv -> latest_of_forest f < 2 ^ 63 ->
  (forall x, In x r -> x < first_of_forest f) ->
  exists m, discover_first (phys_of r f) = Some m /\ 0 <= m <= first_of_forest f /\
            has_version (phys_of r f) m = true /\
            (m = 0 \/ has_version (phys_of r f) (m - 1) = false).
Proof. exact discover_first_lower. Qed.
Print Assumptions C14_discovery_never_above_first.

Theorem C14_stale_root_key_refuted :
  let s0 := fst (run sha256 (init_state 0 false) stale_hist0) in
  let s := fst (run sha256 (init_state 0 false) stale_hist) in
  init_ok 0 false /\
  run_ok sha256 (init_state 0 false) stale_hist /\
  (exists w fl, prune_forest sha256 false [] (forest s0) [] 1 = POk (expected_store (forest s), w, fl)) /\
  map fst (expected_store (forest s)) = [(1, 1); (2, 1); (2, 2)] /\
  first_version s = 2 /\ latest_version s = 2 /\ available s = [2] /\
  latest_version s < 2 ^ 63 /\
  ~ stale_free (forest s) /\
  has_version (expected_store (forest s)) 1 = true /\
  discovered_range (expected_store (forest s)) = Some (1, 2) /\
  discovered_available (expected_store (forest s)) = Some [1; 2].
Proof. exact discover_stale_refuted. Qed.
Print Assumptions C14_stale_root_key_refuted.

(** the hypotheses are satisfiable on a state with a re-keyed root: four versions, the second
    shares the root of the first, DeleteVersionsTo(1) re-keys it to (1,0) *)
Example C14_discovery_example :
  let s := dx_state (dx_hist ++ [OPrune 1]) in
  discovered_range (phys_of [1] (forest s)) = Some (first_version s, latest_version s) /\
  discovered_available (phys_of [1] (forest s)) = Some (available s) /\
  available s = [2; 3; 4].
Proof.
  cbv zeta. split; [apply dx_discover_rekeyed_thm|]. split; [apply dx_discover_rekeyed_thm|].
  vm_compute. reflexivity.
Qed.
