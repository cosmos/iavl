(** C12: after every commit, deletion of old versions or rollback, the stored tree nodes are
    exactly those reachable from the roots of the retained versions: no node a retained version
    needs is missing and no unreachable node is left behind.  The persisted fast index holds
    exactly the latest version's pairs, and once every key has been removed and older versions
    deleted no node remains at all.

    (M2 level: [Store.expected_store f] is the sorted store holding exactly [Store.reach f], the
    nodes reachable from the retained roots plus the root entries; the theorems say that the
    ordered physical writes of each operation turn the expected store of the old forest into the
    expected store of the new forest.  Deletion of old versions is stated first for the
    specification-level delete set [Store.prune_ops] (and [Store.prune_steps], the per-version
    protocol with the (v,1) -> (v,0) re-keying, is evaluated on the examples up to
    [Store.norm_store]); the last two parts state it for the algorithm the code runs, PruneAlgo.v:
    the store after every step of every history, the keys each deleteVersion removes, and the
    ordered list of its effective writes.)
    Statements are restated in full, except where the statement is taken from the named lemma by `type of`;
    proofs are in StoreFacts.v and, for the last two parts, PruneAlgoFacts10, 11, 13, 14. *)
From IAVL Require Import Bytes Varint Sha256 Tree VMap TreeFacts MTree MTreeFacts HashFacts VersionFacts
  Store StoreFacts HashTable Ics23Facts.
Local Open Scope Z_scope.

(** the invariant under which everything below holds is satisfied by every state reachable
    within the usage contract *)
Theorem C12_store_ok_reachable :
  forall (H : bytes -> bytes) (iv : Z) (b : bool) (ops : list op),
    init_ok iv b -> run_ok H (init_state iv b) ops ->
    store_ok H (fst (run H (init_state iv b) ops)).
Proof. exact store_ok_reachable. Qed.
Print Assumptions C12_store_ok_reachable.

Theorem C12_store_ok_step :
  forall (H : bytes -> bytes) (s : mstate) (o : op),
    store_ok H s -> in_contract s o -> store_ok H (fst (step H s o)).
Proof. exact store_ok_step. Qed.
Print Assumptions C12_store_ok_step.

(** the expected store holds exactly the reachable entries: nothing missing, nothing else *)
Theorem C12_expected_exactly_reachable :
  forall (f : list (Z * option node)) (k : Z * Z) (e : entry),
    forest_inv f -> NoDup (map fst f) ->
    (In (k, e) (expected_store f) <-> In (k, e) (reach f)).
Proof. exact expected_In. Qed.
Print Assumptions C12_expected_exactly_reachable.

Theorem C12_reach_characterised :
  forall (f : list (Z * option node)) (k : Z * Z) (e : entry),
    In (k, e) (reach f) <->
    (exists u, sub_of f u /\ k = node_key u /\ e = ENode (snode_of u)) \/
    (exists v r, In (v, r) f /\ root_entry v r = Some (k, e)).
Proof. exact reach_In. Qed.
Print Assumptions C12_reach_characterised.

(** a sorted store with the lookups of the reachable entries is the expected store *)
Theorem C12_store_unique :
  forall (f : list (Z * option node)) (st : list ((Z * Z) * entry)),
    forest_inv f -> NoDup (map fst f) -> msorted kcmp st ->
    (forall k e, mfind kcmp k st = Some e <-> In (k, e) (reach f)) ->
    st = expected_store f.
Proof. exact store_unique. Qed.
Print Assumptions C12_store_unique.

Theorem C12_commit_exact :
  forall (H : bytes -> bytes) (fast : bool) (s : mstate) (d : db),
    store_ok H s -> nodes d = expected_store (forest s) ->
    nodes (apply_ops d (commit_ops H fast s)) = expected_store (forest (fst (do_save H s))).
Proof. exact commit_exact. Qed.
Print Assumptions C12_commit_exact.

Theorem C12_commit_keys_fresh :
  forall (H : bytes -> bytes) (s : mstate),
    store_ok H s -> lookup (working_version s) (forest s) = None ->
    forall p, In p (node_writes H s) ->
      fst (fst p) = working_version s /\ mfind kcmp (fst p) (expected_store (forest s)) = None.
Proof. exact commit_keys_fresh. Qed.
Print Assumptions C12_commit_keys_fresh.

Theorem C12_rollback_exact :
  forall (H : bytes -> bytes) (s : mstate) (d : db) (v : Z),
    store_ok H s -> in_range s v -> nodes d = expected_store (forest s) ->
    forest (fst (step H s (OLvfo v))) = filter (fun p => fst p <=? v) (forest s) /\
    nodes (apply_ops d (rollback_ops d v)) = expected_store (forest (fst (step H s (OLvfo v)))).
Proof. exact rollback_exact. Qed.
Print Assumptions C12_rollback_exact.

Theorem C12_prune_spec_exact :
  forall (H : bytes -> bytes) (s : mstate) (d : db) (n : Z),
    store_ok H s -> n < latest_version s -> nodes d = expected_store (forest s) ->
    forest (fst (step H s (OPrune n))) = filter (fun p => n <? fst p) (forest s) /\
    nodes (apply_ops d (prune_ops (forest s) n)) =
      expected_store (forest (fst (step H s (OPrune n)))).
Proof. exact prune_spec_exact. Qed.
Print Assumptions C12_prune_spec_exact.

Theorem C12_drop_exact :
  forall (keep : Z -> bool) (f : list (Z * option node)) (d : db),
    forest_inv f -> NoDup (map fst f) -> nodes d = expected_store f ->
    nodes (apply_ops d (drop_ops keep f)) = expected_store (filter (fun p => keep (fst p)) f).
Proof. exact drop_exact. Qed.
Print Assumptions C12_drop_exact.

Theorem C12_empty_store :
  forall f : list (Z * option node),
    (forall v r, In (v, r) f -> r = None) ->
    forall k e, In (k, e) (expected_store f) -> e = EEmpty /\ snd k = 1 /\ In (fst k) (map fst f).
Proof. exact empty_store. Qed.
Print Assumptions C12_empty_store.

Theorem C12_empty_store_no_node :
  forall f : list (Z * option node),
    (forall v r, In (v, r) f -> r = None) -> forall k n, ~ In (k, ENode n) (expected_store f).
Proof. exact empty_store_no_node. Qed.
Print Assumptions C12_empty_store_no_node.

Theorem C12_index_exact :
  forall (H : bytes -> bytes) (s : mstate) (d : db),
    store_ok H s -> lookup (working_version s) (forest s) = None ->
    fastidx d = oelems (last_saved s) ->
    fastidx (apply_ops d (commit_ops H true s)) = oelems (root (fst (do_save H s))) /\
    label (apply_ops d (commit_ops H true s)) = Some (working_version s).
Proof. exact index_exact. Qed.
Print Assumptions C12_index_exact.

(** the index rebuild that follows a rollback writes exactly the latest tree's pairs *)
Theorem C12_rebuild_exact :
  forall (d : db) (latest : Z) (t : option node),
    oinv t -> msorted bcmp (fastidx d) ->
    fastidx (apply_ops d (rebuild_ops d latest t)) = oelems t /\
    label (apply_ops d (rebuild_ops d latest t)) = Some latest /\
    nodes (apply_ops d (rebuild_ops d latest t)) = nodes d.
Proof. exact rebuild_exact. Qed.
Print Assumptions C12_rebuild_exact.

(** children are never younger than their parent in any retained tree of a reachable state
    (so a tree of version v refers only to node keys of versions <= v: [fi_ver]) *)
Theorem C12_ver_mono_reachable :
  forall (H : bytes -> bytes) (iv : Z) (b : bool) (ops : list op),
    init_ok iv b -> run_ok H (init_state iv b) ops ->
    forall v t, In (v, Some t) (forest (fst (run H (init_state iv b) ops))) -> ver_mono t.
Proof. exact mono_ok_reachable. Qed.
Print Assumptions C12_ver_mono_reachable.

Theorem C12_set_ver_mono :
  forall (t : node) (k v : bytes), ver_mono t -> ver_mono (fst (set t k v)).
Proof. exact set_ver_mono. Qed.
Print Assumptions C12_set_ver_mono.

Theorem C12_remove_ver_mono :
  forall (t : node) (k : bytes) (t' : node),
    rm_self (remove t k) = Some t' -> ver_mono t -> ver_mono t'.
Proof. exact remove_ver_mono. Qed.
Print Assumptions C12_remove_ver_mono.

Theorem C12_stamp_ver_mono :
  forall (H : bytes -> bytes) (wv n : Z) (t : node),
    wv <> 0 -> oldok wv t ->
    (forall u, subtree u t -> ver (nmeta u) <> 0 -> ver (nmeta u) < wv) ->
    ver_mono t -> ver_mono (fst (stamp H wv n t)).
Proof. exact stamp_ver_mono. Qed.
Print Assumptions C12_stamp_ver_mono.

(** the writes of a commit are [Tree.stamp] plus the post-order list of the new nodes *)
Theorem C12_assign_stamp :
  forall (H : bytes -> bytes) (wv : Z) (t : node) (n : Z),
    fst (assign H wv n t) = stamp H wv n t.
Proof. exact assign_stamp. Qed.
Print Assumptions C12_assign_stamp.

(** ** A concrete history (SHA-256): three versions, the second a commit without writes, the
    third an emptied tree; then deletion of old versions and rollback. *)
Definition c12_a : bytes := [97%N].
Definition c12_b : bytes := [98%N].
Definition c12_c : bytes := [99%N].
Definition c12_hist : list op :=
  [OSet c12_a c12_a; OSet c12_b c12_b; OSet c12_c c12_c; OSave; OSave;
   ORemove c12_a; ORemove c12_b; ORemove c12_c; OSave].

(** A commit hashes each new node twice ([stamp] for the state, [assign] for the writes) and
    the examples run the history four times.  They are evaluated with SHA-256 replaced by a
    table of its values on the strings hashed for the nodes of the saved versions: [db_run]
    depends on the hash function through its values only, and every entry is checked against
    SHA-256 once, in [c12_table_ok]. *)
Definition c12_table : kvs := Eval vm_compute in
  table_of sha256
    (flat_map (fun p => match snd p with Some t => tree_inputs sha256 0 t | None => [[]] end)
       (forest (fst (run sha256 (init_state 0 false) c12_hist)))).
Lemma c12_table_ok b : sha256 b = memo sha256 c12_table b.
Proof. revert b. apply memo_sound. vm_compute. reflexivity. Qed.

Example c12_hypotheses_hold :
  run_okb sha256 (init_state 0 false) (c12_hist ++ [OPrune 2]) = true /\
  run_okb sha256 (init_state 0 false) (c12_hist ++ [OLvfo 1]) = true.
Proof. vm_compute. split; reflexivity. Qed.

(** the writes issued along the history produce exactly the expected database *)
Example c12_history_exact :
  let r := db_run sha256 true (init_state 0 false) empty_db c12_hist in
  snd r = expected_db (forest (fst r)) /\
  map fst (nodes (snd r)) = [(1, 1); (1, 2); (1, 3); (1, 4); (1, 5); (2, 1); (3, 1)] /\
  mfind kcmp (2, 1) (nodes (snd r)) = Some (ERef (1, 1)) /\
  mfind kcmp (3, 1) (nodes (snd r)) = Some EEmpty /\
  fastidx (snd r) = [] /\ label (snd r) = Some 3.
Proof. cbv zeta. rewrite !(db_run_hext _ _ c12_table_ok). vm_compute. repeat split; reflexivity. Qed.

(** deleting version 1 keeps every node (version 2 shares the whole tree) ... *)
Example c12_prune_shared :
  let r := db_run sha256 true (init_state 0 false) empty_db (c12_hist ++ [OPrune 1]) in
  snd r = expected_db (forest (fst r)) /\
  map fst (nodes (snd r)) = [(1, 1); (1, 2); (1, 3); (1, 4); (1, 5); (2, 1); (3, 1)].
Proof. cbv zeta. rewrite !(db_run_hext _ _ c12_table_ok). vm_compute. split; reflexivity. Qed.

(** ... and once the emptied version is the only one left, no node remains at all *)
Example c12_prune_to_empty :
  let r := db_run sha256 true (init_state 0 false) empty_db (c12_hist ++ [OPrune 2]) in
  snd r = expected_db (forest (fst r)) /\ nodes (snd r) = [((3, 1), EEmpty)].
Proof. vm_compute. split; reflexivity. Qed.

(** the per-version physical protocol (root re-keyed to (1,0) before (1,1) is deleted) gives
    the same stores once nonce 0 is read as nonce 1 *)
Example c12_prune_steps :
  let r := db_run sha256 true (init_state 0 false) empty_db c12_hist in
  let f := forest (fst r) in
  hd (WDel KLabel) (prune_steps f [1]) = set_node ((1, 0), ENode (snode_of
     (match lookup 1 f with Some (Some t) => t | _ => Leaf [] [] new_meta end))) /\
  norm_store (nodes (apply_ops (snd r) (prune_steps f [1]))) =
    expected_store (filter (fun p => 1 <? fst p) f) /\
  norm_store (nodes (apply_ops (snd r) (prune_steps f [1; 2]))) =
    expected_store (filter (fun p => 2 <? fst p) f).
Proof. cbv zeta. rewrite !(db_run_hext _ _ c12_table_ok). vm_compute. repeat split; reflexivity. Qed.

(** rollback to version 1, followed by the index rebuild *)
Example c12_rollback :
  let r := db_run sha256 true (init_state 0 false) empty_db (c12_hist ++ [OLvfo 1]) in
  snd r = expected_db (forest (fst r)) /\
  map fst (nodes (snd r)) = [(1, 1); (1, 2); (1, 3); (1, 4); (1, 5)] /\
  map fst (fastidx (snd r)) = [c12_a; c12_b; c12_c] /\ label (snd r) = Some 1.
Proof. cbv zeta. rewrite !(db_run_hext _ _ c12_table_ok). vm_compute. repeat split; reflexivity. Qed.

(** *** The physical store along every history (PruneAlgo.v, PruneAlgoFacts11): commits write the
    new nodes and the root entry, DeleteVersionsTo runs the code's orphan traversal with re-keying
    under an arbitrary flush schedule, LoadVersionForOverwriting deletes the later keys.  After
    EVERY step of EVERY in-contract history the store is exactly the physical store of the retained
    versions ([phys_of r]: the expected store with the roots in [r] re-keyed to nonce 0), hence,
    read with nonce 0 as 1, exactly [expected_store]: nothing missing, nothing left over. *)
From IAVL Require Import Ics23Facts Store StoreFacts PruneAlgo PruneAlgoFacts1 PruneAlgoFacts2 PruneAlgoFacts5 PruneAlgoFacts6 PruneAlgoFacts7 PruneAlgoFacts8 PruneAlgoFacts9 PruneAlgoFacts10 PruneAlgoFacts11 PruneAlgoFacts12 PruneAlgoFacts13 PruneAlgoFacts.
Local Open Scope Z_scope.

Theorem C12_physical_store_along_every_history :
  forall (H : bytes -> bytes), (forall x, length (H x) = 32%nat) ->
  forall (fast : bool) (iv : Z) (b : bool) (ops : list op) (orcs : list (list bool * bool)),
    init_ok iv b -> run_ok H (init_state iv b) ops -> bounded_run H (init_state iv b) ops ->
    Forall phys_inv (phys_trace H fast (init_state iv b) [] ops orcs) \/ collision H.
Proof. exact PA_phys_run_reachable. Qed.
Print Assumptions C12_physical_store_along_every_history.

Theorem C12_physical_deletion_exact :
  forall (H : bytes -> bytes), (forall x, length (H x) = 32%nat) ->
  forall (s : mstate) (r : list Z) (sched : list bool) (eff : bool) (n : Z),
    store_ok H s -> forest_bounds (forest s) ->
    rekey_ok r (forest s) -> n < latest_version s ->
    (exists st' log fl,
       prune_forest H eff r (forest s) sched n = POk (st', log, fl) /\
       let f' := filter (fun p => n <? fst p) (forest s) in
       st' = phys_of (rekeyed st') f' /\ rekey_ok (rekeyed st') f' /\
       norm_store st' = expected_store f')
    \/ collision H.
Proof. exact PA_prune_refines. Qed.
Print Assumptions C12_physical_deletion_exact.

Theorem C12_physical_deletion_schedule_independent :
  forall (H : bytes -> bytes), (forall x, length (H x) = 32%nat) ->
  forall (s : mstate) (r : list Z) (sched1 : list bool) (eff1 : bool) (sched2 : list bool) (eff2 : bool)
         (n : Z) st1 log1 fl1 st2 log2 fl2,
    store_ok H s -> forest_bounds (forest s) ->
    rekey_ok r (forest s) -> n < latest_version s ->
    prune_forest H eff1 r (forest s) sched1 n = POk (st1, log1, fl1) ->
    prune_forest H eff2 r (forest s) sched2 n = POk (st2, log2, fl2) ->
    st1 = st2 \/ collision H.
Proof. exact PruneAlgoFacts10.prune_schedule_independent. Qed.
Print Assumptions C12_physical_deletion_schedule_independent.

(** the keys one deleteVersion removes are exactly those of [Store.prune_version_ops] *)
Theorem C12_deleted_keys_exact :
  forall (f : forest_t) (iv : Z),
    forest_inv f -> NoDup (map fst f) -> forest_ok f iv ->
    forall (v : Z) (rv rn : option node) (f'' : forest_t) (r : list Z),
      f = (v, rv) :: (v + 1, rn) :: f'' -> rekey_ok r f ->
      forall k,
        (mfind kcmp k (phys_of r f) <> None /\
         mfind kcmp k (phys_of (rk_next v rn r) ((v + 1, rn) :: f'')) = None) <->
        (In k (del_keys (prune_version_ops f v)) /\ mfind kcmp k (phys_of r f) <> None).
Proof. exact PruneAlgoFacts13.version_keys_exact. Qed.
Print Assumptions C12_deleted_keys_exact.

Example C12_physical_history_example : ltac:(let t := type of pa_history_trace in exact t).
Proof. exact pa_history_trace. Qed.

(** *** The ORDER of the physical writes of a deletion (PruneAlgoFacts14): the effective write list
    of DeleteVersionsTo is exactly [spec_elog_range], a function of the forest alone - for every
    version: the orphans of tree v (nodes absent from tree v+1) in the pre-order of tree v, each
    deleted under the key it is stored under, then the root entry of an empty / reference root,
    then the re-keying [set (v,0); del (v,1)] when tree v+1 keeps the root of v - whatever the flush
    schedule.  This list is what the correspondence check compares with the real library (wprune). *)
From IAVL Require Import PruneAlgoFacts14.

Theorem C12_deletion_effective_writes_exact :
  forall (H : bytes -> bytes), (forall x, length (H x) = 32%nat) ->
  forall (s : mstate) (r : list Z) (sched : list bool) (n : Z),
    store_ok H s -> forest_bounds (forest s) -> rekey_ok r (forest s) -> n < latest_version s ->
    forest s <> [] ->
    (exists st' fl,
       prune_forest H true r (forest s) sched n =
         POk (st', spec_elog_range (Z.to_nat (n + 1 - first_of (forest s))) (forest s) r, fl))
    \/ collision H.
Proof. exact prune_elog. Qed.
Print Assumptions C12_deletion_effective_writes_exact.

Example C12_effective_writes_example : ltac:(let t := type of pe_whole in exact t).
Proof. exact pe_whole. Qed.
