(** C10: proofs about the exporter / importer / compress codec models of ExportImport.v. *)
From Coq Require Import ZifyBool.
From IAVL Require Import Bytes Varint ListFacts VarintFacts Tree VMap TreeFacts HashFacts ExportImport.
Local Open Scope Z_scope.

(** * 1. The exporter: 2n-1 nodes, post-order, leaves in key order *)

Fixpoint leaves (t : node) : list (bytes * bytes * Z) :=
  match t with
  | Leaf k v m => [(k, v, ver m)]
  | Inner _ _ _ _ l r => leaves l ++ leaves r
  end.

Definition leaf_enode (x : bytes * bytes * Z) : enode :=
  ENode (Some (fst (fst x))) (Some (snd (fst x))) (snd x) 0.

Definition is_leaf_enode (e : enode) : bool := e_height e =? 0.

Lemma leaves_elems t : map fst (leaves t) = elems t.
Proof.
  induction t as [k v m | k h s m l IHl r IHr]; simpl; [reflexivity|].
  rewrite map_app, IHl, IHr. reflexivity.
Qed.

Lemma export_length_nat t : (length (export_node t) + 1 = 2 * length (elems t))%nat.
Proof.
  induction t as [k v m | k h s m l IHl r IHr]; simpl; [reflexivity|].
  rewrite !app_length. simpl. lia.
Qed.

Lemma export_leaves t :
  wf t -> filter is_leaf_enode (export_node t) = map leaf_enode (leaves t).
Proof.
  induction t as [k v m | k h s m l IHl r IHr]; intros W; [reflexivity|].
  pose proof (height_nonneg _ W) as Hh.
  simpl in W. destruct W as (Wl & Wr & _ & _ & _ & Eh & _).
  pose proof (height_nonneg _ Wl). pose proof (height_nonneg _ Wr).
  cbn [export_node leaves]. rewrite !filter_app, map_app, IHl, IHr by assumption.
  cbn [filter]. unfold is_leaf_enode. cbn [e_height].
  destruct (h =? 0) eqn:E; [lia|]. rewrite app_nil_r. reflexivity.
Qed.

Theorem export_length t :
  wf t ->
  Z.of_nat (length (export (Some t))) = 2 * Z.of_nat (length (elems t)) - 1 /\
  Z.of_nat (length (export (Some t))) = 2 * size t - 1 /\
  filter is_leaf_enode (export (Some t)) = map leaf_enode (leaves t) /\
  map fst (leaves t) = elems t /\
  sorted (elems t) /\
  export None = [].
Proof.
  intros W. pose proof (export_length_nat t) as L. pose proof (size_elems t W) as S.
  cbn [export]. repeat split.
  - lia.
  - lia.
  - apply export_leaves, W.
  - apply leaves_elems.
  - apply wf_sorted, W.
Qed.

Lemma export_last t :
  exists pre, export_node t =
    pre ++ [ENode (Some (nkey t)) (match t with Leaf _ v _ => Some v | _ => None end)
              (ver (nmeta t)) (height t)].
Proof.
  destruct t as [k v m | k h s m l r]; cbn [export_node nkey nmeta height].
  - exists []. reflexivity.
  - exists (export_node l ++ export_node r). rewrite <- app_assoc. reflexivity.
Qed.

(** * 2. The importer step by step (what it builds from an export: ImportPhysFacts) *)

Fixpoint versions_in (v : Z) (t : node) : Prop :=
  match t with
  | Leaf _ _ m => 1 <= ver m <= v
  | Inner _ _ _ m l r => 1 <= ver m <= v /\ versions_in v l /\ versions_in v r
  end.

(** same keys, values, heights, sizes and versions at every node (nonces and memoised
    hashes are not compared) *)
Fixpoint shape_eq (a b : node) : Prop :=
  match a, b with
  | Leaf k v m, Leaf k' v' m' => k = k' /\ v = v' /\ ver m = ver m'
  | Inner k h s m l r, Inner k' h' s' m' l' r' =>
      k = k' /\ h = h' /\ s = s' /\ ver m = ver m' /\ shape_eq l l' /\ shape_eq r r'
  | _, _ => False
  end.

Lemma shape_eq_refl t : shape_eq t t.
Proof. induction t; simpl; auto 10. Qed.

Lemma shape_eq_sym a : forall b, shape_eq a b -> shape_eq b a.
Proof.
  induction a as [k v m | k h s m l IHl r IHr]; intros [k' v' m' | k' h' s' m' l' r']; simpl;
    try contradiction.
  - intuition congruence.
  - intros (-> & -> & -> & E & Sl & Sr). auto 10.
Qed.

Lemma shape_eq_trans a : forall b c, shape_eq a b -> shape_eq b c -> shape_eq a c.
Proof.
  induction a as [k v m | k h s m l IHl r IHr]; intros [k' v' m' | k' h' s' m' l' r']
    [k2 v2 m2 | k2 h2 s2 m2 l2 r2]; simpl; try contradiction.
  - intuition congruence.
  - intros (-> & -> & -> & E & Sl & Sr) (-> & -> & -> & E' & Sl' & Sr').
    repeat split; try congruence; eauto.
Qed.

(** it refines the relation of the same name in HashFacts (which compares effective versions and
    frees the routing keys), whatever the working version *)
Lemma shape_eq_hash wv a : forall b, shape_eq a b -> HashFacts.shape_eq wv a b.
Proof.
  induction a as [k v m | k h s m l IHl r IHr]; intros [k' v' m' | k' h' s' m' l' r'];
    simpl; try contradiction; unfold eff_ver.
  - intros (-> & -> & ->). auto.
  - intros (_ & -> & -> & -> & Sl & Sr). auto 10.
Qed.

Lemma shape_eq_basic a b :
  shape_eq a b ->
  nkey a = nkey b /\ height a = height b /\ size a = size b /\
  ver (nmeta a) = ver (nmeta b) /\ elems a = elems b.
Proof.
  intros S. pose proof (shape_eq_hash 0 _ _ S) as S0.
  destruct (shape_eq_height_size _ _ _ S0) as [Eh Es]. pose proof (shape_eq_elems _ _ _ S0) as El.
  destruct a, b; simpl in S; try contradiction; simpl; intuition congruence.
Qed.

Lemma shape_eq_versions v a b : shape_eq a b -> versions_in v b -> versions_in v a.
Proof.
  revert b. induction a as [k w m | k h s m l IHl r IHr]; intros [k' w' m' | k' h' s' m' l' r'];
    simpl; try contradiction.
  - intros (_ & _ & E). lia.
  - intros (_ & _ & _ & E & Sl & Sr) (V & Vl & Vr). repeat split; try lia; eauto.
Qed.

Lemma shape_eq_wf a b : shape_eq a b -> wf b -> wf a.
Proof.
  revert b. induction a as [k w m | k h s m l IHl r IHr]; intros [k' w' m' | k' h' s' m' l' r'];
    simpl; try contradiction; auto.
  intros (-> & -> & -> & E & Sl & Sr) (Wl & Wr & Kl & Kr & Ek & Eh & Es).
  destruct (shape_eq_basic _ _ Sl) as (_ & Hl & Zl & _ & El).
  destruct (shape_eq_basic _ _ Sr) as (_ & Hr & Zr & _ & Er).
  repeat split; eauto.
  - apply keys_all_elems. rewrite El. exact (proj1 (keys_all_elems _ l') Kl).
  - apply keys_all_elems. rewrite Er. exact (proj1 (keys_all_elems _ r') Kr).
  - rewrite Ek. symmetry. apply min_key_elems_eq, Er.
  - lia.
  - lia.
Qed.

Lemma shape_eq_avl a b : shape_eq a b -> avl b -> avl a.
Proof.
  revert b. induction a as [k w m | k h s m l IHl r IHr]; intros [k' w' m' | k' h' s' m' l' r'];
    simpl; try contradiction; auto.
  intros (_ & _ & _ & _ & Sl & Sr) (Al & Ar & B).
  destruct (shape_eq_basic _ _ Sl) as (_ & Hl & _). destruct (shape_eq_basic _ _ Sr) as (_ & Hr & _).
  repeat split; eauto; lia.
Qed.

Lemma shape_eq_pure_hash (H : bytes -> bytes) wv a b :
  shape_eq a b -> pure_hash H wv a = pure_hash H wv b.
Proof. intros S. apply pure_hash_ext, shape_eq_hash, S. Qed.

Lemma versions_in_pos v t : versions_in v t -> 1 <= ver (nmeta t) <= v.
Proof. destruct t; simpl; intuition. Qed.

Lemma imp_new_ok v :
  0 <= v < max_nonces_len -> imp_new 0 true v = IOk (IState v [] [] false).
Proof.
  intros B. unfold imp_new, max_nonces_len in *.
  destruct (v <? 0) eqn:E1; [lia|]. change (0 <? 0) with false. cbn [negb].
  destruct (70368744177664 <? v + 1) eqn:E2; [lia|]. reflexivity.
Qed.

Section ImportFacts.
  Variable H : bytes -> bytes.

  (** every memoised hash is the hash of the node at its own version *)
  Fixpoint hashed (t : node) : Prop :=
    match t with
    | Leaf k v m => hs m = H (leaf_preimage H (ver m) k v)
    | Inner k h s m l r =>
        hs m = H (inner_preimage h s (ver m) (hs (nmeta l)) (hs (nmeta r))) /\
        hashed l /\ hashed r
    end.

  Lemma hashed_pure v wv t : hashed t -> versions_in v t -> hs (nmeta t) = pure_hash H wv t.
  Proof.
    induction t as [k w m | k h s m l IHl r IHr]; simpl.
    - intros -> V. unfold eff_ver. destruct (ver m =? 0) eqn:E; [lia|reflexivity].
    - intros (-> & Hl & Hr) (V & Vl & Vr). unfold eff_ver.
      destruct (ver m =? 0) eqn:E; [lia|]. rewrite (IHl Hl Vl), (IHr Hr Vr). reflexivity.
  Qed.

  Lemma hashed_node_hash v wv t : hashed t -> versions_in v t -> node_hash H wv t = pure_hash H wv t.
  Proof.
    intros Hh V. pose proof (versions_in_pos _ _ V) as P.
    rewrite <- (hashed_pure v wv t Hh V).
    destruct t as [k w m | k h s m l r]; cbn [node_hash nmeta] in *; unfold is_new; cbn [nmeta];
      (destruct (ver m =? 0) eqn:E; [lia|reflexivity]).
  Qed.

  Lemma write_node_leaf k x w n :
    0 < w ->
    write_node H (PNode (Some k) (Some x) 0 1 w n None) =
      Some (Leaf k x (Meta w n (H (leaf_preimage H w k x)))).
  Proof.
    intros B. unfold write_node. cbn [p_key p_value p_height p_size p_ver p_nonce p_kids].
    destruct (w <=? 0) eqn:E; [lia|]. reflexivity.
  Qed.

  Lemma write_node_inner k h s w n l r :
    0 < w -> 0 < h -> 1 <= s ->
    write_node H (PNode (Some k) None h s w n (Some (l, r))) =
      Some (Inner k h s (Meta w n (H (inner_preimage h s w (hs (nmeta l)) (hs (nmeta r))))) l r).
  Proof.
    intros Bw Bh Bs. unfold write_node. cbn [p_key p_value p_height p_size p_ver p_nonce p_kids].
    destruct (w <=? 0) eqn:E1; [lia|]. destruct (h <? 0) eqn:E2; [lia|].
    destruct (s <? 1) eqn:E3; [lia|]. destruct (h =? 0) eqn:E4; [lia|]. reflexivity.
  Qed.

  (** the stack entry of a written node: [write_node] gives the node back *)
  Definition pn_of (t : node) : pnode :=
    match t with
    | Leaf k v m => PNode (Some k) (Some v) 0 1 (ver m) (nonce m) None
    | Inner k h s m l r => PNode (Some k) None h s (ver m) (nonce m) (Some (l, r))
    end.

  Lemma pn_of_height t : p_height (pn_of t) = height t.
  Proof. destruct t; reflexivity. Qed.

  Lemma pn_of_size t : p_size (pn_of t) = size t.
  Proof. destruct t; reflexivity. Qed.

  Lemma write_pn_of t : hashed t -> wf t -> 0 < ver (nmeta t) -> write_node H (pn_of t) = Some t.
  Proof.
    intros Hh W V. pose proof (size_pos _ W) as Sp.
    destruct t as [k x [w n hh]|k h s [w n hh] l r]; cbn [pn_of hashed nmeta ver nonce hs size] in *.
    - subst hh. apply write_node_leaf, V.
    - destruct Hh as (-> & _). destruct W as (Wl & Wr & _ & _ & _ & Eh & _).
      pose proof (height_nonneg _ Wl). pose proof (height_nonneg _ Wr).
      apply write_node_inner; lia.
  Qed.

  Lemma write_node_nonce_irrelevant p n :
    write_node H p = None <-> write_node H (set_nonce p n) = None.
  Proof.
    destruct p as [k v h s w c kids]. unfold write_node, set_nonce.
    cbn [p_key p_value p_height p_size p_ver p_nonce p_kids].
    destruct k; [|tauto]. destruct (w <=? 0); [tauto|]. destruct (h <? 0); [tauto|].
    destruct (s <? 1); [tauto|]. destruct (h =? 0).
    - destruct v; [|tauto]. destruct kids; [tauto|]. destruct (negb (s =? 1)); [tauto|].
      split; discriminate.
    - destruct v; [tauto|]. destruct kids as [[l r]|]; [|tauto]. split; discriminate.
  Qed.

  Lemma imp_adds_app st xs ys :
    imp_adds H st (xs ++ ys) = ibind (imp_adds H st xs) (fun st' => imp_adds H st' ys).
  Proof.
    revert st. induction xs as [|x xs IH]; intros st; [reflexivity|].
    cbn [app imp_adds]. destruct (imp_add H st x); cbn [ibind]; auto.
  Qed.

  Lemma imp_add_leaf_eq v stk nn k x w :
    0 <= w <= v ->
    imp_add H (IState v stk nn false) (Some (ENode k x w 0)) =
      IOk (IState v (PNode k x 0 1 w (u32 (u32 (nonce_get w nn + 1) + 1)) None :: stk)
             (nonce_set w (u32 (nonce_get w nn + 1)) nn) false).
  Proof.
    intros B. unfold imp_add.
    cbn [i_closed i_version i_stack i_nonces e_version e_height e_key e_value Z.eqb].
    destruct (v <? w) eqn:E1; [lia|]. destruct (w <? 0) eqn:E0; [lia|]. cbn [orb].
    destruct (v + 1 <=? w) eqn:E2; [lia|]. reflexivity.
  Qed.

  Lemma imp_add_inner_eq v stk nn pl pr l r k x w h :
    0 <= w <= v -> h <> 0 -> p_height pl < h -> p_height pr < h ->
    write_node H pl = Some l -> write_node H pr = Some r ->
    imp_add H (IState v (pr :: pl :: stk) nn false) (Some (ENode k x w h)) =
      IOk (IState v (PNode k x h (p_size pl + p_size pr) w (u32 (u32 (nonce_get w nn + 1) + 1))
                       (Some (l, r)) :: stk)
             (nonce_set w (u32 (nonce_get w nn + 1)) nn) false).
  Proof.
    intros B Hh Hl Hr Wl Wr. unfold imp_add.
    cbn [i_closed i_version i_stack i_nonces e_version e_height e_key e_value].
    destruct (v <? w) eqn:E1; [lia|]. destruct (w <? 0) eqn:E0; [lia|].
    destruct (h =? 0) eqn:E2; [lia|].
    destruct ((p_height pr <? h) && (p_height pl <? h)) eqn:E3; [|lia].
    rewrite Wl, Wr. cbn [orb]. destruct (v + 1 <=? w) eqn:E4; [lia|]. reflexivity.
  Qed.

  Lemma imp_commit_one v p nn :
    imp_commit H (IState v [p] nn false) =
      match write_node H (set_nonce p 1) with None => IErr | Some n => IOk (Some n) end.
  Proof. reflexivity. Qed.

  Lemma imp_run_eq v s :
    0 <= v < max_nonces_len ->
    imp_run H v s = ibind (imp_adds H (IState v [] [] false) s) (imp_commit H).
  Proof. intros B. unfold imp_run. rewrite imp_new_ok by exact B. reflexivity. Qed.

  Theorem import_empty v : 0 <= v < max_nonces_len -> imp_run H v [] = IOk None.
  Proof. intros B. rewrite imp_run_eq by exact B. reflexivity. Qed.

  Corollary import_single_leaf v k w m :
    1 <= ver m <= v -> v < max_nonces_len ->
    imp_run H v [Some (ENode (Some k) (Some w) (ver m) 0)] =
      IOk (Some (Leaf k w (Meta (ver m) 1 (H (leaf_preimage H (ver m) k w))))).
  Proof.
    intros V B. rewrite imp_run_eq by lia. cbn [imp_adds]. rewrite imp_add_leaf_eq by lia.
    cbn [ibind imp_adds]. rewrite imp_commit_one.
    unfold set_nonce. cbn [p_key p_value p_height p_size p_ver p_kids].
    rewrite write_node_leaf by lia. reflexivity.
  Qed.

  Lemma shape_eq_same v t' t :
    shape_eq t' t -> hashed t' -> wf t -> versions_in v t ->
    wf t' /\ (avl t -> avl t') /\ versions_in v t' /\ elems t' = elems t /\
    (forall (H' : bytes -> bytes) wv, pure_hash H' wv t' = pure_hash H' wv t) /\
    (forall wv, root_hash H wv (Some t') = pure_hash H wv t).
  Proof.
    intros S Hh W V. assert (V' : versions_in v t') by (eapply shape_eq_versions; eauto).
    repeat split.
    - eapply shape_eq_wf; eauto.
    - intros A. eapply shape_eq_avl; eauto.
    - exact V'.
    - apply shape_eq_basic, S.
    - intros H' wv. apply shape_eq_pure_hash, S.
    - intros wv. cbn [root_hash]. rewrite (hashed_node_hash v wv t' Hh V').
      apply shape_eq_pure_hash, S.
  Qed.
End ImportFacts.

(** * 3. The compress codec *)

Lemma uvarint_enc_fuel_S f u :
  uvarint_enc_fuel (S f) u =
    if (u <? 128)%N then [u] else (u mod 128 + 128)%N :: uvarint_enc_fuel f (u / 128)%N.
Proof. reflexivity. Qed.

(** ** deltaEncode / deltaDecode *)
Lemma diff_offset_spec a : forall b,
  (diff_offset a b <= length a)%nat /\ (diff_offset a b <= length b)%nat /\
  firstn (diff_offset a b) a = firstn (diff_offset a b) b.
Proof.
  induction a as [|x a IH]; intros [|y b]; cbn [diff_offset length firstn]; try (repeat split; lia).
  destruct (N.eqb_spec x y) as [->|Ne]; cbn [firstn]; [|repeat split; lia].
  destruct (IH b) as (A & B & C). rewrite C. repeat split; lia.
Qed.

Definition key_small (k : bytes) : Prop := (N.of_nat (length k) < 18446744073709551616)%N.

Lemma delta_decode_encode k last :
  key_small k -> delta_decode (Some (delta_encode k last)) last = IOk k.
Proof.
  intros Hk. unfold key_small in Hk. unfold delta_decode, delta_encode. cbn [key_bytes].
  destruct (diff_offset_spec last k) as (A & B & C).
  set (d := diff_offset last k) in *.
  rewrite uvarint_roundtrip, skipn_length_app by (change (2 ^ 64)%N with 18446744073709551616%N; lia).
  destruct (N.of_nat d =? 0)%N eqn:E.
  - assert (d = 0%nat) by lia. subst d. rewrite H. reflexivity.
  - destruct (N.of_nat (length last) <? N.of_nat d)%N eqn:E1; [lia|].
    rewrite Nat2N.id, C, firstn_skipn. reflexivity.
Qed.

(** ** the codec on exports *)
Fixpoint last_key (t : node) : bytes :=
  match t with Leaf k _ _ => k | Inner _ _ _ _ _ r => last_key r end.

Definition int64_range (z : Z) : Prop := -9223372036854775808 <= z <= 9223372036854775807.

Fixpoint versions_int64 (t : node) : Prop :=
  match t with
  | Leaf _ _ m => int64_range (ver m)
  | Inner _ _ _ m l r => int64_range (ver m) /\ versions_int64 l /\ versions_int64 r
  end.

Lemma versions_in_int64 v t : versions_in v t -> v <= 9223372036854775807 -> versions_int64 t.
Proof.
  intros V B. induction t as [k w m | k h s m l IHl r IHr]; simpl in *; unfold int64_range.
  - lia.
  - destruct V as (V & Vl & Vr). repeat split; auto; lia.
Qed.

Lemma wrap64_id z : int64_range z -> wrap64 z = z.
Proof. unfold int64_range, wrap64. intros R. rewrite Z.mod_small; lia. Qed.

Lemma wrap64_add x y : wrap64 (wrap64 x + y) = wrap64 (x + y).
Proof.
  unfold wrap64. f_equal.
  replace ((x + 9223372036854775808) mod 18446744073709551616 - 9223372036854775808 + y
           + 9223372036854775808)
    with ((x + 9223372036854775808) mod 18446744073709551616 + y) by lia.
  rewrite Z.add_mod_idemp_l by lia. f_equal. lia.
Qed.

Lemma wrap64_delta a mx : int64_range a -> wrap64 (wrap64 (a - mx) + mx) = a.
Proof.
  intros R. rewrite wrap64_add. replace (a - mx + mx) with a by lia. apply wrap64_id, R.
Qed.

Definition iprep (xs : list enode) (r : ires (list enode)) : ires (list enode) :=
  ibind r (fun ys => IOk (xs ++ ys)).

Lemma iprep_iprep a b r : iprep a (iprep b r) = iprep (a ++ b) r.
Proof. destruct r; cbn [iprep ibind]; [rewrite app_assoc|..]; reflexivity. Qed.

Lemma iprep_cons c r : ibind r (fun cs => IOk (c :: cs)) = iprep [c] r.
Proof. reflexivity. Qed.

Lemma codec_export t :
  wf t -> keys_all key_small t -> versions_int64 t ->
  forall last vs, exists cs,
    length cs = length (export_node t) /\
    (forall rest,
       compress_from (CExp last vs) (export_node t ++ rest) =
         iprep cs (compress_from (CExp (last_key t) (ver (nmeta t) :: vs)) rest)) /\
    (forall mk rest,
       decompress_from (CImp last mk vs) (cs ++ rest) =
         iprep (export_node t)
           (decompress_from (CImp (last_key t) (min_key t :: mk) (ver (nmeta t) :: vs)) rest)).
Proof.
  induction t as [k w m | k h s m l IHl r IHr]; intros W K V last vs.
  - exists [ENode (Some (delta_encode k last)) (Some w) (ver m) 0]. split; [reflexivity|]. split.
    + intros rest. cbn [export_node app compress_from]. unfold cexp_next.
      cbn [e_height e_key e_value e_version key_bytes ce_last ce_vers Z.eqb ibind last_key nmeta].
      apply iprep_cons.
    + intros mk rest. cbn [export_node app decompress_from]. unfold cimp_step.
      cbn [e_height e_key e_value e_version ci_last ci_minkeys ci_vers Z.eqb].
      simpl in K. rewrite delta_decode_encode by exact K.
      cbn [ibind last_key min_key nmeta]. apply iprep_cons.
  - pose proof (height_nonneg _ W) as Hh. simpl in W, K, V.
    destruct W as (Wl & Wr & _ & _ & Ek & Eh & _). destruct K as (Kl & Kr).
    destruct V as (Vm & Vl & Vr).
    pose proof (height_nonneg _ Wl). pose proof (height_nonneg _ Wr).
    destruct (IHl Wl Kl Vl last vs) as (csl & Ll & Cl & Dl).
    destruct (IHr Wr Kr Vr (last_key l) (ver (nmeta l) :: vs)) as (csr & Lr & Cr & Dr).
    set (c := ENode None None (wrap64 (ver m - Z.max (ver (nmeta r)) (ver (nmeta l)))) h).
    exists (csl ++ csr ++ [c]). split; [cbn [export_node]; rewrite !app_length, Ll, Lr; reflexivity|]. split.
    + intros rest. cbn [export_node]. rewrite <- !app_assoc. rewrite Cl, Cr.
      cbn [app compress_from]. unfold cexp_next.
      cbn [e_height e_key e_value e_version ce_last ce_vers].
      destruct (h =? 0) eqn:E; [lia|]. cbn [ibind last_key nmeta].
      rewrite iprep_cons, !iprep_iprep, <- app_assoc. reflexivity.
    + intros mk rest. rewrite <- !app_assoc. rewrite Dl, Dr.
      cbn [app decompress_from]. unfold cimp_step. subst c.
      cbn [e_height e_key e_value e_version ci_last ci_minkeys ci_vers].
      destruct (h =? 0) eqn:E; [lia|]. cbn [length Nat.ltb Nat.leb orb].
      rewrite wrap64_delta by exact Vm. cbn [ibind last_key min_key nmeta].
      rewrite iprep_cons, !iprep_iprep. rewrite <- Ek, <- app_assoc. reflexivity.
Qed.

Theorem compress_roundtrip t :
  wf t -> keys_all key_small t -> versions_int64 t ->
  exists cs,
    compress (export (Some t)) = IOk cs /\
    decompress cs = IOk (export (Some t)) /\
    length cs = length (export (Some t)).
Proof.
  intros W K V. destruct (codec_export t W K V [] []) as (cs & L & C & D).
  exists cs. unfold compress, decompress, cexp_init, cimp_init. cbn [export].
  specialize (C []). specialize (D [] []). rewrite app_nil_r in C, D.
  cbn [compress_from decompress_from iprep ibind] in C, D. rewrite app_nil_r in C, D. auto.
Qed.

Corollary compress_decompress t :
  wf t -> keys_all key_small t -> versions_int64 t ->
  ibind (compress (export (Some t))) decompress = IOk (export (Some t)).
Proof.
  intros W K V. destruct (compress_roundtrip t W K V) as (cs & -> & D & _). exact D.
Qed.

Lemma cimp_adds_decompress (H : bytes -> bytes) : forall l cs st l',
  decompress_from cs l = IOk l' ->
  cimp_adds H cs st (map Some l) = imp_adds H st (map Some l').
Proof.
  induction l as [|c l IH]; intros cs st l' D; cbn [decompress_from] in D.
  - inversion D. reflexivity.
  - cbn [map cimp_adds cimp_add].
    destruct (cimp_step cs c) as [[cs' n]| |]; cbn [ibind] in D |- *; try discriminate.
    destruct (decompress_from cs' l) as [ns| |] eqn:E; cbn [ibind] in D; try discriminate.
    inversion D. cbn [map imp_adds].
    destruct (imp_add H st (Some n)) as [st'| |]; cbn [ibind]; auto.
Qed.

Lemma cimp_run_decompress (H : bytes -> bytes) v cs l :
  decompress cs = IOk l -> cimp_run H v (map Some cs) = imp_run H v (map Some l).
Proof.
  intros D. unfold cimp_run, imp_run. destruct (imp_new 0 true v) as [st| |]; cbn [ibind]; [|reflexivity..].
  rewrite (cimp_adds_decompress H cs cimp_init st l D). reflexivity.
Qed.

(** * 4. The importers are total: no stream can make them panic *)

(** Every slice access of the model keeps its explicit bounds check ([IPanic] branch); the
    theorems below say that the guards of the code make all of them unreachable, for
    EVERY stream: nil nodes, negative / zero / too-large versions, any heights, nil or
    empty keys and values, any order. *)
Lemma ibind_no_panic {A B} (r : ires A) (f : A -> ires B) :
  r <> IPanic -> (forall a, f a <> IPanic) -> ibind r f <> IPanic.
Proof. destruct r; cbn [ibind]; [auto|discriminate|congruence]. Qed.

Lemma imp_add_no_panic H st on : imp_add H st on <> IPanic.
Proof.
  unfold imp_add. destruct (i_closed st); [discriminate|].
  destruct on as [n|]; [|discriminate].
  destruct (i_version st <? e_version n) eqn:E; [discriminate|].
  destruct (e_version n <? 0) eqn:E0; [discriminate|]. cbv zeta.
  match goal with
  | |- context [match ?b with IOk _ => _ | IErr => _ | IPanic => _ end] =>
      destruct b as [[[stk sz] kids]| |] eqn:B
  end.
  - cbn [orb]. destruct (i_version st + 1 <=? e_version n) eqn:E1; [lia|discriminate].
  - discriminate.
  - exfalso. clear - B.
    destruct (e_height n =? 0); [discriminate|].
    destruct (i_stack st) as [|r [|l rest]]; try discriminate.
    destruct ((p_height r <? e_height n) && (p_height l <? e_height n)); [|discriminate].
    destruct (write_node H l); [|discriminate]. destruct (write_node H r); discriminate.
Qed.

Lemma imp_adds_no_panic H : forall stream st, imp_adds H st stream <> IPanic.
Proof.
  induction stream as [|on rest IH]; intros st; cbn [imp_adds]; [discriminate|].
  apply ibind_no_panic; [apply imp_add_no_panic|exact IH].
Qed.

Lemma imp_commit_no_panic H st : imp_commit H st <> IPanic.
Proof.
  unfold imp_commit. destruct (i_closed st); [discriminate|].
  destruct (i_stack st) as [|p [|q rest]]; try discriminate.
  destruct (write_node H (set_nonce p 1)); discriminate.
Qed.

Lemma imp_new_no_panic latest empty v : v < max_nonces_len -> imp_new latest empty v <> IPanic.
Proof.
  intros B. unfold imp_new. destruct (v <? 0); [discriminate|].
  destruct (0 <? latest); [discriminate|]. destruct (negb empty); [discriminate|].
  destruct (max_nonces_len <? v + 1) eqn:E; [lia|discriminate].
Qed.

Theorem importer_total_gen H v stream : v < max_nonces_len -> imp_run H v stream <> IPanic.
Proof.
  intros B. unfold imp_run. apply ibind_no_panic; [apply imp_new_no_panic, B|intros st0].
  apply ibind_no_panic; [apply imp_adds_no_panic|apply imp_commit_no_panic].
Qed.

Theorem importer_total H v stream :
  0 <= v < max_nonces_len -> imp_run H v stream <> IPanic.
Proof. intros B. apply importer_total_gen. lia. Qed.

(** Documented limitation, outside the quantifier of [importer_total]: the import version
    is the caller's own (trusted) parameter, and [make([]uint32, version+1)] in newImporter
    panics ("makeslice: len out of range") for an absurd one. *)
Theorem importer_new_panics_refuted :
  forall H : bytes -> bytes, imp_run H 9223372036854775807 [] = IPanic.
Proof. intros H. vm_compute. reflexivity. Qed.

Theorem importer_panic_only_new H v stream :
  imp_run H v stream = IPanic -> max_nonces_len <= v.
Proof.
  intros E. destruct (Z_lt_le_dec v max_nonces_len) as [L|G]; [|exact G].
  exfalso. exact (importer_total_gen H v stream L E).
Qed.

(** The streams that used to panic the importer (negative node version) are now errors. *)
Definition hostile_negative_version : list (option enode) :=
  [Some (ENode (Some [107%N]) (Some [118%N]) (-1) 0)].
Definition hostile_negative_inner : list (option enode) :=
  [Some (ENode (Some [97%N]) (Some [1%N]) 1 0);
   Some (ENode (Some [98%N]) (Some [2%N]) 1 0);
   Some (ENode (Some [98%N]) None (-9223372036854775808) 1)].

Lemma hostile_plain_now_errors (H : bytes -> bytes) :
  imp_run H 1 hostile_negative_version = IErr /\ imp_run H 1 hostile_negative_inner = IErr.
Proof. vm_compute. auto. Qed.

(** ** Compress importer *)
Lemma delta_decode_no_panic key last : delta_decode key last <> IPanic.
Proof.
  unfold delta_decode. destruct (uvarint_dec (key_bytes key)) as [[shared c]|]; [|discriminate].
  destruct (shared =? 0)%N; [discriminate|].
  destruct (N.of_nat (length last) <? shared)%N; discriminate.
Qed.

Lemma cimp_step_no_panic st n : cimp_step st n <> IPanic.
Proof.
  unfold cimp_step. destruct (e_height n =? 0).
  - apply ibind_no_panic; [apply delta_decode_no_panic|discriminate].
  - destruct (ci_minkeys st) as [|k mks]; [cbn; discriminate|].
    destruct (ci_vers st) as [|a [|b rest]]; cbn [length Nat.ltb Nat.leb orb]; discriminate.
Qed.

Lemma cimp_add_no_panic st on : cimp_add st on <> IPanic.
Proof. destruct on as [n|]; cbn [cimp_add]; [apply cimp_step_no_panic|discriminate]. Qed.

Theorem decompress_total : forall l, decompress l <> IPanic.
Proof.
  unfold decompress. generalize cimp_init. intros st l. revert st.
  induction l as [|c l IH]; intros st; cbn [decompress_from]; [discriminate|].
  apply ibind_no_panic; [apply cimp_step_no_panic|intros [st' n]].
  apply ibind_no_panic; [apply IH|discriminate].
Qed.

Lemma cimp_adds_no_panic H : forall stream cs st, cimp_adds H cs st stream <> IPanic.
Proof.
  induction stream as [|on rest IH]; intros cs st; cbn [cimp_adds]; [discriminate|].
  apply ibind_no_panic; [apply cimp_add_no_panic|intros [cs' n]].
  apply ibind_no_panic; [apply imp_add_no_panic|apply IH].
Qed.

Theorem compress_importer_total_gen H v stream :
  v < max_nonces_len -> cimp_run H v stream <> IPanic.
Proof.
  intros B. unfold cimp_run. apply ibind_no_panic; [apply imp_new_no_panic, B|intros st0].
  apply ibind_no_panic; [apply cimp_adds_no_panic|apply imp_commit_no_panic].
Qed.

Theorem compress_importer_total H v stream :
  0 <= v < max_nonces_len -> cimp_run H v stream <> IPanic.
Proof. intros B. apply compress_importer_total_gen. lia. Qed.

(** The streams that used to panic the compress importer are now errors:
    (a) an inner node first, (b) one leaf then an inner node, (c) a shared-prefix length
    beyond the previous key, (d) a nil node. *)
Definition hostile_compress_inner_first : list cnode := [ENode None None 0 1].
Definition hostile_compress_one_leaf : list cnode :=
  [ENode (Some [0%N; 97%N]) (Some [1%N]) 1 0; ENode None None 0 1].
Definition hostile_compress_shared : list cnode := [ENode (Some [5%N; 97%N]) (Some [1%N]) 1 0].

Lemma hostile_compress_now_errors (H : bytes -> bytes) :
  decompress hostile_compress_inner_first = IErr /\
  decompress hostile_compress_one_leaf = IErr /\
  decompress hostile_compress_shared = IErr /\
  cimp_run H 1 (map Some hostile_compress_inner_first) = IErr /\
  cimp_run H 1 (map Some hostile_compress_one_leaf) = IErr /\
  cimp_run H 1 (map Some hostile_compress_shared) = IErr /\
  cimp_run H 1 [None] = IErr.
Proof. vm_compute. auto 10. Qed.

(** Still unguarded (not part of the importer property): the compress EXPORTER indexes its
    version stack unchecked; harmless behind the real exporter (compress_roundtrip), a
    panic behind any other NodeExporter. *)
Theorem compress_panics_refuted : compress [ENode (Some [97%N]) None 1 1] = IPanic.
Proof. vm_compute. reflexivity. Qed.

(** * 5. Errors expose nothing: only a successful Commit makes a root visible *)
Section SessionFacts.
  Variable H : bytes -> bytes.

  Theorem import_error_no_effect s o :
    snd (sess_step H s o) = IErr -> fst (sess_step H s o) = s.
  Proof.
    destruct o as [n| |]; cbn [sess_step].
    - destruct (imp_add H (s_imp s) n); cbn [fst snd]; intros E; try discriminate; reflexivity.
    - destruct (imp_commit H (s_imp s)); cbn [fst snd]; intros E; try discriminate; reflexivity.
    - cbn [snd]. discriminate.
  Qed.

  Theorem visible_only_by_commit s o :
    s_visible (fst (sess_step H s o)) = s_visible s \/
    (o = ICommit /\ exists r, imp_commit H (s_imp s) = IOk r /\
                              s_visible (fst (sess_step H s o)) = Some r /\
                              i_closed (s_imp (fst (sess_step H s o))) = true).
  Proof.
    destruct o as [n| |]; cbn [sess_step].
    - left. destruct (imp_add H (s_imp s) n); reflexivity.
    - destruct (imp_commit H (s_imp s)) as [r| |]; cbn [fst s_visible]; auto.
      right. split; [reflexivity|]. exists r. auto.
    - left. reflexivity.
  Qed.

  Theorem closed_importer_rejects s o :
    i_closed (s_imp s) = true -> o <> IClose ->
    sess_step H s o = (s, IErr).
  Proof.
    intros C N. destruct o as [n| |]; cbn [sess_step]; [| |congruence].
    - unfold imp_add. rewrite C. reflexivity.
    - unfold imp_commit. rewrite C. reflexivity.
  Qed.

  Theorem no_commit_nothing_visible : forall ops s,
    ~ In ICommit ops -> s_visible (fst (sess_run H s ops)) = s_visible s.
  Proof.
    induction ops as [|o rest IH]; intros s N; [reflexivity|].
    cbn [sess_run].
    assert (No : o <> ICommit) by (intros ->; apply N; left; reflexivity).
    assert (Nr : ~ In ICommit rest) by (intros I; apply N; right; exact I).
    destruct (visible_only_by_commit s o) as [E | (E & _)]; [|contradiction].
    destruct (sess_step H s o) as [s' x]. cbn [fst] in E.
    destruct x; [| |cbn [fst]; exact E];
      (specialize (IH s' Nr); destruct (sess_run H s' rest) as [s'' xs]; cbn [fst] in *; congruence).
  Qed.

  (** the whole-run view: a run that fails returns no root (by the type of [ires]), and a
      root is returned exactly when Commit returned it *)
  Theorem imp_run_root_from_commit v stream r :
    imp_run H v stream = IOk r ->
    exists st0 st, imp_new 0 true v = IOk st0 /\ imp_adds H st0 stream = IOk st /\
                   imp_commit H st = IOk r.
  Proof.
    unfold imp_run. destruct (imp_new 0 true v) as [st0| |]; cbn [ibind]; try discriminate.
    destruct (imp_adds H st0 stream) as [st| |] eqn:A; cbn [ibind]; try discriminate.
    intros C. exists st0, st. auto.
  Qed.
End SessionFacts.
