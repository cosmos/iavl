(** Proofs about the node cache model (NodeCache.v): the cache is transparent.

    Invariant chosen.  [coherent d b c]: every cached [(k, v)] (membership in the list) whose key
    reads a NODE record, with the [(w,1) -> (w,0)] fall-back, in [dapply_all d b] - the disk ONCE THE
    PENDING BATCH IS WRITTEN - reads the value [v] there.  Cached entries whose key holds a root
    record (SaveRoot / SaveEmptyRoot) or nothing are stale and unconstrained.  [cinv st] adds that the disk is sorted
    ([mdel] stops at the first greater key) and that the cached keys are pairwise distinct (the
    [dict] of cache.go).  A committed or uncommitted write changes the virtual disk at the moment it
    enters the batch, so [Commit] / a flush preserves [coherent] trivially and every write has to
    re-establish it on its own: [SaveNode] does so by REPLACING the cached value.

    Side conditions (each has a refutation at the end of the file):
    - [CGet k]: the pending batch does not change the node [k] reads ([GetNode] does not see the
      batch); [drun_ok] also demands that the record read is not a root record (the proofs do not
      use it: it makes the model's answer for that read - an error - irrelevant);
    - [CSave k v]: [snd k <> 0] (a save under [(w,0)] changes what a stale cached [(w,1)] falls
      back to);
    - [CRekey w]: as [CGet (w,1)], and no cached copy under [(w,0)] other than the node read
      ([saveNodeFromPruning] does not touch the cache);
    - [CSaveRoot k r]: [r] is not a node record;
    - [CDel (w,1)]: not both [(w,1)] and a node [(w,0)] stored with different values. *)
From Coq Require Import Lia.
From IAVL Require Import Bytes Varint ListFacts Tree VMap TreeFacts MTree MTreeFacts HashFacts VersionFacts Store StoreFacts NodeCache.
Local Open Scope Z_scope.

Section Facts.
  Variable V : Type.
  Variable is_node : V -> bool.
  Notation lru := (lru V).
  Notation cstate := (cstate V).
  Notation kv := ((Z * Z) * V)%type.
  Notation nget := (NodeCache.nget is_node).
  Notation get_node := (NodeCache.get_node is_node).
  Notation rekey := (NodeCache.rekey is_node).
  Notation cstep := (NodeCache.cstep is_node).
  Notation crun := (NodeCache.crun is_node).
  Notation dstep := (NodeCache.dstep is_node).
  Notation drun := (NodeCache.drun is_node).

  (** ** The LRU list is a partial map of at most [cap] distinct keys *)
  Definition lru_wf (c : lru) : Prop := NoDup (map fst c).

  Lemma lru_find_In k v (c : lru) : lru_find k c = Some v -> In (k, v) c.
  Proof.
    induction c as [|[k1 v1] r IH]; cbn [lru_find]; [discriminate|].
    destruct (keqb k k1) eqn:E.
    - apply keqb_true in E. subst k1. intros Q. inversion Q; subst. left. reflexivity.
    - intros Q. right. exact (IH Q).
  Qed.

  Lemma lru_find_None k (c : lru) : lru_find k c = None <-> ~ In k (map fst c).
  Proof.
    induction c as [|[k1 v1] r IH]; cbn [lru_find map fst In]; [tauto|].
    destruct (keqb k k1) eqn:E.
    - apply keqb_true in E. intuition congruence.
    - apply keqb_false in E. rewrite IH. intuition congruence.
  Qed.

  Lemma In_keys k v (c : lru) : In (k, v) c -> In k (map fst c).
  Proof. intros HI. apply in_map_iff. exists (k, v). split; [reflexivity|exact HI]. Qed.

  Lemma In_lru_find k v (c : lru) : lru_wf c -> In (k, v) c -> lru_find k c = Some v.
  Proof.
    unfold lru_wf. induction c as [|[k1 v1] r IH]; cbn [lru_find map fst In]; intros ND HI; [contradiction|].
    inversion ND as [|x xs N1 N2]; subst. destruct HI as [Q|HI].
    - inversion Q; subst. rewrite keqb_refl. reflexivity.
    - destruct (keqb k k1) eqn:E.
      + apply keqb_true in E. subst k1. exfalso. apply N1. exact (In_keys _ _ _ HI).
      + exact (IH N2 HI).
  Qed.

  Lemma In_lru_remove p k (c : lru) : In p (lru_remove k c) -> In p c.
  Proof.
    induction c as [|[k1 v1] r IH]; cbn [lru_remove]; [tauto|].
    destruct (keqb k k1); cbn [In]; tauto.
  Qed.

  Lemma In_lru_remove_other p k (c : lru) : fst p <> k -> In p c -> In p (lru_remove k c).
  Proof.
    intros N. induction c as [|[k1 v1] r IH]; cbn [lru_remove In]; [tauto|].
    destruct (keqb k k1) eqn:E.
    - apply keqb_true in E. subst k1. intros [Q|Q]; [subst p; contradiction|exact Q].
    - cbn [In]. tauto.
  Qed.

  Lemma lru_remove_keys_sub x k (c : lru) : In x (map fst (lru_remove k c)) -> In x (map fst c).
  Proof.
    intros HI. apply in_map_iff in HI. destruct HI as [p [E HI]]. apply in_map_iff. exists p.
    split; [exact E|exact (In_lru_remove _ _ _ HI)].
  Qed.

  Lemma lru_remove_wf k (c : lru) : lru_wf c -> lru_wf (lru_remove k c).
  Proof.
    unfold lru_wf. induction c as [|[k1 v1] r IH]; cbn [lru_remove map fst]; intros ND; [exact ND|].
    inversion ND as [|x xs N1 N2]; subst. destruct (keqb k k1); [exact N2|].
    cbn [map fst]. constructor; [|exact (IH N2)]. intros HI. apply N1. exact (lru_remove_keys_sub _ _ _ HI).
  Qed.

  Lemma lru_remove_key_gone k (c : lru) : lru_wf c -> ~ In k (map fst (lru_remove k c)).
  Proof.
    unfold lru_wf. induction c as [|[k1 v1] r IH]; cbn [lru_remove map fst]; intros ND; [tauto|].
    inversion ND as [|x xs N1 N2]; subst. destruct (keqb k k1) eqn:E.
    - apply keqb_true in E. subst k1. exact N1.
    - apply keqb_false in E. cbn [map fst In]. specialize (IH N2). intuition congruence.
  Qed.

  Lemma lru_remove_length k v (c : lru) :
    lru_find k c = Some v -> S (length (lru_remove k c)) = length c.
  Proof.
    induction c as [|[k1 v1] r IH]; cbn [lru_find lru_remove]; [discriminate|].
    destruct (keqb k k1); intros Q; cbn [length]; [reflexivity|]. rewrite (IH Q). reflexivity.
  Qed.

  Lemma lru_remove_absent k (c : lru) : lru_find k c = None -> lru_remove k c = c.
  Proof.
    induction c as [|[k1 v1] r IH]; cbn [lru_find lru_remove]; [reflexivity|].
    destruct (keqb k k1); [discriminate|]. intros Q. rewrite (IH Q). reflexivity.
  Qed.

  Lemma lru_get_fst k (c : lru) : fst (lru_get k c) = lru_find k c.
  Proof. unfold lru_get. destruct (lru_find k c); reflexivity. Qed.

  Theorem lru_get_spec k (c : lru) :
    (forall v, fst (lru_get k c) = Some v -> In (k, v) c) /\
    (fst (lru_get k c) = None <-> ~ In k (map fst c)) /\
    (forall p, In p (snd (lru_get k c)) -> In p c) /\
    (lru_wf c -> forall p, In p c -> In p (snd (lru_get k c))) /\
    length (snd (lru_get k c)) = length c.
  Proof.
    rewrite lru_get_fst. split; [|split; [|split; [|split]]].
    - intros v. apply lru_find_In.
    - apply lru_find_None.
    - unfold lru_get. destruct (lru_find k c) as [v|] eqn:F; cbn [snd]; [|tauto].
      intros p [Q|Q]; [subst p; exact (lru_find_In _ _ _ F)|exact (In_lru_remove _ _ _ Q)].
    - intros W. unfold lru_get. destruct (lru_find k c) as [v|] eqn:F; cbn [snd]; [|tauto].
      intros [k2 v2] HI. destruct (keqb k2 k) eqn:E.
      + apply keqb_true in E. subst k2. rewrite (In_lru_find _ _ _ W HI) in F. inversion F; subst.
        left. reflexivity.
      + apply keqb_false in E. right. apply In_lru_remove_other; [exact E|exact HI].
    - unfold lru_get. destruct (lru_find k c) as [v|] eqn:F; cbn [snd length]; [|reflexivity].
      exact (lru_remove_length _ _ _ F).
  Qed.

  Lemma lru_get_In k (c : lru) p : In p (snd (lru_get k c)) -> In p c.
  Proof. apply (lru_get_spec k c). Qed.

  Lemma lru_front_wf k v (c : lru) : lru_wf c -> lru_wf ((k, v) :: lru_remove k c).
  Proof.
    intros W. unfold lru_wf. cbn [map fst].
    constructor; [exact (lru_remove_key_gone _ _ W)|exact (lru_remove_wf _ _ W)].
  Qed.

  Lemma lru_get_wf k (c : lru) : lru_wf c -> lru_wf (snd (lru_get k c)).
  Proof.
    intros W. unfold lru_get. destruct (lru_find k c) as [v|] eqn:F; cbn [snd]; [|exact W].
    exact (lru_front_wf _ _ _ W).
  Qed.

  Lemma lru_add_shape cap k v (c : lru) :
    exists t, (k, v) :: lru_remove k c = lru_add cap k v c ++ t.
  Proof.
    unfold lru_add, lru_has. destruct (lru_find k c) as [v0|] eqn:F.
    - exists []. rewrite app_nil_r. reflexivity.
    - rewrite (lru_remove_absent _ _ F). destruct (Nat.ltb cap (length ((k, v) :: c))).
      + exists [last ((k, v) :: c) (k, v)]. apply app_removelast_last. discriminate.
      + exists []. rewrite app_nil_r. reflexivity.
  Qed.

  Lemma lru_add_In cap k v (c : lru) k2 v2 :
    lru_wf c -> In (k2, v2) (lru_add cap k v c) ->
    (k2 = k /\ v2 = v) \/ (k2 <> k /\ In (k2, v2) c).
  Proof.
    intros W HI. destruct (lru_add_shape cap k v c) as [t E].
    assert (HI' : In (k2, v2) ((k, v) :: lru_remove k c)).
    { rewrite E. apply in_or_app. left. exact HI. }
    destruct HI' as [Q|Q]; [inversion Q; subst; left; split; reflexivity|]. right. split.
    - intros ->. exact (lru_remove_key_gone _ _ W (In_keys _ _ _ Q)).
    - exact (In_lru_remove _ _ _ Q).
  Qed.

  Theorem lru_nodup_keys cap k v (c : lru) :
    lru_wf c -> lru_wf (lru_add cap k v c) /\ lru_wf (snd (lru_get k c)) /\ lru_wf (lru_remove k c).
  Proof.
    intros W. split; [|split; [exact (lru_get_wf _ _ W)|exact (lru_remove_wf _ _ W)]].
    destruct (lru_add_shape cap k v c) as [t E]. pose proof (lru_front_wf k v c W) as WX.
    unfold lru_wf in *. rewrite E, map_app in WX. exact (NoDup_app_l _ _ WX).
  Qed.

  Lemma lru_add_wf cap k v (c : lru) : lru_wf c -> lru_wf (lru_add cap k v c).
  Proof. intros W. apply (lru_nodup_keys cap k v c W). Qed.

  Theorem lru_length_le_cap cap k v (c : lru) :
    (length c <= cap)%nat ->
    (length (lru_add cap k v c) <= cap)%nat /\ (length (snd (lru_get k c)) <= cap)%nat /\
    (length (lru_remove k c) <= cap)%nat.
  Proof.
    intros L. split; [|split].
    - unfold lru_add, lru_has. destruct (lru_find k c) as [v0|] eqn:F.
      + cbn [length]. rewrite (lru_remove_length _ _ _ F). exact L.
      + destruct (Nat.ltb cap (length ((k, v) :: c))) eqn:E.
        * rewrite removelast_firstn_len, firstn_length. cbn [length pred]. lia.
        * apply Nat.ltb_ge in E. exact E.
    - destruct (lru_get_spec k c) as [_ [_ [_ [_ E]]]]. rewrite E. exact L.
    - destruct (lru_find k c) as [v0|] eqn:F.
      + pose proof (lru_remove_length _ _ _ F). lia.
      + rewrite (lru_remove_absent _ _ F). exact L.
  Qed.

  Theorem lru_add_get cap k v (c : lru) :
    (0 < cap)%nat -> fst (lru_get k (lru_add cap k v c)) = Some v.
  Proof.
    intros P. rewrite lru_get_fst. unfold lru_add, lru_has. destruct (lru_find k c) as [v0|] eqn:F.
    - cbn [lru_find]. rewrite keqb_refl. reflexivity.
    - destruct (Nat.ltb cap (length ((k, v) :: c))) eqn:E.
      + apply Nat.ltb_lt in E. cbn [length] in E. destruct c as [|p r]; [cbn [length] in E; lia|].
        change (removelast ((k, v) :: p :: r)) with ((k, v) :: removelast (p :: r)).
        cbn [lru_find]. rewrite keqb_refl. reflexivity.
      + cbn [lru_find]. rewrite keqb_refl. reflexivity.
  Qed.

  Lemma lru_add_get_cap0 k v : lru_add 0 k v ([] : lru) = [].
  Proof. reflexivity. Qed.

  Lemma lru_add_find_other cap k v (c : lru) k2 :
    lru_wf c -> k2 <> k ->
    lru_find k2 (lru_add cap k v c) = lru_find k2 c \/ lru_find k2 (lru_add cap k v c) = None.
  Proof.
    intros W N. destruct (lru_find k2 (lru_add cap k v c)) as [x|] eqn:F; [|right; reflexivity].
    left. apply lru_find_In in F. apply (lru_add_In _ _ _ _ _ _ W) in F. destruct F as [[Q _]|[_ HI]].
    - contradiction.
    - symmetry. exact (In_lru_find _ _ _ W HI).
  Qed.

  Lemma lru_add_find_same cap k v (c : lru) :
    lru_wf c -> lru_find k (lru_add cap k v c) = Some v \/ lru_find k (lru_add cap k v c) = None.
  Proof.
    intros W. destruct (lru_find k (lru_add cap k v c)) as [x|] eqn:F; [|right; reflexivity].
    left. apply lru_find_In in F. apply (lru_add_In _ _ _ _ _ _ W) in F. destruct F as [[_ Q]|[Q _]].
    - subst x. reflexivity.
    - exfalso. apply Q. reflexivity.
  Qed.

  (** ** The store *)
  Lemma dapply_all_snoc (d : list kv) b o : dapply_all d (b ++ [o]) = dapply (dapply_all d b) o.
  Proof. unfold dapply_all. rewrite fold_left_app. reflexivity. Qed.

  Lemma msorted_dapply (d : list kv) o : msorted kcmp d -> msorted kcmp (dapply d o).
  Proof.
    intros S. destruct o as [k v|k]; cbn [dapply].
    - exact (msorted_mset kcmp kcmp_ok _ _ _ S).
    - exact (msorted_mdel kcmp _ _ S).
  Qed.

  Lemma msorted_dapply_all b : forall (d : list kv), msorted kcmp d -> msorted kcmp (dapply_all d b).
  Proof.
    induction b as [|o r IH]; intros d S; [exact S|]. unfold dapply_all. cbn [fold_left].
    apply IH. exact (msorted_dapply _ _ S).
  Qed.

  Lemma keqb_neq a b : a <> b -> keqb a b = false.
  Proof. apply keqb_false. Qed.

  Lemma dget_mset k v (d : list kv) k2 :
    dget (mset kcmp k v d) k2 =
      if keqb k2 k then Some v
      else if (snd k2 =? 1) && keqb (fst k2, 0) k
           then match mfind kcmp k2 d with Some a => Some a | None => Some v end
           else dget d k2.
  Proof.
    unfold dget. rewrite !mfind_mset_k. destruct (keqb k2 k); [reflexivity|].
    destruct (mfind kcmp k2 d), (snd k2 =? 1), (keqb (fst k2, 0) k); reflexivity.
  Qed.

  Lemma dget_mdel k (d : list kv) k2 :
    msorted kcmp d ->
    dget (mdel kcmp k d) k2 =
      if keqb k2 k then (if snd k =? 1 then mfind kcmp (fst k, 0) d else None)
      else if (snd k2 =? 1) && keqb (fst k2, 0) k then mfind kcmp k2 d
           else dget d k2.
  Proof.
    intros S. unfold dget. rewrite !(mfind_mdel_k _ _ _ S). destruct (keqb k2 k) eqn:E.
    - apply keqb_true in E. subst k2. destruct (snd k =? 1) eqn:E1; [|reflexivity].
      rewrite keqb_neq; [reflexivity|]. intros Q. rewrite <- Q in E1. discriminate.
    - destruct (mfind kcmp k2 d), (snd k2 =? 1), (keqb (fst k2, 0) k); reflexivity.
  Qed.

  Lemma dget_mset_same k v (d : list kv) : dget (mset kcmp k v d) k = Some v.
  Proof. rewrite dget_mset, keqb_refl. reflexivity. Qed.

  Lemma fallback_other k k2 : (snd k2 = 1 -> (fst k2, 0) <> k) -> (snd k2 =? 1) && keqb (fst k2, 0) k = false.
  Proof.
    intros N. destruct (snd k2 =? 1) eqn:E; [|reflexivity]. apply Z.eqb_eq in E. exact (keqb_neq _ _ (N E)).
  Qed.

  Lemma dget_mset_other k v (d : list kv) k2 :
    k2 <> k -> (snd k2 = 1 -> (fst k2, 0) <> k) -> dget (mset kcmp k v d) k2 = dget d k2.
  Proof. intros N1 N2. rewrite dget_mset, (keqb_neq _ _ N1), (fallback_other _ _ N2). reflexivity. Qed.

  Lemma dget_mdel_other k (d : list kv) k2 :
    msorted kcmp d -> k2 <> k -> (snd k2 = 1 -> (fst k2, 0) <> k) ->
    dget (mdel kcmp k d) k2 = dget d k2.
  Proof.
    intros S N1 N2. rewrite (dget_mdel _ _ _ S), (keqb_neq _ _ N1), (fallback_other _ _ N2). reflexivity.
  Qed.

  Lemma dget_mdel_sub k (d : list kv) k2 v' :
    msorted kcmp d -> k2 <> k -> dget (mdel kcmp k d) k2 = Some v' -> dget d k2 = Some v'.
  Proof.
    intros S N1. rewrite (dget_mdel _ _ _ S), (keqb_neq _ _ N1).
    destruct ((snd k2 =? 1) && keqb (fst k2, 0) k); [|tauto]. unfold dget. intros ->. reflexivity.
  Qed.

  Lemma dget_rekey w n (d : list kv) k2 : msorted kcmp d ->
    dget (mdel kcmp (w, 1) (mset kcmp (w, 0) n d)) k2 =
      if keqb k2 (w, 1) || keqb k2 (w, 0) then Some n else dget d k2.
  Proof.
    intros S. rewrite (dget_mdel _ _ _ (msorted_mset kcmp kcmp_ok (w, 0) n _ S)), mfind_mset_k, keqb_refl.
    destruct (keqb k2 (w, 1)) eqn:E1; [reflexivity|]. cbn [orb].
    rewrite fallback_other by (intros _; discriminate). rewrite dget_mset.
    destruct (keqb k2 (w, 0)); [reflexivity|]. rewrite fallback_other; [reflexivity|].
    intros Q1 Q. apply keqb_false in E1. apply E1. destruct k2 as [a b]. cbn [fst snd] in *. congruence.
  Qed.

  Lemma nget_Some (d : list kv) k v : nget d k = Some v <-> dget d k = Some v /\ is_node v = true.
  Proof.
    unfold NodeCache.nget. destruct (dget d k) as [x|]; [|split; [discriminate|intros [Q _]; discriminate]].
    destruct (is_node x) eqn:E; split.
    - intros Q. inversion Q; subst. split; [reflexivity|exact E].
    - intros [Q _]. exact Q.
    - discriminate.
    - intros [Q N]. inversion Q; subst. congruence.
  Qed.

  Lemma nget_ext (d1 d2 : list kv) k : dget d1 k = dget d2 k -> nget d1 k = nget d2 k.
  Proof. intros E. unfold NodeCache.nget. rewrite E. reflexivity. Qed.

  (** ** Coherence and its preservation *)
  Definition coherent (d : list kv) (b : list (cwop V)) (c : lru) : Prop :=
    forall k v, In (k, v) c -> forall v', nget (dapply_all d b) k = Some v' -> v' = v.

  Definition cinv (st : cstate) : Prop :=
    msorted kcmp (disk st) /\ lru_wf (cache st) /\ coherent (disk st) (batch st) (cache st).

  Lemma cinv_empty_cache (d : list kv) b : msorted kcmp d -> cinv (CState d b []).
  Proof.
    intros S. split; [exact S|]. split; [constructor|]. intros k v HI. destruct HI.
  Qed.

  Lemma get_node_forget cap k (st : cstate) : forget (snd (get_node cap k st)) = forget st.
  Proof.
    unfold NodeCache.get_node. destruct (lru_get k (cache st)) as [[v|] c']; [reflexivity|].
    destruct (nget (disk st) k); reflexivity.
  Qed.

  Lemma get_node_disk cap k (st : cstate) : disk (snd (get_node cap k st)) = disk st.
  Proof. exact (f_equal (@ddisk V) (get_node_forget cap k st)). Qed.

  Lemma get_node_batch cap k (st : cstate) : batch (snd (get_node cap k st)) = batch st.
  Proof. exact (f_equal (@dbatch V) (get_node_forget cap k st)). Qed.

  Lemma get_node_fst cap k (st : cstate) :
    fst (get_node cap k st) =
      match lru_find k (cache st) with Some v => Some v | None => nget (disk st) k end.
  Proof.
    unfold NodeCache.get_node, lru_get. destruct (lru_find k (cache st)) as [v|]; [reflexivity|].
    destruct (nget (disk st) k); reflexivity.
  Qed.

  (** the cache after GetNode: the answer is put in front under the requested key (on a hit,
      [lru_add] with the value already cached is the move to the front) *)
  Lemma get_node_cache cap k (st : cstate) :
    cache (snd (get_node cap k st)) =
      match fst (get_node cap k st) with
      | Some v => lru_add cap k v (cache st)
      | None => cache st
      end.
  Proof.
    unfold NodeCache.get_node, lru_get, lru_add, lru_has.
    destruct (lru_find k (cache st)) as [v|]; [reflexivity|]. destruct (nget (disk st) k); reflexivity.
  Qed.

  Lemma get_node_cache_In cap k (st : cstate) k2 v2 :
    lru_wf (cache st) -> In (k2, v2) (cache (snd (get_node cap k st))) ->
    In (k2, v2) (cache st) \/ (k2 = k /\ fst (get_node cap k st) = Some v2).
  Proof.
    intros W. rewrite get_node_cache. destruct (fst (get_node cap k st)) as [v|]; [|tauto].
    intros HI. apply (lru_add_In _ _ _ _ _ _ W) in HI. destruct HI as [[-> ->]|[_ HI]].
    - right. split; reflexivity.
    - left. exact HI.
  Qed.

  Lemma get_node_cache_wf cap k (st : cstate) :
    lru_wf (cache st) -> lru_wf (cache (snd (get_node cap k st))).
  Proof.
    intros W. rewrite get_node_cache.
    destruct (fst (get_node cap k st)); [exact (lru_add_wf _ _ _ _ W)|exact W].
  Qed.

  Lemma get_node_cache_length cap k (st : cstate) :
    (length (cache st) <= cap)%nat -> (length (cache (snd (get_node cap k st))) <= cap)%nat.
  Proof.
    intros L. rewrite get_node_cache.
    destruct (fst (get_node cap k st)) as [v|]; [exact (proj1 (lru_length_le_cap cap k v _ L))|exact L].
  Qed.

  Lemma get_node_cached_after cap k (st : cstate) n v2 :
    lru_wf (cache st) -> fst (get_node cap k st) = Some n ->
    In (k, v2) (cache (snd (get_node cap k st))) -> v2 = n.
  Proof.
    intros W A HI. rewrite get_node_cache, A in HI.
    apply (lru_add_In _ _ _ _ _ _ W) in HI. destruct HI as [[_ Q]|[Q _]]; [exact Q|contradiction].
  Qed.

  Lemma get_node_cinv cap k (st : cstate) :
    cinv st -> nget (disk st) k = nget (vdisk st) k -> cinv (snd (get_node cap k st)).
  Proof.
    intros [S [W C]] B. split; [rewrite get_node_disk; exact S|].
    split; [exact (get_node_cache_wf _ _ _ W)|].
    rewrite get_node_disk, get_node_batch. intros k2 v2 HI v' G.
    destruct (get_node_cache_In _ _ _ _ _ W HI) as [Q|[-> Q]].
    - exact (C _ _ Q _ G).
    - rewrite get_node_fst in Q. destruct (lru_find k (cache st)) as [x|] eqn:F.
      + inversion Q; subst. apply lru_find_In in F. exact (C _ _ F _ G).
      + unfold vdisk in B. rewrite B, G in Q. inversion Q. reflexivity.
  Qed.

  Lemma get_node_transparent cap k (st : cstate) v :
    cinv st -> nget (disk st) k = nget (vdisk st) k -> nget (disk st) k = Some v ->
    fst (get_node cap k st) = Some v.
  Proof.
    intros [S [W C]] B G. rewrite get_node_fst. destruct (lru_find k (cache st)) as [x|] eqn:F; [|exact G].
    apply lru_find_In in F. rewrite B in G. rewrite (C _ _ F _ G). reflexivity.
  Qed.

  Lemma get_node_absent cap k (st : cstate) :
    nget (disk st) k = None -> fst (get_node cap k st) = lru_find k (cache st).
  Proof. intros G. rewrite get_node_fst, G. destruct (lru_find k (cache st)); reflexivity. Qed.

  Definition step_ok (cap : nat) (st : cstate) (o : cop V) : Prop :=
    match o with
    | CGet k => nget (disk st) k = nget (vdisk st) k
    | CSave k _ => snd k <> 0
    | CSaveRoot _ r => is_node r = false
    | CRekey w =>
        nget (disk st) (w, 1) = nget (vdisk st) (w, 1) /\
        forall x, In ((w, 0), x) (cache st) -> fst (get_node cap (w, 1) st) = Some x
    | CDel k =>
        snd k = 1 -> forall a b,
          mfind kcmp k (vdisk st) = Some a -> mfind kcmp (fst k, 0) (vdisk st) = Some b ->
          is_node b = true -> a = b
    | CCommit => True
    end.

  Lemma save_node_cinv cap k v (st : cstate) : cinv st -> snd k <> 0 -> cinv (save_node cap k v st).
  Proof.
    intros [S [W C]] N. split; [exact S|]. split; [exact (lru_add_wf _ _ _ _ W)|].
    unfold save_node. cbn [disk batch cache]. intros k2 v2 HI v' G.
    rewrite dapply_all_snoc in G. cbn [dapply] in G.
    apply (lru_add_In _ _ _ _ _ _ W) in HI. destruct HI as [[-> ->]|[N2 HI]].
    - apply nget_Some in G. destruct G as [G _]. rewrite dget_mset_same in G. inversion G. reflexivity.
    - apply (C _ _ HI v'). rewrite <- G. symmetry. apply nget_ext, dget_mset_other; [exact N2|].
      intros _ Q. apply N. rewrite <- Q. reflexivity.
  Qed.

  (** SaveRoot / SaveEmptyRoot: a root record makes cached entries stale, never wrong *)
  Lemma save_root_cinv k r (st : cstate) :
    cinv st -> is_node r = false -> cinv (save_from_pruning k r st).
  Proof.
    intros [S [W C]] NR. split; [exact S|]. split; [exact W|].
    unfold save_from_pruning. cbn [disk batch cache]. intros k2 v2 HI v' G.
    rewrite dapply_all_snoc in G. cbn [dapply] in G. apply nget_Some in G. destruct G as [G N'].
    apply (C _ _ HI v'). apply nget_Some. split; [|exact N']. rewrite dget_mset in G.
    (* a read that sees the root record is not a node read *)
    destruct (keqb k2 k); [congruence|]. destruct ((snd k2 =? 1) && keqb (fst k2, 0) k); [|exact G].
    unfold dget. destruct (mfind kcmp k2 (dapply_all (disk st) (batch st))); [exact G|congruence].
  Qed.

  Lemma delete_cinv cap k (st : cstate) :
    cinv st -> step_ok cap st (CDel k) -> cinv (delete_from_pruning k st).
  Proof.
    intros [S [W C]] OK. split; [exact S|]. split; [exact W|].
    unfold delete_from_pruning. cbn [disk batch cache]. intros k2 v2 HI v' G.
    rewrite dapply_all_snoc in G. cbn [dapply] in G.
    pose proof (msorted_dapply_all (batch st) _ S) as SD. fold (vdisk st) in G, SD.
    specialize (C _ _ HI). fold (vdisk st) in C.
    apply nget_Some in G. destruct G as [G N']. apply C. apply nget_Some. split; [|exact N'].
    destruct (keqb k2 k) eqn:E.
    - apply keqb_true in E. subst k2. cbn [step_ok] in OK. rewrite (dget_mdel _ _ _ SD), keqb_refl in G.
      unfold dget. destruct (snd k =? 1) eqn:E1; [|discriminate]. apply Z.eqb_eq in E1.
      destruct (mfind kcmp k (vdisk st)) as [a|] eqn:F; [|exact G].
      rewrite (OK E1 a v' eq_refl G N'). reflexivity.
    - apply keqb_false in E. exact (dget_mdel_sub _ _ _ _ SD E G).
  Qed.

  Lemma commit_cinv (st : cstate) : cinv st -> cinv (commit st).
  Proof.
    intros [S [W C]]. split; [exact (msorted_dapply_all _ _ S)|]. split; [exact W|]. exact C.
  Qed.

  Lemma rekey_eq cap w (st : cstate) :
    rekey cap w st =
      (OGot (fst (get_node cap (w, 1) st)),
       match fst (get_node cap (w, 1) st) with
       | Some n => delete_from_pruning (w, 1) (save_from_pruning (w, 0) n (snd (get_node cap (w, 1) st)))
       | None => snd (get_node cap (w, 1) st)
       end).
  Proof. unfold NodeCache.rekey. destruct (get_node cap (w, 1) st) as [[n|] st1]; reflexivity. Qed.

  Lemma rekey_cinv cap w (st : cstate) :
    cinv st -> step_ok cap st (CRekey w) -> cinv (snd (rekey cap w st)).
  Proof.
    intros I [B Z0]. pose proof (get_node_cinv cap (w, 1) st I B) as I1.
    destruct I as [S [W C]]. rewrite rekey_eq. cbn [snd].
    destruct (fst (get_node cap (w, 1) st)) as [n|] eqn:GN; [|exact I1].
    destruct I1 as [S1 [W1 C1]]. split; [exact S1|]. split; [exact W1|].
    unfold delete_from_pruning, save_from_pruning. cbn [disk batch cache].
    intros k2 v2 HI v' G. rewrite !dapply_all_snoc in G. cbn [dapply] in G.
    apply nget_Some in G. destruct G as [G N'].
    rewrite (dget_rekey _ _ _ _ (msorted_dapply_all _ _ S1)) in G.
    destruct (keqb k2 (w, 1)) eqn:E1; [|destruct (keqb k2 (w, 0)) eqn:E0]; cbn [orb] in G.
    - (* what GetNode answered is what it left in the cache under [(w,1)] *)
      apply keqb_true in E1. subst k2. injection G as <-. symmetry.
      exact (get_node_cached_after cap (w, 1) st n v2 W GN HI).
    - (* the side condition on a cached [(w,0)] *)
      apply keqb_true in E0. subst k2. injection G as <-.
      destruct (get_node_cache_In _ _ _ _ _ W HI) as [Q|[Q _]]; [|congruence].
      specialize (Z0 _ Q). congruence.
    - apply (C1 _ _ HI v'), nget_Some. split; assumption.
  Qed.

  (** ** One step: its answer, its state, its cache *)
  Lemma cstep_get cap (st : cstate) k :
    cstep cap st (CGet k) = (OGot (fst (get_node cap k st)), snd (get_node cap k st)).
  Proof. unfold NodeCache.cstep. cbn [cstep_with]. destruct (get_node cap k st); reflexivity. Qed.

  Lemma cstep_cache cap (st : cstate) o :
    cache (snd (cstep cap st o)) =
      match o with
      | CGet k => cache (snd (get_node cap k st))
      | CSave k v => lru_add cap k v (cache st)
      | CRekey w => cache (snd (get_node cap (w, 1) st))
      | _ => cache st
      end.
  Proof.
    destruct o as [k|k v|k r|w|k|]; try reflexivity.
    - rewrite cstep_get. reflexivity.
    - change (cstep cap st (CRekey w)) with (rekey cap w st). rewrite rekey_eq. cbn [snd].
      destruct (fst (get_node cap (w, 1) st)); reflexivity.
  Qed.

  Theorem coherent_step cap (st : cstate) o :
    cinv st -> step_ok cap st o -> cinv (snd (cstep cap st o)).
  Proof.
    intros I OK. destruct o as [k|k v|k r|w|k|].
    - rewrite cstep_get. exact (get_node_cinv cap k st I OK).
    - exact (save_node_cinv cap k v st I OK).
    - exact (save_root_cinv k r st I OK).
    - exact (rekey_cinv cap w st I OK).
    - exact (delete_cinv cap k st I OK).
    - exact (commit_cinv st I).
  Qed.

  Lemma cstep_wf cap (st : cstate) o : lru_wf (cache st) -> lru_wf (cache (snd (cstep cap st o))).
  Proof.
    intros W. rewrite cstep_cache.
    destruct o; auto using get_node_cache_wf, lru_add_wf.
  Qed.

  Lemma cstep_length cap (st : cstate) o :
    (length (cache st) <= cap)%nat -> (length (cache (snd (cstep cap st o))) <= cap)%nat.
  Proof.
    intros L. rewrite cstep_cache.
    destruct o as [k|k v|k r|w|k|]; auto using get_node_cache_length.
    exact (proj1 (lru_length_le_cap cap k v _ L)).
  Qed.

  (** ** The runners *)
  Lemma crun_cons cap (st : cstate) o rest :
    crun cap st (o :: rest) =
      (fst (cstep cap st o) :: fst (crun cap (snd (cstep cap st o)) rest),
       snd (crun cap (snd (cstep cap st o)) rest)).
  Proof.
    unfold NodeCache.crun, NodeCache.cstep. cbn [crun_with].
    destruct (cstep_with is_node (save_node (V:=V)) cap st o) as [a st1].
    cbn [fst snd]. destruct (crun_with is_node (save_node (V:=V)) cap st1 rest) as [l st2]. reflexivity.
  Qed.

  Lemma drun_cons (d : dstate V) o rest :
    drun d (o :: rest) =
      (fst (dstep d o) :: fst (drun (snd (dstep d o)) rest), snd (drun (snd (dstep d o)) rest)).
  Proof.
    cbn [NodeCache.drun]. destruct (dstep d o) as [a d1]. cbn [fst snd].
    destruct (drun d1 rest) as [l d2]. reflexivity.
  Qed.

  Lemma crun_app cap a : forall (st : cstate) b,
    crun cap st (a ++ b) =
      (fst (crun cap st a) ++ fst (crun cap (snd (crun cap st a)) b),
       snd (crun cap (snd (crun cap st a)) b)).
  Proof.
    induction a as [|o r IH]; intros st b.
    - assert (E : crun cap st [] = ([], st)) by reflexivity. rewrite E. cbn [fst snd app].
      destruct (crun cap st b); reflexivity.
    - rewrite <- app_comm_cons, !crun_cons, IH. cbn [fst snd]. reflexivity.
  Qed.

  Lemma crun_snoc cap (st : cstate) ops o :
    crun cap st (ops ++ [o]) =
      (fst (crun cap st ops) ++ [fst (cstep cap (snd (crun cap st ops)) o)],
       snd (cstep cap (snd (crun cap st ops)) o)).
  Proof. rewrite crun_app, crun_cons. reflexivity. Qed.

  Lemma crun_invariant cap (I : cstate -> Prop) :
    (forall st o, I st -> I (snd (cstep cap st o))) ->
    forall ops st, I st -> I (snd (crun cap st ops)).
  Proof.
    intros Keep. induction ops as [|o r IH]; intros st Is; [exact Is|].
    rewrite crun_cons. cbn [snd]. apply IH, Keep, Is.
  Qed.

  Lemma crun_wf cap ops : forall (st : cstate),
    lru_wf (cache st) -> lru_wf (cache (snd (crun cap st ops))).
  Proof. apply (crun_invariant cap (fun st => lru_wf (cache st))). intros st o. apply cstep_wf. Qed.

  Lemma crun_length cap ops : forall (st : cstate),
    (length (cache st) <= cap)%nat -> (length (cache (snd (crun cap st ops))) <= cap)%nat.
  Proof.
    apply (crun_invariant cap (fun st => (length (cache st) <= cap)%nat)). intros st o.
    apply cstep_length.
  Qed.

  (** ** Transparency *)
  Variable eqV : V -> V -> bool.
  Hypothesis eqV_spec : forall a b, eqV a b = true <-> a = b.

  Lemma oeqb_true a b : oeqb eqV a b = true <-> a = b.
  Proof.
    destruct a as [x|], b as [y|]; cbn [oeqb]; try (split; [discriminate|congruence]).
    - rewrite eqV_spec. split; congruence.
    - tauto.
  Qed.

  Lemma batch_free_spec (st : cstate) k :
    batch_free eqV is_node (forget st) k = true <-> nget (disk st) k = nget (vdisk st) k.
  Proof. exact (oeqb_true _ _). Qed.

  Definition seen_inv (seen0 : list Z) (c : lru) : Prop :=
    forall k v, In (k, v) c -> snd k = 0 -> In (fst k) seen0.

  Lemma seen_inv_cached0 (c : lru) : seen_inv (cached0 c) c.
  Proof.
    intros k v HI E. unfold cached0. apply in_map_iff. exists (k, v). split; [reflexivity|].
    apply filter_In. split; [exact HI|]. cbn [fst snd]. apply Z.eqb_eq, E.
  Qed.

  (** what the cached run may answer where the cache-free run answers [d]: the same, except that
      a read that FAILS without the cache may succeed with it (a stale node) *)
  Definition out_refines (d c : cout V) : Prop :=
    match d with
    | OUnit => c = OUnit
    | OGot (Some v) => c = OGot (Some v)
    | OGot None => exists r, c = OGot r
    end.

  Lemma step_sim cap (st : cstate) seen0 o :
    cinv st -> seen_inv seen0 (cache st) -> dstep_ok eqV is_node seen0 (forget st) o = true ->
    step_ok cap st o /\
    forget (snd (cstep cap st o)) = snd (dstep (forget st) o) /\
    out_refines (fst (dstep (forget st) o)) (fst (cstep cap st o)) /\
    seen_inv (seen0_step seen0 o) (cache (snd (cstep cap st o))).
  Proof.
    intros I SI OK. pose proof I as [S [W C]].
    destruct o as [k|k v|k r|w|k|];
      cbn [NodeCache.dstep dstep_ok seen0_step step_ok] in *.
    -
      apply andb_true_iff in OK. destruct OK as [OK _]. apply batch_free_spec in OK.
      cbn [forget ddisk]. split; [exact OK|]. rewrite cstep_get. cbn [fst snd].
      split; [apply get_node_forget|]. split.
      + pose proof (get_node_transparent cap k st) as T.
        destruct (nget (disk st) k) as [v|]; cbn [out_refines].
        * rewrite (T v I OK eq_refl). reflexivity.
        * eexists. reflexivity.
      + intros k2 v2 HI E. destruct (get_node_cache_In _ _ _ _ _ W HI) as [Q|[-> _]].
        * specialize (SI _ _ Q E). destruct (snd k =? 0); [right; exact SI|exact SI].
        * rewrite E. cbn [Z.eqb]. left. reflexivity.
    -
      apply negb_true_iff, Z.eqb_neq in OK. split; [exact OK|]. split; [reflexivity|].
      split; [reflexivity|]. cbn [snd save_node cache]. intros k2 v2 HI E.
      apply (lru_add_In _ _ _ _ _ _ W) in HI. destruct HI as [[-> _]|[_ HI]]; [contradiction|].
      exact (SI _ _ HI E).
    -
      apply negb_true_iff in OK. split; [exact OK|]. split; [reflexivity|].
      split; [reflexivity|exact SI].
    -
      apply andb_true_iff in OK. destruct OK as [OK NS]. apply andb_true_iff in OK.
      destruct OK as [B R]. apply batch_free_spec in B. cbn [forget ddisk] in *.
      destruct (nget (disk st) (w, 1)) as [n|] eqn:G; [clear R|discriminate].
      assert (NI : forall x, ~ In ((w, 0), x) (cache st)).
      { intros x HI. specialize (SI _ _ HI eq_refl). cbn [fst] in SI.
        apply negb_true_iff in NS. assert (X : existsb (Z.eqb w) seen0 = true).
        { apply existsb_exists. exists w. split; [exact SI|apply Z.eqb_refl]. }
        congruence. }
      split; [split; [congruence|intros x HI; exfalso; exact (NI x HI)]|].
      assert (T : fst (get_node cap (w, 1) st) = Some n).
      { apply get_node_transparent; [exact I|congruence|exact G]. }
      change (cstep cap st (CRekey w)) with (rekey cap w st). rewrite rekey_eq, T. cbn [fst snd].
      split; [|split; [reflexivity|]].
      + unfold forget, delete_from_pruning, save_from_pruning. cbn [disk batch].
        rewrite get_node_disk, get_node_batch. reflexivity.
      + unfold delete_from_pruning, save_from_pruning. cbn [cache]. intros k2 v2 HI E.
        destruct (get_node_cache_In _ _ _ _ _ W HI) as [Q|[-> _]]; [exact (SI _ _ Q E)|discriminate].
    -
      split; [|split; [reflexivity|split; [reflexivity|exact SI]]].
      intros E1 a b Fa Fb Nb. cbn [forget] in OK.
      change (dvdisk (forget st)) with (vdisk st) in OK.
      rewrite (proj2 (Z.eqb_eq _ _) E1), Fa, Fb, Nb in OK. cbn [negb] in OK.
      rewrite orb_false_r in OK. apply eqV_spec, OK.
    -
      split; [exact Logic.I|]. split; [reflexivity|]. split; [reflexivity|exact SI].
  Qed.

  (** Main theorem.  For every capacity, every operation list whose CACHE-FREE run meets the
      executable side condition [drun_ok], from every coherent state (in particular from an empty
      cache): store and batch evolve exactly as without a cache, every read that succeeds without
      the cache gives the same node with it, and the final state is coherent again. *)
  Theorem cache_transparent cap ops : forall (st : cstate) seen0,
    cinv st -> seen_inv seen0 (cache st) -> drun_ok eqV is_node seen0 (forget st) ops = true ->
    forget (snd (crun cap st ops)) = snd (drun (forget st) ops) /\
    Forall2 out_refines (fst (drun (forget st) ops)) (fst (crun cap st ops)) /\
    cinv (snd (crun cap st ops)).
  Proof.
    induction ops as [|o r IH]; intros st seen0 I SI OK.
    - split; [reflexivity|]. split; [constructor|exact I].
    - cbn [drun_ok] in OK. apply andb_true_iff in OK. destruct OK as [OK1 OK2].
      destruct (step_sim cap st seen0 o I SI OK1) as [SO [F [R SI']]].
      pose proof (coherent_step cap st o I SO) as I'.
      rewrite <- F in OK2. destruct (IH _ _ I' SI' OK2) as [F2 [R2 I2]].
      rewrite crun_cons, drun_cons. cbn [fst snd]. rewrite <- F.
      split; [exact F2|]. split; [|exact I2]. constructor; [exact R|exact R2].
  Qed.

  Lemma Forall2_nth {A B : Type} (P : A -> B -> Prop) l1 : forall l2 i a,
    Forall2 P l1 l2 -> nth_error l1 i = Some a -> exists b, nth_error l2 i = Some b /\ P a b.
  Proof.
    induction l1 as [|x r IH]; intros l2 i a F E.
    - destruct i; discriminate.
    - inversion F as [|x' y r' r2 Pxy F']; subst. destruct i as [|i]; cbn [nth_error] in *.
      + inversion E; subst. exists y. split; [reflexivity|exact Pxy].
      + exact (IH _ _ _ F' E).
  Qed.

  Corollary cache_transparent_disk cap ops (st : cstate) seen0 :
    cinv st -> seen_inv seen0 (cache st) -> drun_ok eqV is_node seen0 (forget st) ops = true ->
    disk (snd (crun cap st ops)) = ddisk (snd (drun (forget st) ops)) /\
    batch (snd (crun cap st ops)) = dbatch (snd (drun (forget st) ops)).
  Proof.
    intros I SI OK. destruct (cache_transparent cap ops st seen0 I SI OK) as [F _].
    rewrite <- F. split; reflexivity.
  Qed.

  Corollary cache_transparent_read cap ops (st : cstate) seen0 i v :
    cinv st -> seen_inv seen0 (cache st) -> drun_ok eqV is_node seen0 (forget st) ops = true ->
    nth_error (fst (drun (forget st) ops)) i = Some (OGot (Some v)) ->
    nth_error (fst (crun cap st ops)) i = Some (OGot (Some v)).
  Proof.
    intros I SI OK E. destruct (cache_transparent cap ops st seen0 I SI OK) as [_ [R _]].
    destruct (Forall2_nth _ _ _ _ _ R E) as [b [Eb Pb]]. cbn [out_refines] in Pb. subst b. exact Eb.
  Qed.

  Definition all_found (l : list (cout V)) : Prop := Forall (fun a => a <> OGot None) l.

  Corollary cache_transparent_exact cap ops (st : cstate) seen0 :
    cinv st -> seen_inv seen0 (cache st) -> drun_ok eqV is_node seen0 (forget st) ops = true ->
    all_found (fst (drun (forget st) ops)) ->
    fst (crun cap st ops) = fst (drun (forget st) ops).
  Proof.
    intros I SI OK AF. destruct (cache_transparent cap ops st seen0 I SI OK) as [_ [R _]].
    revert AF. induction R as [|a b l1 l2 P R IH]; intros AF; [reflexivity|].
    inversion AF as [|x xs A1 A2]; subst. rewrite (IH A2). f_equal.
    destruct a as [|[v|]]; cbn [out_refines] in P; [exact P|exact P|]. exfalso. apply A1. reflexivity.
  Qed.

  Corollary cache_transparent_empty cap ops (d : list kv) b :
    msorted kcmp d -> drun_ok eqV is_node [] (DState d b) ops = true ->
    forget (snd (crun cap (CState d b []) ops)) = snd (drun (DState d b) ops) /\
    Forall2 out_refines (fst (drun (DState d b) ops)) (fst (crun cap (CState d b []) ops)).
  Proof.
    intros S OK.
    destruct (cache_transparent cap ops (CState d b []) [] (cinv_empty_cache d b S)) as [F [R _]].
    - intros k v HI. destruct HI.
    - exact OK.
    - split; [exact F|exact R].
  Qed.

  Corollary cache_size_irrelevant cap1 cap2 ops (st1 st2 : cstate) seen0 :
    cinv st1 -> cinv st2 -> forget st1 = forget st2 ->
    seen_inv seen0 (cache st1) -> seen_inv seen0 (cache st2) ->
    drun_ok eqV is_node seen0 (forget st1) ops = true ->
    forget (snd (crun cap1 st1 ops)) = forget (snd (crun cap2 st2 ops)) /\
    forall i v, nth_error (fst (drun (forget st1) ops)) i = Some (OGot (Some v)) ->
      nth_error (fst (crun cap1 st1 ops)) i = Some (OGot (Some v)) /\
      nth_error (fst (crun cap2 st2 ops)) i = Some (OGot (Some v)).
  Proof.
    intros I1 I2 E SI1 SI2 OK. pose proof OK as OK2. rewrite E in OK2.
    destruct (cache_transparent cap1 ops st1 seen0 I1 SI1 OK) as [F1 _].
    destruct (cache_transparent cap2 ops st2 seen0 I2 SI2 OK2) as [F2 _].
    split; [rewrite F1, F2, E; reflexivity|]. intros i v N. split.
    - exact (cache_transparent_read cap1 ops st1 seen0 i v I1 SI1 OK N).
    - rewrite E in N. exact (cache_transparent_read cap2 ops st2 seen0 i v I2 SI2 OK2 N).
  Qed.

  Corollary cache_size_irrelevant_exact cap1 cap2 ops (d : list kv) b :
    msorted kcmp d -> drun_ok eqV is_node [] (DState d b) ops = true ->
    all_found (fst (drun (DState d b) ops)) ->
    fst (crun cap1 (CState d b []) ops) = fst (crun cap2 (CState d b []) ops).
  Proof.
    intros S OK AF.
    assert (SI : seen_inv [] (cache (CState d b []))) by (intros k v HI; destruct HI).
    rewrite (cache_transparent_exact cap1 ops (CState d b []) [] (cinv_empty_cache d b S) SI OK AF).
    rewrite (cache_transparent_exact cap2 ops (CState d b []) [] (cinv_empty_cache d b S) SI OK AF).
    reflexivity.
  Qed.

  (** ** The checker *)
  Theorem coherentb_spec (d : list kv) (c : lru) : coherentb eqV is_node d c = true <-> coherent d [] c.
  Proof.
    unfold coherentb, coherent. rewrite forallb_forall. cbn [dapply_all fold_left]. split.
    - intros A k v HI v' G. specialize (A (k, v) HI). cbn [fst snd] in A. rewrite G in A.
      apply eqV_spec, A.
    - intros C [k v] HI. cbn [fst snd]. destruct (nget d k) as [v'|] eqn:G; [|reflexivity].
      apply eqV_spec. exact (C _ _ HI _ G).
  Qed.

  Lemma incoherent_entries_spec (d : list kv) (c : lru) :
    incoherent_entries eqV is_node d c = [] <-> coherentb eqV is_node d c = true.
  Proof.
    unfold incoherent_entries, coherentb. induction c as [|p r IH]; cbn [filter forallb]; [tauto|].
    destruct (nget d (fst p)) as [v'|].
    - destruct (eqV v' (snd p)); cbn [negb andb]; [exact IH|]. split; discriminate.
    - cbn [andb]. exact IH.
  Qed.

  Lemma stale_keys_spec (d : list kv) (c : lru) k :
    In k (stale_keys is_node d c) <-> exists v, In (k, v) c /\ nget d k = None.
  Proof.
    unfold stale_keys. rewrite in_map_iff. split.
    - intros [[k' v] [E HI]]. cbn [fst] in E. subst k'. apply filter_In in HI. destruct HI as [HI G].
      cbn [fst] in G. exists v. split; [exact HI|]. destruct (nget d k); [discriminate|reflexivity].
    - intros [v [HI G]]. exists (k, v). split; [reflexivity|]. apply filter_In. split; [exact HI|].
      cbn [fst]. rewrite G. reflexivity.
  Qed.

  Corollary coherentb_after_commit cap ops (st : cstate) seen0 :
    cinv st -> seen_inv seen0 (cache st) -> drun_ok eqV is_node seen0 (forget st) (ops ++ [CCommit]) = true ->
    let st' := snd (crun cap st (ops ++ [CCommit])) in coherentb eqV is_node (disk st') (cache st') = true.
  Proof.
    intros I SI OK st'. destruct (cache_transparent cap _ st seen0 I SI OK) as [_ [_ [_ [_ C]]]].
    apply coherentb_spec. unfold st'. rewrite crun_snoc in *. exact C.
  Qed.

  (** ** Rollback and re-commit under reused keys.
      No coherence is needed for this one: from ANY state (any stale cache, any pending batch),
      after any operations [pre] (e.g. the deletions of a rollback and their commit), once the new
      nodes are saved under their - possibly reused - keys and committed, GetNode returns the NEW
      node, for every capacity.  This is exactly where [lru_add] replacing the value matters. *)
  Definition save_ops (news : list kv) : list (cop V) := map (fun p => CSave (fst p) (snd p)) news.

  Definition fresh (st : cstate) (k : Z * Z) (v : V) : Prop :=
    (lru_find k (cache st) = Some v \/ lru_find k (cache st) = None) /\
    mfind kcmp k (vdisk st) = Some v.

  Lemma save_fresh cap k v (st : cstate) : lru_wf (cache st) -> fresh (save_node cap k v st) k v.
  Proof.
    intros W. split.
    - exact (lru_add_find_same cap k v _ W).
    - unfold vdisk, save_node. cbn [disk batch]. rewrite dapply_all_snoc. cbn [dapply].
      rewrite mfind_mset_k, keqb_refl. reflexivity.
  Qed.

  Lemma save_fresh_other cap k v (st : cstate) k2 v2 :
    lru_wf (cache st) -> k2 <> k -> fresh st k2 v2 -> fresh (save_node cap k v st) k2 v2.
  Proof.
    intros W N [A B]. split.
    - cbn [save_node cache].
      destruct (lru_add_find_other cap k v (cache st) k2 W N) as [E|E]; rewrite E; [exact A|right; reflexivity].
    - unfold vdisk, save_node. cbn [disk batch]. rewrite dapply_all_snoc. cbn [dapply].
      rewrite mfind_mset_k, (keqb_neq _ _ N). exact B.
  Qed.

  Lemma run_saves_keep cap k v news : forall (st : cstate),
    lru_wf (cache st) -> ~ In k (map fst news) -> fresh st k v ->
    fresh (snd (crun cap st (save_ops news))) k v.
  Proof.
    induction news as [|[k1 v1] r IH]; intros st W NI F; [exact F|].
    cbn [save_ops map fst snd In] in *. rewrite crun_cons. cbn [snd].
    change (snd (cstep cap st (CSave k1 v1))) with (save_node cap k1 v1 st).
    apply IH; [exact (lru_add_wf _ _ _ _ W)|tauto|].
    apply save_fresh_other; [exact W|intuition congruence|exact F].
  Qed.

  Lemma run_saves cap news k v (st : cstate) :
    lru_wf (cache st) -> NoDup (map fst news) -> In (k, v) news ->
    fresh (snd (crun cap st (save_ops news))) k v.
  Proof.
    intros W ND HI. apply in_split in HI. destruct HI as (a & b & ->).
    rewrite map_app in ND. apply NoDup_remove_2 in ND.
    replace (save_ops (a ++ (k, v) :: b)) with (save_ops a ++ CSave k v :: save_ops b)
      by (symmetry; apply map_app).
    rewrite crun_app, crun_cons. cbn [snd]. pose proof (crun_wf cap (save_ops a) st W) as W1.
    apply run_saves_keep; [exact (lru_add_wf _ _ _ _ W1)| |exact (save_fresh _ _ _ _ W1)].
    intros HI. apply ND, in_or_app. right. exact HI.
  Qed.

  Theorem recommit_reads_new cap (st : cstate) pre news k v :
    lru_wf (cache st) -> NoDup (map fst news) -> In (k, v) news -> is_node v = true ->
    last (fst (crun cap st (pre ++ save_ops news ++ [CCommit; CGet k]))) OUnit = OGot (Some v).
  Proof.
    intros W ND HI NV.
    change [CCommit; CGet k] with ([@CCommit V] ++ [CGet k]). rewrite !app_assoc, crun_snoc.
    cbn [fst]. rewrite last_last, crun_snoc, cstep_get, get_node_fst. cbn [fst snd].
    rewrite crun_app. cbn [snd].
    pose proof (crun_wf cap pre st W) as W1. set (st1 := snd (crun cap st pre)) in *.
    destruct (run_saves cap news k v st1 W1 ND HI) as [[F|F] B].
    - cbn [cstep cstep_with snd commit cache]. rewrite F. reflexivity.
    - cbn [cstep cstep_with snd commit cache disk]. rewrite F. f_equal. apply nget_Some.
      split; [|exact NV]. unfold dget. unfold vdisk in B. rewrite B. reflexivity.
  Qed.

  (** the scenario as an operation list: delete every key of the versions above [v] (whatever
      [dels] is), commit, save the new nodes under reused keys, commit, read *)
  Corollary rollback_recommit cap (st : cstate) dels news k v :
    lru_wf (cache st) -> NoDup (map fst news) -> In (k, v) news -> is_node v = true ->
    last (fst (crun cap st (map (@CDel V) dels ++ [CCommit] ++ save_ops news ++ [CCommit; CGet k])))
         OUnit = OGot (Some v).
  Proof. intros W ND HI NV. rewrite app_assoc. apply recommit_reads_new; assumption. Qed.
End Facts.

Arguments lru_wf {V} c.
Arguments coherent {V} is_node d b c.
Arguments cinv {V} is_node st.
Arguments step_ok {V} is_node cap st o.
Arguments seen_inv {V} seen0 c.
Arguments out_refines {V} d c.
Arguments all_found {V} l.
Arguments save_ops {V} news.
Arguments fresh {V} st k v.

(** ** Instances: [V := Store.entry] *)
Lemma snode_eqb_spec a b : snode_eqb a b = true <-> a = b.
Proof.
  destruct a as [k v|k h s hh l r], b as [k' v'|k' h' s' hh' l' r']; cbn [snode_eqb];
    try (split; [discriminate|congruence]).
  - rewrite andb_true_iff, !beq_true. split; [intros [-> ->]; reflexivity|].
    intros Q. inversion Q. split; reflexivity.
  - rewrite !andb_true_iff, !beq_true, !Z.eqb_eq, !keqb_true. split.
    + intros [[[[[-> ->] ->] ->] ->] ->]. reflexivity.
    + intros Q. inversion Q. repeat split.
Qed.

Lemma entry_eqb_spec a b : entry_eqb a b = true <-> a = b.
Proof.
  destruct a as [n|k|], b as [n'|k'|]; cbn [entry_eqb]; try (split; [discriminate|congruence]).
  - rewrite snode_eqb_spec. split; congruence.
  - rewrite keqb_true. split; congruence.
  - tauto.
Qed.

Definition nd (n : N) : entry := ENode (SLeaf [n] [n]).
Notation E0 := (@empty_cstate entry).
Notation D0 := (@DState entry [] []).
Notation okb := (drun_ok entry_eqb entry_is_node []).
Notation crunE := (crun entry_is_node).
Notation drunE := (drun entry_is_node).

Ltac ex_tac :=
  repeat match goal with |- _ /\ _ => split end; try (vm_compute; reflexivity); try discriminate.

(** ** What a read of a key that the disk does not hold may return: the value the cache still
    has for it ([get_node_absent]), i.e. the node of a deleted version.  Commit v2 and v3, roll back
    to v2: [(3,1)] is deleted on the disk and still served from a cache of capacity 2; a cache of
    capacity 0 fails like the cache-free run.  The side conditions hold: this is why
    [out_refines] allows anything where the cache-free read fails. *)
Definition stale_ops : list (cop entry) :=
  [CSave (2, 1) (nd 2); CCommit; CSave (3, 1) (nd 3); CCommit; CDel (3, 1); CCommit; CGet (3, 1)].

Example stale_read_possible :
  okb D0 stale_ops = true /\
  last (fst (drunE D0 stale_ops)) OUnit = OGot None /\
  last (fst (crunE 2 E0 stale_ops)) OUnit = OGot (Some (nd 3)) /\
  last (fst (crunE 0 E0 stale_ops)) OUnit = OGot None /\
  (let st := snd (crunE 2 E0 stale_ops) in
   stale_keys entry_is_node (disk st) (cache st) = [(3, 1)] /\
   coherentb entry_eqb entry_is_node (disk st) (cache st) = true).
Proof. cbv zeta. ex_tac. Qed.

(** after the rollback, version 3 is committed WITHOUT changes: SaveRoot writes a
    reference record under [(3,1)], the cache still holds the old node of [(3,1)].  Coherent
    (the entry is stale, not wrong); a [CGet (3,1)] is outside the side condition. *)
Definition rootrec_ops : list (cop entry) :=
  [CSave (2, 1) (nd 2); CCommit; CSave (3, 1) (nd 3); CCommit; CDel (3, 1); CCommit;
   CSaveRoot (3, 1) (ERef (2, 1)); CCommit].

Example root_record_stale :
  okb D0 rootrec_ops = true /\
  okb D0 (rootrec_ops ++ [CGet (3, 1)]) = false /\
  (let st := snd (crunE 2 E0 rootrec_ops) in
   mfind kcmp (3, 1) (disk st) = Some (ERef (2, 1)) /\
   lru_find (3, 1) (cache st) = Some (nd 3) /\
   stale_keys entry_is_node (disk st) (cache st) = [(3, 1)] /\
   coherentb entry_eqb entry_is_node (disk st) (cache st) = true).
Proof. cbv zeta. ex_tac. Qed.

(** ** Two defective variants of SaveNode are refuted: the side conditions hold, the faithful
    model answers like the cache-free run, the variant answers the node of the erased timeline *)
Definition reuse_ops : list (cop entry) :=
  [CSave (3, 1) (nd 7); CCommit; CDel (3, 1); CCommit; CSave (3, 1) (nd 8); CCommit; CGet (3, 1)].

Theorem save_keep_cached_refuted :
  exists cap ops v v',
    okb D0 ops = true /\
    last (fst (drunE D0 ops)) OUnit = OGot (Some v) /\
    last (fst (crunE cap E0 ops)) OUnit = OGot (Some v) /\
    last (fst (crun_keep_cached entry_is_node cap E0 ops)) OUnit = OGot (Some v') /\
    v <> v'.
Proof. exists 2%nat, reuse_ops, (nd 8), (nd 7). ex_tac. Qed.

Definition reuse_ops2 : list (cop entry) :=
  [CSave (3, 1) (nd 7); CCommit; CGet (3, 1); CDel (3, 1); CCommit; CSave (3, 1) (nd 8); CCommit;
   CGet (3, 1)].

Theorem save_without_caching_refuted :
  exists cap ops v v',
    okb D0 ops = true /\
    last (fst (drunE D0 ops)) OUnit = OGot (Some v) /\
    last (fst (crunE cap E0 ops)) OUnit = OGot (Some v) /\
    last (fst (crun_no_cache entry_is_node cap E0 ops)) OUnit = OGot (Some v') /\
    v <> v'.
Proof. exists 2%nat, reuse_ops2, (nd 8), (nd 7). ex_tac. Qed.

(** ** The side conditions are necessary: for each, a run of the FAITHFUL model that violates only
    that condition and answers a read differently from the cache-free run. *)

(** [CGet] of a key with an uncommitted write: GetNode answers from the cache what the disk does
    not have yet *)
Theorem get_unflushed_refuted :
  exists cap ops v v',
    last (fst (drunE D0 ops)) OUnit = OGot (Some v) /\
    last (fst (crunE cap E0 ops)) OUnit = OGot (Some v') /\ v <> v'.
Proof.
  exists 2%nat, [CSave (3, 1) (nd 7); CCommit; CSave (3, 1) (nd 8); CGet (3, 1)], (nd 7), (nd 8).
  ex_tac.
Qed.

(** [CSave] under a nonce 0: a stale cached [(3,1)] now falls back, on the disk, to the new
    [(3,0)] (SaveNode is never called with nonce 0) *)
Theorem save_nonce0_refuted :
  exists cap ops v v',
    last (fst (drunE D0 ops)) OUnit = OGot (Some v) /\
    last (fst (crunE cap E0 ops)) OUnit = OGot (Some v') /\ v <> v'.
Proof.
  exists 2%nat,
    [CSave (3, 1) (nd 7); CCommit; CDel (3, 1); CCommit; CSave (3, 0) (nd 8); CCommit; CGet (3, 1)],
    (nd 8), (nd 7).
  ex_tac.
Qed.

(** [CRekey w] while a stale [(w,0)] is cached: saveNodeFromPruning does not touch the cache
    (unreachable in the code: a version is re-keyed once, and [(w,0)] outlives every rollback) *)
Theorem rekey_cached0_refuted :
  exists cap ops v v',
    last (fst (drunE D0 ops)) OUnit = OGot (Some v) /\
    last (fst (crunE cap E0 ops)) OUnit = OGot (Some v') /\ v <> v'.
Proof.
  exists 4%nat,
    [CSave (2, 1) (nd 7); CCommit; CRekey 2; CCommit; CGet (2, 0); CDel (2, 0); CCommit;
     CSave (2, 1) (nd 8); CCommit; CRekey 2; CCommit; CGet (2, 0)],
    (nd 8), (nd 7).
  ex_tac.
Qed.

(** [CDel (w,1)] while [(w,0)] holds a different node: the cached [(w,1)] is now shadowed on the
    disk by [(w,0)] *)
Theorem del_both_refuted :
  exists cap d ops v v',
    msorted kcmp d /\
    last (fst (drunE (DState d []) ops)) OUnit = OGot (Some v) /\
    last (fst (crunE cap (CState d [] []) ops)) OUnit = OGot (Some v') /\ v <> v'.
Proof.
  exists 2%nat, [((2, 0), nd 8); ((2, 1), nd 7)], [CGet (2, 1); CDel (2, 1); CCommit; CGet (2, 1)],
    (nd 8), (nd 7).
  split; [|ex_tac]. cbn [msorted]. repeat constructor.
Qed.

(** ** A longer run: two commits, reads, a version without changes (root record), pruning with
    a re-keying, a rollback and a re-commit under reused keys, for capacities 0, 1, 2 and 100 *)
Definition ex_ops : list (cop entry) :=
  [
    CSave (1, 2) (nd 12); CSave (1, 3) (nd 13); CSave (1, 1) (nd 11); CCommit;
    CGet (1, 1); CGet (1, 2);
    CSave (2, 2) (nd 22); CSave (2, 1) (nd 21); CCommit; CGet (2, 1); CGet (1, 3);
    (* version 3: no change, a reference to the root of version 2 *)
    CSaveRoot (3, 1) (ERef (2, 1)); CCommit;
    (* DeleteVersionsTo 2: orphans of version 1, the root of version 2 is re-keyed *)
    CDel (1, 1); CDel (1, 2); CRekey 2; CCommit;
    CGet (2, 1); CGet (2, 0); CGet (2, 2);
    CSave (4, 2) (nd 42); CSave (4, 1) (nd 41); CCommit; CGet (4, 1); CGet (4, 2);
    (* LoadVersionForOverwriting 3 *)
    CDel (4, 1); CDel (4, 2); CCommit;
    (* version 4 again: the keys are reused *)
    CSave (4, 2) (nd 142); CSave (4, 1) (nd 141); CCommit;
    CGet (4, 1); CGet (4, 2); CGet (2, 1) ].

Example ex_side_conditions : okb D0 ex_ops = true.
Proof. vm_compute. reflexivity. Qed.

Example ex_reference_answers :
  fst (drunE D0 ex_ops) =
    [OUnit; OUnit; OUnit; OUnit; OGot (Some (nd 11)); OGot (Some (nd 12));
     OUnit; OUnit; OUnit; OGot (Some (nd 21)); OGot (Some (nd 13));
     OUnit; OUnit;
     OUnit; OUnit; OGot (Some (nd 21)); OUnit;
     OGot (Some (nd 21)); OGot (Some (nd 21)); OGot (Some (nd 22));
     OUnit; OUnit; OUnit; OGot (Some (nd 41)); OGot (Some (nd 42));
     OUnit; OUnit; OUnit;
     OUnit; OUnit; OUnit;
     OGot (Some (nd 141)); OGot (Some (nd 142)); OGot (Some (nd 21))].
Proof. vm_compute. reflexivity. Qed.

Example ex_all_found : all_found (fst (drunE D0 ex_ops)).
Proof. rewrite ex_reference_answers. unfold all_found. repeat constructor; discriminate. Qed.

Example ex_caps :
  forall cap, In cap [0; 1; 2; 100]%nat ->
    fst (crunE cap E0 ex_ops) = fst (drunE D0 ex_ops) /\
    forget (snd (crunE cap E0 ex_ops)) = snd (drunE D0 ex_ops) /\
    (let st := snd (crunE cap E0 ex_ops) in
     coherentb entry_eqb entry_is_node (disk st) (cache st) = true /\
     Nat.leb (length (cache st)) cap = true).
Proof.
  intros cap HI. cbv zeta.
  destruct HI as [<-|[<-|[<-|[<-|[]]]]]; ex_tac.
Qed.

Example ex_every_cap cap1 cap2 : fst (crunE cap1 E0 ex_ops) = fst (crunE cap2 E0 ex_ops).
Proof.
  apply (cache_size_irrelevant_exact entry entry_is_node entry_eqb entry_eqb_spec cap1 cap2 ex_ops [] []).
  - exact I.
  - exact ex_side_conditions.
  - exact ex_all_found.
Qed.

Print Assumptions lru_add_get.
Print Assumptions lru_get_spec.
Print Assumptions lru_length_le_cap.
Print Assumptions lru_nodup_keys.
Print Assumptions coherent_step.
Print Assumptions cache_transparent.
Print Assumptions cache_transparent_read.
Print Assumptions cache_transparent_exact.
Print Assumptions cache_size_irrelevant.
Print Assumptions cache_size_irrelevant_exact.
Print Assumptions coherentb_spec.
Print Assumptions coherentb_after_commit.
Print Assumptions recommit_reads_new.
Print Assumptions rollback_recommit.
Print Assumptions stale_read_possible.
Print Assumptions root_record_stale.
Print Assumptions save_keep_cached_refuted.
Print Assumptions save_without_caching_refuted.
Print Assumptions get_unflushed_refuted.
Print Assumptions save_nonce0_refuted.
Print Assumptions rekey_cached0_refuted.
Print Assumptions del_both_refuted.
Print Assumptions ex_caps.
Print Assumptions ex_every_cap.
