(** PruneAlgoFacts5: one deleteVersion keeps the invariant ([delete_version_ok]): the virtual
    store is the physical store of the remaining forest, every disk state met is safe for the
    retained versions, and the effective writes are [dv_writes]. *)
From Coq Require Import Lia Sorted.
From IAVL Require Import Bytes Varint Tree VMap TreeFacts MTree MTreeFacts HashFacts VersionFacts
  Store StoreFacts PruneAlgo PruneAlgoFacts1 PruneAlgoFacts2 PruneAlgoFacts3 PruneAlgoFacts4.
Local Open Scope Z_scope.

Lemma olist_None {A} : @olist A None = []. Proof. reflexivity. Qed.

(** ** deleteVersion cut into its phases (definitionally equal to PruneAlgo.delete_version) *)
Definition dv_p2 (version : Z) (rootk : option nodekey) (p1 : pdb) : pdb :=
  match rootk with
  | Some k => if keqb k (version, 1) then p1 else pwrite p1 (del_node (version, 1))
  | None => pwrite p1 (del_node (version, 1))
  end.

Definition dv_tail (version : Z) (p2 : pdb) (c2 : rkc) : pres pdb * rkc :=
  match rkc_get c2 (disk p2) (version + 1) with
  | (PErr, c3) => (PErr, c3)
  | (PFuel, c3) => (PFuel, c3)
  | (r3, c3) =>
      let nextk := match r3 with POk k => k | _ => None end in
      match nextk with
      | Some nk =>
          if keqb nk (version, 1) then
            match get_node (disk p2) nk with
            | None => (PErr, c3)
            | Some root =>
                let p3 := pwrite p2 (set_node ((version, 0), ENode root)) in
                (POk (pwrite p3 (del_node (version, 1))), c3)
            end
          else (POk p2, c3)
      | None => (POk p2, c3)
      end
  end.

Definition dv_step1 (H : bytes -> bytes) (fuel : nat) (version : Z) (p : pdb) (c1 : rkc)
           (rootk : option nodekey) : pres pdb * rkc :=
  match rootk with
  | Some _ =>
      match traverse_orphans H fuel version p c1 with
      | (POk p', c2) => (POk p', c2)
      | (PNoVersion, c2) => (POk p, c2)
      | (e, c2) => (e, c2)
      end
  | None => (POk p, c1)
  end.

Lemma dv_eq H fuel version p c :
  delete_version H fuel version p c =
  match rkc_get c (disk p) version with
  | (PErr, c1) => (PErr, c1)
  | (PFuel, c1) => (PFuel, c1)
  | (r, c1) =>
      let rootk := match r with POk k => k | _ => None end in
      match dv_step1 H fuel version p c1 rootk with
      | (POk p1, c2) => dv_tail version (dv_p2 version rootk p1) c2
      | (e, c2) => (e, c2)
      end
  end.
Proof. reflexivity. Qed.

(** the re-keyed versions after deleteVersion(v): [v] joins them when version v+1 has the root
    node of version v as its root *)
Definition rk_next (v : Z) (rn : option node) (r : list Z) : list Z :=
  match rn with
  | Some tn => if keqb (node_key tn) (v, 1) then v :: r else r
  | None => r
  end.

(** the effective writes of deleteVersion(v) on a forest whose versions v and v+1 have the roots
    [rv] and [rn]: the orphans of tree v, the root entry of a reference / empty root, the re-keying
    when tree v+1 keeps the root node of tree v *)
Definition rekey_writes (v : Z) (rn : option node) : list wop :=
  match rn with
  | Some tn =>
      if keqb (node_key tn) (v, 1)
      then [set_node ((v, 0), ENode (snode_of tn)); del_node (v, 1)] else []
  | None => []
  end.

Definition dv_writes (r : list Z) (v : Z) (rv rn : option node) : list wop :=
  orph_dels rn r (olist rv) ++
  (match root_entry v rv with Some _ => [del_node (v, 1)] | None => [] end) ++
  rekey_writes v rn.

Section Version.
  Variable H : bytes -> bytes.
  Variable f0 : forest_t.
  Variable iv : Z.
  Hypothesis FI : forest_inv f0.
  Hypothesis ND : NoDup (map fst f0).
  Hypothesis OK0 : forest_ok f0 iv.
  Hypothesis WF0 : forall w t, In (w, Some t) f0 -> wf t.
  (** no two different nodes of one tree look the same to the iterator *)
  Hypothesis NC0 : forall w t u c, In (w, Some t) f0 -> subtree u t -> subtree c t ->
                                   fhash H u = fhash H c -> u = c.
  Variable fuel : nat.
  Hypothesis Hfuel : forall w t, In (w, Some t) f0 -> (2 * ncount t + 1 <= fuel)%nat.

  (** the state between two deleteVersion calls: [fc] is what is left of the forest *)
  Definition ST (p : pdb) (c : rkc) (fc : forest_t) (r : list Z) (v : Z) : Prop :=
    PIx f0 p (sub_of fc) fc fc r v /\ cache_ok c (disk p) fc v.

  Lemma cache_pwrite p o (L : node -> Prop) ro sro r b c fm lo :
    PIx f0 p L ro sro r b -> (forall w t, In (w, Some t) fm -> L t) ->
    cache_ok c (disk p) fm lo -> cache_ok c (disk (pwrite p o)) fm lo.
  Proof.
    intros PX HL C. apply (cache_ok_transport _ _ _ _ _ C).
    intros w t k I K. exact (keyok_pwrite_x f0 p o L ro sro r b k t PX (HL w t I) K).
  Qed.

  Section One.
    Variables (v : Z) (rv rn : option node) (f'' : forest_t) (done : forest_t).
    Let f' := (v + 1, rn) :: f''.
    Let fc := (v, rv) :: f'.
    Hypothesis Suffix : f0 = done ++ fc.
    Hypothesis Hz : map fst fc = zseq v (length fc).

    Lemma fc_incl : incl fc f0.
    Proof. rewrite Suffix. apply incl_appr, incl_refl. Qed.

    Lemma f'_incl : incl f' fc.
    Proof. apply incl_tl, incl_refl. Qed.

    Lemma fc_nodup : NoDup (map fst fc).
    Proof. pose proof ND as N. rewrite Suffix, map_app in N. exact (NoDup_app_r _ _ N). Qed.

    Lemma f'_above w rt : In (w, rt) f' -> v < w.
    Proof.
      intros I. unfold fc, f' in Hz. cbn [map fst length zseq] in Hz. injection Hz as Q.
      destruct I as [E|I]; [inversion E; lia|].
      assert (Iw : In w (map fst f'')) by (apply in_map_iff; exists (w, rt); auto).
      rewrite Q in Iw. apply In_zseq in Iw. lia.
    Qed.

    Lemma v_notin_f' : ~ In v (map fst f').
    Proof.
      intros I. apply In_map_fst_pair in I. destruct I as [rt I]. pose proof (f'_above _ _ I). lia.
    Qed.

    Lemma sub_fc_f' x : sub_of f' x -> sub_of fc x.
    Proof. intros (w & t & I & S). exists w, t. split; [right; exact I|exact S]. Qed.

    Lemma sub_fc_cases x :
      sub_of fc x <-> sub_of f' x \/ (exists tv, rv = Some tv /\ subtree x tv).
    Proof using.
      split.
      - intros (w & t & [Q|I] & S).
        + injection Q as <- E. right. eauto.
        + left. exists w, t. auto.
      - intros [S|(tv & E & S)]; [apply sub_fc_f', S|]. exists v, tv. split; [left; rewrite E; reflexivity|exact S].
    Qed.

    Lemma fc_roots_live w t : In (w, Some t) fc -> sub_of fc t.
    Proof. intros I. exists w, t. split; [exact I|apply sub_refl]. Qed.

    Lemma f'_roots_live w t : In (w, Some t) f' -> sub_of f' t.
    Proof. intros I. exists w, t. split; [exact I|apply sub_refl]. Qed.

    (** the facts about trees [v] and [v+1] that the traversal rests on *)
    Lemma HA_v tv : rv = Some tv ->
      forall c, inn rn c -> (ver (nmeta c) <= v <-> subtree c tv).
    Proof.
      intros Erv c (tn & Ern & Sc). split.
      - intros Lc.
        assert (I1 : In (v + 1, Some tn) f0) by (apply fc_incl; right; left; rewrite Ern; reflexivity).
        assert (I0 : In (v + 1 - 1, rv) f0).
        { replace (v + 1 - 1) with v by lia. apply fc_incl. left. reflexivity. }
        destruct (fi_chain f0 FI (v + 1) tn c rv I1 Sc ltac:(lia) I0) as (t0 & E0 & S0).
        rewrite Erv in E0. inversion E0; subst. exact S0.
      - intros Sc'. assert (I0 : In (v, Some tv) f0) by (apply fc_incl; left; rewrite Erv; reflexivity).
        pose proof (fi_ver f0 FI v tv c I0 Sc'). lia.
    Qed.

    Lemma HN_v tv : rv = Some tv ->
      forall u, subtree u tv -> ~ inn rn u -> ~ sub_of f' u.
    Proof.
      intros Erv u Su Nu (w & t & I & S). apply Nu.
      assert (I0 : In (v, Some tv) f0) by (apply fc_incl; left; rewrite Erv; reflexivity).
      pose proof (fi_ver f0 FI v tv u I0 Su) as Vu.
      pose proof (f'_above _ _ I) as Lw.
      assert (Iw : In (w, Some t) f0) by (apply fc_incl; right; exact I).
      assert (Iv1 : In (v + 1) (map fst f0)).
      { apply in_map_iff. exists (v + 1, rn). split; [reflexivity|]. apply fc_incl. right. left. reflexivity. }
      destruct (chain_down f0 iv (v + 1) FI OK0 Iv1 (Z.to_nat (w - (v + 1))) w t u ltac:(lia) Iw S ltac:(lia))
        as (t0 & It0 & St0).
      assert (In1 : In (v + 1, rn) f0) by (apply fc_incl; right; left; reflexivity).
      pose proof (NoDup_fst_functional f0 (v + 1) _ _ ND It0 In1) as E. exists t0. auto.
    Qed.

    Lemma HS_v : forall u, inn rn u -> sub_of f' u.
    Proof. intros u (tn & E & S). exists (v + 1), tn. split; [left; rewrite E; reflexivity|exact S]. Qed.

    (** *** traverseOrphans *)

    Lemma traverse_start p c1 r tv :
      rv = Some tv ->
      PIx f0 p (sub_of fc) fc fc r v -> cache_ok c1 (disk p) fc v ->
      exists curk c2 cur pk c3 prev,
        rkc_get c1 (disk p) (v + 1) = (POk curk, c2) /\ nit_new (disk p) curk = Some cur /\
        rkc_get c2 (disk p) v = (POk (Some pk), c3) /\ nit_new (disk p) (Some pk) = Some prev /\
        traverse_orphans H fuel v p c1 = (orphans_loop H fuel v p cur prev None, c3) /\
        cache_ok c3 (disk p) fc v /\
        LI f0 v f' tv rn fc r p cur prev None (olist rn) [tv] None /\
        (msum (olist rn) + msum [tv] + 1 <= fuel)%nat.
    Proof.
      intros Erv PX C1. pose proof PX as [Cx P].
      pose proof (pi_disk _ _ _ _ _ _ P) as S.
      assert (Itv : In (v, Some tv) f0) by (apply fc_incl; left; rewrite Erv; reflexivity).
      destruct (rkc_get_ok (sub_of fc) fc v (disk p) c1 v (v + 1) rn S fc_roots_live fc_nodup C1
                  ltac:(lia) ltac:(right; left; reflexivity)) as (curk & c2 & E1 & R1 & C2).
      destruct (rkc_get_ok (sub_of fc) fc v (disk p) c2 v v rv S fc_roots_live fc_nodup C2
                  ltac:(lia) ltac:(left; reflexivity)) as (prevk & c3 & E2 & R2 & C3).
      rewrite Erv in R2. destruct prevk as [pk|]; [|contradiction]. cbn [rval] in R2.
      assert (Ltv : sub_of fc tv) by (exists v, tv; split; [left; rewrite Erv; reflexivity|apply sub_refl]).
      destruct (nit_new_some (sub_of fc) fc v (disk p) pk tv S Ltv R2) as (prev & En2 & Sp).
      assert (Itn : forall tn, rn = Some tn -> In (v + 1, Some tn) f0).
      { intros tn E. apply fc_incl. right. left. rewrite E. reflexivity. }
      assert (Ltn : forall tn, rn = Some tn -> sub_of fc tn).
      { intros tn E. exists (v + 1), tn. split; [right; left; rewrite E; reflexivity|apply sub_refl]. }
      assert (Cur : exists cur, nit_new (disk p) curk = Some cur /\ stk (disk p) cur (olist rn)).
      { destruct rn as [tn|] eqn:Ern, curk as [ck|]; cbn [rval] in R1; try contradiction.
        - exact (nit_new_some (sub_of fc) fc v (disk p) ck tn S (Ltn tn eq_refl) R1).
        - exists (Nit [] false). apply nit_new_none. }
      destruct Cur as (cur & En1 & Sc).
      exists curk, c2, cur, pk, c3, prev. do 4 (split; [assumption|]).
      split. { unfold traverse_orphans. rewrite E1. cbv beta iota. rewrite En1, E2. cbv beta iota. rewrite En2. reflexivity. }
      split; [exact C3|].
      assert (PX0 : PIx f0 p (Lof f' [tv]) fc f' r v).
      { apply (PIx_relax f0 p _ fc fc r v f' v); [|apply f'_incl|lia].
        apply (PIx_ext f0 p (sub_of fc)); [|exact PX].
        intros x. rewrite sub_fc_cases. unfold Lof. cbn [flat_map]. rewrite app_nil_r, pre_In.
        split; [intros [A|(t & E & A)]; [auto|]|intros [A|A]; [auto|right; eauto]].
        rewrite Erv in E. inversion E; subst. auto. }
      pose proof (HA_v tv Erv) as HAv.
      assert (Ieq : flat_map (mx (PB rn)) [tv] = olist (@None node) ++ flat_map (mx (PA v)) (olist rn)).
      { cbn [flat_map olist app]. rewrite app_nil_r. destruct rn as [tn|] eqn:Ern; cbn [olist flat_map].
        - rewrite app_nil_r.
          apply (mx_common (PA v) (PB (Some tn)) tv tn (WF0 _ _ Itv) (WF0 _ _ (Itn tn eq_refl))).
          + intros x Sx. unfold PA. rewrite Z.leb_le. apply HAv. exists tn. auto.
          + intros x Sx. rewrite PB_true. split.
            * intros (t & Q & A). inversion Q; subst. exact A.
            * intros A. exists tn. auto.
        - apply mx_none. intros x _. reflexivity. }
      split.
      - constructor; auto.
        + intros c Ic. destruct rn as [tn|]; [|contradiction]. destruct Ic as [<-|[]].
          exists tn. split; [reflexivity|apply sub_refl].
        + intros c Q. discriminate.
        + cbn [flat_map]. rewrite app_nil_r. apply pre_NoDup, (WF0 _ _ Itv).
        + intros x [<-|[]]. apply sub_refl.
      - pose proof (Hfuel _ _ Itv) as F1. cbn [msum fold_right].
        destruct rn as [tn|]; cbn [olist msum fold_right]; [|lia].
        pose proof (Hfuel _ _ (Itn tn eq_refl)) as F2. lia.
    Qed.

    Lemma LI_dec_v tv r : rv = Some tv ->
      forall p cur prev org cs ps oc, LI f0 v f' tv rn fc r p cur prev org cs ps oc ->
        LI_next f0 v f' tv rn fc r p cur prev org cs ps oc (ldec H true v cur prev org).
    Proof.
      intros Erv.
      assert (Itv : In (v, Some tv) f0) by (apply fc_incl; left; rewrite Erv; reflexivity).
      exact (LI_dec H f0 FI v f' tv rn fc r (HA_v tv Erv) (HN_v tv Erv) HS_v
               (fun u c Su Sc => NC0 v tv u c Itv Su Sc)).
    Qed.

    Lemma traverse_ok p c1 r tv :
      rv = Some tv ->
      PIx f0 p (sub_of fc) fc fc r v -> cache_ok c1 (disk p) fc v ->
      exists p1 c3, traverse_orphans H fuel v p c1 = (POk p1, c3) /\
        PIx f0 p1 (sub_of f') fc f' r v /\
        (forall x k, sub_of f' x -> keyok (disk p) k x -> keyok (disk p1) k x) /\
        cache_ok c3 (disk p) fc v /\
        logs_ext p p1 (orph_dels rn r [tv]).
    Proof.
      intros Erv PX C1.
      destruct (traverse_start p c1 r tv Erv PX C1) as (curk & c2 & cur & pk & c3 & prev & _ & _ & _ & _ & Et & C3 & I & Fu).
      destruct (loop_ok H f0 v f' tv rn fc r (LI_dec_v tv r Erv) fuel p cur prev None (olist rn) [tv] None I Fu)
        as (p1 & El & PX1 & Tr & LG).
      exists p1, c3. rewrite Et, El. auto 6.
    Qed.

    Lemma f'_nodup : NoDup (map fst f').
    Proof. pose proof fc_nodup as N. unfold fc in N. cbn [map fst] in N. inversion N; assumption. Qed.

    Lemma PIx_empty_tree p r :
      rv = None -> PIx f0 p (sub_of fc) fc fc r v -> PIx f0 p (sub_of f') fc f' r v.
    Proof.
      intros Erv PX. apply (PIx_relax f0 p _ fc fc r v f' v); [|apply f'_incl|lia].
      apply (PIx_ext f0 p (sub_of fc)); [|exact PX].
      intros x. rewrite sub_fc_cases. split; [intros [A|(t & E & _)]; [exact A|congruence]|auto].
    Qed.

    Lemma cache_next c d d1 :
      cache_ok c d fc v -> (forall x k, sub_of f' x -> keyok d k x -> keyok d1 k x) ->
      cache_ok c d1 f' (v + 1).
    Proof.
      intros C Tr. apply (cache_ok_transport c d).
      - apply (cache_ok_shift c d v rv f' v (v + 1) C); lia.
      - intros w t k I K. apply Tr; [exists w, t; split; [exact I|apply sub_refl]|exact K].
    Qed.

    (** whether version [v] has a root entry, read off the key its root resolves to *)
    Lemma root_entry_keyed (L : node -> Prop) sro d k tv :
      safe L sro v d -> rv = Some tv -> keyok d k tv ->
      root_entry v rv = if keqb k (v, 1) then None else Some ((v, 1), ERef (node_key tv)).
    Proof.
      intros S Erv R1. rewrite Erv. destruct (keqb k (v, 1)) eqn:Kk.
      - apply keqb_true in Kk. subst k. apply root_entry_root, (keyok_nonce1 _ _ _ R1).
      - unfold root_entry. rewrite <- (keyok_root_key _ _ _ _ _ _ v S (Z.le_refl v) R1), Kk. reflexivity.
    Qed.

    (** *** after the orphans: the root entry, then the re-keying *)
    Lemma tail_ok p2 c2 r :
      PIx f0 p2 (sub_of f') f' f' r v -> cache_ok c2 (disk p2) f' (v + 1) ->
      exists p' c', dv_tail v p2 c2 = (POk p', c') /\ ST p' c' f' (rk_next v rn r) (v + 1) /\
                    logs_ext p2 p' (rekey_writes v rn).
    Proof.
      intros PX C2. pose proof PX as [Cx P]. pose proof (pi_disk _ _ _ _ _ _ P) as S.
      destruct (rkc_get_ok (sub_of f') f' v (disk p2) c2 (v + 1) (v + 1) rn S f'_roots_live f'_nodup C2
                  ltac:(lia) ltac:(left; reflexivity)) as (nextk & c3 & E3 & R3 & C3).
      assert (Plain : (forall tn, rn = Some tn -> keqb (node_key tn) (v, 1) = false) ->
                exists p' c', (POk p2, c3) = (POk p', c') /\ ST p' c' f' (rk_next v rn r) (v + 1) /\
                              logs_ext p2 p' (rekey_writes v rn)).
      { intros Nk. assert (E : rk_next v rn r = r /\ rekey_writes v rn = []).
        { unfold rk_next, rekey_writes. destruct rn as [tn|]; [rewrite (Nk tn eq_refl)|]; auto. }
        destruct E as [-> ->]. exists p2, c3. split; [reflexivity|]. split; [|apply logs_ext_refl].
        split; [|exact C3]. apply (PIx_relax f0 p2 _ f' f' r v f' (v + 1) PX); [apply incl_refl|lia]. }
      unfold dv_tail. rewrite E3. cbv beta iota zeta.
      destruct (opt_cases rn) as [(tn & Ern)|Ern]; rewrite Ern in R3; cbn [rval] in R3.
      2:{ destruct nextk; [contradiction|]. apply Plain. intros tn Q. congruence. }
      destruct nextk as [nk|]; [|contradiction].
      assert (Ltn : sub_of f' tn).
      { exists (v + 1), tn. split; [left; rewrite Ern; reflexivity|apply sub_refl]. }
      destruct (keqb nk (v, 1)) eqn:K.
      - apply keqb_true in K. subst nk.
        rewrite (get_node_keyok (sub_of f') f' v (disk p2) (v, 1) tn S Ltn R3).
        pose proof (keyok_nonce1 _ _ _ R3) as Kt.
        destruct (PIx_rekey f0 FI p2 (sub_of f') f' f' r v tn PX Ltn Kt f'_above) as (PX4 & Tr4 & LG).
        eexists. exists c3. split; [reflexivity|].
        assert (Er : rk_next v rn r = v :: r /\
                     rekey_writes v rn = [set_node ((v, 0), ENode (snode_of tn)); del_node (v, 1)]).
        { rewrite Ern. unfold rk_next, rekey_writes. rewrite Kt, (proj2 (keqb_true _ _) eq_refl). auto. }
        destruct Er as [-> ->]. split; [|exact LG]. split; [exact PX4|].
        apply (cache_ok_transport _ _ _ _ _ C3). intros w t k I Kk.
        apply Tr4; [|exact Kk]. exists w, t. split; [exact I|apply sub_refl].
      - apply Plain. intros tn' Q. rewrite Ern in Q. inversion Q; subst tn'.
        rewrite <- (keyok_root_key _ _ _ _ _ _ v S (Z.le_refl v) R3). exact K.
    Qed.

    Theorem delete_version_ok p c r :
      ST p c fc r v ->
      exists p' c', delete_version H fuel v p c = (POk p', c') /\ ST p' c' f' (rk_next v rn r) (v + 1) /\
                    logs_ext p p' (dv_writes r v rv rn).
    Proof.
      intros [PX C]. pose proof PX as [Cx P]. pose proof (pi_disk _ _ _ _ _ _ P) as S.
      destruct (rkc_get_ok (sub_of fc) fc v (disk p) c v v rv S fc_roots_live fc_nodup C
                  ltac:(lia) ltac:(left; reflexivity)) as (rootk & c1 & E1 & R1 & C1).
      rewrite dv_eq, E1. cbv beta iota zeta. unfold dv_writes.
      destruct (opt_cases rv) as [(tv & Erv)|Erv]; rewrite Erv in R1.
      - (* tree [v]: its orphans, then its root entry unless the root node itself sits under (v,1) *)
        destruct rootk as [k|]; [|contradiction]. cbn [rval] in R1.
        destruct (traverse_ok p c1 r tv Erv PX C1) as (p1 & c3 & Et & PX1 & Tr & C3 & LG1).
        unfold dv_step1. rewrite Et.
        pose proof (cache_next c3 (disk p) (disk p1) C3 Tr) as C3t.
        assert (PX1' : PIx f0 p1 (sub_of f') ((v, rv) :: f') f' r v) by exact PX1.
        replace (olist rv) with [tv] by (rewrite Erv; reflexivity).
        pose proof (root_entry_keyed _ _ _ k tv S Erv R1) as Er.
        unfold dv_p2. destruct (keqb k (v, 1)); rewrite Er.
        + cbn [app].
          destruct (tail_ok p1 c3 r) as (p' & c' & Etl & HS' & LG3); [|exact C3t|].
          * exact (PIx_root_entry_none f0 p1 (sub_of f') f' f' r v v rv PX1' (incl_refl _) Er).
          * exists p', c'. split; [exact Etl|]. split; [exact HS'|exact (logs_ext_trans _ _ _ _ _ LG1 LG3)].
        + pose proof (root_entry_del_logs f0 p1 _ f' f' r v v rv _ _ PX1' Er) as LG2.
          destruct (tail_ok (pwrite p1 (del_node (v, 1))) c3 r) as (p' & c' & Etl & HS' & LG3).
          * exact (PIx_root_entry_del f0 FI p1 (sub_of f') f' f' r v v rv _ _ PX1' (incl_refl _) v_notin_f' Er).
          * exact (cache_pwrite p1 _ (sub_of f') ((v, rv) :: f') f' r v c3 f' (v + 1) PX1' f'_roots_live C3t).
          * exists p', c'. split; [exact Etl|]. split; [exact HS'|].
            exact (logs_ext_trans _ _ _ _ _ LG1 (logs_ext_trans _ _ _ _ _ LG2 LG3)).
      - (* an empty tree [v]: only its root entry *)
        destruct rootk as [k|]; [contradiction|].
        unfold dv_step1, dv_p2.
        pose proof (PIx_empty_tree p r Erv PX) as PXa.
        assert (Er : root_entry v rv = Some ((v, 1), EEmpty)) by (rewrite Erv; reflexivity).
        rewrite Er, Erv. cbn [olist app].
        pose proof (root_entry_del_logs f0 p _ f' f' r v v rv _ _ PXa Er) as LG2.
        destruct (tail_ok (pwrite p (del_node (v, 1))) c1 r) as (p' & c' & Etl & HS' & LG3).
        + exact (PIx_root_entry_del f0 FI p (sub_of f') f' f' r v v rv _ _ PXa (incl_refl _) v_notin_f' Er).
        + apply (cache_pwrite p _ (sub_of f') ((v, rv) :: f') f' r v c1 f' (v + 1) PXa f'_roots_live).
          apply (cache_ok_shift c1 (disk p) v rv f' v (v + 1) C1); lia.
        + exists p', c'. split; [exact Etl|]. split; [exact HS'|exact (logs_ext_trans _ _ _ _ _ LG2 LG3)].
    Qed.
  End One.
End Version.

(** the forest and the version are read off the hypotheses *)
Arguments traverse_start {H f0 iv} FI ND OK0 WF0 NC0 {fuel} Hfuel {v rv rn f'' done} Suffix Hz.
Arguments LI_dec_v {H f0 iv} FI ND OK0 WF0 NC0 {fuel} Hfuel {v rv rn f'' done} Suffix Hz.
Arguments traverse_ok {H f0 iv} FI ND OK0 WF0 NC0 {fuel} Hfuel {v rv rn f'' done} Suffix Hz.
Arguments delete_version_ok {H f0 iv} FI ND OK0 WF0 NC0 {fuel} Hfuel {v rv rn f'' done} Suffix Hz.
