(** PruneAlgoFacts14: the ORDER of the writes of the physical deleteVersion.

    [spec_elog r f v]: the effective writes of deleteVersion(v) on [phys_of r f], computed from the
    forest alone:
    - the orphans of tree v (its nodes, in pre-order, that are not nodes of tree v+1), each deleted
      under the key it is STORED under ([pkey r u]: [(w,0)] for a re-keyed root, else its own key);
    - the root entry [(v,1)], when the root of v is empty or a reference;
    - [set (v,0) root; del (v,1)] when the root node of tree v+1 has the key [(v,1)].
    For every schedule and both flush modes the effective log grows by exactly this list
    ([PruneAlgoFacts5.delete_version_ok]), in the loop of deleteVersionsTo by the concatenation
    ([PruneAlgoFacts6.delete_range_ok]); hence the effective log does not depend on the schedule
    ([elog_schedule_independent]).

    The write log is not determined by the forest alone: [wlog] differs from [elog]
    exactly by deletions of ABSENT keys with nonce 1 or 0: an orphan with key [(w,1)], [w < v], is
    asked for under [(w,1)] or, when it was re-keyed and the root key cache resolved it that way,
    under [(w,0)].  Asked under [(w,1)] the code deletes [(w,1)] and [(w,0)]: one of the two is
    stored, the other deletion is ineffective ([(w,1)] when re-keyed, [(w,0)] when not).  Asked
    under [(w,0)] it deletes only [(w,0)].  Which form is asked depends on the flush schedule
    (through the disk the cache read), so [wlog] depends on the schedule while [elog] does not;
    [wrel] states the relation.  All other writes (root entry, re-keying) are always effective. *)
From Coq Require Import Lia.
From IAVL Require Import Bytes Varint Tree VMap TreeFacts MTree MTreeFacts HashFacts VersionFacts
  Store StoreFacts PruneAlgo PruneAlgoFacts1 PruneAlgoFacts2 PruneAlgoFacts3 PruneAlgoFacts4
  PruneAlgoFacts5 PruneAlgoFacts6 PruneAlgoFacts7 PruneAlgoFacts8 PruneAlgoFacts9 PruneAlgoFacts10
  Sha256 Ics23Facts PruneAlgoFacts.
Local Open Scope Z_scope.

(** ** The specification *)
(** is the node key of [u] the key of a node of tree [rn]?  (executable; on a forest satisfying
    [forest_inv] this says that [u] is a node of that tree, [inb_insub] below) *)
Definition inb (rn : option node) (u : node) : bool :=
  match rn with
  | Some tn => mhas kcmp (node_key u) (nodes_of tn)
  | None => false
  end.

Definition spec_orphans (rv rn : option node) : list node :=
  match rv with
  | Some tv => filter (fun u => negb (inb rn u)) (pre tv)
  | None => []
  end.

Definition spec_elog_at (r : list Z) (v : Z) (rv rn : option node) : list wop :=
  map (fun u => del_node (pkey r u)) (spec_orphans rv rn) ++
  (match root_entry v rv with Some _ => [del_node (v, 1)] | None => [] end) ++
  (match rn with
   | Some tn =>
       if keqb (node_key tn) (v, 1)
       then [set_node ((v, 0), ENode (snode_of tn)); del_node (v, 1)] else []
   | None => []
   end).

Definition spec_elog (r : list Z) (f : forest_t) (v : Z) : list wop :=
  match lookup v f, lookup (v + 1) f with
  | Some rv, Some rn => spec_elog_at r v rv rn
  | _, _ => []
  end.

(** the first [n] versions of [fc], with the list of re-keyed versions evolving ([rk_next]) *)
Fixpoint spec_elog_range (n : nat) (fc : forest_t) (r : list Z) : list wop :=
  match n with
  | O => []
  | S n =>
      match fc with
      | (v, rv) :: (((_, rn) :: _) as f') =>
          spec_elog_at r v rv rn ++ spec_elog_range n f' (rk_next v rn r)
      | _ => []
      end
  end.

(** ** The two logs *)

(** [wlog] is [elog] plus deletions of keys with nonce 0 or 1 (the relation does not say that
    these keys were absent; the run drops a deletion only when its key is, [logs_pwrite_ineff]) *)
Inductive wrel : list wop -> list wop -> Prop :=
| wr_nil : wrel [] []
| wr_keep o wl el : wrel wl el -> wrel (wl ++ [o]) (el ++ [o])
| wr_drop k wl el : snd k = 0 \/ snd k = 1 -> wrel wl el -> wrel (wl ++ [del_node k]) el.

Lemma wrel_log_rel : log_rel wrel.
Proof. split; [exact wr_keep|exact wr_drop]. Qed.

(** ** The specification lists what the run writes ([PruneAlgoFacts5.dv_writes],
    [PruneAlgoFacts6.range_writes]) *)
Lemma inb_insub f rn u :
  forest_inv f -> sub_of f u -> (forall tn, rn = Some tn -> exists w, In (w, Some tn) f) ->
  inb rn u = insub rn u.
Proof.
  intros FI Su Irn. unfold inb, insub. destruct rn as [tn|]; [|reflexivity].
  destruct (Irn tn eq_refl) as [w I]. pose proof (mhas_nodes_of f FI u w tn Su I) as M.
  destruct (subtree_dec u tn) as [S|N]; [apply M, S|].
  destruct (mhas kcmp (node_key u) (nodes_of tn)); [exfalso; apply N, M; reflexivity|reflexivity].
Qed.

Lemma spec_elog_at_writes f r v w rv rn :
  forest_inv f -> In (v, rv) f -> In (w, rn) f -> spec_elog_at r v rv rn = dv_writes r v rv rn.
Proof.
  intros FI Iv Iw. unfold spec_elog_at, dv_writes, spec_orphans, orph_dels. f_equal.
  destruct rv as [tv|]; [|reflexivity]. cbn [olist flat_map]. rewrite app_nil_r. f_equal.
  apply filter_ext_in. intros u Iu. apply pre_In in Iu. unfold PB. f_equal.
  apply (inb_insub f); [exact FI|exists v, tv; auto|intros tn ->; eauto].
Qed.

Lemma spec_elog_range_writes f :
  forest_inv f -> forall n fc r, incl fc f -> spec_elog_range n fc r = range_writes n fc r.
Proof.
  intros FI. induction n as [|n IH]; intros fc r Inc; [reflexivity|].
  destruct fc as [|[v rv] [|[w rn] f'']]; try reflexivity. cbn [spec_elog_range range_writes].
  rewrite (spec_elog_at_writes f r v w rv rn FI), IH; [reflexivity| | |].
  - intros x Ix. apply Inc. right. exact Ix.
  - apply Inc. left. reflexivity.
  - apply Inc. right. left. reflexivity.
Qed.

(** ** The effective log of a run is the specified list *)
Lemma spec_elog_first r v rv rn f'' :
  spec_elog r ((v, rv) :: (v + 1, rn) :: f'') v = spec_elog_at r v rv rn.
Proof.
  unfold spec_elog. cbn [lookup]. rewrite !Z.eqb_refl, (proj2 (Z.eqb_neq v (v + 1))) by lia. reflexivity.
Qed.

Lemma elog_pflush p : elog (pflush p) = elog p /\ wlog (pflush p) = wlog p.
Proof. split; reflexivity. Qed.

(** under the hypotheses of [PA_delete_version_first]: the effective log of the first deleteVersion *)
Theorem delete_version_first_elog H (f : forest_t) iv r sched eff v rv rn f'' :
  forest_inv f -> NoDup (map fst f) -> forest_ok f iv ->
  (forall w t, In (w, Some t) f -> wf t) -> no_confusion H f ->
  f = (v, rv) :: (v + 1, rn) :: f'' -> rekey_ok r f ->
  exists p' c',
    delete_version H (prune_fuel (phys_of r f)) v
      (Pdb (phys_of r f) [] sched [] [] eff [] [phys_of r f]) rkc_new = (POk p', c') /\
    elog (pflush p') = spec_elog r f v /\
    wrel (wlog (pflush p')) (elog (pflush p')).
Proof.
  intros FI ND OK WF NC Ef RK.
  destruct (delete_version_first_run H f iv r sched eff v rv rn f'' FI ND OK WF NC Ef RK)
    as (p' & c' & E & _ & [LE LW]).
  exists p', c'. split; [exact E|]. destruct (elog_pflush p') as [-> ->]. split.
  - rewrite LE, Ef, spec_elog_first. symmetry.
    apply (spec_elog_at_writes f r v (v + 1) rv rn FI); rewrite Ef; [left|right; left]; reflexivity.
  - apply (LW wrel wrel_log_rel). constructor.
Qed.

Section ForestE.
  Variable H : bytes -> bytes.
  Variable f : forest_t.
  Variable iv : Z.
  Hypothesis FI : forest_inv f.
  Hypothesis ND : NoDup (map fst f).
  Hypothesis OK : forest_ok f iv.
  Hypothesis WF : forall w t, In (w, Some t) f -> wf t.
  Hypothesis NC : no_confusion H f.

  (** the whole loop of deleteVersionsTo: the effective log is the concatenation of the
      per-version specifications; the write log is related to it by [wrel] *)
  Theorem prune_elog_nc r sched eff n :
    f <> [] -> rekey_ok r f -> n < latest_of_forest f ->
    exists p',
      delete_range H (prune_fuel (phys_of r f)) (versions_from_to (first_of_forest f) n)
        (Pdb (phys_of r f) [] sched [] [] eff [] [phys_of r f]) rkc_new = POk p' /\
      elog p' = spec_elog_range (Z.to_nat (n + 1 - first_of f)) f r /\
      wrel (wlog p') (elog p').
  Proof.
    intros NE RK Ln.
    destruct (prune_run H f iv FI ND OK WF NC r sched eff n NE RK Ln) as (p' & _ & E & _ & _ & [LE LW]).
    exists p'. split; [exact E|]. rewrite (spec_elog_range_writes f FI _ f r (incl_refl f)).
    split; [exact LE|]. apply (LW wrel wrel_log_rel). constructor.
  Qed.

  (** in effective mode [prune_forest] returns exactly the specified list ... *)
  Corollary prune_forest_elog_nc r sched n :
    f <> [] -> rekey_ok r f -> n < latest_of_forest f ->
    exists st' fl,
      prune_forest H true r f sched n =
        POk (st', spec_elog_range (Z.to_nat (n + 1 - first_of f)) f r, fl).
  Proof.
    intros NE RK Ln. destruct (prune_elog_nc r sched true n NE RK Ln) as (p' & E & LE & _).
    unfold prune_forest, prune_phys.
    rewrite (proj2 (Z.leb_gt _ _) Ln).
    cbv zeta. rewrite E. destruct (elog_pflush p') as [Ee _]. rewrite Ee, LE. eauto.
  Qed.

  (** ... and in plain mode a list that differs from it by deletions of keys with nonce 0 or 1 *)
  Corollary prune_forest_wlog_nc r sched n :
    f <> [] -> rekey_ok r f -> n < latest_of_forest f ->
    exists st' wl fl,
      prune_forest H false r f sched n = POk (st', wl, fl) /\
      wrel wl (spec_elog_range (Z.to_nat (n + 1 - first_of f)) f r).
  Proof.
    intros NE RK Ln. destruct (prune_elog_nc r sched false n NE RK Ln) as (p' & E & LE & LW).
    unfold prune_forest, prune_phys.
    rewrite (proj2 (Z.leb_gt _ _) Ln).
    cbv zeta. rewrite E. destruct (elog_pflush p') as [_ Ew]. rewrite Ew. rewrite LE in LW. eauto.
  Qed.

  Theorem elog_schedule_independent_nc r sched1 eff1 sched2 eff2 n p1 p2 :
    f <> [] -> rekey_ok r f -> n < latest_of_forest f ->
    delete_range H (prune_fuel (phys_of r f)) (versions_from_to (first_of_forest f) n)
      (Pdb (phys_of r f) [] sched1 [] [] eff1 [] [phys_of r f]) rkc_new = POk p1 ->
    delete_range H (prune_fuel (phys_of r f)) (versions_from_to (first_of_forest f) n)
      (Pdb (phys_of r f) [] sched2 [] [] eff2 [] [phys_of r f]) rkc_new = POk p2 ->
    elog p1 = elog p2.
  Proof.
    intros NE RK Ln E1 E2.
    destruct (prune_elog_nc r sched1 eff1 n NE RK Ln) as (q1 & F1 & L1 & _).
    destruct (prune_elog_nc r sched2 eff2 n NE RK Ln) as (q2 & F2 & L2 & _).
    rewrite E1 in F1. rewrite E2 in F2. inversion F1; inversion F2; subst. congruence.
  Qed.
End ForestE.

(** ** State level, "or collision" *)
Section MainE.
  Variable H : bytes -> bytes.
  Hypothesis Hlen : forall x, length (H x) = 32%nat.

  Theorem prune_elog (s : mstate) (r : list Z) (sched : list bool) (n : Z) :
    store_ok H s -> forest_bounds (forest s) -> rekey_ok r (forest s) -> n < latest_version s ->
    forest s <> [] ->
    (exists st' fl,
       prune_forest H true r (forest s) sched n =
         POk (st', spec_elog_range (Z.to_nat (n + 1 - first_of (forest s))) (forest s) r, fl))
    \/ collision H.
  Proof.
    intros SO FB RK Ln NE. apply (nc_or_collision H Hlen s _ SO FB). intros NC.
    destruct (store_ok_forest H s SO) as (FI & ND & OK & WF & _).
    exact (prune_forest_elog_nc H (forest s) (init_ver s) FI ND OK WF NC r sched n NE RK Ln).
  Qed.

  Theorem prune_wlog (s : mstate) (r : list Z) (sched : list bool) (n : Z) :
    store_ok H s -> forest_bounds (forest s) -> rekey_ok r (forest s) -> n < latest_version s ->
    forest s <> [] ->
    (exists st' wl fl,
       prune_forest H false r (forest s) sched n = POk (st', wl, fl) /\
       wrel wl (spec_elog_range (Z.to_nat (n + 1 - first_of (forest s))) (forest s) r))
    \/ collision H.
  Proof.
    intros SO FB RK Ln NE. apply (nc_or_collision H Hlen s _ SO FB). intros NC.
    destruct (store_ok_forest H s SO) as (FI & ND & OK & WF & _).
    exact (prune_forest_wlog_nc H (forest s) (init_ver s) FI ND OK WF NC r sched n NE RK Ln).
  Qed.

  (** the effective log of DeleteVersionsTo does not depend on the flush schedule *)
  Theorem elog_schedule_independent (s : mstate) (r : list Z) sched1 sched2 (n : Z) st1 l1 fl1 st2 l2 fl2 :
    store_ok H s -> forest_bounds (forest s) -> rekey_ok r (forest s) -> n < latest_version s ->
    forest s <> [] ->
    prune_forest H true r (forest s) sched1 n = POk (st1, l1, fl1) ->
    prune_forest H true r (forest s) sched2 n = POk (st2, l2, fl2) ->
    l1 = l2 \/ collision H.
  Proof.
    intros SO FB RK Ln NE E1 E2.
    destruct (prune_elog s r sched1 n SO FB RK Ln NE) as [(a1 & b1 & F1)|C]; [|right; exact C].
    destruct (prune_elog s r sched2 n SO FB RK Ln NE) as [(a2 & b2 & F2)|C]; [|right; exact C].
    left. rewrite E1 in F1. rewrite E2 in F2. inversion F1; inversion F2; subst. reflexivity.
  Qed.
End MainE.

Print Assumptions delete_version_first_elog.
Print Assumptions prune_elog_nc.
Print Assumptions prune_elog.
Print Assumptions prune_wlog.
Print Assumptions elog_schedule_independent.

(** ** Examples (SHA-256 forest of PruneAlgoFacts.v) *)

(** the second deletion (versions 2 and 3 of [pa_f1], [r = [1]]): the specification, computed from
    the forest alone, is the effective log the run returns; the write log has one more entry, the
    ineffective deletion of (1,1) (the re-keyed root is asked for under (1,1)) *)
Example pe_spec_value :
  spec_elog [1] pa_f1 2 = [del_node (2, 1)] /\
  spec_elog (rk_next 2 (match lookup 3 pa_f1 with Some t => t | None => None end) [1])
            (filter (fun p => 2 <? fst p) pa_f1) 3 = [del_node (3, 1); del_node (1, 0)] /\
  spec_elog_range 2 pa_f1 [1] = [del_node (2, 1); del_node (3, 1); del_node (1, 0)].
Proof. rewrite pa_f1_eq. vm_compute. repeat split; reflexivity. Qed.

Example pe_elog_is_spec :
  match prune_forest sha256 true [1] pa_f1 [true; false; true] 3,
        prune_forest sha256 true [1] pa_f1 [] 3,
        prune_forest sha256 false [1] pa_f1 pa_sched2 3 with
  | POk (_, e1, _), POk (_, e2, _), POk (_, w3, _) =>
      e1 = spec_elog_range 2 pa_f1 [1] /\ e2 = spec_elog_range 2 pa_f1 [1] /\
      w3 = [del_node (2, 1); del_node (3, 1); del_node (1, 1); del_node (1, 0)]
  | _, _, _ => False
  end.
Proof.
  rewrite pa_f1_eq, pa_run2_eq, pa_run2e_eq, (prune_forest_hext _ _ pa_table_ok). vm_compute.
  repeat split; reflexivity.
Qed.

(** the first deletion (version 1 of [pa_f], [r = []]): the re-keying is part of the specification *)
Example pe_first :
  spec_elog [] pa_f 1 = [set_node ((1, 0), ENode (SLeaf pa_a pa_a)); del_node (1, 1)] /\
  match prune_forest sha256 true [] pa_f [true; true] 1 with
  | POk (_, e, _) => e = spec_elog_range 1 pa_f []
  | _ => False
  end.
Proof. rewrite pa_f_eq, (prune_forest_hext _ _ pa_table_ok). vm_compute. split; reflexivity. Qed.

(** all five versions but the last, from the beginning: four deleteVersion calls *)
Example pe_whole :
  match prune_forest sha256 true [] pa_f [false; true; false; false; true] 4 with
  | POk (_, e, _) => e = spec_elog_range 4 pa_f [] /\ length e = 8%nat
  | _ => False
  end.
Proof. rewrite pa_f_eq, (prune_forest_hext _ _ pa_table_ok). vm_compute. split; reflexivity. Qed.
