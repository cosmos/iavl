(** PruneAlgoFacts9: look-alike nodes mean a hash collision.

    [confusion_dec]: for a (finite) forest, either no two different nodes of one tree have the same
    iterator hash, or such a pair is exhibited.  [confusion_collision]: on hash-consistent,
    well-formed trees whose numbers fit Go's int64 and whose keys are shorter than 2^63 bytes,
    with a hash function producing 32 bytes, such a pair yields two different inputs of [H] with
    the same hash (constructively: the inputs are pre-images met while comparing the two nodes). *)
From Coq Require Import Lia Sorted.
From IAVL Require Import Bytes Varint VarintFacts Tree VMap TreeFacts MTree MTreeFacts HashFacts
  VersionFacts Store StoreFacts PruneAlgo PruneAlgoFacts1 PruneAlgoFacts2 PruneAlgoFacts3
  PruneAlgoFacts4 PruneAlgoFacts5 PruneAlgoFacts6 PruneAlgoFacts7 PruneAlgoFacts8.
Local Open Scope Z_scope.

Definition collision (H : bytes -> bytes) : Prop := exists a b, a <> b /\ H a = H b.

(** ** Bounds *)
Definition i64 (x : Z) : Prop := - 2 ^ 63 <= x < 2 ^ 63.
Definition klen (k : bytes) : Prop := (N.of_nat (length k) < 2 ^ 63 - 1)%N.

Fixpoint tbounds (t : node) : Prop :=
  match t with
  | Leaf k _ m => i64 (ver m) /\ klen k
  | Inner _ h s m l r => i64 h /\ i64 s /\ i64 (ver m) /\ tbounds l /\ tbounds r
  end.

Lemma tbounds_subtree u t : subtree u t -> tbounds t -> tbounds u.
Proof.
  induction 1 as [t|u k h s m l r _ IH|u k h s m l r _ IH]; intros B; [exact B| |];
    cbn [tbounds] in B; apply IH; tauto.
Qed.

Lemma i64_0 : i64 0. Proof. unfold i64. lia. Qed.
Lemma i64_1 : i64 1. Proof. unfold i64. lia. Qed.

(** ** Position of two subtrees of a BST *)
Lemma subtree_cases t u c :
  wf t -> subtree u t -> subtree c t ->
  subtree u c \/ subtree c u \/ sep u c \/ sep c u.
Proof.
  induction t as [k v m|k h s m l IHl r IHr]; intros W Su Sc.
  - apply sub_leaf in Su, Sc. subst. left. apply sub_refl.
  - assert (Wl : wf l) by (cbn [wf] in W; tauto). assert (Wr : wf r) by (cbn [wf] in W; tauto).
    apply sub_inv in Su. destruct Su as [->|Su]; [right; left; exact Sc|].
    apply sub_inv in Sc. destruct Sc as [->|Sc].
    { left. destruct Su as [Su|Su]; [apply sub_left|apply sub_right]; exact Su. }
    cbn [wf] in W. destruct W as (_ & _ & Kl & Kr & _).
    destruct Su as [Su|Su], Sc as [Sc|Sc].
    + apply IHl; assumption.
    + right. right. left. exists k. split.
      * exact (keys_all_subtree _ _ _ Su Kl).
      * exact (keys_all_subtree _ _ _ Sc Kr).
    + right. right. right. exists k. split.
      * exact (keys_all_subtree _ _ _ Sc Kl).
      * exact (keys_all_subtree _ _ _ Su Kr).
    + apply IHr; assumption.
Qed.

Lemma proper_subtree_count u c : subtree u c -> u <> c -> (ncount u < ncount c)%nat.
Proof.
  intros S N. apply sub_inv in S. destruct S as [E|S]; [contradiction|].
  destruct c as [k v m|k h s m l r]; [contradiction|]. cbn [ncount].
  destruct S as [S|S]; apply subtree_ncount in S; lia.
Qed.

(** a leaf is hashed with height 0, an inner node with its own *)
Lemma leaf_inner_prefix k h s m l r a b :
  wf (Inner k h s m l r) -> i64 h -> varint_enc 0 ++ a <> varint_enc h ++ b.
Proof.
  intros (Wl & Wr & _ & _ & _ & Hh & _) Bh Q.
  destruct (varint_enc_app_inj _ _ _ _ i64_0 Bh Q) as [Q0 _].
  pose proof (height_nonneg l Wl). pose proof (height_nonneg r Wr). lia.
Qed.

Section Sep.
  Variable H : bytes -> bytes.
  Hypothesis Hlen : forall x, length (H x) = 32%nat.

  Lemma ph_len t : length (pure_hash H 0 t) = 32%nat.
  Proof. destruct t; apply Hlen. Qed.

  Lemma H_inj_or a b : H a = H b -> a = b \/ collision H.
  Proof.
    intros E. destruct (bytes_eq_dec a b) as [Q|N]; [left; exact Q|right].
    eexists _, _. split; [exact N|exact E].
  Qed.

  (** equal structural hashes: same least key and same number of nodes, or a collision *)
  Lemma hash_shape x : forall y,
    all_persisted x -> all_persisted y -> tbounds x -> tbounds y -> wf x -> wf y ->
    pure_hash H 0 x = pure_hash H 0 y ->
    (min_key x = min_key y /\ ncount x = ncount y) \/ collision H.
  Proof.
    induction x as [k v m|k h s m l IHl r IHr]; intros [k' v' m'|k' h' s' m' l' r'] Px Py Bx By Wx Wy E;
      cbn [pure_hash] in E;
      rewrite (eff_ver_old 0 m (all_persisted_root _ Px)), (eff_ver_old 0 m' (all_persisted_root _ Py)) in E;
      apply H_inj_or in E; (destruct E as [Q|C]; [|right; exact C]);
      unfold leaf_preimage, inner_preimage in Q; cbn [tbounds] in Bx, By.
    - left.
      destruct (varint_enc_app_inj _ _ _ _ i64_0 i64_0 Q) as [_ Q1].
      destruct (varint_enc_app_inj _ _ _ _ i64_1 i64_1 Q1) as [_ Q2].
      destruct (varint_enc_app_inj _ _ _ _ (proj1 Bx) (proj1 By) Q2) as [_ Q3].
      destruct (bytes_enc_app_inj _ _ _ _ (proj2 Bx) (proj2 By) Q3) as [-> _]. auto.
    - exfalso. exact (leaf_inner_prefix _ _ _ _ _ _ _ _ Wy (proj1 By) Q).
    - exfalso. exact (leaf_inner_prefix _ _ _ _ _ _ _ _ Wx (proj1 Bx) (eq_sym Q)).
    - destruct Bx as (B1 & B2 & B3 & Bl & Br), By as (B1' & B2' & B3' & Bl' & Br').
      destruct (varint_enc_app_inj _ _ _ _ B1 B1' Q) as [_ Q1].
      destruct (varint_enc_app_inj _ _ _ _ B2 B2' Q1) as [_ Q2].
      destruct (varint_enc_app_inj _ _ _ _ B3 B3' Q2) as [_ Q3].
      destruct (app_inj_len (32%N :: pure_hash H 0 l) (32%N :: pure_hash H 0 l') _ _
                  ltac:(cbn [length]; rewrite !ph_len; reflexivity) Q3) as [Ql Qr].
      injection Ql as Ql. injection Qr as Qr.
      destruct Px as (_ & Pl & Pr), Py as (_ & Pl' & Pr').
      cbn [wf] in Wx, Wy.
      destruct (IHl l' Pl Pl' Bl Bl' ltac:(tauto) ltac:(tauto) Ql) as [[Ml Cl]|C]; [|right; exact C].
      destruct (IHr r' Pr Pr' Br Br' ltac:(tauto) ltac:(tauto) Qr) as [[Mr Cr]|C]; [|right; exact C].
      left. cbn [min_key ncount]. split; [exact Ml|lia].
  Qed.

  Lemma fhash_pure u : hash_ok H u -> all_persisted u -> fhash H u = pure_hash H 0 u.
  Proof.
    intros Ho Pa. destruct u as [k v m|k h s m l r]; cbn [fhash].
    - cbn [pure_hash all_persisted] in *. rewrite (eff_ver_old 0 m Pa). reflexivity.
    - apply (hash_ok_root H _ Ho). cbn [all_persisted nmeta] in *. tauto.
  Qed.

  Lemma fhash_stored u : hash_ok H u -> all_persisted u -> fhash H u = hs (nmeta u).
  Proof.
    intros Ho Pa. rewrite (fhash_pure u Ho Pa). symmetry.
    apply (hash_ok_root H _ Ho), all_persisted_root, Pa.
  Qed.

  Theorem confusion_collision t u c :
    wf t -> hash_ok H t -> all_persisted t -> tbounds t ->
    subtree u t -> subtree c t -> u <> c -> fhash H u = fhash H c -> collision H.
  Proof.
    intros W Ho Pa B Su Sc N E.
    rewrite (fhash_pure u (hash_ok_subtree H u t Su Ho) (all_persisted_subtree u t Su Pa)) in E.
    rewrite (fhash_pure c (hash_ok_subtree H c t Sc Ho) (all_persisted_subtree c t Sc Pa)) in E.
    destruct (hash_shape u c (all_persisted_subtree u t Su Pa) (all_persisted_subtree c t Sc Pa)
                (tbounds_subtree u t Su B) (tbounds_subtree c t Sc B)
                (wf_subtree u t Su W) (wf_subtree c t Sc W) E) as [[M C]|Col]; [|exact Col].
    exfalso. destruct (subtree_cases t u c W Su Sc) as [S|[S|[S|S]]].
    - pose proof (proper_subtree_count u c S N). lia.
    - pose proof (proper_subtree_count c u S (fun Q => N (eq_sym Q))). lia.
    - destruct S as (k & A & B'). apply min_key_all in A, B'. cbv beta in A, B'. rewrite M in A. border.
    - destruct S as (k & A & B'). apply min_key_all in A, B'. cbv beta in A, B'. rewrite M in B'. border.
  Qed.
End Sep.

(** ** Deciding whether a forest has look-alike nodes *)
Definition confusion (H : bytes -> bytes) (f : forest_t) : Prop :=
  exists w t u c, In (w, Some t) f /\ subtree u t /\ subtree c t /\ u <> c /\ fhash H u = fhash H c.

Lemma FE_dec {A} (P Q : A -> Prop) :
  (forall x, {P x} + {Q x}) -> forall l, {Forall P l} + {Exists Q l}.
Proof.
  intros D. induction l as [|a l IH]; [left; constructor|].
  destruct (D a) as [Pa|Qa]; [|right; left; exact Qa].
  destruct IH as [F|E]; [left; constructor; assumption|right; right; exact E].
Qed.

Lemma confusion_dec H f : no_confusion H f \/ confusion H f.
Proof.
  set (good2 := fun (u c : node) => u = c \/ fhash H u <> fhash H c).
  set (bad2 := fun (u c : node) => u <> c /\ fhash H u = fhash H c).
  assert (D2 : forall u c, {good2 u c} + {bad2 u c}).
  { intros u c. unfold good2, bad2. destruct (node_eq_dec u c) as [E|N]; [left; auto|].
    destruct (bytes_eq_dec (fhash H u) (fhash H c)); [right|left]; auto. }
  set (goodt := fun (p : Z * option node) =>
         match snd p with
         | None => True
         | Some t => Forall (fun u => Forall (good2 u) (pre t)) (pre t)
         end).
  set (badt := fun (p : Z * option node) =>
         match snd p with
         | None => False
         | Some t => Exists (fun u => Exists (bad2 u) (pre t)) (pre t)
         end).
  assert (Dt : forall p, {goodt p} + {badt p}).
  { intros [w [t|]]; unfold goodt, badt; cbn [snd]; [|left; exact I].
    apply FE_dec. intros u. apply FE_dec. intros c. apply D2. }
  destruct (FE_dec goodt badt Dt f) as [G|B].
  - left. intros w t u c I Su Sc E. rewrite Forall_forall in G. specialize (G _ I).
    unfold goodt in G. cbn [snd] in G. rewrite Forall_forall in G.
    specialize (G u (proj2 (pre_In t u) Su)). rewrite Forall_forall in G.
    destruct (G c (proj2 (pre_In t c) Sc)) as [Q|Q]; [exact Q|contradiction].
  - right. apply Exists_exists in B. destruct B as ([w [t|]] & I & B); unfold badt in B; cbn [snd] in B;
      [|contradiction].
    apply Exists_exists in B. destruct B as (u & Iu & B).
    apply Exists_exists in B. destruct B as (c & Ic & N & E).
    exists w, t, u, c. repeat split; auto; apply pre_In; assumption.
Qed.
