(** The database an import writes, end to end (ExportImport.v composed with Store / PruneAlgo /
    Discover / DbImage).

    The importer (ExportImport.imp_run, cimp_run for the compressed codec) rebuilds the tree
    bottom-up from the post-order export stream and assigns the node keys itself: version = the
    exported node's version, nonce = 1 + the per-version counter after its increment (so nonces
    start at 2 within each version), the root gets nonce 1 at Commit.  The node store it writes is
    [Store.expected_store [(V, Some t')]] for the returned tree [t']: the nodes of [t'] under those
    keys and, under [(V,1)], the root itself or a reference to it when the root's version is below
    [V]. *)
From Coq Require Import Lia ZifyBool.
From IAVL Require Import Bytes Sha256 Tree VMap TreeFacts MTree HashTable HashFacts VersionFacts ExportImport
  ExportImportFacts Store StoreFacts PruneAlgo Discover DiscoverFacts PruneAlgoFacts4 PruneAlgoFacts6
  PruneAlgoFacts8 PruneAlgoFacts10 DbImage DbImageFacts.
Local Open Scope Z_scope.

(** ** 1. The importer on an export stream, as a function *)

Fixpoint ncount (t : node) : Z :=
  match t with
  | Leaf _ _ _ => 1
  | Inner _ _ _ _ l r => ncount l + ncount r + 1
  end.

Lemma ncount_pos t : 1 <= ncount t.
Proof. induction t; cbn [ncount]; lia. Qed.

Definition set_root_nonce (t : node) (n : Z) : node :=
  match t with
  | Leaf k v m => Leaf k v (Meta (ver m) n (hs m))
  | Inner k h s m l r => Inner k h s (Meta (ver m) n (hs m)) l r
  end.

Section Rebuild.
  Variable H : bytes -> bytes.

  (** what Importer.Add builds from the post-order stream of [t]: the same keys, values, heights,
      sizes and versions; the hashes recomputed; the nonce of a node = 1 + the value of the
      per-version counter [i.nonces[version]] after its increment.  Returns the counters too. *)
  Fixpoint rebuild (nn : list (Z * Z)) (t : node) : node * list (Z * Z) :=
    match t with
    | Leaf k v m =>
        let c := u32 (nonce_get (ver m) nn + 1) in
        (Leaf k v (Meta (ver m) (u32 (c + 1)) (H (leaf_preimage H (ver m) k v))),
         nonce_set (ver m) c nn)
    | Inner k h s m l r =>
        let (l', nn1) := rebuild nn l in
        let (r', nn2) := rebuild nn1 r in
        let c := u32 (nonce_get (ver m) nn2 + 1) in
        (Inner k h s (Meta (ver m) (u32 (c + 1))
                        (H (inner_preimage h s (ver m) (hs (nmeta l')) (hs (nmeta r'))))) l' r',
         nonce_set (ver m) c nn2)
    end.

  Lemma rebuild_inner nn k h s m l r :
    rebuild nn (Inner k h s m l r) =
      let l' := fst (rebuild nn l) in
      let nn1 := snd (rebuild nn l) in
      let r' := fst (rebuild nn1 r) in
      let nn2 := snd (rebuild nn1 r) in
      let c := u32 (nonce_get (ver m) nn2 + 1) in
      (Inner k h s (Meta (ver m) (u32 (c + 1))
                      (H (inner_preimage h s (ver m) (hs (nmeta l')) (hs (nmeta r'))))) l' r',
       nonce_set (ver m) c nn2).
  Proof.
    cbn [rebuild]. destruct (rebuild nn l) as [l' nn1]. cbn [fst snd].
    destruct (rebuild nn1 r) as [r' nn2]. reflexivity.
  Qed.

  Lemma rebuild_shape t : forall nn,
    shape_eq (fst (rebuild nn t)) t /\ hashed H (fst (rebuild nn t)).
  Proof.
    induction t as [k v m|k h s m l IHl r IHr]; intros nn.
    - cbn [rebuild fst shape_eq hashed ver hs]. auto.
    - rewrite rebuild_inner. cbn [fst shape_eq hashed ver hs nmeta].
      destruct (IHl nn), (IHr (snd (rebuild nn l))). auto 10.
  Qed.

  Lemma imp_adds_rebuild v t : forall stk nn rest,
    wf t -> versions_in v t ->
    imp_adds H (IState v stk nn false) (map Some (export_node t) ++ rest) =
    imp_adds H (IState v (pn_of (fst (rebuild nn t)) :: stk) (snd (rebuild nn t)) false) rest.
  Proof.
    induction t as [k w m|k h s m l IHl r IHr]; intros stk nn rest W V.
    - cbn [versions_in] in V. cbn [export_node map app imp_adds].
      rewrite imp_add_leaf_eq by lia. reflexivity.
    - pose proof (height_nonneg _ W) as Hh.
      cbn [wf] in W. destruct W as (Wl & Wr & _ & _ & _ & Eh & Es).
      cbn [versions_in] in V. destruct V as (Vm & Vl & Vr).
      cbn [export_node]. rewrite !map_app, <- !app_assoc, (IHl _ _ _ Wl Vl), (IHr _ _ _ Wr Vr).
      rewrite rebuild_inner. cbv zeta.
      destruct (rebuild_shape l nn) as [Sl Hl]. set (l' := fst (rebuild nn l)) in *.
      destruct (rebuild_shape r (snd (rebuild nn l))) as [Sr Hr].
      set (r' := fst (rebuild (snd (rebuild nn l)) r)) in *.
      destruct (shape_eq_basic _ _ Sl) as (_ & Ehl & Esl & Evl & _).
      destruct (shape_eq_basic _ _ Sr) as (_ & Ehr & Esr & Evr & _).
      pose proof (height_nonneg _ Wl). pose proof (height_nonneg _ Wr).
      pose proof (versions_in_pos _ _ Vl). pose proof (versions_in_pos _ _ Vr).
      cbn [map app imp_adds].
      rewrite (imp_add_inner_eq H v stk _ (pn_of l') (pn_of r') l' r').
      + rewrite !pn_of_size, Esl, Esr, <- Es. reflexivity.
      + lia.
      + lia.
      + rewrite pn_of_height. lia.
      + rewrite pn_of_height. lia.
      + apply write_pn_of; [exact Hl|exact (shape_eq_wf _ _ Sl Wl)|lia].
      + apply write_pn_of; [exact Hr|exact (shape_eq_wf _ _ Sr Wr)|lia].
  Qed.

  Lemma set_nonce_pn_of t n : set_nonce (pn_of t) n = pn_of (set_root_nonce t n).
  Proof. destruct t; reflexivity. Qed.

  Lemma set_root_nonce_id t : set_root_nonce t (nonce (nmeta t)) = t.
  Proof. destruct t as [k v [a b c]|k h s [a b c] l r]; reflexivity. Qed.

  Lemma set_root_nonce_shape t n :
    shape_eq (set_root_nonce t n) t /\ (hashed H t -> hashed H (set_root_nonce t n)) /\
    nonce (nmeta (set_root_nonce t n)) = n.
  Proof.
    destruct t; cbn [set_root_nonce shape_eq hashed nmeta ver hs nonce]; auto 10 using shape_eq_refl.
  Qed.

End Rebuild.

Section ImportedTree.
  Variable H : bytes -> bytes.

  (** what Commit returns: the tree built by Add with the nonce of its root set to 1 *)
  Definition imported (t : node) : node := set_root_nonce (fst (rebuild H [] t)) 1.

  Lemma imported_shape t :
    shape_eq (imported t) t /\ hashed H (imported t) /\ nonce (nmeta (imported t)) = 1.
  Proof.
    destruct (rebuild_shape H t []) as [S Hh]. unfold imported.
    destruct (set_root_nonce_shape H (fst (rebuild H [] t)) 1) as (S1 & Hh1 & N).
    split; [exact (shape_eq_trans _ _ _ S1 S)|auto].
  Qed.

  Theorem imp_run_export v t :
    wf t -> versions_in v t -> v < max_nonces_len ->
    imp_run H v (map Some (export (Some t))) = IOk (Some (imported t)).
  Proof.
    intros W V B. pose proof (versions_in_pos _ _ V) as P.
    destruct (imported_shape t) as (S & Hh & _).
    destruct (shape_eq_basic _ _ S) as (_ & _ & _ & Ev & _).
    rewrite imp_run_eq by lia. cbn [export].
    rewrite <- (app_nil_r (map Some (export_node t))), imp_adds_rebuild by assumption.
    cbn [imp_adds ibind]. rewrite imp_commit_one, set_nonce_pn_of. fold (imported t).
    rewrite write_pn_of; [reflexivity|exact Hh|exact (shape_eq_wf _ _ S W)|lia].
  Qed.

  Corollary imported_by_run v t t' :
    wf t -> versions_in v t -> v < max_nonces_len ->
    imp_run H v (map Some (export (Some t))) = IOk (Some t') -> imported t = t'.
  Proof. intros W V B E. rewrite (imp_run_export v t W V B) in E. injection E. auto. Qed.

  (** the importer seen from outside: some tree of the same shape (hence the same hash for every
      hash function) with correct memoised hashes and root nonce 1; covers the single leaf and the
      "reference root" case (root version < v) *)
  Theorem import_export_roundtrip v t :
    wf t -> versions_in v t -> v < max_nonces_len ->
    exists t',
      imp_run H v (map Some (export (Some t))) = IOk (Some t') /\
      shape_eq t' t /\ hashed H t' /\ nonce (nmeta t') = 1.
  Proof.
    intros W V B. exists (imported t). exact (conj (imp_run_export v t W V B) (imported_shape t)).
  Qed.

  Corollary import_export_same_hash v t :
    wf t -> versions_in v t -> v < max_nonces_len ->
    exists t',
      imp_run H v (map Some (export (Some t))) = IOk (Some t') /\
      wf t' /\ (avl t -> avl t') /\ versions_in v t' /\ elems t' = elems t /\
      (forall (H' : bytes -> bytes) wv, pure_hash H' wv t' = pure_hash H' wv t) /\
      (forall wv, root_hash H wv (Some t') = pure_hash H wv t).
  Proof.
    intros W V B. destruct (imported_shape t) as (S & Hh & _). exists (imported t).
    exact (conj (imp_run_export v t W V B) (shape_eq_same H v _ t S Hh W V)).
  Qed.

  (** the root was last written at an older version than the one imported: the same tree
      is returned (Go: reference root entry) *)
  Corollary import_reference_root v t :
    wf t -> versions_in v t -> v < max_nonces_len -> ver (nmeta t) < v ->
    exists t',
      imp_run H v (map Some (export (Some t))) = IOk (Some t') /\ shape_eq t' t /\
      ver (nmeta t') < v.
  Proof.
    intros W V B L. destruct (imported_shape t) as (S & _). exists (imported t).
    split; [exact (imp_run_export v t W V B)|]. split; [exact S|].
    destruct (shape_eq_basic _ _ S) as (_ & _ & _ & -> & _). exact L.
  Qed.

  Theorem cimp_run_export v t :
    wf t -> keys_all key_small t -> versions_in v t -> v < max_nonces_len ->
    exists cs, compress (export (Some t)) = IOk cs /\
               cimp_run H v (map Some cs) = IOk (Some (imported t)).
  Proof.
    intros W K V B.
    assert (V64 : versions_int64 t)
      by (apply (versions_in_int64 v); [exact V|unfold max_nonces_len in B; lia]).
    destruct (compress_roundtrip t W K V64) as (cs & C & D & _).
    exists cs. split; [exact C|]. rewrite (cimp_run_decompress H v cs _ D).
    exact (imp_run_export v t W V B).
  Qed.

  Theorem compress_import_roundtrip v t :
    wf t -> keys_all key_small t -> versions_in v t -> v < max_nonces_len ->
    exists cs t',
      compress (export (Some t)) = IOk cs /\
      cimp_run H v (map Some cs) = IOk (Some t') /\
      shape_eq t' t /\ hashed H t' /\ nonce (nmeta t') = 1.
  Proof.
    intros W K V B. destruct (cimp_run_export v t W K V B) as (cs & C & E).
    exists cs, (imported t). exact (conj C (conj E (imported_shape t))).
  Qed.
End ImportedTree.

(** ** 2. The keys the importer assigns *)
Lemma nonce_get_set w v c nn :
  nonce_get w (nonce_set v c nn) = if w =? v then c else nonce_get w nn.
Proof.
  induction nn as [|[x n] nn IH]; cbn [nonce_set nonce_get].
  - rewrite (Z.eqb_sym v w). destruct (w =? v); reflexivity.
  - destruct (Z.eqb_spec x v) as [->|N]; cbn [nonce_get].
    + rewrite (Z.eqb_sym v w). destruct (w =? v); reflexivity.
    + rewrite IH. destruct (Z.eqb_spec x w) as [->|]; [|reflexivity].
      destruct (Z.eqb_spec w v); [contradiction|reflexivity].
Qed.

Lemma u32_small z : 0 <= z < 2 ^ 32 -> u32 z = z.
Proof. intros B. unfold u32. change 4294967296 with (2 ^ 32). apply Z.mod_small, B. Qed.

Section Nonces.
  Variable H : bytes -> bytes.

  Theorem rebuild_nonces t : forall nn,
    (forall v, 0 <= nonce_get v nn) -> (forall v, nonce_get v nn + ncount t + 1 < 2 ^ 32) ->
    (forall v, nonce_get v nn <= nonce_get v (snd (rebuild H nn t)) <= nonce_get v nn + ncount t) /\
    (forall u, subtree u (fst (rebuild H nn t)) ->
       nonce_get (ver (nmeta u)) nn + 2 <= nonce (nmeta u)
         <= nonce_get (ver (nmeta u)) (snd (rebuild H nn t)) + 1) /\
    (forall u u', subtree u (fst (rebuild H nn t)) -> subtree u' (fst (rebuild H nn t)) ->
       node_key u = node_key u' -> u = u').
  Proof.
    induction t as [k w m|k h s m l IHl r IHr]; intros nn P B.
    - cbn [rebuild fst snd ncount] in *.
      pose proof (P (ver m)). pose proof (B (ver m)).
      rewrite !u32_small by (rewrite ?u32_small; lia).
      split; [|split].
      + intros v. rewrite nonce_get_set. destruct (v =? ver m) eqn:E; [apply Z.eqb_eq in E; subst v|]; lia.
      + intros u S. apply sub_leaf in S. subst u. cbn [nmeta ver nonce].
        rewrite nonce_get_set, Z.eqb_refl. lia.
      + intros u u' S S' _. apply sub_leaf in S, S'. congruence.
    - rewrite rebuild_inner. cbv zeta. cbn [ncount fst snd] in *.
      pose proof (ncount_pos l) as Cl. pose proof (ncount_pos r) as Cr.
      destruct (IHl nn P) as (Al & Rl & Kl); [intros v; specialize (B v); lia|].
      set (l' := fst (rebuild H nn l)) in *. set (nn1 := snd (rebuild H nn l)) in *.
      destruct (IHr nn1) as (Ar & Rr & Kr);
        [intros v; specialize (Al v); specialize (P v); lia
        |intros v; specialize (B v); specialize (Al v); lia|].
      set (r' := fst (rebuild H nn1 r)) in *. set (nn2 := snd (rebuild H nn1 r)) in *.
      pose proof (P (ver m)) as Pm. pose proof (B (ver m)) as Bm.
      pose proof (Al (ver m)) as Alm. pose proof (Ar (ver m)) as Arm.
      rewrite !u32_small by (rewrite ?u32_small; lia).
      set (root := Inner k h s (Meta (ver m) (nonce_get (ver m) nn2 + 1 + 1)
                     (H (inner_preimage h s (ver m) (hs (nmeta l')) (hs (nmeta r'))))) l' r').
      (* within a version the nonces grow in post-order: those of l' lie in (nn, nn1] + 1, those of
         r' in (nn1, nn2] + 1, the root comes last *)
      split; [|split].
      + intros v. rewrite nonce_get_set. specialize (Al v). specialize (Ar v).
        destruct (v =? ver m) eqn:E; [apply Z.eqb_eq in E; subst v|]; lia.
      + intros u S. rewrite nonce_get_set. apply sub_inv in S. destruct S as [->|[S|S]].
        * cbn [root nmeta ver nonce]. rewrite Z.eqb_refl. lia.
        * specialize (Rl u S). pose proof (Ar (ver (nmeta u))).
          destruct (ver (nmeta u) =? ver m) eqn:E; [apply Z.eqb_eq in E; rewrite <- E|]; lia.
        * specialize (Rr u S). pose proof (Al (ver (nmeta u))).
          destruct (ver (nmeta u) =? ver m) eqn:E; [apply Z.eqb_eq in E; rewrite <- E|]; lia.
      + assert (Root_l : forall u, subtree u l' -> node_key u <> node_key root).
        { intros u S E. injection E as Ev En. specialize (Rl u S). specialize (Ar (ver (nmeta u))).
          rewrite Ev in *. lia. }
        assert (Root_r : forall u, subtree u r' -> node_key u <> node_key root).
        { intros u S E. injection E as Ev En. specialize (Rr u S). rewrite Ev in *. lia. }
        assert (L_r : forall u u', subtree u l' -> subtree u' r' -> node_key u <> node_key u').
        { intros u u' S S' E. injection E as Ev En. specialize (Rl u S). specialize (Rr u' S').
          rewrite Ev in *. lia. }
        intros u u' S S' E. apply sub_inv in S, S'.
        destruct S as [->|[S|S]]; destruct S' as [->|[S'|S']];
          [reflexivity| | | |exact (Kl u u' S S' E)| | | |exact (Kr u u' S S' E)]; exfalso.
        * exact (Root_l _ S' (eq_sym E)).
        * exact (Root_r _ S' (eq_sym E)).
        * exact (Root_l _ S E).
        * exact (L_r _ _ S S' E).
        * exact (Root_r _ S E).
        * exact (L_r _ _ S' S (eq_sym E)).
  Qed.
End Nonces.

(** ** 3. The imported tree as a one-version forest *)
Lemma versions_in_subtree v u t : subtree u t -> versions_in v t -> 1 <= ver (nmeta u) <= v.
Proof.
  induction 1 as [t|u k h s m l r _ IH|u k h s m l r _ IH]; intros V.
  - apply versions_in_pos, V.
  - cbn [versions_in] in V. apply IH. tauto.
  - cbn [versions_in] in V. apply IH. tauto.
Qed.

Lemma versions_in_of_subtrees v t :
  (forall u, subtree u t -> 1 <= ver (nmeta u) <= v) -> versions_in v t.
Proof.
  induction t as [k w m|k h s m l IHl r IHr]; intros A; cbn [versions_in].
  - exact (A _ (sub_refl _)).
  - split; [exact (A _ (sub_refl _))|]. split.
    + apply IHl. intros u S. apply A, sub_left, S.
    + apply IHr. intros u S. apply A, sub_right, S.
Qed.

Lemma hashed_subtree H u t : subtree u t -> hashed H t -> hashed H u.
Proof.
  induction 1 as [t|u k h s m l r _ IH|u k h s m l r _ IH]; intros Hh; [exact Hh| |];
    cbn [hashed] in Hh; apply IH; tauto.
Qed.

Lemma hashed_fhash H u : hashed H u -> fhash H u = hs (nmeta u).
Proof. destruct u as [k v m|k h s m l r]; cbn [hashed fhash nmeta]; [intros ->|]; reflexivity. Qed.

Section Imported.
  Variable H : bytes -> bytes.
  Variable t : node.
  Variable V : Z.
  Hypothesis W : wf t.
  Hypothesis Vin : versions_in V t.
  (** no wrap of the uint32 nonce counters: fewer than 2^32 - 2 nodes *)
  Hypothesis Cnt : ncount t + 1 < 2 ^ 32.

  Let t0 := fst (rebuild H [] t).
  Let t' := imported H t.

  Lemma imported_versions : versions_in V t'.
  Proof. exact (shape_eq_versions V _ _ (proj1 (imported_shape H t)) Vin). Qed.

  (** Add starts every version's counter at 0 *)
  Lemma rebuild_nonces_nil :
    (forall u, subtree u t0 -> 2 <= nonce (nmeta u)) /\
    (forall u u', subtree u t0 -> subtree u' t0 -> node_key u = node_key u' -> u = u').
  Proof.
    destruct (rebuild_nonces H t []) as (_ & N & K).
    { intros v. cbn. lia. } { intros v. cbn [nonce_get]. lia. }
    split; [|exact K]. intros u S. specialize (N u S). cbn [nonce_get] in N. lia.
  Qed.

  Lemma imported_sub u :
    subtree u t' -> u = t' \/ (subtree u t0 /\ 2 <= nonce (nmeta u)).
  Proof.
    intros S. destruct rebuild_nonces_nil as [N _]. unfold t', imported in *. fold t0 in S |- *.
    destruct t0 as [k v m|k h s m l r]; cbn [set_root_nonce] in *.
    - left. apply sub_leaf in S. exact S.
    - apply sub_inv in S. destruct S as [->|[S|S]]; [left; reflexivity| |]; right.
      + assert (S0 : subtree u (Inner k h s m l r)) by (apply sub_left, S). auto.
      + assert (S0 : subtree u (Inner k h s m l r)) by (apply sub_right, S). auto.
  Qed.

  Lemma imported_coherent u u' :
    subtree u t' -> subtree u' t' -> node_key u = node_key u' -> u = u'.
  Proof.
    intros S S' E. destruct rebuild_nonces_nil as [_ K].
    destruct (imported_shape H t) as (_ & _ & N1). fold t' in N1.
    destruct (imported_sub u S) as [->|[S0 N]]; destruct (imported_sub u' S') as [->|[S0' N']].
    - reflexivity.
    - exfalso. injection E as _ En. lia.
    - exfalso. injection E as _ En. lia.
    - exact (K u u' S0 S0' E).
  Qed.

  Definition imp_forest : forest_t := [(V, Some t')].

  Lemma imp_sub_of u : sub_of imp_forest u <-> subtree u t'.
  Proof.
    unfold sub_of, imp_forest. split.
    - intros (v & x & [Q|[]] & S). injection Q as <- <-. exact S.
    - intros S. exists V, t'. split; [left; reflexivity|exact S].
  Qed.

  Theorem import_forest_inv :
    forest_inv imp_forest /\ NoDup (map fst imp_forest) /\
    (forall iv, iv <= V -> forest_ok imp_forest iv) /\
    (forall w x, In (w, Some x) imp_forest -> wf x) /\
    (forall w x, In (w, Some x) imp_forest -> hashed H x /\ versions_in V x) /\
    leaf_hashes H imp_forest.
  Proof.
    pose proof (versions_in_pos _ _ Vin) as PV.
    destruct (imported_shape H t) as (Sh & Hh & N1). fold t' in Sh, Hh, N1.
    split; [|split; [|split; [|split; [|split]]]].
    - constructor.
      + intros u u' S S'. apply imp_sub_of in S, S'. exact (imported_coherent u u' S S').
      + intros v x u [Q|[]] S. injection Q as <- <-. exact (versions_in_subtree V u _ S imported_versions).
      + intros v r u [Q|[]] S E. injection Q as <- <-. apply imp_sub_of in S. f_equal.
        destruct (imported_sub u S) as [->|[_ N]]; [reflexivity|].
        injection E as _ En. lia.
      + intros v x u r0 [Q|[]] S L [Q'|[]]. injection Q as <- <-. injection Q' as E' _. lia.
      + intros v x u [Q|[]] S. injection Q as <- <-.
        destruct (imported_sub u S) as [->|[_ N]]; lia.
    - cbn. constructor; [intros []|constructor].
    - intros iv L. split; [reflexivity|]. cbn [imp_forest map fst]. constructor; [lia|constructor].
    - intros w x [Q|[]]. injection Q as <- <-. exact (shape_eq_wf _ _ Sh W).
    - intros w x [Q|[]]. injection Q as <- <-. split; [exact Hh|exact imported_versions].
    - intros u S. apply imp_sub_of in S. apply hashed_fhash. exact (hashed_subtree H u _ S Hh).
  Qed.
End Imported.

(** ** 4. Opening the physical store of a forest (forest-level form of DbImageFacts.open_store_state:
    an imported database is not a state of the MutableTree machine) *)

(** what the store written for a forest must satisfy for a new tree object to find the forest in it *)
Record forest_good (H : bytes -> bytes) (f : forest_t) (iv0 : Z) : Prop := ForestGood {
  fg_inv : forest_inv f;
  fg_nodup : NoDup (map fst f);
  fg_ok : forest_ok f iv0;
  fg_wf : forall w t, In (w, Some t) f -> wf t;
  fg_hashes : leaf_hashes H f;
  fg_ne : f <> [];
  fg_bound : latest_of_forest f < 2 ^ 63
}.

Section OpenForest.
  Variable H : bytes -> bytes.
  Variable f : forest_t.
  Variable iv0 : Z.
  Hypothesis G : forest_good H f iv0.

  Lemma forest_readable r : rekey_ok r f -> readable H (phys_of r f) f = true.
  Proof.
    intros RK. destruct G as [FI ND OK WF LH NE B]. apply disk_ok_readable; auto.
    exact (phys_disk_ok f iv0 r FI ND OK NE RK).
  Qed.

  Lemma forest_loads r :
    rekey_ok r f ->
    1 <= first_of_forest f <= latest_of_forest f /\
    loads H (phys_of r f) (zrange (first_of_forest f) (latest_of_forest f)) =
      map (fun p => (fst p, POk (snd p))) f.
  Proof.
    intros RK. destruct (forest_ok_range f iv0 (fg_ok _ _ _ G) (fg_ne _ _ _ G)) as (R1 & _ & Rg).
    rewrite <- first_of_forest_eq, <- latest_of_forest_eq in R1, Rg.
    split; [exact R1|]. rewrite <- Rg. exact (readable_loads H _ _ (forest_readable r RK)).
  Qed.

  Theorem open_store_forest r iv :
    rekey_ok r f -> stale_free_rel r f ->
    (0 <? first_of_forest f) && (first_of_forest f <? iv) = false ->
    open_store H iv (phys_of r f) = DbOk (map (fun p => (fst p, POk (snd p))) f).
  Proof.
    intros RK SF IC. destruct (forest_loads r RK) as [R1 L]. destruct G as [FI _ OK _ _ NE B].
    destruct (discover_exact_rel r f iv0 NE FI OK B SF (rekey_ok_below r f RK)) as [DR _].
    rewrite (open_store_range H iv _ _ _ DR), IC, L by lia. reflexivity.
  Qed.

  Theorem open_store_forest_any r iv :
    rekey_ok r f ->
    exists m lst,
      0 <= m <= first_of_forest f /\
      (m = 0 \/ has_version (phys_of r f) (m - 1) = false) /\
      open_store H iv (phys_of r f) =
        (if (0 <? m) && (m <? iv) then DbInitial m else DbOk lst) /\
      filter (fun p => first_of_forest f <=? fst p) lst = map (fun p => (fst p, POk (snd p))) f /\
      (forall p, In p lst -> m <= fst p <= latest_of_forest f).
  Proof.
    intros RK. destruct (forest_loads r RK) as [R1 L]. destruct G as [FI _ OK _ _ NE B].
    destruct (discover_first_lower r f iv0 NE FI OK B (rekey_ok_below r f RK)) as (m & DF & Rm & _ & Bd).
    exists m, (loads H (phys_of r f) (zrange m (latest_of_forest f))).
    split; [exact Rm|]. split; [exact Bd|]. split; [|split].
    - apply open_store_range; [|lia].
      unfold discovered_range. rewrite DF, (discover_latest_expected r f iv0 FI OK NE). reflexivity.
    - rewrite filter_loads, filter_zrange_ge by lia. exact L.
    - intros p Ip. unfold loads in Ip. apply in_map_iff in Ip. destruct Ip as (v & <- & Iv).
      cbn [fst]. apply In_zrange in Iv. exact Iv.
  Qed.
End OpenForest.

Lemma rekey_ok_nil f : rekey_ok [] f.
Proof. split; [constructor|intros w []]. Qed.

(** ** 5. The database an import writes reopens to the imported tree *)
Section ImportReopens.
  Variable H : bytes -> bytes.

  Section OneTree.
    Variable t : node.
    Variable V : Z.
    Hypothesis W : wf t.
    Hypothesis Vin : versions_in V t.
    Hypothesis BV : V < max_nonces_len.
    Hypothesis Cnt : ncount t + 1 < 2 ^ 32.

    Let t' := imported H t.
    Let f : forest_t := [(V, Some t')].
    Let st := expected_store f.

    Theorem imported_same :
      imp_run H V (map Some (export (Some t))) = IOk (Some t') /\
      shape_eq t' t /\ hashed H t' /\ nonce (nmeta t') = 1 /\ wf t' /\ (avl t -> avl t') /\
      elems t' = elems t /\
      (forall wv, root_hash H wv (Some t') = pure_hash H wv t) /\
      (hashed H t -> hs (nmeta t') = hs (nmeta t)).
    Proof.
      unfold t'. destruct (imported_shape H t) as (S & Hh & N1).
      destruct (shape_eq_same H V _ t S Hh W Vin) as (W' & A & V' & El & _ & Rh).
      split; [exact (imp_run_export H V t W Vin BV)|]. repeat (split; [assumption|]).
      intros Ht. rewrite (hashed_pure H V 0 _ Hh V'), (hashed_pure H V 0 _ Ht Vin).
      apply shape_eq_pure_hash, S.
    Qed.

    Lemma imp_forest_good : forest_good H f 0.
    Proof.
      destruct (import_forest_inv H t V W Vin Cnt) as (FI & ND & OK & WF & _ & LH).
      pose proof (versions_in_pos _ _ Vin) as PV.
      split; [exact FI|exact ND|apply OK; lia|exact WF|exact LH|discriminate|].
      cbn. unfold max_nonces_len in BV. lia.
    Qed.

    Theorem import_loads_back : load_version H (S (length st)) st V = POk (Some t').
    Proof.
      pose proof (forest_readable H f 0 imp_forest_good [] (rekey_ok_nil f)) as R.
      rewrite phys_of_nil_r in R. apply readable_loads in R.
      unfold loads in R. cbn [f map fst snd] in R. injection R as R. exact R.
    Qed.

    (** a new tree object on the bytes of the imported database: version V is found and loads
        back exactly; when the root was written at version V nothing else is found *)
    Theorem import_reopens iv fi l :
      image_ok st fi l = true ->
      (exists m lst,
         0 <= m <= V /\
         (m = 0 \/ has_version st (m - 1) = false) /\
         open_image H iv (encode_image st fi l) =
           (if (0 <? m) && (m <? iv) then DbInitial m else DbOk lst) /\
         filter (fun p => V <=? fst p) lst = [(V, POk (Some t'))] /\
         (forall p, In p lst -> m <= fst p <= V)) /\
      (ver (nmeta t) = V -> iv <= V ->
         open_image H iv (encode_image st fi l) = DbOk [(V, POk (Some t'))] /\
         open_forest H iv (encode_image st fi l) = DbOk [(V, Some t')] /\
         discovered_range st = Some (V, V) /\ discovered_available st = Some [V]).
    Proof.
      intros IOK. pose proof imp_forest_good as G.
      rewrite (open_image_encode H iv st fi l IOK).
      assert (Est : st = phys_of [] f) by (symmetry; apply phys_of_nil_r).
      split.
      - destruct (open_store_forest_any H f 0 G [] iv (rekey_ok_nil f))
          as (m & lst & Rm & Bd & E & Fl & Rg).
        rewrite <- Est in Bd, E. exists m, lst. auto.
      - intros EV L.
        assert (SF : stale_free_rel [] f).
        { intros v x u [Q|[]] S N. injection Q as <- <-. left. cbn [f first_of_forest fst].
          destruct (imported_sub H t Cnt u S) as [->|[_ N2]]; [|lia].
          destruct (imported_shape H t) as (Sh & _).
          destruct (shape_eq_basic _ _ Sh) as (_ & _ & _ & Ev2 & _). lia. }
        assert (IC : (0 <? first_of_forest f) && (first_of_forest f <? iv) = false)
          by (cbn [f first_of_forest fst]; lia).
        pose proof (open_store_forest H f 0 G [] iv (rekey_ok_nil f) SF IC) as E.
        rewrite <- Est in E. cbn [f map fst snd] in E.
        destruct G as [FI _ OK _ _ NE B].
        destruct (discover_exact_rel [] f 0 NE FI OK B SF (rekey_ok_below [] f (rekey_ok_nil f))) as [DR DA].
        rewrite <- Est in DR, DA.
        split; [exact E|]. split; [|split; [exact DR|exact DA]].
        unfold open_forest. rewrite (open_image_encode H iv st fi l IOK), E. reflexivity.
    Qed.
  End OneTree.

  Theorem import_empty_reopens V iv fi l :
    1 <= V < max_nonces_len -> iv <= V -> fast_okb fi = true -> label_okb l = true ->
    imp_run H V [] = IOk None /\
    expected_store [(V, None)] = [((V, 1), EEmpty)] /\
    open_forest H iv (encode_image [((V, 1), EEmpty)] fi l) = DbOk [(V, None)].
  Proof.
    intros BV L Of Ol. split; [apply import_empty; lia|]. split; [reflexivity|].
    assert (IOK : image_ok [((V, 1), EEmpty)] fi l = true).
    { unfold image_ok. rewrite Of, Ol. cbn [store_okb forallb fst snd skey_okb entry_okb].
      unfold skey_okb, uint32b, max_nonces_len in *. cbn [fst snd]. lia. }
    unfold open_forest. rewrite (open_image_encode H iv _ fi l IOK).
    set (f := [(V, @None node)] : forest_t).
    assert (G : forest_good H f 0).
    { split.
      - constructor.
        + intros u u' (v & x & [Q|[]] & _). discriminate Q.
        + intros v x u [Q|[]]. discriminate Q.
        + intros v r u _ (w & x & [Q|[]] & _). discriminate Q.
        + intros v x u r0 [Q|[]]. discriminate Q.
        + intros v x u [Q|[]]. discriminate Q.
      - cbn. constructor; [intros []|constructor].
      - split; [reflexivity|]. cbn [f map fst]. constructor; [lia|constructor].
      - intros w x [Q|[]]. discriminate Q.
      - intros u (w & x & [Q|[]] & _). discriminate Q.
      - discriminate.
      - cbn. unfold max_nonces_len in BV. lia. }
    assert (SF : stale_free_rel [] f) by (intros v x u [Q|[]]; discriminate Q).
    assert (E : open_store H iv (phys_of [] f) = DbOk (map (fun p => (fst p, POk (snd p))) f)).
    { apply (open_store_forest H f 0 G); [apply rekey_ok_nil|exact SF|cbn [f first_of_forest fst]; lia]. }
    change (phys_of [] f) with [((V, 1), EEmpty)] in E. rewrite E. reflexivity.
  Qed.
End ImportReopens.

(** ** 6. The exported tree is a retained version of a reachable state *)
Section FromState.
  Variable H : bytes -> bytes.

  Lemma state_tree_importable s V t :
    store_ok H s -> In (V, Some t) (forest s) -> wf t /\ versions_in V t.
  Proof.
    intros SO I. destruct (store_ok_forest H s SO) as (FI & _ & _ & WF & _).
    split; [exact (WF V t I)|]. apply versions_in_of_subtrees. intros u S.
    exact (fi_ver _ FI V t u I S).
  Qed.

  (** export version [V] of a reachable state, import it at [V] into an empty database, open a
      new tree object on the bytes of that database *)
  Theorem import_reopens_reachable iv0 b ops V t iv fi l :
    init_ok iv0 b -> run_ok H (init_state iv0 b) ops ->
    let s := fst (run H (init_state iv0 b) ops) in
    In (V, Some t) (forest s) -> V < max_nonces_len -> ncount t + 1 < 2 ^ 32 ->
    let t' := imported H t in
    let st := expected_store [(V, Some t')] in
    image_ok st fi l = true ->
    imp_run H V (map Some (export (Some t))) = IOk (Some t') /\
    shape_eq t' t /\ elems t' = elems t /\
    (forall wv, root_hash H wv (Some t') = pure_hash H wv t) /\
    load_version H (S (length st)) st V = POk (Some t') /\
    (exists m lst,
       0 <= m <= V /\
       open_image H iv (encode_image st fi l) =
         (if (0 <? m) && (m <? iv) then DbInitial m else DbOk lst) /\
       filter (fun p => V <=? fst p) lst = [(V, POk (Some t'))]) /\
    (ver (nmeta t) = V -> iv <= V ->
       open_forest H iv (encode_image st fi l) = DbOk [(V, Some t')] /\
       discovered_available st = Some [V]).
  Proof.
    intros IO R s I BV Cnt t' st IOK.
    assert (SO : store_ok H s) by (apply store_ok_reachable; assumption).
    destruct (state_tree_importable s V t SO I) as [W Vin].
    destruct (imported_same H t V W Vin BV) as (E & Sh & _ & _ & _ & _ & El & Rh & _).
    destruct (import_reopens H t V W Vin BV Cnt iv fi l IOK) as [(m & lst & Rm & _ & Eo & Fl & _) X].
    split; [exact E|]. split; [exact Sh|]. split; [exact El|]. split; [exact Rh|].
    split; [exact (import_loads_back H t V W Vin BV Cnt)|].
    split; [exists m, lst; auto|].
    intros EV L. destruct (X EV L) as (_ & A & _ & B). auto.
  Qed.
End FromState.

(** ** 7. The importers depend on the hash function through its values only (see HashTable.v) *)
Section HashExt.
  Variables H H' : bytes -> bytes.
  Hypothesis HE : forall b, H b = H' b.

  Lemma write_node_hext p : write_node H p = write_node H' p.
  Proof.
    unfold write_node. destruct (p_key p); [|reflexivity].
    destruct (p_value p), (p_kids p) as [[l r]|];
      rewrite ?(leaf_preimage_hext H H' HE), ?HE; reflexivity.
  Qed.

  Lemma imp_add_hext st on : imp_add H st on = imp_add H' st on.
  Proof.
    unfold imp_add. destruct (i_closed st); [reflexivity|]. destruct on as [n|]; [|reflexivity].
    destruct (i_stack st) as [|r [|l rest]]; rewrite ?write_node_hext; reflexivity.
  Qed.

  Lemma imp_commit_hext st : imp_commit H st = imp_commit H' st.
  Proof.
    unfold imp_commit. destruct (i_closed st); [reflexivity|].
    destruct (i_stack st) as [|p [|]]; rewrite ?write_node_hext; reflexivity.
  Qed.

  Lemma imp_run_hext v stream : imp_run H v stream = imp_run H' v stream.
  Proof.
    unfold imp_run. destruct (imp_new 0 true v) as [st| |]; cbn [ibind]; try reflexivity.
    revert st. induction stream as [|on rest IH]; intros st; cbn [imp_adds ibind].
    - apply imp_commit_hext.
    - rewrite imp_add_hext. destruct (imp_add H' st on); cbn [ibind]; [apply IH|reflexivity..].
  Qed.

  Lemma cimp_run_hext v stream : cimp_run H v stream = cimp_run H' v stream.
  Proof.
    unfold cimp_run. destruct (imp_new 0 true v) as [st| |]; cbn [ibind]; try reflexivity.
    generalize cimp_init. revert st.
    induction stream as [|on rest IH]; intros st cs; cbn [cimp_adds ibind].
    - apply imp_commit_hext.
    - destruct (cimp_add cs on) as [[cs' n]| |]; cbn [ibind]; try reflexivity.
      rewrite imp_add_hext. destruct (imp_add H' st (Some n)); cbn [ibind]; [apply IH|reflexivity..].
  Qed.
End HashExt.

(** ** 8. An inherited root makes a new tree object report versions that were never
    imported.

    Versions 1 and 2 write; versions 3, 4, 5 are commits without writes (their root entries
    refer to the root node (2,1)).  Version 5 is exported and imported at 5 into an empty
    database.  The root of the imported tree keeps version 2, so it is stored under (2,1), which
    is also what a root key of version 2 looks like: the binary search of getFirstVersion stops
    there, and versions 2, 3, 4, 5 are reported as available although only 5 was imported.
    Version 2 even "loads" (the imported tree itself); 3 and 4 do not exist; 5 loads back exactly. *)
Definition ir_a : bytes := [97%N].
Definition ir_b : bytes := [98%N].
Definition ir_hist : list op := [OSet ir_a ir_a; OSave; OSet ir_b ir_b; OSave; OSave; OSave; OSave].

(** the state after the history, its version 5 and what the importer makes of it: each evaluated
    once *)
Definition ir_s : mstate := Eval vm_compute in fst (run sha256 (init_state 0 false) ir_hist).
Lemma ir_s_eq : fst (run sha256 (init_state 0 false) ir_hist) = ir_s.
Proof. vm_compute. reflexivity. Qed.

Definition ir_t : node :=
  Eval vm_compute in match lookup 5 (forest ir_s) with Some (Some t) => t | _ => Leaf [] [] new_meta end.
Definition ir_i : node := Eval vm_compute in imported sha256 ir_t.
Lemma ir_run : imp_run sha256 5 (map Some (export (Some ir_t))) = IOk (Some ir_i).
Proof. vm_compute. reflexivity. Qed.
Lemma ir_i_eq : imported sha256 ir_t = ir_i.
Proof. apply (imported_by_run sha256 5); [| |reflexivity|exact ir_run]; vm_compute; repeat split; discriminate. Qed.

Theorem import_inherited_root_discovers_more_refuted :
  exists (ops : list op) (V : Z) (t : node),
    let s := fst (run sha256 (init_state 0 false) ops) in
    let t' := imported sha256 t in
    let st := expected_store [(V, Some t')] in
    run_ok sha256 (init_state 0 false) ops /\
    available s = [1; 2; 3; 4; 5] /\ In (V, Some t) (forest s) /\ V = 5 /\
    imp_run sha256 V (map Some (export (Some t))) = IOk (Some t') /\
    node_key t' = (2, 1) /\
    map fst st = [(1, 2); (2, 1); (2, 2); (5, 1)] /\ mfind kcmp (5, 1) st = Some (ERef (2, 1)) /\
    image_ok st [] None = true /\
    (* only version 5 was imported, four versions are reported *)
    discovered_available st = Some [2; 3; 4; 5] /\
    open_image sha256 0 (encode_image st [] None) =
      DbOk [(2, POk (Some t')); (3, PNoVersion); (4, PNoVersion); (5, POk (Some t'))] /\
    open_forest sha256 0 (encode_image st [] None) = DbLoadFailed 3 /\
    (* version 5 still loads back exactly *)
    load_version sha256 (S (length st)) st V = POk (Some t') /\
    root_hash sha256 6 (Some t') = root_hash sha256 6 (Some t).
Proof.
  exists ir_hist, 5, ir_t. cbv zeta. rewrite ir_s_eq, ir_i_eq.
  set (st := expected_store [(5, Some ir_i)]).
  assert (IO : image_ok st [] None = true) by (vm_compute; reflexivity).
  assert (O : open_store sha256 0 st =
              DbOk [(2, POk (Some ir_i)); (3, PNoVersion); (4, PNoVersion); (5, POk (Some ir_i))])
    by (vm_compute; reflexivity).
  unfold open_forest. rewrite (open_image_encode sha256 0 st [] None IO), O.
  split; [apply run_okb_iff; vm_compute; reflexivity|].
  split; [reflexivity|]. split; [vm_compute; auto 10|]. split; [reflexivity|].
  split; [exact ir_run|]. vm_compute. repeat split; reflexivity.
Qed.

(** ** 9. Examples (SHA-256), both codecs

    {a,b} saved as version 1, c added and saved as version 2 (root written at version 2), a
    removed and saved as version 3 (the root of version 3 is the old inner node (2,2)). *)
Definition ip_a : bytes := [97%N].
Definition ip_b : bytes := [98%N].
Definition ip_c : bytes := [99%N].
Definition ip_hist : list op :=
  [OSet ip_a ip_a; OSet ip_b ip_b; OSave; OSet ip_c ip_c; OSave; ORemove ip_a; OSave].
Definition ip_s : mstate := fst (run sha256 (init_state 0 false) ip_hist).
Definition ip_tree (v : Z) : node :=
  match lookup v (forest ip_s) with Some (Some t) => t | _ => Leaf [] [] new_meta end.
Definition ip_fast (v : Z) (t : node) : list (bytes * (Z * bytes)) :=
  map (fun p => (fst p, (v, snd p))) (elems t).

(** the retained versions of the history and what the importer makes of versions 2 and 3: each
    evaluated once *)
Definition ip_forest : forest_t := Eval vm_compute in forest ip_s.
Lemma ip_forest_eq : forest ip_s = ip_forest.
Proof. vm_compute. reflexivity. Qed.

Definition ip_t2 : node := Eval vm_compute in ip_tree 2.
Definition ip_t3 : node := Eval vm_compute in ip_tree 3.
Lemma ip_tree_eq : ip_tree 2 = ip_t2 /\ ip_tree 3 = ip_t3.
Proof. unfold ip_tree. rewrite ip_forest_eq. split; reflexivity. Qed.

Definition ip_i2 : node := Eval vm_compute in imported sha256 ip_t2.
Definition ip_i3 : node := Eval vm_compute in imported sha256 ip_t3.
Lemma ip_run2 : imp_run sha256 2 (map Some (export (Some ip_t2))) = IOk (Some ip_i2).
Proof. vm_compute. reflexivity. Qed.
Lemma ip_run3 : imp_run sha256 3 (map Some (export (Some ip_t3))) = IOk (Some ip_i3).
Proof. vm_compute. reflexivity. Qed.
Lemma ip_i2_eq : imported sha256 ip_t2 = ip_i2.
Proof. apply (imported_by_run sha256 2); [| |reflexivity|exact ip_run2]; vm_compute; repeat split; discriminate. Qed.
Lemma ip_i3_eq : imported sha256 ip_t3 = ip_i3.
Proof. apply (imported_by_run sha256 3); [| |reflexivity|exact ip_run3]; vm_compute; repeat split; discriminate. Qed.

(** version 2 exported and imported at 2, plain and compressed stream: the same tree, keys
    assigned by the importer (nonces per version from 2, the root 1); its database image reopens
    to exactly that tree, and only version 2 is found *)
Example ip_exact :
  let t := ip_tree 2 in
  let t' := imported sha256 t in
  let st := expected_store [(2, Some t')] in
  let img := encode_image st (ip_fast 2 t') (Some 2) in
  map fst (nodes_of t) = [(2, 1); (1, 2); (2, 2); (1, 3); (2, 3)] /\
  map fst (nodes_of t') = [(2, 1); (1, 2); (2, 3); (1, 3); (2, 2)] /\
  imp_run sha256 2 (map Some (export (Some t))) = IOk (Some t') /\
  (exists cs, compress (export (Some t)) = IOk cs /\
              map e_key cs <> map e_key (export (Some t)) /\
              cimp_run sha256 2 (map Some cs) = IOk (Some t')) /\
  hs (nmeta t') = hs (nmeta t) /\ elems t' = elems t /\
  image_ok st (ip_fast 2 t') (Some 2) = true /\
  map fst st = [(1, 2); (1, 3); (2, 1); (2, 2); (2, 3)] /\
  decode_image img = Some (st, ip_fast 2 t', Some 2) /\
  discovered_available st = Some [2] /\
  open_image sha256 0 img = DbOk [(2, POk (Some t'))] /\
  open_forest sha256 0 img = DbOk [(2, Some t')].
Proof.
  cbv zeta. rewrite (proj1 ip_tree_eq), ip_i2_eq.
  set (st := expected_store [(2, Some ip_i2)]). set (fi := ip_fast 2 ip_i2).
  assert (D : decode_image (encode_image st fi (Some 2)) = Some (st, fi, Some 2))
    by (vm_compute; reflexivity).
  assert (O : open_store sha256 0 st = DbOk [(2, POk (Some ip_i2))]) by (vm_compute; reflexivity).
  unfold open_forest, open_image. rewrite D, O.
  split; [reflexivity|]. split; [reflexivity|]. split; [exact ip_run2|].
  split.
  { eexists. split; [vm_compute; reflexivity|]. split; [vm_compute; discriminate|].
    rewrite (cimp_run_decompress sha256 2 _ (export (Some ip_t2))) by (vm_compute; reflexivity).
    exact ip_run2. }
  vm_compute. repeat split; reflexivity.
Qed.

(** the same conclusion from the theorem: its hypotheses hold here *)
Example ip_exact_thm :
  let t' := imported sha256 (ip_tree 2) in
  open_forest sha256 0 (encode_image (expected_store [(2, Some t')]) (ip_fast 2 t') (Some 2))
    = DbOk [(2, Some t')].
Proof.
  cbv zeta. rewrite (proj1 ip_tree_eq), ip_i2_eq.
  destruct (import_reopens_reachable sha256 0 false ip_hist 2 ip_t2 0 (ip_fast 2 ip_i2) (Some 2))
    as (_ & _ & _ & _ & _ & _ & X); try rewrite ip_i2_eq in *.
  - unfold init_ok. lia.
  - apply run_okb_iff. vm_compute. reflexivity.
  - change (In (2, Some ip_t2) (forest ip_s)). rewrite ip_forest_eq. right. left. reflexivity.
  - reflexivity.
  - reflexivity.
  - vm_compute. reflexivity.
  - apply X; [reflexivity|lia].
Qed.

(** version 3 (root inherited from version 2) imported at 3, both codecs: version 3 loads back
    exactly; the new object also reports version 2 *)
Example ip_inherited :
  let t := ip_tree 3 in
  let t' := imported sha256 t in
  let st := expected_store [(3, Some t')] in
  let img := encode_image st (ip_fast 3 t') (Some 3) in
  node_key t = (2, 2) /\ node_key t' = (2, 1) /\
  imp_run sha256 3 (map Some (export (Some t))) = IOk (Some t') /\
  (exists cs, compress (export (Some t)) = IOk cs /\ cimp_run sha256 3 (map Some cs) = IOk (Some t')) /\
  hs (nmeta t') = hs (nmeta t) /\
  map fst st = [(1, 2); (2, 1); (2, 2); (3, 1)] /\ mfind kcmp (3, 1) st = Some (ERef (2, 1)) /\
  image_ok st (ip_fast 3 t') (Some 3) = true /\
  load_version sha256 (S (length st)) st 3 = POk (Some t') /\
  open_image sha256 0 img = DbOk [(2, POk (Some t')); (3, POk (Some t'))] /\
  discovered_available st = Some [2; 3].
Proof.
  cbv zeta. rewrite (proj2 ip_tree_eq), ip_i3_eq.
  set (st := expected_store [(3, Some ip_i3)]). set (fi := ip_fast 3 ip_i3).
  assert (IO : image_ok st fi (Some 3) = true) by (vm_compute; reflexivity).
  assert (O : open_store sha256 0 st = DbOk [(2, POk (Some ip_i3)); (3, POk (Some ip_i3))])
    by (vm_compute; reflexivity).
  rewrite (open_image_encode sha256 0 st fi (Some 3) IO), O.
  split; [reflexivity|]. split; [reflexivity|]. split; [exact ip_run3|].
  split.
  { eexists. split; [vm_compute; reflexivity|].
    rewrite (cimp_run_decompress sha256 3 _ (export (Some ip_t3))) by (vm_compute; reflexivity).
    exact ip_run3. }
  vm_compute. repeat split; reflexivity.
Qed.

Example ip_empty :
  imp_run sha256 7 [] = IOk None /\
  open_forest sha256 0 (encode_image (expected_store [(7, None)]) [] None) = DbOk [(7, None)].
Proof. vm_compute. split; reflexivity. Qed.

Print Assumptions imp_run_export.
Print Assumptions cimp_run_export.
Print Assumptions rebuild_nonces.
Print Assumptions import_forest_inv.
Print Assumptions imported_same.
Print Assumptions import_loads_back.
Print Assumptions import_reopens.
Print Assumptions import_reopens_reachable.
Print Assumptions import_empty_reopens.
Print Assumptions import_inherited_root_discovers_more_refuted.
