(** FastLifeFacts2: the coherence invariant [fcoh] of the fast-index life cycle (FastLife.v) and
    its building blocks: the persisted part ([lab_ok]: label and index), the in-memory part
    ([uns_ok]: unsaved additions / removals), how they move along changes of the logical state,
    and the upgrade step [enable_if_needed]. *)
From Coq Require Import Lia.
From IAVL Require Import Bytes Varint Tree VMap TreeFacts MTree MTreeFacts VersionFacts
  Store StoreFacts FastLife FastLifeFacts1.
Local Open Scope Z_scope.

(** ** The invariant *)

(** the persisted label never runs ahead of the store, and whenever it names the latest version
    the persisted index is valid for that version (in every mode) *)
Record lab_ok (s : mstate) (ix : list (bytes * (Z * bytes))) (dl ml : option Z) : Prop := LabOk {
  lo_eq : dl = ml;
  lo_le : forall u, dl = Some u -> u <= latest_version s;
  lo_valid : forall u, dl = Some u -> u = latest_version s -> idx_valid s ix
}.

(** the unsaved additions / removals are the difference between the working tree and the last
    saved tree *)
Definition unsaved_ok (s : mstate) (ad : list (bytes * (Z * bytes))) (rm : list (bytes * unit))
  : Prop :=
  forall k, walk_get (root s) k =
    match mfind bcmp k ad with
    | Some (_, v) => Some v
    | None =>
        match mfind bcmp k rm with
        | Some _ => None
        | None => walk_get (last_saved s) k
        end
    end.

(** an unsaved addition carries a version stamp that is true of every retained version from the
    stamp up to the version the working tree is based on (stamps older than [version + 1] arise
    from idempotent re-commits, which keep the unsaved changes) *)
Definition adds_stamped (s : mstate) (ad : list (bytes * (Z * bytes))) : Prop :=
  forall k e v, mfind bcmp k ad = Some (e, v) ->
    e <= version s + 1 /\
    forall t tr, lookup t (forest s) = Some tr -> e <= t <= version s -> walk_get tr k = Some v.

Record uns_ok (s : mstate) (skip : bool) (ad : list (bytes * (Z * bytes)))
    (rm : list (bytes * unit)) : Prop := UnsOk {
  uo_off : skip = true -> ad = [] /\ rm = [];
  uo_asorted : msorted bcmp ad;
  uo_rsorted : msorted bcmp rm;
  uo_disj : forall k, mfind bcmp k ad <> None -> mfind bcmp k rm = None;
  uo_unsaved : skip = false -> unsaved_ok s ad rm;
  uo_stamped : adds_stamped s ad
}.

Record fcoh (st : fstate) : Prop := FCoh {
  fc_lab : lab_ok (ms st) (fidx st) (dlabel st) (mlabel st);
  fc_uns : uns_ok (ms st) (skipf st) (adds st) (rems st);
  fc_on : skipf st = false -> mlabel st = Some (latest_version (ms st))
}.

Lemma idx_valid_on st : fcoh st -> skipf st = false -> idx_valid (ms st) (fidx st).
Proof.
  intros [[A B D] _ On] Sk. apply (D (latest_version (ms st))); [|reflexivity].
  rewrite A. exact (On Sk).
Qed.

(** ** The persisted part along changes of the logical state *)
Definition shrinks (s s' : mstate) : Prop :=
  forall t tr, lookup t (forest s') = Some tr -> lookup t (forest s) = Some tr.

Lemma shrinks_refl s : shrinks s s.
Proof. intros t tr L. exact L. Qed.

Lemma lab_ok_none s ix : lab_ok s ix None None.
Proof. constructor; [reflexivity| |]; intros u E; discriminate E. Qed.

(** a new tree object copies the persisted label *)
Lemma lab_ok_relabel s ix dl ml : lab_ok s ix dl ml -> lab_ok s ix dl dl.
Proof. intros [A B D]. constructor; [reflexivity|exact B|exact D]. Qed.

Lemma lab_ok_shrink s s' ix dl ml :
  latest_version s' = latest_version s -> ltree s' = ltree s -> shrinks s s' ->
  lab_ok s ix dl ml -> lab_ok s' ix dl ml.
Proof.
  intros EL ET Sub [A B C]. constructor.
  - exact A.
  - intros u E. rewrite EL. apply B, E.
  - intros u E Eu. rewrite EL in Eu. apply (idx_valid_shrink s s' ix EL ET Sub). exact (C u E Eu).
Qed.

Lemma same_forest s s' :
  forest s' = forest s ->
  latest_version s' = latest_version s /\ ltree s' = ltree s /\ shrinks s s'.
Proof.
  intros E. unfold ltree, latest_version, shrinks. rewrite E. repeat split; auto.
Qed.

Lemma lab_ok_same_forest s s' ix dl ml :
  forest s' = forest s -> lab_ok s ix dl ml -> lab_ok s' ix dl ml.
Proof.
  intros E. destruct (same_forest s s' E) as (A & B & C). apply lab_ok_shrink; assumption.
Qed.

Lemma lab_ok_grow s s' ix dl ml :
  latest_version s < latest_version s' -> lab_ok s ix dl ml -> lab_ok s' ix dl ml.
Proof.
  intros G [A B C]. constructor.
  - exact A.
  - intros u E. specialize (B u E). lia.
  - intros u E Eu. specialize (B u E). lia.
Qed.

Lemma lab_ok_rebuild s :
  state_inv s -> contig s ->
  lab_ok s (fst (rebuild s)) (Some (latest_version s)) (Some (latest_version s)).
Proof.
  intros I C. constructor; [reflexivity| |].
  - intros u E. inversion E. lia.
  - intros _ _ _. apply rebuild_valid; assumption.
Qed.

(** ** The in-memory part along changes of the logical state *)
Lemma uns_ok_nil s skip :
  (skip = false -> forall k, walk_get (root s) k = walk_get (last_saved s) k) ->
  uns_ok s skip [] [].
Proof.
  intros E. constructor.
  - auto.
  - exact I.
  - exact I.
  - intros k _. reflexivity.
  - intros Sk k. cbn [mfind]. apply E, Sk.
  - intros k e v Q. discriminate Q.
Qed.

Lemma uns_ok_off s s' ad rm : uns_ok s true ad rm -> uns_ok s' true ad rm.
Proof.
  intros U. destruct (uo_off _ _ _ _ U eq_refl) as [-> ->]. apply uns_ok_nil. discriminate.
Qed.

Lemma adds_stamped_transfer s s' ad :
  version s' = version s -> shrinks s s' -> adds_stamped s ad -> adds_stamped s' ad.
Proof.
  intros EV Sub F k e v Q. destruct (F k e v Q) as [F1 F2]. rewrite EV. split; [exact F1|].
  intros t tr L R. exact (F2 t tr (Sub _ _ L) R).
Qed.

(** a new addition is stamped [version + 1]: no retained version is that young *)
Lemma adds_stamped_mset s k v ad :
  adds_stamped s ad -> adds_stamped s (mset bcmp k (version s + 1, v) ad).
Proof.
  intros F k' e w. rewrite (mfind_mset bcmp bcmp_ok). destruct (bcmp k' k); [|apply F|apply F].
  intros Q. inversion Q; subst e w. split; [lia|]. intros t tr _ R. lia.
Qed.

Lemma adds_stamped_mdel s k ad :
  msorted bcmp ad -> adds_stamped s ad -> adds_stamped s (mdel bcmp k ad).
Proof.
  intros S F k' e w. rewrite (mfind_mdel bcmp bcmp_ok _ _ _ S).
  destruct (bcmp k' k); [discriminate|apply F|apply F].
Qed.

Lemma uns_ok_transfer s s' skip ad rm :
  version s' = version s -> shrinks s s' ->
  (forall k, walk_get (root s') k = walk_get (root s) k) ->
  (forall k, walk_get (last_saved s') k = walk_get (last_saved s) k) ->
  uns_ok s skip ad rm -> uns_ok s' skip ad rm.
Proof.
  intros EV Sub ER ES [A B C D E F]. constructor; auto.
  - intros Sk k. rewrite ER, ES. apply E, Sk.
  - apply (adds_stamped_transfer s); assumption.
Qed.

Lemma uns_ok_set s s' k v ad rm :
  version s' = version s -> shrinks s s' -> last_saved s' = last_saved s ->
  (forall k', walk_get (root s') k' =
              match bcmp k' k with Eq => Some v | _ => walk_get (root s) k' end) ->
  uns_ok s false ad rm ->
  uns_ok s' false (mset bcmp k (version s + 1, v) ad) (mdel bcmp k rm).
Proof.
  intros EV Sub ES ER [U1 U2 U3 U4 U5 U6]. constructor.
  - discriminate.
  - apply (msorted_mset bcmp bcmp_ok), U2.
  - apply (msorted_mdel bcmp), U3.
  - intros k'. rewrite (mfind_mset bcmp bcmp_ok), (mfind_mdel bcmp bcmp_ok _ _ _ U3).
    destruct (bcmp k' k); auto.
  - intros _ k'. rewrite ER, (mfind_mset bcmp bcmp_ok), (mfind_mdel bcmp bcmp_ok _ _ _ U3), ES.
    destruct (bcmp k' k); try reflexivity; apply (U5 eq_refl k').
  - apply (adds_stamped_transfer s); [exact EV|exact Sub|]. apply adds_stamped_mset, U6.
Qed.

Lemma uns_ok_remove s s' k ad rm :
  version s' = version s -> shrinks s s' -> last_saved s' = last_saved s ->
  (forall k', walk_get (root s') k' =
              match bcmp k' k with Eq => None | _ => walk_get (root s) k' end) ->
  uns_ok s false ad rm ->
  uns_ok s' false (mdel bcmp k ad) (mset bcmp k tt rm).
Proof.
  intros EV Sub ES ER [U1 U2 U3 U4 U5 U6]. constructor.
  - discriminate.
  - apply (msorted_mdel bcmp), U2.
  - apply (msorted_mset bcmp bcmp_ok), U3.
  - intros k'. rewrite (mfind_mset bcmp bcmp_ok), (mfind_mdel bcmp bcmp_ok _ _ _ U2).
    destruct (bcmp k' k); auto; intros C; exfalso; apply C; reflexivity.
  - intros _ k'. rewrite ER, (mfind_mset bcmp bcmp_ok), (mfind_mdel bcmp bcmp_ok _ _ _ U2), ES.
    destruct (bcmp k' k); try reflexivity; apply (U5 eq_refl k').
  - apply (adds_stamped_transfer s); [exact EV|exact Sub|]. apply adds_stamped_mdel; assumption.
Qed.

(** ** Coherence when only the logical state and the unsaved part move *)
Lemma fcoh_with st s' skip ad rm :
  skipf st = skip ->
  lab_ok s' (fidx st) (dlabel st) (mlabel st) -> uns_ok s' skip ad rm ->
  (skip = false -> latest_version s' = latest_version (ms st)) ->
  fcoh st -> fcoh (FS s' (fidx st) (dlabel st) (mlabel st) skip ad rm).
Proof.
  intros <- LO UO EL Co. constructor; cbn [ms fidx dlabel mlabel skipf adds rems]; [exact LO|exact UO|].
  intros Sk. rewrite (EL Sk). apply (fc_on st Co Sk).
Qed.

Lemma fcoh_same_forest st s' skip ad rm :
  skipf st = skip -> forest s' = forest (ms st) -> uns_ok s' skip ad rm -> fcoh st ->
  fcoh (FS s' (fidx st) (dlabel st) (mlabel st) skip ad rm).
Proof.
  intros Sk EF UO Co. apply fcoh_with; [exact Sk| |exact UO| |exact Co].
  - apply (lab_ok_same_forest _ _ _ _ _ EF), Co.
  - intros _. apply (same_forest _ _ EF).
Qed.

Lemma fcoh_off st s' :
  skipf st = true -> lab_ok s' (fidx st) (dlabel st) (mlabel st) -> fcoh st -> fcoh (with_ms st s').
Proof.
  intros Sk LO Co. apply fcoh_with; [reflexivity|exact LO| |congruence|exact Co].
  rewrite Sk. apply (uns_ok_off (ms st)). rewrite <- Sk. apply Co.
Qed.

Lemma fcoh_transfer st s' :
  latest_version s' = latest_version (ms st) -> ltree s' = ltree (ms st) -> shrinks (ms st) s' ->
  version s' = version (ms st) ->
  (forall k, walk_get (root s') k = walk_get (root (ms st)) k) ->
  (forall k, walk_get (last_saved s') k = walk_get (last_saved (ms st)) k) ->
  fcoh st -> fcoh (with_ms st s').
Proof.
  intros EL ET Sub EV ER ES Co. apply fcoh_with; [reflexivity| | |intros _; exact EL|exact Co].
  - apply (lab_ok_shrink (ms st)); [exact EL|exact ET|exact Sub|apply Co].
  - apply (uns_ok_transfer (ms st)); [exact EV|exact Sub|exact ER|exact ES|apply Co].
Qed.

(** ** The upgrade step *)
Lemma enable_ms st : ms (enable_if_needed st) = ms st.
Proof. unfold enable_if_needed. destruct (upgradeable st); reflexivity. Qed.

Lemma enable_skipf st : skipf (enable_if_needed st) = skipf st.
Proof. unfold enable_if_needed. destruct (upgradeable st); reflexivity. Qed.

Lemma enable_unsaved st :
  adds (enable_if_needed st) = adds st /\ rems (enable_if_needed st) = rems st.
Proof. unfold enable_if_needed. destruct (upgradeable st); split; reflexivity. Qed.

Theorem fcoh_enable st :
  state_inv (ms st) -> contig (ms st) ->
  lab_ok (ms st) (fidx st) (dlabel st) (mlabel st) ->
  uns_ok (ms st) (skipf st) (adds st) (rems st) ->
  fcoh (enable_if_needed st).
Proof.
  intros I C LO UO. unfold enable_if_needed. destruct (upgradeable st) eqn:U.
  - pose proof (lab_ok_rebuild (ms st) I C) as LR. rewrite rebuild_eq in *. cbn [fst] in LR.
    constructor; cbn [ms fidx dlabel mlabel skipf adds rems]; auto.
  - constructor; auto. intros Sk. unfold upgradeable in U. rewrite Sk in U. cbn [negb andb] in U.
    destruct (mlabel st) as [u|]; [|discriminate U].
    apply Bool.negb_false_iff, Z.eqb_eq in U. rewrite U. reflexivity.
Qed.

Lemma not_upgradeable st :
  (skipf st = false -> mlabel st = Some (latest_version (ms st))) -> upgradeable st = false.
Proof.
  intros On. unfold upgradeable. destruct (skipf st); [reflexivity|].
  rewrite (On eq_refl), Z.eqb_refl. reflexivity.
Qed.

Lemma enable_noop st :
  (skipf st = false -> mlabel st = Some (latest_version (ms st))) -> enable_if_needed st = st.
Proof. intros On. unfold enable_if_needed. rewrite (not_upgradeable st On). reflexivity. Qed.

Lemma with_ms_same st : with_ms st (ms st) = st.
Proof. destruct st; reflexivity. Qed.

Lemma fcoh_enable_noop st : fcoh st -> fcoh (enable_if_needed st).
Proof. intros Co. rewrite (enable_noop st (fc_on st Co)). exact Co. Qed.

(** ** Dropping the unsaved changes *)
Lemma clear_unsaved_with_ms st s' :
  clear_unsaved (with_ms st s') =
    if skipf st then with_ms st s' else FS s' (fidx st) (dlabel st) (mlabel st) (skipf st) [] [].
Proof. reflexivity. Qed.

Lemma clear_ms st : ms (clear_unsaved st) = ms st.
Proof. unfold clear_unsaved. destruct (skipf st); reflexivity. Qed.

Lemma fcoh_clear st s' :
  forest s' = forest (ms st) -> (forall k, walk_get (root s') k = walk_get (last_saved s') k) ->
  fcoh st -> fcoh (clear_unsaved (with_ms st s')).
Proof.
  intros EF W Co. rewrite clear_unsaved_with_ms. destruct (skipf st) eqn:Sk.
  - apply fcoh_off; [exact Sk|apply (lab_ok_same_forest _ _ _ _ _ EF), Co|exact Co].
  - apply (fcoh_same_forest st s' false [] [] Sk EF); [|exact Co]. apply uns_ok_nil. intros _. exact W.
Qed.
