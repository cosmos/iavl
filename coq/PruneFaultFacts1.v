(** PruneFaultFacts1: the storage calls of PruneFault.v one by one, one step of its double traversal
    by the decision [ldec] that it shares with PruneAlgo's, and [fault_free_same]: with no failing
    call the run is the run of PruneAlgo.v. *)
From Coq Require Import Lia.
From IAVL Require Import Bytes Varint Tree MTree Store PruneAlgo PruneAlgoFacts4 PruneAlgoFacts5 PruneFault.
Local Open Scope Z_scope.

(** the failing call has not been made yet *)
Definition live (s : fdb) : Prop :=
  match ffail s with Some k => (fcalls s <= k)%nat | None => True end.

(** a step of the storage: the counter moves on, the failing position stays; [adv]: and the
    [pdb] is not touched *)
Definition wadv (s s' : fdb) : Prop := ffail s' = ffail s /\ (fcalls s <= fcalls s')%nat.
Definition adv (s s' : fdb) : Prop := fp s' = fp s /\ wadv s s'.

Lemma wadv_refl s : wadv s s.
Proof. unfold wadv. auto. Qed.

Lemma wadv_trans a b c : wadv a b -> wadv b c -> wadv a c.
Proof. unfold wadv. intros (A1 & A2) (B1 & B2). split; [congruence|lia]. Qed.

Lemma adv_refl s : adv s s.
Proof. split; [reflexivity|apply wadv_refl]. Qed.

Lemma adv_trans a b c : adv a b -> adv b c -> adv a c.
Proof. intros [A1 A2] [B1 B2]. split; [congruence|exact (wadv_trans _ _ _ A2 B2)]. Qed.

Lemma adv_wadv s s' : adv s s' -> wadv s s'.
Proof. intros [_ A]. exact A. Qed.

Lemma dead_wadv s s' : ~ live s -> wadv s s' -> ~ live s'.
Proof. unfold live. intros D (E & L). rewrite E. destruct (ffail s); [lia|tauto]. Qed.

Lemma tick_spec s bad s1 :
  tick s = (bad, s1) ->
  adv s s1 /\ (live s -> (bad = false /\ live s1) \/ (bad = true /\ ~ live s1)).
Proof.
  unfold tick. intros Q. inversion Q; subst. clear Q. split; [unfold adv, wadv; cbn; auto|].
  unfold live. cbn [ffail fcalls]. destruct (ffail s) as [k|]; [|auto].
  intros L. destruct (Nat.eqb (fcalls s) k) eqn:E.
  - apply Nat.eqb_eq in E. right. split; [reflexivity|lia].
  - apply Nat.eqb_neq in E. left. split; [reflexivity|lia].
Qed.

Lemma fget_spec s k x s1 :
  fget s k = (x, s1) ->
  adv s s1 /\ (live s -> (live s1 /\ x = Some (mfind kcmp k (disk (fp s)))) \/ (~ live s1 /\ x = None)).
Proof.
  unfold fget. destruct (tick s) as [bad s'] eqn:T. intros Q. inversion Q; subst. clear Q.
  destruct (tick_spec s bad s1 T) as (A & B). split; [exact A|]. intros L.
  destruct (B L) as [[-> L1]|[-> D1]]; auto.
Qed.

(** ** Reads *)
Lemma get_node_f_spec s k x s' :
  get_node_f s k = (x, s') -> live s ->
  adv s s' /\ ((live s' /\ x = get_node (disk (fp s)) k) \/ (~ live s' /\ x = None)).
Proof.
  unfold get_node_f, get_node. intros Q L.
  destruct (fget s k) as [y s1] eqn:F1. destruct (fget_spec s k y s1 F1) as (A1 & B1).
  destruct (B1 L) as [[L1 ->]|[D1 ->]].
  2:{ inversion Q; subst. auto. }
  destruct (mfind kcmp k (disk (fp s))) as [[n|k0|]|] eqn:M.
  1-3: inversion Q; subst; auto.
  destruct (snd k =? 1); [|inversion Q; subst; auto].
  destruct (fget s1 (fst k, 0)) as [z s2] eqn:F2. destruct (fget_spec s1 _ z s2 F2) as (A2 & B2).
  pose proof (adv_trans _ _ _ A1 A2) as A. destruct A1 as (E1 & _).
  destruct (B2 L1) as [[L2 ->]|[D2 ->]]; rewrite E1 in *.
  - destruct (mfind kcmp (fst k, 0) (disk (fp s))) as [[n|k0|]|]; inversion Q; subst; auto.
  - inversion Q; subst. auto.
Qed.

Lemma get_root_f_spec s v x s' :
  get_root_f s v = (x, s') -> live s ->
  adv s s' /\ ((live s' /\ x = get_root (disk (fp s)) v) \/ (~ live s' /\ x = PErr)).
Proof.
  unfold get_root_f, get_root. intros Q L.
  destruct (fget s (v, 1)) as [y s1] eqn:F1. destruct (fget_spec s _ y s1 F1) as (A1 & B1).
  destruct (B1 L) as [[L1 ->]|[D1 ->]].
  2:{ inversion Q; subst. auto. }
  pose proof A1 as (E1 & _).
  destruct (mfind kcmp (v, 1) (disk (fp s))) as [[n|k|]|] eqn:M.
  - inversion Q; subst. auto.
  - destruct (fget s1 k) as [z s2] eqn:F2. destruct (fget_spec s1 _ z s2 F2) as (A2 & B2).
    pose proof (adv_trans _ _ _ A1 A2) as A12. pose proof A2 as (E2 & _).
    destruct (B2 L1) as [[L2 ->]|[D2 ->]]; rewrite E1 in *.
    2:{ inversion Q; subst. auto. }
    destruct (mfind kcmp k (disk (fp s))) as [e|] eqn:M2.
    + inversion Q; subst. auto.
    + destruct (fget s2 (fst k, 0)) as [w s3] eqn:F3. destruct (fget_spec s2 _ w s3 F3) as (A3 & B3).
      pose proof (adv_trans _ _ _ A12 A3) as A. rewrite E2 in B3. try rewrite E1 in B3.
      destruct (B3 L2) as [[L3 ->]|[D3 ->]].
      * destruct (mfind kcmp (fst k, 0) (disk (fp s))); inversion Q; subst; auto.
      * inversion Q; subst. auto.
  - inversion Q; subst. auto.
  - destruct (tick s1) as [bad s2] eqn:T. destruct (tick_spec s1 bad s2 T) as (A2 & B2).
    pose proof (adv_trans _ _ _ A1 A2) as A. inversion Q; subst.
    destruct (B2 L1) as [[-> L2]|[-> D2]]; auto.
Qed.

Lemma rkc_get_f_spec c s v x c' s' :
  rkc_get_f c s v = (x, c', s') -> live s ->
  adv s s' /\ ((live s' /\ (x, c') = rkc_get c (disk (fp s)) v) \/ (~ live s' /\ x = PErr)).
Proof.
  unfold rkc_get_f, rkc_get. intros Q L.
  destruct (rv0 c =? v). { inversion Q; subst. split; [apply adv_refl|auto]. }
  destruct (rv1 c =? v). { inversion Q; subst. split; [apply adv_refl|auto]. }
  destruct (get_root_f s v) as [y s1] eqn:G. destruct (get_root_f_spec s v y s1 G L) as (A & B).
  destruct B as [[L1 ->]|[D1 ->]].
  - destruct (get_root (disk (fp s)) v); inversion Q; subst; auto.
  - inversion Q; subst. auto.
Qed.

Lemma nit_new_f_spec s rk x s' :
  nit_new_f s rk = (x, s') -> live s ->
  adv s s' /\ ((live s' /\ x = nit_new (disk (fp s)) rk) \/ (~ live s' /\ x = None)).
Proof.
  unfold nit_new_f, nit_new. intros Q L. destruct rk as [k|].
  2:{ inversion Q; subst. split; [apply adv_refl|auto]. }
  destruct (get_node_f s k) as [y s1] eqn:G. destruct (get_node_f_spec s k y s1 G L) as (A & B).
  destruct B as [[L1 ->]|[D1 ->]].
  - destruct (get_node (disk (fp s)) k); inversion Q; subst; auto.
  - inversion Q; subst. auto.
Qed.

Lemma nit_next_f_skip s it : nit_next_f s it true = (nit_next (disk (fp s)) it true, s).
Proof.
  unfold nit_next_f, nit_next. destruct (negb (nit_valid it)); [reflexivity|].
  destruct (nstack it) as [|[k n] rest]; reflexivity.
Qed.

Lemma nit_next_f_spec s it skip it' s' :
  nit_next_f s it skip = (it', s') -> live s ->
  adv s s' /\ ((live s' /\ it' = nit_next (disk (fp s)) it skip) \/ (~ live s' /\ nerr it' = true)).
Proof.
  unfold nit_next_f, nit_next. intros Q L.
  destruct (negb (nit_valid it)). { inversion Q; subst. split; [apply adv_refl|auto]. }
  destruct (nstack it) as [|[k n] rest]. { inversion Q; subst. split; [apply adv_refl|auto]. }
  destruct skip. { inversion Q; subst. split; [apply adv_refl|auto]. }
  destruct n as [key val|key h sz hash lk rk]. { inversion Q; subst. split; [apply adv_refl|auto]. }
  destruct (get_node_f s rk) as [y s1] eqn:G1. destruct (get_node_f_spec s rk y s1 G1 L) as (A1 & B1).
  destruct B1 as [[L1 ->]|[D1 ->]].
  2:{ inversion Q; subst. auto. }
  destruct (get_node (disk (fp s)) rk) as [rn|]. 2:{ inversion Q; subst. auto. }
  destruct (get_node_f s1 lk) as [z s2] eqn:G2. destruct (get_node_f_spec s1 lk z s2 G2 L1) as (A2 & B2).
  pose proof (adv_trans _ _ _ A1 A2) as A. destruct A1 as (E1 & _). rewrite E1 in B2.
  destruct B2 as [[L2 ->]|[D2 ->]].
  - destruct (get_node (disk (fp s)) lk); inversion Q; subst; auto.
  - inversion Q; subst. auto.
Qed.

(** ** Writes *)
Lemma pwrite_f_spec s o ok s' :
  pwrite_f s o = (ok, s') -> live s ->
  wadv s s' /\
  ((ok = true /\ live s' /\ fp s' = pwrite (fp s) o) \/
   (ok = false /\ ~ live s' /\ (fp s' = fp s \/ fp s' = pflushed (fp s)))).
Proof.
  unfold pwrite_f. cbv zeta. intros Q L.
  destruct (flushes_now (fp s) o).
  - destruct (tick s) as [bad s1] eqn:T1. destruct (tick_spec s bad s1 T1) as (A1 & B1).
    destruct (B1 L) as [[-> L1]|[-> D1]].
    2:{ inversion Q; subst. split; [apply adv_wadv, A1|]. right. destruct A1 as (E & _). auto. }
    destruct (tick s1) as [bad2 s2] eqn:T2. destruct (tick_spec s1 bad2 s2 T2) as (A2 & B2).
    pose proof (adv_trans _ _ _ A1 A2) as (_ & Ef & Ec).
    destruct (B2 L1) as [[-> L2]|[-> D2]]; inversion Q; subst; (split; [split; cbn; assumption|]).
    + left. split; [reflexivity|]. split; [exact L2|reflexivity].
    + right. split; [reflexivity|]. split; [exact D2|]. right. reflexivity.
  - destruct (tick s) as [bad s1] eqn:T1. destruct (tick_spec s bad s1 T1) as (A1 & B1).
    pose proof A1 as (E1 & Ef & Ec).
    destruct (B1 L) as [[-> L1]|[-> D1]]; inversion Q; subst; (split; [split; cbn; assumption|]).
    + left. split; [reflexivity|]. split; [exact L1|reflexivity].
    + right. split; [reflexivity|]. split; [exact D1|]. left. exact E1.
Qed.

(** ** With no failing call the run is PruneAlgo's *)
Definition nofail (s : fdb) : Prop := ffail s = None.

Lemma nofail_live s : nofail s -> live s.
Proof. unfold live. intros ->. exact I. Qed.

Lemma nofail_wadv s s' : nofail s -> wadv s s' -> nofail s'.
Proof. unfold nofail. intros N (E & _). congruence. Qed.

(** what a specification of the form "no call failed and [P], or one failed and [Q]" says when
    none can fail *)
Lemma spec_free s s' (P Q : Prop) :
  nofail s -> wadv s s' -> (live s' /\ P) \/ (~ live s' /\ Q) -> nofail s' /\ P.
Proof.
  intros N A B. pose proof (nofail_wadv _ _ N A) as N'. split; [exact N'|].
  destruct B as [[_ HP]|[D _]]; [exact HP|]. exfalso. exact (D (nofail_live s' N')).
Qed.

Lemma read_free s s' (P Q : Prop) :
  nofail s -> adv s s' /\ ((live s' /\ P) \/ (~ live s' /\ Q)) -> nofail s' /\ fp s' = fp s /\ P.
Proof. intros N ([E A] & B). destruct (spec_free s s' _ _ N A B). auto. Qed.

Lemma get_node_f_free s k x s' :
  get_node_f s k = (x, s') -> nofail s -> nofail s' /\ fp s' = fp s /\ x = get_node (disk (fp s)) k.
Proof.
  intros Q N. exact (read_free s s' _ _ N (get_node_f_spec s k x s' Q (nofail_live s N))).
Qed.

Lemma rkc_get_f_free c s v x c' s' :
  rkc_get_f c s v = (x, c', s') -> nofail s ->
  nofail s' /\ fp s' = fp s /\ (x, c') = rkc_get c (disk (fp s)) v.
Proof.
  intros Q N. exact (read_free s s' _ _ N (rkc_get_f_spec c s v x c' s' Q (nofail_live s N))).
Qed.

Lemma nit_new_f_free s rk x s' :
  nit_new_f s rk = (x, s') -> nofail s -> nofail s' /\ fp s' = fp s /\ x = nit_new (disk (fp s)) rk.
Proof.
  intros Q N. exact (read_free s s' _ _ N (nit_new_f_spec s rk x s' Q (nofail_live s N))).
Qed.

Lemma nit_next_f_free s it skip it' s' :
  nit_next_f s it skip = (it', s') -> nofail s ->
  nofail s' /\ fp s' = fp s /\ it' = nit_next (disk (fp s)) it skip.
Proof.
  intros Q N. exact (read_free s s' _ _ N (nit_next_f_spec s it skip it' s' Q (nofail_live s N))).
Qed.

Lemma pwrite_f_free s o ok s' :
  pwrite_f s o = (ok, s') -> nofail s -> nofail s' /\ ok = true /\ fp s' = pwrite (fp s) o.
Proof.
  intros Q N. destruct (pwrite_f_spec s o ok s' Q (nofail_live s N)) as (A & B).
  assert (B' : (live s' /\ ok = true /\ fp s' = pwrite (fp s) o) \/ (~ live s' /\ ok = false)) by tauto.
  exact (spec_free s s' _ _ N A B').
Qed.

Lemma on_orphan_f_free v s k ok s' :
  on_orphan_f v s k = (ok, s') -> nofail s -> nofail s' /\ ok = true /\ fp s' = on_orphan v (fp s) k.
Proof.
  unfold on_orphan_f, on_orphan. intros Q N. destruct ((snd k =? 1) && (fst k <? v)).
  - destruct (pwrite_f s (del_node k)) as [ok1 s1] eqn:W1.
    destruct (pwrite_f_free s _ ok1 s1 W1 N) as (N1 & -> & E1).
    destruct (pwrite_f_free s1 _ ok s' Q N1) as (N2 & -> & E2). rewrite E2, E1. auto.
  - exact (pwrite_f_free s _ ok s' Q N).
Qed.

Definition rel (r : pres pdb) (st : pres unit) (s' : fdb) : Prop :=
  match r, st with
  | POk p', POk _ => fp s' = p'
  | PNoVersion, PNoVersion | PErr, PErr | PFuel, PFuel => True
  | _, _ => False
  end.

(** ** One step of the double traversal with a failing call *)
Lemma orphans_loop_g_S H fixed fuel v s cur prev org :
  orphans_loop_g H fixed (S fuel) v s cur prev org =
  match ldec H fixed v cur prev org with
  | LDone ok => (if ok then POk tt else PErr, s)
  | LCur skip o => let (cur', s1) := nit_next_f s cur skip in orphans_loop_g H fixed fuel v s1 cur' prev o
  | LShared => let (prev', s1) := nit_next_f s prev true in orphans_loop_g H fixed fuel v s1 cur prev' None
  | LOrphan pk =>
      match on_orphan_f v s pk with
      | (true, s1) => let (prev', s2) := nit_next_f s1 prev false in
                      orphans_loop_g H fixed fuel v s2 cur prev' org
      | (false, s1) => (PErr, s1)
      end
  end.
Proof.
  cbn [orphans_loop_g]. unfold ldec, lprev.
  destruct (negb (nit_valid prev)). { destruct (nerr cur), (nerr prev); reflexivity. }
  destruct (fixed && nerr cur); [reflexivity|].
  destruct org as [[ok on]|], (nit_valid cur), (nstack cur) as [|[k n] ?], (nstack prev) as [|[pk pn] ?];
    try reflexivity;
    try (destruct (fst k <=? v); reflexivity);
    try (destruct (beq (fetched_hash H pk pn) (fetched_hash H ok on)); reflexivity).
Qed.

Section Free.
  Variable H : bytes -> bytes.

  Lemma loop_free : forall fuel v s cur prev org st s',
    orphans_loop_g H true fuel v s cur prev org = (st, s') -> nofail s ->
    nofail s' /\ rel (orphans_loop H fuel v (fp s) cur prev org) st s'.
  Proof.
    induction fuel as [|fuel IH]; intros v s cur prev org st s' Q N.
    { inversion Q; subst. split; [exact N|exact I]. }
    rewrite orphans_loop_g_S in Q. rewrite orphans_loop_S.
    destruct (ldec H true v cur prev org) as [ok|skip o| |pk].
    - inversion Q; subst. split; [exact N|]. destruct ok; [reflexivity|exact I].
    - destruct (nit_next_f s cur skip) as [cur' s1] eqn:X.
      destruct (nit_next_f_free s cur skip cur' s1 X N) as (N1 & E1 & ->).
      destruct (IH _ _ _ _ _ _ _ Q N1) as (N2 & R). rewrite E1 in R. auto.
    - rewrite nit_next_f_skip in Q. exact (IH _ _ _ _ _ _ _ Q N).
    - destruct (on_orphan_f v s pk) as [ok s1] eqn:O.
      destruct (on_orphan_f_free v s pk ok s1 O N) as (N1 & -> & E1).
      destruct (nit_next_f s1 prev false) as [prev' s2] eqn:X.
      destruct (nit_next_f_free s1 prev false prev' s2 X N1) as (N2 & E2 & ->).
      destruct (IH _ _ _ _ _ _ _ Q N2) as (N3 & R). rewrite E2, E1 in R. auto.
  Qed.

  Lemma loop_g_not_nov fixed : forall fuel v s cur prev org s',
    orphans_loop_g H fixed fuel v s cur prev org <> (PNoVersion, s').
  Proof.
    induction fuel as [|fuel IH]; intros v s cur prev org s'; [discriminate|].
    rewrite orphans_loop_g_S. destruct (ldec H fixed v cur prev org) as [[|]|skip o| |pk]; try discriminate.
    - destruct (nit_next_f s cur skip). apply IH.
    - destruct (nit_next_f s prev true). apply IH.
    - destruct (on_orphan_f v s pk) as [[|] s1]; [|discriminate]. destruct (nit_next_f s1 prev false). apply IH.
  Qed.

  Lemma traverse_free fuel v s c st c' s' :
    traverse_f H true fuel v s c = (st, c', s') -> nofail s ->
    nofail s' /\ rel (fst (traverse_orphans H fuel v (fp s) c)) st s' /\
    snd (traverse_orphans H fuel v (fp s) c) = c' /\ (st = PNoVersion -> fp s' = fp s).
  Proof.
    unfold traverse_f, traverse_orphans. intros Q N.
    destruct (rkc_get_f c s (v + 1)) as [[x c1] s1] eqn:R1.
    destruct (rkc_get_f_free c s (v + 1) x c1 s1 R1 N) as (N1 & E1 & <-).
    destruct x as [curk| | |]; try (inversion Q; subst; cbn; auto; fail).
    destruct (nit_new_f s1 curk) as [y s2] eqn:X1.
    destruct (nit_new_f_free s1 curk y s2 X1 N1) as (N2 & E2 & ->). rewrite E1 in Q.
    destruct (nit_new (disk (fp s)) curk) as [cur|].
    2:{ inversion Q; subst. cbn. repeat split; auto. discriminate. }
    destruct (rkc_get_f c1 s2 v) as [[x2 c2] s3] eqn:R2.
    destruct (rkc_get_f_free c1 s2 v x2 c2 s3 R2 N2) as (N3 & E3 & R2').
    rewrite E2, E1 in R2'. rewrite <- R2'.
    assert (E3' : fp s3 = fp s) by congruence.
    destruct x2 as [prevk| | |]; try (inversion Q; subst; cbn; auto; fail).
    destruct (nit_new_f s3 prevk) as [z s4] eqn:X2.
    destruct (nit_new_f_free s3 prevk z s4 X2 N3) as (N4 & E4 & ->). rewrite E3' in Q.
    destruct (nit_new (disk (fp s)) prevk) as [prev|].
    2:{ inversion Q; subst. cbn. repeat split; auto. discriminate. }
    destruct (orphans_loop_g H true fuel v s4 cur prev None) as [r s5] eqn:L.
    inversion Q; subst. destruct (loop_free fuel v s4 cur prev None st s' L N4) as (N5 & R).
    assert (E4' : fp s4 = fp s) by congruence. rewrite E4' in R. cbn [fst snd].
    repeat split; auto. intros ->. exfalso. exact (loop_g_not_nov true _ _ _ _ _ _ _ L).
  Qed.

  Definition rel2 (r : pres pdb * rkc) (st : pres unit) (c' : rkc) (s' : fdb) : Prop :=
    rel (fst r) st s' /\ (match st with POk _ => snd r = c' | _ => True end).

  Lemma tail_free v s c2 st c' s' :
    tail_f v s c2 = (st, c', s') -> nofail s -> nofail s' /\ rel2 (dv_tail v (fp s) c2) st c' s'.
  Proof.
    unfold tail_f, dv_tail, rel2. intros Q N.
    destruct (rkc_get_f c2 s (v + 1)) as [[x c3] s1] eqn:R1.
    destruct (rkc_get_f_free c2 s (v + 1) x c3 s1 R1 N) as (N1 & E1 & <-).
    assert (Plain : forall st c' s', (POk tt, c3, s1) = (st, c', s') ->
              nofail s' /\ rel (fst (POk (fp s), c3)) st s' /\
              match st with POk _ => snd (POk (fp s), c3) = c' | _ => True end).
    { intros ? ? ? Q'. inversion Q'; subst. cbn. auto. }
    destruct x as [k| | |]; cbv beta iota zeta in Q |- *;
      try (inversion Q; subst; cbn; auto; fail); try exact (Plain _ _ _ Q).
    destruct k as [nk|]; [|exact (Plain _ _ _ Q)].
    destruct (keqb nk (v, 1)); [|exact (Plain _ _ _ Q)].
    destruct (get_node_f s1 nk) as [y s2] eqn:G.
    destruct (get_node_f_free s1 nk y s2 G N1) as (N2 & E2 & ->). rewrite E1 in Q.
    destruct (get_node (disk (fp s)) nk) as [root|]. 2:{ inversion Q; subst. cbn. auto. }
    destruct (pwrite_f s2 (set_node ((v, 0), ENode root))) as [ok1 s3] eqn:W1.
    destruct (pwrite_f_free s2 _ ok1 s3 W1 N2) as (N3 & -> & E3).
    destruct (pwrite_f s3 (del_node (v, 1))) as [ok2 s4] eqn:W2.
    destruct (pwrite_f_free s3 _ ok2 s4 W2 N3) as (N4 & -> & E4).
    inversion Q; subst. cbn. split; [exact N4|]. split; [|reflexivity]. congruence.
  Qed.

  Lemma p2_free v rootk s ok s' :
    p2_f v rootk s = (ok, s') -> nofail s -> nofail s' /\ ok = true /\ fp s' = dv_p2 v rootk (fp s).
  Proof.
    unfold p2_f, dv_p2. intros Q N. destruct rootk as [k|].
    - destruct (keqb k (v, 1)); [inversion Q; subst; auto|exact (pwrite_f_free s _ ok s' Q N)].
    - exact (pwrite_f_free s _ ok s' Q N).
  Qed.

  Lemma step1_free fuel v s c1 rootk st c' s' :
    step1_f H true fuel v s c1 rootk = (st, c', s') -> nofail s ->
    nofail s' /\ rel2 (dv_step1 H fuel v (fp s) c1 rootk) st c' s'.
  Proof.
    unfold step1_f, dv_step1, rel2. intros Q N. destruct rootk as [k|].
    2:{ inversion Q; subst. cbn. auto. }
    destruct (traverse_f H true fuel v s c1) as [[x c2] s2] eqn:T.
    destruct (traverse_free fuel v s c1 x c2 s2 T N) as (N2 & R & Ec & Nov).
    destruct (traverse_orphans H fuel v (fp s) c1) as [r cc]. cbn [fst snd] in *. subst cc.
    destruct r as [p'| | |], x as [[]| | |]; cbn [rel] in R; try contradiction;
      inversion Q; subst; cbn; auto.
  Qed.

  Lemma delete_version_free fuel v s c st c' s' :
    delete_version_f H true fuel v s c = (st, c', s') -> nofail s ->
    nofail s' /\ rel2 (delete_version H fuel v (fp s) c) st c' s'.
  Proof.
    rewrite dv_eq. unfold delete_version_f. intros Q N.
    destruct (rkc_get_f c s v) as [[x c1] s1] eqn:R1.
    destruct (rkc_get_f_free c s v x c1 s1 R1 N) as (N1 & E1 & <-).
    assert (Body : forall rootk st c' s',
      match step1_f H true fuel v s1 c1 rootk with
      | (POk _, c2, s2) =>
          match p2_f v rootk s2 with
          | (true, s3) => tail_f v s3 c2
          | (false, s3) => (PErr, c2, s3)
          end
      | (e, c2, s2) => (e, c2, s2)
      end = (st, c', s') ->
      nofail s' /\
      rel2 (match dv_step1 H fuel v (fp s) c1 rootk with
            | (POk p1, c2) => dv_tail v (dv_p2 v rootk p1) c2
            | (e, c2) => (e, c2)
            end) st c' s').
    { clear Q st c' s'. intros rootk st c' s' Q.
      destruct (step1_f H true fuel v s1 c1 rootk) as [[y c2] s2] eqn:S1.
      destruct (step1_free fuel v s1 c1 rootk y c2 s2 S1 N1) as (N2 & R & Ec). rewrite E1 in R, Ec.
      destruct (dv_step1 H fuel v (fp s) c1 rootk) as [r cc]. cbn [fst snd] in *.
      destruct r as [p1| | |], y as [[]| | |]; cbn [rel] in R; try contradiction;
        try (inversion Q; subst; unfold rel2; cbn; auto; fail).
      subst cc. destruct (p2_f v rootk s2) as [ok s3] eqn:P2.
      destruct (p2_free v rootk s2 ok s3 P2 N2) as (N3 & -> & E3).
      destruct (tail_free v s3 c2 st c' s' Q N3) as (N4 & R4). split; [exact N4|].
      rewrite E3, R in R4. exact R4. }
    destruct x as [rootk| | |]; cbv beta iota zeta in Q |- *.
    - exact (Body rootk _ _ _ Q).
    - exact (Body None _ _ _ Q).
    - inversion Q; subst. unfold rel2. cbn. auto.
    - inversion Q; subst. unfold rel2. cbn. auto.
  Qed.

  Lemma delete_range_free fuel vs : forall s c st s',
    delete_range_f H true fuel vs s c = (st, s') -> nofail s ->
    nofail s' /\ rel (delete_range H fuel vs (fp s) c) st s'.
  Proof.
    induction vs as [|v rest IH]; intros s c st s' Q N; cbn [delete_range_f delete_range] in *.
    { inversion Q; subst. split; [exact N|reflexivity]. }
    destruct (delete_version_f H true fuel v s c) as [[x c1] s1] eqn:D.
    destruct (delete_version_free fuel v s c x c1 s1 D N) as (N1 & R & Ec).
    destruct (delete_version H fuel v (fp s) c) as [r cc]. cbn [fst snd] in *.
    destruct r as [p1| | |], x as [[]| | |]; cbn [rel] in R; try contradiction;
      try (inversion Q; subst; cbn; auto; fail).
  Qed.

  Definition pf_disks (r : pfres) : pres (list store) :=
    match r with
    | FOk p => POk (dhist p)
    | FNoVersion _ => PNoVersion
    | FErr _ => PErr
    | FFuel _ => PFuel
    end.

  Definition pf_result (eff : bool) (r : pfres) : pres (store * list wop * list nat) :=
    match r with
    | FOk p => POk (disk p, (if eff then elog p else wlog p), flushes p)
    | FNoVersion _ => PNoVersion
    | FErr _ => PErr
    | FFuel _ => PFuel
    end.

  Lemma prune_fault_free eff st schedule first latest to :
    latest <=? to = false ->
    match delete_range H (prune_fuel st) (versions_from_to first to)
            (Pdb st [] schedule [] [] eff [] [st]) rkc_new with
    | POk p => prune_fault H true eff st schedule first latest to None = FOk (pflush p)
    | PNoVersion => exists p, prune_fault H true eff st schedule first latest to None = FNoVersion p
    | PErr => exists p, prune_fault H true eff st schedule first latest to None = FErr p
    | PFuel => exists p, prune_fault H true eff st schedule first latest to None = FFuel p
    end.
  Proof.
    intros Lt. unfold prune_fault. rewrite Lt. cbv zeta.
    destruct (delete_range_f H true (prune_fuel st) (versions_from_to first to)
                (Fdb (Pdb st [] schedule [] [] eff [] [st]) 0 None) rkc_new) as [x s'] eqn:D.
    destruct (delete_range_free _ _ _ _ _ _ D eq_refl) as (N & R). cbn [fp] in R.
    destruct (delete_range H (prune_fuel st) (versions_from_to first to)
                (Pdb st [] schedule [] [] eff [] [st]) rkc_new) as [p| | |], x as [[]| | |];
      cbn [rel] in R; try contradiction; eauto.
    unfold tick. unfold nofail in N. rewrite N. cbn [fp]. rewrite R. reflexivity.
  Qed.

  Lemma fault_free_view {A} (g : pdb -> A) eff st schedule first latest to :
    match prune_fault H true eff st schedule first latest to None with
    | FOk p => POk (g p)
    | FNoVersion _ => PNoVersion
    | FErr _ => PErr
    | FFuel _ => PFuel
    end =
    if latest <=? to then PErr
    else match delete_range H (prune_fuel st) (versions_from_to first to)
                 (Pdb st [] schedule [] [] eff [] [st]) rkc_new with
         | POk p => POk (g (pflush p))
         | PNoVersion => PNoVersion
         | PErr => PErr
         | PFuel => PFuel
         end.
  Proof.
    destruct (latest <=? to) eqn:Lt. { unfold prune_fault. rewrite Lt. reflexivity. }
    pose proof (prune_fault_free eff st schedule first latest to Lt) as P.
    destruct (delete_range H (prune_fuel st) (versions_from_to first to)
                (Pdb st [] schedule [] [] eff [] [st]) rkc_new) as [p| | |];
      [rewrite P|destruct P as (p & ->)..]; reflexivity.
  Qed.

  Theorem fault_free_same_disks eff st schedule first latest to :
    pf_disks (prune_fault H true eff st schedule first latest to None) =
    prune_phys_disks H eff st schedule first latest to.
  Proof. exact (fault_free_view dhist eff st schedule first latest to). Qed.

  Theorem fault_free_same eff st schedule first latest to :
    pf_result eff (prune_fault H true eff st schedule first latest to None) =
    prune_phys H eff st schedule first latest to.
  Proof.
    exact (fault_free_view (fun p => (disk p, (if eff then elog p else wlog p), flushes p))
             eff st schedule first latest to).
  Qed.
End Free.
