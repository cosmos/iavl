(** Proofs about the byte-level database image (DbImage.v).

    1. [decode_encode_image]: under the boolean guard [image_ok st fi l] (numbers within int64 /
       uint32, byte strings shorter than MaxInt, heights 1..127 for inner nodes, 32-byte hashes,
       non-negative versions in the storage keys and in the label),
       [decode_image (encode_image st fi l) = Some (st, fi, l)].
    2. [encode_image_sorted]: the image lists its pairs in ascending db-key order ([bcmp]), no key
       twice; [encode_image_injective]: different encodable databases have different images.
    3. THE END-TO-END THEOREM [reopen_reads_back_the_model]: for every state reachable by an
       in-contract history, every list [r] of re-keyed roots with [rekey_ok] and [stale_free_rel],
       a new tree object opened on the BYTES of the physical database [phys_of r (forest s)] (with
       any fast index and label) discovers exactly the retained version range and loads every
       retained version back node for node - keys, values, heights, sizes, versions, nonces and
       hashes - and no other version: [open_forest H iv img = DbOk (forest s)].
       It composes [decode_encode_image] (CodecFacts round trips), [DiscoverFacts.discover_state_rel]
       (version discovery) and [PruneAlgoFacts10.phys_readable] (GetRoot / GetNode with the
       (v,1) -> (v,0) fall-backs).  [reopen_reads_back_the_model_forest_guard]: the same with the
       guards checked on the trees of the model state; [reopen_along_physical_history]: the same
       for every store met along the physical history (commits, rollbacks, physical deletions
       under any flush schedule), or the hash function has a collision.
       [reopen_retained_versions]: WITHOUT [stale_free_rel] every retained version still loads
       back exactly; only the discovered range may start earlier (finding C14-stale-root-key).
    4. Examples by [vm_compute] with SHA-256. *)
From Coq Require Import Lia ZifyBool ZifyNat ZifyN.
From IAVL Require Import Bytes Varint VarintFacts Sha256 Tree VMap TreeFacts MTree MTreeFacts HashFacts
  VersionFacts Codec CodecFacts Store StoreFacts PruneAlgo FastLife Discover DiscoverFacts
  PruneAlgoFacts2 PruneAlgoFacts6 PruneAlgoFacts7 PruneAlgoFacts9 PruneAlgoFacts10 PruneAlgoFacts11 DbImage
  FastLifeFacts ListFacts.
Local Open Scope Z_scope.

(** ** Booleans to Props *)
Lemma int64b_in z : int64b z = true <-> in_int64 z.
Proof. unfold int64b, in_int64. lia. Qed.
Lemma uint32b_in z : uint32b z = true <-> in_uint32 z.
Proof. unfold uint32b, in_uint32. lia. Qed.
Lemma short_b_short b : short_b b = true <-> short b.
Proof. unfold short_b, short. lia. Qed.
Lemma ref_okb_in k : ref_okb k = true <-> in_int64 (fst k) /\ in_uint32 (snd k).
Proof. unfold ref_okb. rewrite andb_true_iff, int64b_in, uint32b_in. tauto. Qed.
Lemma skey_okb_in k : skey_okb k = true <-> 0 <= fst k < 2 ^ 63 /\ in_uint32 (snd k).
Proof. unfold skey_okb. rewrite !andb_true_iff, uint32b_in, Z.leb_le, Z.ltb_lt. tauto. Qed.
Lemma skey_ref k : skey_okb k = true -> ref_okb k = true.
Proof. rewrite skey_okb_in, ref_okb_in. unfold in_int64, in_uint32. lia. Qed.

(** ** One entry *)
Lemma snode_ok_raw n :
  snode_okb n = true ->
  wf_raw (raw_of_snode n) /\ rn_height (raw_of_snode n) <> -58 /\
  snode_of_raw (raw_of_snode n) = Some n.
Proof.
  destruct n as [k v|k h s hash [lv ln] [rv rn]]; cbn [snode_okb raw_of_snode].
  - rewrite andb_true_iff, !short_b_short. intros [Sk Sv].
    unfold wf_raw. cbn [rn_height rn_size rn_key rn_value rn_hash rn_left rn_right Z.eqb].
    split; [|split; [discriminate|reflexivity]].
    split; [unfold in_int8; lia|]. split; [unfold in_int64; lia|]. split; [exact Sk|].
    split; [exists v; auto|auto].
  - rewrite !andb_true_iff, !ref_okb_in, int64b_in, short_b_short, Z.leb_le, Z.leb_le, Nat.eqb_eq.
    cbn [fst snd]. intros ((((((H1 & H2) & Ss) & Sk) & Lh) & Rl) & Rr).
    unfold wf_raw. cbn [rn_height rn_size rn_key rn_value rn_hash rn_left rn_right].
    destruct (h =? 0) eqn:E0; [lia|].
    split; [|split; [lia|reflexivity]].
    split; [unfold in_int8; lia|]. split; [exact Ss|]. split; [exact Sk|].
    split; [reflexivity|]. split; [exact Lh|]. cbn [wf_child]. tauto.
Qed.

Theorem decode_entry_encode nk k e :
  length nk = 12%nat -> entry_okb e = true -> decode_entry nk (encode_entry k e) = Some e.
Proof.
  intros Lk OK. destruct e as [n|[rv rn]|]; cbn [entry_okb encode_entry] in *.
  - destruct (snode_ok_raw n OK) as (W & N58 & R).
    unfold decode_entry. rewrite (classify_root_node _ N58).
    rewrite <- (app_nil_r (encode_node (raw_of_snode n))).
    rewrite (decode_node_roundtrip nk _ [] W Lk), R. reflexivity.
  - apply ref_okb_in in OK. cbn [fst snd] in *. destruct OK as [A B].
    unfold decode_entry. rewrite (classify_root_ref13 rv rn A B). reflexivity.
  - reflexivity.
Qed.

(** ** Keys *)
Lemma node_db_key_exact k : node_db_key k = prefix_node :: node_key_bytes (fst k) (snd k).
Proof. unfold node_db_key. apply db_node_key_exact, node_key_bytes_length. Qed.

Lemma classify_key_node k : classify_key (node_db_key k) = IKNode (node_key_bytes (fst k) (snd k)).
Proof.
  rewrite node_db_key_exact. unfold classify_key. rewrite N.eqb_refl, node_key_bytes_length. reflexivity.
Qed.

Lemma classify_key_fast key : classify_key (db_fast_key key) = IKFast key.
Proof. reflexivity. Qed.

Lemma classify_key_meta : classify_key db_meta_key = IKLabel.
Proof. vm_compute. reflexivity. Qed.

Lemma decode_label_encode v : 0 <= v -> decode_label (fast_storage_label v) = Some (Some v).
Proof.
  intros L. unfold decode_label.
  assert (Hf : has_fast_storage (fast_storage_label v) = true) by reflexivity.
  rewrite Hf, (parse_storage_label_roundtrip v L). reflexivity.
Qed.

(** ** The whole image: what [decode_pair] does with each kind of encoded pair *)
Lemma decode_pair_node k e (st : list ((Z * Z) * entry)) (fi : list (bytes * (Z * bytes))) l :
  skey_okb k = true -> entry_okb e = true ->
  decode_pair (node_db_key k) (encode_entry k e) (st, fi, l) = Some ((k, e) :: st, fi, l).
Proof.
  intros Kk Ke. unfold decode_pair. rewrite classify_key_node.
  apply skey_okb_in in Kk. destruct Kk as [Kv Kn].
  rewrite (parse_node_key_roundtrip (fst k) (snd k)) by (unfold in_int64; try lia; exact Kn).
  rewrite (decode_entry_encode _ k e (node_key_bytes_length _ _) Ke).
  destruct k as [kv kn]. reflexivity.
Qed.

Lemma decode_pair_fast k ver val (st : list ((Z * Z) * entry)) (fi : list (bytes * (Z * bytes))) l :
  int64b ver = true -> short_b val = true ->
  decode_pair (db_fast_key k) (encode_fast_node ver val) (st, fi, l) = Some (st, (k, (ver, val)) :: fi, l).
Proof.
  intros Kv Ks. apply int64b_in in Kv. apply short_b_short in Ks.
  unfold decode_pair. rewrite classify_key_fast, <- (app_nil_r (encode_fast_node ver val)).
  rewrite (decode_fast_node_roundtrip k ver val [] Kv Ks). reflexivity.
Qed.

Lemma decode_pair_label v (st : list ((Z * Z) * entry)) (fi : list (bytes * (Z * bytes))) l :
  0 <= v -> decode_pair db_meta_key (fast_storage_label v) (st, fi, l) = Some (st, fi, Some v).
Proof.
  intros L. unfold decode_pair. rewrite classify_key_meta, (decode_label_encode v L). reflexivity.
Qed.

Lemma decode_store_part (st : list ((Z * Z) * entry)) rest st0 fi0 l0 :
  store_okb st = true -> decode_image rest = Some (st0, fi0, l0) ->
  decode_image (encode_store st ++ rest) = Some (st ++ st0, fi0, l0).
Proof.
  intros OK D. induction st as [|[k e] st IH]; [exact D|].
  cbn [store_okb forallb fst snd] in OK. rewrite !andb_true_iff in OK. destruct OK as [[Kk Ke] OK].
  cbn [encode_store map app decode_image fst snd]. fold (encode_store st).
  rewrite (IH OK). apply decode_pair_node; assumption.
Qed.

Lemma decode_fast_part (fi : list (bytes * (Z * bytes))) rest st0 fi0 l0 :
  fast_okb fi = true -> decode_image rest = Some (st0, fi0, l0) ->
  decode_image (encode_fast fi ++ rest) = Some (st0, fi ++ fi0, l0).
Proof.
  intros OK D. induction fi as [|[k [ver val]] fi IH]; [exact D|].
  cbn [fast_okb forallb fst snd] in OK. rewrite !andb_true_iff in OK. destruct OK as [[Kv Ks] OK].
  cbn [encode_fast map app decode_image fst snd]. fold (encode_fast fi).
  rewrite (IH OK). apply decode_pair_fast; assumption.
Qed.

Lemma decode_label_part l rest st0 fi0 :
  label_okb l = true -> decode_image rest = Some (st0, fi0, None) ->
  decode_image (encode_label l ++ rest) = Some (st0, fi0, l).
Proof.
  intros OK D. destruct l as [v|]; [|exact D].
  cbn [encode_label app decode_image]. rewrite D. apply decode_pair_label, Z.leb_le, OK.
Qed.

Theorem decode_encode_image (st : list ((Z * Z) * entry)) (fi : list (bytes * (Z * bytes))) (l : option Z) :
  image_ok st fi l = true -> decode_image (encode_image st fi l) = Some (st, fi, l).
Proof.
  unfold image_ok. rewrite !andb_true_iff. intros [[Os Of] Ol]. unfold encode_image.
  assert (D1 : decode_image (encode_store st) = Some (st, [], None)).
  { rewrite <- (app_nil_r (encode_store st)).
    rewrite (decode_store_part st [] [] [] None Os eq_refl), app_nil_r. reflexivity. }
  pose proof (decode_label_part l _ _ _ Ol D1) as D2.
  rewrite (decode_fast_part fi _ _ _ _ Of D2), app_nil_r. reflexivity.
Qed.

Theorem encode_image_injective st fi l st' fi' l' :
  image_ok st fi l = true -> image_ok st' fi' l' = true ->
  encode_image st fi l = encode_image st' fi' l' -> st = st' /\ fi = fi' /\ l = l'.
Proof.
  intros O O' E. pose proof (decode_encode_image st fi l O) as D.
  rewrite E, (decode_encode_image st' fi' l' O') in D. inversion D. auto.
Qed.

Lemma image_unknown_encode st fi l : image_unknown (encode_image st fi l) = 0%nat.
Proof.
  unfold image_unknown, encode_image, encode_fast, encode_store. rewrite !filter_app, !app_length.
  rewrite !filter_none; [reflexivity| | |]; intros x Ix.
  - apply in_map_iff in Ix. destruct Ix as (p & <- & _). cbn [fst]. rewrite classify_key_node. reflexivity.
  - destruct l as [v|]; [destruct Ix as [<-|[]]; reflexivity|destruct Ix].
  - apply in_map_iff in Ix. destruct Ix as (p & <- & _). reflexivity.
Qed.

(** ** The image is sorted by db key *)
(** An encoder [p |-> (f (fst p), g p)] whose key part [f] preserves the order (on the keys that
    satisfy [ok]) commutes with the writes of a sorted map and keeps it sorted. *)
Section KeyMap.
  Context {K V K' V' : Type} (cmp : K -> K -> comparison) (cmp' : K' -> K' -> comparison)
          (f : K -> K') (g : K * V -> V') (ok : K -> Prop).
  Hypothesis f_cmp : forall a b, ok a -> ok b -> cmp' (f a) (f b) = cmp a b.
  Notation enc := (fun p : K * V => (f (fst p), g p)).
  Notation oks := (Forall (fun p : K * V => ok (fst p))).

  Lemma map_mset k e l :
    ok k -> oks l -> map enc (mset cmp k e l) = mset cmp' (f k) (g (k, e)) (map enc l).
  Proof.
    intros Kk F. induction F as [|[k' e'] l Kk' _ IH]; [reflexivity|].
    cbn [mset map fst]. rewrite (f_cmp k k' Kk Kk').
    destruct (cmp k k'); cbn [map fst]; [reflexivity|reflexivity|]. rewrite IH. reflexivity.
  Qed.

  Lemma map_mdel k l : ok k -> oks l -> map enc (mdel cmp k l) = mdel cmp' (f k) (map enc l).
  Proof.
    intros Kk F. induction F as [|[k' e'] l Kk' _ IH]; [reflexivity|].
    cbn [mdel map fst]. rewrite (f_cmp k k' Kk Kk').
    destruct (cmp k k'); cbn [map fst]; [reflexivity|reflexivity|]. rewrite IH. reflexivity.
  Qed.

  Lemma msorted_map_keys l : oks l -> msorted cmp l -> msorted cmp' (map enc l).
  Proof.
    intros F S. rewrite Forall_forall in F. apply (msorted_map cmp cmp'); [exact S|].
    intros p q Ip Iq C. cbn [fst]. rewrite f_cmp; auto.
  Qed.
End KeyMap.

(** the byte order of the db keys is the order of the keys they encode: always for the index,
    for the node keys when the version is non-negative *)
Lemma bcmp_fast_key a b : bcmp (db_fast_key a) (db_fast_key b) = bcmp a b.
Proof. unfold db_fast_key. cbn [bcmp]. rewrite N.compare_refl. reflexivity. Qed.

Lemma bcmp_node_key a b :
  skey_okb a = true -> skey_okb b = true -> bcmp (node_db_key a) (node_db_key b) = kcmp a b.
Proof.
  intros Ka Kb. apply skey_okb_in in Ka, Kb. destruct Ka as [Va Na], Kb as [Vb Nb].
  unfold node_db_key.
  pose proof (db_node_key_order (fst a) (snd a) (fst b) (snd b) Va Vb Na Nb) as Oab.
  pose proof (db_node_key_order (fst b) (snd b) (fst a) (snd a) Vb Va Nb Na) as Oba.
  destruct (kcmp a b) eqn:C.
  - apply kcmp_Eq in C. subst b. apply bcmp_refl.
  - apply kcmp_Lt in C. apply Oab. exact C.
  - assert (C' : kcmp b a = Lt).
    { destruct kcmp_ok as [_ _ Anti _]. rewrite Anti, C. reflexivity. }
    apply kcmp_Lt in C'. apply Oba in C'. rewrite bcmp_antisym, C'. reflexivity.
Qed.

Definition skeys_ok (st : list ((Z * Z) * entry)) : Prop :=
  Forall (fun p => skey_okb (fst p) = true) st.

Lemma store_okb_skeys st : store_okb st = true -> skeys_ok st.
Proof.
  unfold store_okb. rewrite forallb_forall. intros A. apply Forall_forall. intros p Ip.
  exact (proj1 (proj1 (andb_true_iff _ _) (A p Ip))).
Qed.

Lemma encode_store_sorted (st : list ((Z * Z) * entry)) :
  skeys_ok st -> msorted kcmp st -> msorted bcmp (encode_store st).
Proof. apply (msorted_map_keys kcmp bcmp node_db_key _ _ bcmp_node_key). Qed.

Lemma encode_fast_sorted (fi : list (bytes * (Z * bytes))) :
  msorted bcmp fi -> msorted bcmp (encode_fast fi).
Proof.
  apply (msorted_map_keys bcmp bcmp db_fast_key _ (fun _ => True) (fun a b _ _ => bcmp_fast_key a b)).
  apply Forall_forall. auto.
Qed.

(** the three regions of the image: the first byte of every key is 'f', 'm' or 's', and keys
    with different first bytes compare as these do *)
Definition region (p : N) (img : list (bytes * bytes)) : Prop :=
  Forall (fun x => hd_error (fst x) = Some p) img.

Lemma image_regions (st : list ((Z * Z) * entry)) (fi : list (bytes * (Z * bytes))) l :
  region prefix_fast (encode_fast fi) /\ region prefix_meta (encode_label l) /\
  region prefix_node (encode_store st).
Proof.
  repeat split; apply Forall_forall; intros x Ix.
  - apply in_map_iff in Ix. destruct Ix as (p & <- & _). reflexivity.
  - destruct l as [v|]; [destruct Ix as [<-|[]]; reflexivity|destruct Ix].
  - apply in_map_iff in Ix. destruct Ix as (p & <- & _). cbn [fst].
    rewrite node_db_key_exact. reflexivity.
Qed.

Lemma hd_lt_bound a p q : hd_error a = Some p -> (p < q)%N -> a <b [q].
Proof.
  destruct a; [discriminate|]. intros [= ->] L. apply bcmp_Lt. cbn [bcmp]. rewrite L. reflexivity.
Qed.

Lemma hd_ge_bound a q : hd_error a = Some q -> [q] <=b a.
Proof.
  destruct a as [|x a]; [discriminate|]. intros [= ->]. unfold BytesO.le. cbn [bcmp].
  rewrite N.compare_refl. destruct a; exact I.
Qed.

Lemma region_keys_lt p q A : region p A -> (p < q)%N -> keys_lt A [q].
Proof. intros R L. eapply Forall_impl; [|exact R]. intros x Hx. exact (hd_lt_bound _ _ _ Hx L). Qed.

Lemma region_keys_ge q B : region q B -> keys_ge B [q].
Proof. intros R. eapply Forall_impl; [|exact R]. intros x. apply hd_ge_bound. Qed.

Lemma region_lt p q A B :
  region p A -> region q B -> (p < q)%N ->
  forall x y, In x A -> In y B -> bcmp (fst x) (fst y) = Lt.
Proof.
  intros RA RB L x y Ix Iy.
  pose proof (proj1 (Forall_forall _ _) (region_keys_lt p q A RA L) x Ix) as Hx.
  pose proof (proj1 (Forall_forall _ _) (region_keys_ge q B RB) y Iy) as Hy.
  apply bcmp_Lt. border.
Qed.

Lemma encode_image_sorted_keys (st : list ((Z * Z) * entry)) (fi : list (bytes * (Z * bytes))) l :
  skeys_ok st -> msorted kcmp st -> msorted bcmp fi -> msorted bcmp (encode_image st fi l).
Proof.
  intros OK Ss Sf. destruct (image_regions st fi l) as (Rf & Rl & Rs). unfold encode_image.
  apply (msorted_app bcmp); [apply encode_fast_sorted, Sf| |].
  - apply (msorted_app bcmp); [destruct l; cbn; auto|apply encode_store_sorted; assumption|].
    apply (region_lt _ _ _ _ Rl Rs). reflexivity.
  - intros x y Ix Iy. apply in_app_or in Iy. destruct Iy as [Iy|Iy].
    + apply (region_lt _ _ _ _ Rf Rl); auto. reflexivity.
    + apply (region_lt _ _ _ _ Rf Rs); auto. reflexivity.
Qed.

(** the image lists the pairs in ascending db-key order, without repetition: it is
    what an ordered key-value store holding exactly these pairs returns *)
Theorem encode_image_sorted (st : list ((Z * Z) * entry)) (fi : list (bytes * (Z * bytes))) (l : option Z) :
  store_okb st = true -> msorted kcmp st -> msorted bcmp fi ->
  msorted bcmp (encode_image st fi l).
Proof. intros OK. apply encode_image_sorted_keys, store_okb_skeys, OK. Qed.

Corollary encode_image_keys_NoDup st fi l :
  store_okb st = true -> msorted kcmp st -> msorted bcmp fi ->
  NoDup (map fst (encode_image st fi l)).
Proof. intros OK Ss Sf. apply (msorted_NoDup bcmp bcmp_ok), encode_image_sorted; assumption. Qed.

(** ** Opening the image of a reachable state *)
Lemma meta_beq_eq a b : meta_beq a b = true -> a = b.
Proof.
  destruct a as [v n h], b as [v' n' h']. unfold meta_beq. cbn [ver nonce hs].
  rewrite !andb_true_iff, !Z.eqb_eq, beq_true. intros [[-> ->] ->]. reflexivity.
Qed.

Lemma node_beq_eq a : forall b, node_beq a b = true -> a = b.
Proof.
  induction a as [k v m|k h s m l IHl r IHr]; intros [k' v' m'|k' h' s' m' l' r']; cbn [node_beq];
    try discriminate.
  - rewrite !andb_true_iff, !beq_true. intros [[-> ->] M]. rewrite (meta_beq_eq _ _ M). reflexivity.
  - rewrite !andb_true_iff, !Z.eqb_eq, beq_true. intros [[[[[-> ->] ->] M] L] R].
    rewrite (meta_beq_eq _ _ M), (IHl _ L), (IHr _ R). reflexivity.
Qed.

Lemma filter_zrange_ge m a b : m <= a -> a <= b -> filter (fun v => a <=? v) (zrange m b) = zrange a b.
Proof.
  intros L1 L2. unfold zrange.
  rewrite (filter_ext _ (fun v => a - 1 <? v)) by (intros v; lia). rewrite filter_gt_zseq.
  replace (Z.max m (a - 1 + 1)) with a by lia. f_equal. lia.
Qed.

Section OpenFacts.
  Variable H : bytes -> bytes.

  Definition loads (st : list ((Z * Z) * entry)) (vs : list Z) : list (Z * pres (option node)) :=
    map (fun v => (v, load_version H (S (length st)) st v)) vs.

  Lemma readable_loads (st : list ((Z * Z) * entry)) (f : forest_t) :
    readable H st f = true -> loads st (map fst f) = map (fun p => (fst p, POk (snd p))) f.
  Proof.
    unfold readable, loads. induction f as [|[v ro] f IH]; [reflexivity|].
    cbn [forallb map fst snd]. rewrite andb_true_iff. intros [A B]. rewrite (IH B). f_equal.
    destruct (load_version H (S (length st)) st v) as [[t|]| | |]; destruct ro as [t'|];
      try discriminate; [|reflexivity].
    rewrite (node_beq_eq _ _ A). reflexivity.
  Qed.

  Lemma all_loaded_ok (f : forest_t) :
    all_loaded (map (fun p => (fst p, POk (snd p))) f) = DbOk f.
  Proof.
    induction f as [|[v ro] f IH]; [reflexivity|]. cbn [map all_loaded fst snd]. rewrite IH. reflexivity.
  Qed.

  Lemma first_version_forest s : first_version s = first_of_forest (forest s).
  Proof. rewrite first_of_forest_eq. reflexivity. Qed.

  Lemma rekey_ok_below r (f : forest_t) : rekey_ok r f -> forall x, In x r -> x < first_of_forest f.
  Proof. intros [_ A] x Ix. apply (A x Ix). Qed.

  Lemma filter_loads (st : list ((Z * Z) * entry)) a vs :
    filter (fun p => a <=? fst p) (loads st vs) = loads st (filter (fun v => a <=? v) vs).
  Proof.
    unfold loads. induction vs as [|v vs IH]; [reflexivity|]. cbn [map filter fst].
    destruct (a <=? v); cbn [map]; rewrite IH; reflexivity.
  Qed.

  Lemma open_store_range iv (st : list ((Z * Z) * entry)) f l :
    discovered_range st = Some (f, l) -> l <> 0 ->
    open_store H iv st =
      if (0 <? f) && (f <? iv) then DbInitial f else DbOk (loads st (zrange f l)).
  Proof.
    intros D L. unfold open_store. rewrite D. apply Z.eqb_neq in L.
    rewrite L, versions_from_to_zrange. reflexivity.
  Qed.

  Lemma loads_retained s r :
    store_ok H s -> rekey_ok r (forest s) -> forest s <> [] ->
    1 <= first_version s <= latest_version s /\ init_ver s <= first_version s /\
    loads (phys_of r (forest s)) (zrange (first_version s) (latest_version s)) =
      map (fun p => (fst p, POk (snd p))) (forest s).
  Proof.
    intros SO RK NE.
    destruct (forest_ok_range (forest s) (init_ver s) (contig_forest_ok s (so_contig H s SO)) NE)
      as (R1 & R2 & R).
    change (first_of (forest s)) with (first_version s) in *.
    change (latest_of (forest s)) with (latest_version s) in *.
    split; [exact R1|]. split; [exact R2|]. rewrite <- R. exact (readable_loads _ _ (phys_readable H s r SO RK)).
  Qed.

  Theorem open_store_state s r :
    store_ok H s -> rekey_ok r (forest s) -> stale_free_rel r (forest s) ->
    latest_version s < 2 ^ 63 ->
    open_store H (init_ver s) (phys_of r (forest s)) =
      DbOk (map (fun p => (fst p, POk (snd p))) (forest s)).
  Proof.
    intros SO RK SF B.
    assert (RB : forall x, In x r -> x < first_version s).
    { intros x Ix. rewrite first_version_forest. exact (rekey_ok_below r _ RK x Ix). }
    destruct (discover_state_rel H s r SO B SF RB) as [DR _].
    destruct (nil_or_not (forest s)) as [E|NE].
    - unfold open_store. rewrite DR. unfold first_version, latest_version. rewrite E. reflexivity.
    - destruct (loads_retained s r SO RK NE) as (R1 & R2 & L).
      rewrite (open_store_range _ _ _ _ DR), L by lia.
      replace ((0 <? first_version s) && (first_version s <? init_ver s)) with false by lia.
      reflexivity.
  Qed.

  (** without [stale_free_rel]: every retained version still loads back exactly; only the
      discovered range may start earlier (finding C14-stale-root-key) *)
  Theorem open_store_state_any s r iv' :
    store_ok H s -> rekey_ok r (forest s) -> latest_version s < 2 ^ 63 ->
    exists m lst,
      0 <= m <= first_version s /\
      (m = 0 \/ has_version (phys_of r (forest s)) (m - 1) = false) /\
      open_store H iv' (phys_of r (forest s)) =
        (if (0 <? m) && (m <? iv') then DbInitial m else DbOk lst) /\
      filter (fun p => first_version s <=? fst p) lst =
        map (fun p => (fst p, POk (snd p))) (forest s) /\
      (forall p, In p lst -> m <= fst p <= latest_version s).
  Proof.
    intros SO RK B. destruct (store_ok_forest H s SO) as (FI & ND & OK & _ & _).
    destruct (nil_or_not (forest s)) as [E|NE].
    - exists 0, []. unfold first_version, latest_version. rewrite E.
      split; [lia|]. split; [left; reflexivity|]. split; [reflexivity|]. split; [reflexivity|].
      intros p [].
    - destruct (discover_first_lower r (forest s) (init_ver s) NE FI OK B (rekey_ok_below r _ RK))
        as (m & DF & Rm & _ & Bd).
      rewrite <- first_version_forest in Rm.
      assert (DR : discovered_range (phys_of r (forest s)) = Some (m, latest_version s)).
      { unfold discovered_range. rewrite DF, (discover_latest_expected r _ _ FI OK NE). reflexivity. }
      destruct (loads_retained s r SO RK NE) as (R1 & R2 & L).
      exists m, (loads (phys_of r (forest s)) (zrange m (latest_version s))).
      split; [exact Rm|]. split; [exact Bd|]. split; [apply (open_store_range _ _ _ _ DR); lia|]. split.
      { rewrite filter_loads, filter_zrange_ge by lia. exact L. }
      intros p Ip. unfold loads in Ip. apply in_map_iff in Ip. destruct Ip as (v & <- & Iv).
      cbn [fst]. apply In_zrange in Iv. exact Iv.
  Qed.
End OpenFacts.

(** ** The guards, checked on the trees instead of on the store *)
Fixpoint tree_image_okb (t : node) : bool :=
  (0 <=? ver (nmeta t)) && (ver (nmeta t) <? 2 ^ 63) && uint32b (nonce (nmeta t)) &&
  match t with
  | Leaf k v _ => short_b k && short_b v
  | Inner k h s m l r =>
      (1 <=? h) && (h <=? 127) && int64b s && short_b k && (length (hs m) =? 32)%nat &&
      tree_image_okb l && tree_image_okb r
  end.

Definition forest_image_okb (f : forest_t) : bool :=
  forallb (fun p => (0 <=? fst p) && (fst p <? 2 ^ 63) &&
                    match snd p with Some t => tree_image_okb t | None => true end) f.

Lemma tree_image_okb_subtree u t : subtree u t -> tree_image_okb t = true -> tree_image_okb u = true.
Proof.
  induction 1 as [t|u k h s m l r _ IH|u k h s m l r _ IH]; intros B; [exact B| |];
    cbn [tree_image_okb] in B; rewrite !andb_true_iff in B; apply IH; tauto.
Qed.

Lemma tree_image_okb_key t : tree_image_okb t = true -> skey_okb (node_key t) = true.
Proof.
  intros B. unfold skey_okb, node_key. cbn [fst snd].
  destruct t; cbn [tree_image_okb nmeta] in *; rewrite !andb_true_iff in B; rewrite !andb_true_iff; tauto.
Qed.

Lemma tree_image_okb_snode t : tree_image_okb t = true -> snode_okb (snode_of t) = true.
Proof.
  intros B. destruct t as [k v m|k h s m l r]; cbn [tree_image_okb snode_of snode_okb nmeta] in *;
    rewrite !andb_true_iff in B; rewrite !andb_true_iff.
  - tauto.
  - destruct B as [_ ((((((B1 & B2) & B3) & B4) & B5) & Bl) & Br)].
    pose proof (skey_ref _ (tree_image_okb_key l Bl)). pose proof (skey_ref _ (tree_image_okb_key r Br)).
    tauto.
Qed.

Lemma skey_okb_rkk r p : skey_okb (fst p) = true -> skey_okb (fst (rkk r p)) = true.
Proof.
  intros B. unfold rkk. destruct (snd p); try exact B.
  destruct ((snd (fst p) =? 1) && existsb (Z.eqb (fst (fst p))) r); [|exact B].
  cbn [fst]. apply skey_okb_in in B. apply skey_okb_in. cbn [fst snd]. unfold in_uint32 in *. lia.
Qed.

Theorem forest_image_ok_store (r : list Z) (f : forest_t) :
  forest_image_okb f = true -> store_okb (phys_of r f) = true.
Proof.
  intros B. unfold forest_image_okb in B. rewrite forallb_forall in B.
  unfold store_okb. apply forallb_forall. intros [k e] Ip. cbn [fst snd].
  unfold phys_of in Ip. apply rekey_In in Ip. destruct Ip as (k0 & I0 & Q).
  assert (X : skey_okb k0 = true /\ entry_okb e = true).
  { apply expected_In_reach, reach_In in I0.
    destruct I0 as [(u & (v & t & It & S) & -> & ->)|(v & ro & Iv & E)].
    - specialize (B _ It). cbn [fst snd] in B. rewrite !andb_true_iff in B. destruct B as [_ Bt].
      pose proof (tree_image_okb_subtree u t S Bt) as Bu.
      split; [apply tree_image_okb_key, Bu|apply tree_image_okb_snode, Bu].
    - specialize (B _ Iv). cbn [fst snd] in B. rewrite !andb_true_iff in B. destruct B as [[B1 B2] Bt].
      destruct (root_entry_Some _ _ _ _ E) as [-> D]. split.
      + unfold skey_okb. cbn [fst snd]. rewrite B1, B2. reflexivity.
      + destruct D as [[_ ->]|(t & -> & -> & _)]; [reflexivity|].
        cbn [entry_okb]. apply skey_ref, tree_image_okb_key, Bt. }
  destruct X as [X1 X2]. rewrite X2, andb_true_r.
  pose proof (skey_okb_rkk r (k0, e) X1) as Y. rewrite <- Q in Y. exact Y.
Qed.

(** ** THE END-TO-END THEOREM: bytes in, forest out *)
Section EndToEnd.
  Variable H : bytes -> bytes.

  Lemma open_image_encode iv (st : list ((Z * Z) * entry)) fi l :
    image_ok st fi l = true -> open_image H iv (encode_image st fi l) = open_store H iv st.
  Proof. intros OK. unfold open_image. rewrite (decode_encode_image st fi l OK). reflexivity. Qed.

  Lemma open_forest_of iv img (f : forest_t) :
    open_image H iv img = DbOk (map (fun p => (fst p, POk (snd p))) f) -> open_forest H iv img = DbOk f.
  Proof. intros E. unfold open_forest. rewrite E. apply all_loaded_ok. Qed.

  Lemma init_ver_run ops : forall s, init_ver (fst (run H s ops)) = init_ver s.
  Proof.
    induction ops as [|o ops IH]; intros s; [reflexivity|].
    rewrite (run_cons H s o ops). cbn [fst]. rewrite IH. apply init_ver_step.
  Qed.

  Theorem reopen_state s r fi l :
    store_ok H s -> rekey_ok r (forest s) -> stale_free_rel r (forest s) ->
    latest_version s < 2 ^ 63 -> image_ok (phys_of r (forest s)) fi l = true ->
    let img := encode_image (phys_of r (forest s)) fi l in
    decode_image img = Some (phys_of r (forest s), fi, l) /\
    open_image H (init_ver s) img = DbOk (map (fun p => (fst p, POk (snd p))) (forest s)) /\
    open_forest H (init_ver s) img = DbOk (forest s).
  Proof.
    intros SO RK SF B OK img.
    assert (E : open_image H (init_ver s) img = DbOk (map (fun p => (fst p, POk (snd p))) (forest s))).
    { unfold img. rewrite (open_image_encode _ _ _ _ OK). apply open_store_state; assumption. }
    split; [apply decode_encode_image, OK|]. split; [exact E|apply open_forest_of, E].
  Qed.

  (** for every reachable in-contract state: a new tree object opened on the BYTES of the physical
      database finds exactly the retained versions and loads each of them back node for node
      (keys, values, heights, sizes, versions, nonces, hashes), and no other version *)
  Theorem reopen_reads_back_the_model iv b ops r fi l :
    init_ok iv b -> run_ok H (init_state iv b) ops ->
    let s := fst (run H (init_state iv b) ops) in
    rekey_ok r (forest s) -> stale_free_rel r (forest s) -> latest_version s < 2 ^ 63 ->
    image_ok (phys_of r (forest s)) fi l = true ->
    let img := encode_image (phys_of r (forest s)) fi l in
    decode_image img = Some (phys_of r (forest s), fi, l) /\
    open_image H iv img = DbOk (map (fun p => (fst p, POk (snd p))) (forest s)) /\
    open_forest H iv img = DbOk (forest s).
  Proof.
    intros IO R s RK SF B OK.
    assert (SO : store_ok H s) by (apply store_ok_reachable; assumption).
    assert (Ei : init_ver s = iv) by (unfold s; rewrite init_ver_run; reflexivity).
    rewrite <- Ei. apply reopen_state; assumption.
  Qed.

  Corollary reopen_reads_back_the_model_forest_guard iv b ops r fi l :
    init_ok iv b -> run_ok H (init_state iv b) ops ->
    let s := fst (run H (init_state iv b) ops) in
    rekey_ok r (forest s) -> stale_free_rel r (forest s) -> latest_version s < 2 ^ 63 ->
    forest_image_okb (forest s) = true -> fast_okb fi = true -> label_okb l = true ->
    open_forest H iv (encode_image (phys_of r (forest s)) fi l) = DbOk (forest s).
  Proof.
    intros IO R s RK SF B Of Oi Ol.
    assert (OK : image_ok (phys_of r (forest s)) fi l = true).
    { unfold image_ok. rewrite (forest_image_ok_store r _ Of), Oi, Ol. reflexivity. }
    destruct (reopen_reads_back_the_model iv b ops r fi l IO R RK SF B OK) as (_ & _ & E). exact E.
  Qed.

  (** WITHOUT [stale_free_rel] (finding C14-stale-root-key): the discovered range may start at an
      earlier [m] (a root key of a deleted version that survives as a child of a retained tree);
      every RETAINED version still loads back exactly, and nothing else at or above the first
      retained version is reported.  ([iv'] is the InitialVersion option of the new object: the
      earlier [m] is what LoadVersion compares it with.) *)
  Theorem reopen_retained_state s r fi l iv' :
    store_ok H s -> rekey_ok r (forest s) -> latest_version s < 2 ^ 63 ->
    image_ok (phys_of r (forest s)) fi l = true ->
    exists m lst,
      0 <= m <= first_version s /\
      (m = 0 \/ has_version (phys_of r (forest s)) (m - 1) = false) /\
      open_image H iv' (encode_image (phys_of r (forest s)) fi l) =
        (if (0 <? m) && (m <? iv') then DbInitial m else DbOk lst) /\
      filter (fun p => first_version s <=? fst p) lst =
        map (fun p => (fst p, POk (snd p))) (forest s) /\
      (forall p, In p lst -> m <= fst p <= latest_version s).
  Proof.
    intros SO RK B OK. rewrite (open_image_encode _ _ _ _ OK).
    apply open_store_state_any; assumption.
  Qed.

  Theorem reopen_retained_versions iv b ops r fi l iv' :
    init_ok iv b -> run_ok H (init_state iv b) ops ->
    let s := fst (run H (init_state iv b) ops) in
    rekey_ok r (forest s) -> latest_version s < 2 ^ 63 ->
    image_ok (phys_of r (forest s)) fi l = true ->
    exists m lst,
      0 <= m <= first_version s /\
      (m = 0 \/ has_version (phys_of r (forest s)) (m - 1) = false) /\
      open_image H iv' (encode_image (phys_of r (forest s)) fi l) =
        (if (0 <? m) && (m <? iv') then DbInitial m else DbOk lst) /\
      filter (fun p => first_version s <=? fst p) lst =
        map (fun p => (fst p, POk (snd p))) (forest s) /\
      (forall p, In p lst -> m <= fst p <= latest_version s).
  Proof.
    intros IO R s RK B OK. apply reopen_retained_state; try assumption.
    apply store_ok_reachable; assumption.
  Qed.
End EndToEnd.


(** ** Along the PHYSICAL history: the store is not [phys_of] by definition but what the
    commits, rollbacks and physical deletions (any flush schedule, either flush mode) leave on disk
    ([PruneAlgoFacts11.phys_trace]); at every moment a new tree object on its bytes reads the model
    back *)
Section AlongHistory.
  Variable H : bytes -> bytes.
  Hypothesis Hlen : forall x, length (H x) = 32%nat.

  Lemma trace_states_ok fast ops : forall s st orcs,
    store_ok H s -> run_ok H s ops ->
    Forall (fun p => store_ok H (fst p) /\ init_ver (fst p) = init_ver s)
           (phys_trace H fast s st ops orcs).
  Proof.
    induction ops as [|o ops IH]; intros s st orcs SO R; cbn [phys_trace].
    - constructor; [split; [exact SO|reflexivity]|constructor].
    - destruct R as [IC R]. constructor; [split; [exact SO|reflexivity]|].
      pose proof (IH (fst (step H s o)) (phys_step H fast s st o (hd ([], false) orcs)) (tl orcs)
                     (store_ok_step H s o SO IC) R) as F.
      rewrite (init_ver_step H s o) in F. exact F.
  Qed.

  Theorem reopen_along_physical_history fast iv b ops orcs :
    init_ok iv b -> run_ok H (init_state iv b) ops -> bounded_run H (init_state iv b) ops ->
    Forall (fun p : mstate * list ((Z * Z) * entry) =>
              forall fi l,
                latest_version (fst p) < 2 ^ 63 ->
                (forall r, snd p = phys_of r (forest (fst p)) -> stale_free_rel r (forest (fst p))) ->
                image_ok (snd p) fi l = true ->
                open_forest H iv (encode_image (snd p) fi l) = DbOk (forest (fst p)))
           (phys_trace H fast (init_state iv b) [] ops orcs)
    \/ collision H.
  Proof.
    intros IO R BR.
    destruct (phys_run_reachable H Hlen fast iv b ops orcs IO R BR) as [F|C]; [left|right; exact C].
    pose proof (trace_states_ok fast ops (init_state iv b) [] orcs (store_ok_init H iv b IO) R) as G.
    rewrite Forall_forall in *. intros [s st] Ip fi l B SF OK. cbn [fst snd] in *.
    destruct (F _ Ip) as (r & E & RK). destruct (G _ Ip) as [SO Ei]. cbn [fst snd] in *.
    cbn [init_state init_ver] in Ei. subst st.
    destruct (reopen_state H s r fi l SO RK (SF r eq_refl) B OK) as (_ & _ & X).
    rewrite Ei in X. exact X.
  Qed.
End AlongHistory.

(** pairs with a foreign prefix (legacy 'n' / 'o' / 'r' entries, anything else) change nothing *)
Lemma decode_image_ignores k v img :
  classify_key k = IKOther -> decode_image ((k, v) :: img) = decode_image img.
Proof.
  intros C. cbn [decode_image]. destruct (decode_image img) as [[[st fi] l]|]; [|reflexivity].
  unfold decode_pair. rewrite C. reflexivity.
Qed.

(** ** Examples (SHA-256)

    A history driven through the fast-index life cycle (FastLife): open with the index enabled;
    {a,b} saved as version 1; version 2 saves the same tree (its root entry refers to (1,1));
    {a,b,c} as version 3; {b,c} as version 4 (root = the old inner node (3,2): a root reference);
    DeleteVersionsTo(1) then re-keys the shared root (1,1) to (1,0).  The persisted index holds
    b (last written in version 1) and c (version 3); the label is "1.1.0-4". *)
Definition ex_a : bytes := [97%N].
Definition ex_b : bytes := [98%N].
Definition ex_c : bytes := [99%N].
Definition ex_fhist : list fop :=
  [FOpen false; FSet ex_a ex_a; FSet ex_b ex_b; FSave; FSave; FSet ex_c ex_c; FSave;
   FRemove ex_a; FSave; FPrune 1].
Definition ex_hist : list op :=
  [OReopen; OSet ex_a ex_a; OSet ex_b ex_b; OSave; OSave; OSet ex_c ex_c; OSave;
   ORemove ex_a; OSave; OPrune 1].
Definition ex_fs : fstate := fst (frun sha256 (finit 0 false) ex_fhist).
Definition ex_s : mstate := fst (run sha256 (init_state 0 false) ex_hist).
Definition ex_f : forest_t := forest ex_s.
Definition ex_st : list ((Z * Z) * entry) := phys_of [1] ex_f.
Definition ex_img : list (bytes * bytes) := encode_image ex_st (fidx ex_fs) (dlabel ex_fs).

(** without FOpenAt, the logical state of a life-cycle run is the MTree run of the logical
    operations (no contract needed: [fstep_ms]) *)
Lemma frun_ms H ops : forall st, forallb (fun o => negb (is_openat o)) ops = true ->
  ms (fst (frun H st ops)) = fst (run H (ms st) (map logical ops)).
Proof.
  induction ops as [|o ops IH]; intros st NO; [reflexivity|].
  cbn [forallb] in NO. apply andb_true_iff in NO. destruct NO as [No NO].
  rewrite frun_cons. cbn [map fst]. rewrite (run_cons H (ms st)). cbn [fst].
  rewrite (IH _ NO), (fstep_ms H st o); [reflexivity|]. destruct (is_openat o); [discriminate|reflexivity].
Qed.

(** over variables: turning [frun] into [ListFacts.grun] on a concrete history would make the
    kernel run both *)
Lemma frun_app H st a b : fst (frun H st (a ++ b)) = fst (frun H (fst (frun H st a)) b).
Proof. exact (f_equal fst (grun_app (fstep H) st a b)). Qed.

(** The states every example below looks at come from ONE evaluation: the life-cycle state
    before the deletion.  The deletion is one more step, and the MTree states are the logical
    parts of the life-cycle states ([frun_ms]). *)
Definition ex_fs_pre : fstate :=
  Eval vm_compute in fst (frun sha256 (finit 0 false) (removelast ex_fhist)).
Definition ex_fs_val : fstate := Eval vm_compute in ex_fs.
Local Notation ex_s_val := (ms ex_fs_val).

Lemma ex_fs_pre_eq : fst (frun sha256 (finit 0 false) (removelast ex_fhist)) = ex_fs_pre.
Proof. vm_compute. reflexivity. Qed.

Lemma ex_fs_eq : ex_fs = ex_fs_val.
Proof.
  unfold ex_fs. change ex_fhist with (removelast ex_fhist ++ [FPrune 1]).
  rewrite frun_app, ex_fs_pre_eq. vm_compute. reflexivity.
Qed.

Lemma ex_pre_eq : fst (run sha256 (init_state 0 false) (removelast ex_hist)) = ms ex_fs_pre.
Proof. rewrite <- ex_fs_pre_eq. symmetry. exact (frun_ms sha256 (removelast ex_fhist) (finit 0 false) eq_refl). Qed.

Lemma ex_s_eq : fst (run sha256 (init_state 0 false) ex_hist) = ex_s_val.
Proof. rewrite <- ex_fs_eq. symmetry. exact (frun_ms sha256 ex_fhist (finit 0 false) eq_refl). Qed.

Lemma ex_st_eq : ex_st = phys_of [1] (forest ex_s_val).
Proof. unfold ex_st, ex_f, ex_s. rewrite ex_s_eq. reflexivity. Qed.

Lemma ex_img_eq :
  ex_img = encode_image (phys_of [1] (forest ex_s_val)) (fidx ex_fs_val) (dlabel ex_fs_val).
Proof. unfold ex_img. rewrite ex_st_eq, ex_fs_eq. reflexivity. Qed.

Lemma ex_run_ok : run_okb sha256 (init_state 0 false) ex_hist = true.
Proof. vm_compute. reflexivity. Qed.

(** the database: the logical state of the life-cycle run is the MTree run; the physical deletion
    produces exactly [phys_of [1]] of the remaining forest *)
Example ex_database :
  ms ex_fs = ex_s /\
  run_okb sha256 (init_state 0 false) ex_hist = true /\
  (let f0 := forest (fst (run sha256 (init_state 0 false) (removelast ex_hist))) in
   exists w fl, prune_forest sha256 false [] f0 [] 1 = POk (ex_st, w, fl)) /\
  map fst ex_f = [2; 3; 4] /\
  map fst ex_st = [(1, 0); (1, 2); (1, 3); (2, 1); (3, 1); (3, 2); (3, 3); (4, 1)] /\
  rekeyed ex_st = [1] /\
  mfind kcmp (2, 1) ex_st = Some (ERef (1, 1)) /\ mfind kcmp (4, 1) ex_st = Some (ERef (3, 2)) /\
  fidx ex_fs = [(ex_b, (1, ex_b)); (ex_c, (3, ex_c))] /\ dlabel ex_fs = Some 4 /\
  image_ok ex_st (fidx ex_fs) (dlabel ex_fs) = true /\
  forest_image_okb ex_f = true.
Proof.
  split; [rewrite ex_fs_eq; symmetry; exact ex_s_eq|]. split; [exact ex_run_ok|].
  split; [cbv zeta; rewrite ex_pre_eq, ex_st_eq; eexists; eexists; vm_compute; reflexivity|].
  unfold ex_f, ex_s. rewrite ex_st_eq, ex_fs_eq, ex_s_eq. vm_compute. repeat split; reflexivity.
Qed.

(** the image: 2 fast entries, the label, 8 node entries, in db-key order *)
Example ex_image :
  map (fun p => (fst p, length (snd p))) ex_img =
    [ ([102; 98]%N, 3%nat); ([102; 99]%N, 3%nat);
      ([109; 115; 116; 111; 114; 97; 103; 101; 95; 118; 101; 114; 115; 105; 111; 110]%N, 7%nat);
      ([115; 0; 0; 0; 0; 0; 0; 0; 1; 0; 0; 0; 0]%N, 42%nat);
      ([115; 0; 0; 0; 0; 0; 0; 0; 1; 0; 0; 0; 2]%N, 6%nat);
      ([115; 0; 0; 0; 0; 0; 0; 0; 1; 0; 0; 0; 3]%N, 6%nat);
      ([115; 0; 0; 0; 0; 0; 0; 0; 2; 0; 0; 0; 1]%N, 13%nat);
      ([115; 0; 0; 0; 0; 0; 0; 0; 3; 0; 0; 0; 1]%N, 42%nat);
      ([115; 0; 0; 0; 0; 0; 0; 0; 3; 0; 0; 0; 2]%N, 42%nat);
      ([115; 0; 0; 0; 0; 0; 0; 0; 3; 0; 0; 0; 3]%N, 6%nat);
      ([115; 0; 0; 0; 0; 0; 0; 0; 4; 0; 0; 0; 1]%N, 13%nat) ] /\
  (* fast node of b: version 1, value "b" *)
  nth 0 ex_img ([], []) = ([102; 98]%N, [2; 1; 98]%N) /\
  (* the label "1.1.0-4" *)
  snd (nth 2 ex_img ([], [])) = [49; 46; 49; 46; 48; 45; 52]%N /\
  (* the re-keyed root under (1,0): inner node, height 1, size 2, key "b", hash, children (1,2) (1,3) *)
  snd (nth 3 ex_img ([], [])) =
    ([2; 4; 1; 98; 32]%N ++ hs (nmeta (match lookup 2 ex_f with Some (Some t) => t | _ => Leaf [] [] new_meta end))
     ++ [0; 2; 4; 2; 6]%N) /\
  (* leaf (1,2): height 0, size 1, key "a", value "a" *)
  snd (nth 4 ex_img ([], [])) = [0; 2; 1; 97; 1; 97]%N /\
  (* root entry of version 2: a reference to (1,1) - the key that has been re-keyed to (1,0) *)
  snd (nth 6 ex_img ([], [])) = [115; 0; 0; 0; 0; 0; 0; 0; 1; 0; 0; 0; 1]%N /\
  (* root entry of version 4: a reference to (3,2) *)
  snd (nth 10 ex_img ([], [])) = [115; 0; 0; 0; 0; 0; 0; 0; 3; 0; 0; 0; 2]%N /\
  image_unknown ex_img = 0%nat.
Proof. unfold ex_f, ex_s. rewrite ex_img_eq, ex_s_eq. vm_compute. repeat split; reflexivity. Qed.

Example ex_image_sorted : msorted bcmp ex_img.
Proof.
  apply encode_image_sorted; rewrite ?ex_st_eq, ?ex_fs_eq.
  - vm_compute. reflexivity.
  - vm_compute. repeat split; repeat constructor.
  - vm_compute. repeat split; repeat constructor.
Qed.

Example ex_decode : decode_image ex_img = Some (ex_st, fidx ex_fs, dlabel ex_fs).
Proof. rewrite ex_img_eq, ex_st_eq, ex_fs_eq. vm_compute. reflexivity. Qed.

(** a new tree object on these bytes: versions 2, 3, 4, each equal to the model's tree *)
Example ex_open :
  open_image sha256 0 ex_img = DbOk (map (fun p => (fst p, POk (snd p))) ex_f) /\
  open_forest sha256 0 ex_img = DbOk ex_f /\
  discovered_range ex_st = Some (2, 4).
Proof.
  assert (E : open_image sha256 0 ex_img = DbOk (map (fun p => (fst p, POk (snd p))) ex_f)).
  { unfold ex_f, ex_s. rewrite ex_img_eq, ex_s_eq. vm_compute. reflexivity. }
  split; [exact E|]. split; [apply open_forest_of, E|].
  rewrite ex_st_eq. vm_compute. reflexivity.
Qed.

Example ex_open_thm : open_forest sha256 0 ex_img = DbOk ex_f.
Proof.
  apply (reopen_reads_back_the_model_forest_guard sha256 0 false ex_hist [1] (fidx ex_fs) (dlabel ex_fs));
    rewrite ?ex_s_eq, ?ex_fs_eq.
  - unfold init_ok. lia.
  - apply run_okb_iff, ex_run_ok.
  - apply rekey_okb_sound. vm_compute. reflexivity.
  - apply stale_free_relb_iff. vm_compute. reflexivity.
  - vm_compute. reflexivity.
  - vm_compute. reflexivity.
  - vm_compute. reflexivity.
  - vm_compute. reflexivity.
Qed.

(** damaged or foreign bytes: a truncated node body and a label without a version do not
    decode; a legacy entry is ignored *)
Example ex_damaged :
  decode_image [(node_db_key (1, 2), [0; 2; 1; 97; 1]%N)] = None /\
  open_image sha256 0 [(node_db_key (1, 2), [0; 2; 1; 97; 1]%N)] = DbBadImage /\
  decode_image [(db_meta_key, fast_storage_version)] = None /\
  decode_image [(db_meta_key, default_storage_version)] = Some ([], [], None) /\
  decode_image ((db_legacy_root_key 1, [1; 2; 3]%N) :: ex_img) = decode_image ex_img /\
  image_unknown ((db_legacy_root_key 1, [1; 2; 3]%N) :: ex_img) = 1%nat.
Proof. rewrite ex_img_eq. vm_compute. repeat split; reflexivity. Qed.

(** the finding C14-stale-root-key seen from the bytes (history of DiscoverFacts.stale_hist:
    version 1 = one leaf, version 2 adds a key, DeleteVersionsTo(1)): the new object reports the
    deleted version 1 - it even loads: the old leaf - and version 2 loads back exactly *)
Definition ex_stale_s : mstate := Eval vm_compute in fst (run sha256 (init_state 0 false) stale_hist).
Lemma ex_stale_s_eq : fst (run sha256 (init_state 0 false) stale_hist) = ex_stale_s.
Proof. vm_compute. reflexivity. Qed.

Definition ex_stale_open : dbres (list (Z * pres (option node))) :=
  Eval vm_compute in open_image sha256 0 (encode_image (expected_store (forest ex_stale_s)) [] None).
Lemma ex_stale_open_eq :
  open_image sha256 0 (encode_image (expected_store (forest ex_stale_s)) [] None) = ex_stale_open.
Proof. vm_compute. reflexivity. Qed.

Example ex_stale :
  let s := fst (run sha256 (init_state 0 false) stale_hist) in
  let img := encode_image (expected_store (forest s)) [] None in
  map fst (forest s) = [2] /\
  match open_image sha256 0 img with
  | DbOk lst =>
      map fst lst = [1; 2] /\
      filter (fun p => first_version s <=? fst p) lst = map (fun p => (fst p, POk (snd p))) (forest s) /\
      nth 0 lst (0, PErr) =
        (1, POk (Some (Leaf stale_ka stale_ka (Meta 1 1 (sha256 (leaf_preimage sha256 1 stale_ka stale_ka))))))
  | _ => False
  end /\
  open_forest sha256 0 img <> DbOk (forest s).
Proof.
  cbv zeta. unfold open_forest. rewrite ex_stale_s_eq, ex_stale_open_eq.
  vm_compute. repeat split; try reflexivity. discriminate.
Qed.

Print Assumptions decode_encode_image.
Print Assumptions encode_image_sorted.
Print Assumptions encode_image_injective.
Print Assumptions forest_image_ok_store.
Print Assumptions reopen_state.
Print Assumptions reopen_reads_back_the_model.
Print Assumptions reopen_reads_back_the_model_forest_guard.
Print Assumptions reopen_retained_versions.
Print Assumptions reopen_along_physical_history.
