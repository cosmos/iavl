(** iavl/v2 orphan bookkeeping, part 2: completeness of the orphan rows, and the tree pruner's
    garbage: [saveBranches] writes the orphan rows only when the checkpointed root is a branch
    ([isCheckpoint() = len(tree.branches) > 0]) while [SaveVersion] clears [tree.branchOrphans]
    at every checkpoint, so a checkpoint of an empty or single-leaf tree LOSES the pending
    orphans: "no garbage branch row survives a prune" is refuted ([prune_exact_refuted]) and
    proved for the histories where no checkpoint loses orphans ([prune_exact_partial]).
    Continues V2OrphansFacts.v. *)
From Coq Require Import Permutation Lia ZArith List Bool.
From IAVL Require Import Bytes Varint Tree MTree V2 V2Facts Sha256.
From IAVL Require Import HashTable V2Orphans V2OrphansFacts.
Import ListNotations.
Local Open Scope Z_scope.

(** the SaveVersion of [s] loses no pending orphan: it is not a checkpoint, or nothing is
    pending, or the root is a branch ([saveBranches] runs) *)
Definition save_ok (interval : Z) (s : ostate) : bool :=
  if v2_should_checkpoint interval false (ckpts (os_store s)) (os_version s + 1)
  then match os_pending s with [] => true | _ :: _ => root_is_branch (os_root s) end
  else true.

Definition step_ok (interval : Z) (s : ostate) (e : hstep) : bool :=
  match e with
  | HVersion ops =>
      match os_apply_all false s ops with
      | Some s1 => save_ok interval s1
      | None => true
      end
  | HPrune _ => true
  end.

Lemma save_ok_keeps interval s : save_ok interval s = true -> keeps_pending interval s.
Proof. unfold save_ok, keeps_pending. intros E SC. rewrite SC in E. destruct (os_pending s); auto. Qed.

Section Runs2.
  Variable H : bytes -> bytes.
  Hypothesis Hnn : forall x, H x <> [].
  Variable interval : Z.

  Fixpoint no_loss (s : ostate) (hist : list hstep) : bool :=
    match hist with
    | [] => true
    | e :: rest =>
        step_ok interval s e &&
        match os_step H false false interval s e with
        | Some s' => no_loss s' rest
        | None => true
        end
    end.

  Lemma run_inv0_full hist s tr :
    no_loss ostate_empty hist = true ->
    os_run H false false interval ostate_empty hist = Some s ->
    os_trace H false false interval ostate_empty hist = Some tr ->
    Inv true (run_floor H interval ostate_empty hist (-1)) s tr.
  Proof.
    intros NL R Tr.
    refine (proj1 (run_ind H interval (fun rest lo s tr => Inv true lo s tr /\ no_loss s rest = true) _
                           hist _ _ [] _ _ (conj (inv_empty true) NL) R Tr)).
    intros e rest lo s0 tr0 s' (I & N) E. cbn [no_loss] in N. rewrite E in N. apply andb_true_iff in N.
    destruct N as (N1 & N2). split; [|exact N2]. apply (os_step_inv H Hnn interval _ _ _ _ _ _ I); [|exact E].
    intros _ ops s1 -> EA. apply save_ok_keeps. cbn [step_ok] in N1. rewrite EA in N1. exact N1.
  Qed.

  (** the other half of [checkpoint_orphans_sound_partial]: an orphan row [((ver,seq), at)] names
      a node of the tree of the checkpoint just before [at] (no checkpoint lies strictly
      between), and [at] is above every prune bound met so far.  (Membership in the earlier checkpoint trees back to the
      node's creation: [checkpoint_orphans_sound].) *)
  Theorem checkpoint_orphans_reach hist s tr x a :
    os_run H false false interval ostate_empty hist = Some s ->
    os_trace H false false interval ostate_empty hist = Some tr ->
    In (x, a) (borphans (os_store s)) ->
    run_floor H interval ostate_empty hist (-1) < a /\
    exists v T, In (v, T) tr /\ v < a /\ In x (okeys T) /\
                forall c, In c (ckpts (os_store s)) -> c < a -> c <= v.
  Proof.
    intros R Tr Ix. apply (i_orph (run_inv0 H Hnn interval _ _ _ R Tr) x a Ix).
  Qed.

  (** both halves: an orphan row [((ver,seq), at)]: [at] is a checkpoint; the branch is
      a node of every checkpoint tree of version [v] with [ver <= v < at] (from its creation up
      to the checkpoint before [at], which exists) and of no checkpoint tree of version >= [at]. *)
  Theorem checkpoint_orphans_sound hist s tr x a :
    os_run H false false interval ostate_empty hist = Some s ->
    os_trace H false false interval ostate_empty hist = Some tr ->
    In (x, a) (borphans (os_store s)) ->
    In a (ckpts (os_store s)) /\
    (forall v T, In (v, T) tr -> fst x <= v -> v < a -> In x (okeys T)) /\
    (forall v T, In (v, T) tr -> a <= v -> ~ In x (okeys T)) /\
    (exists v T, In (v, T) tr /\ v < a /\ In x (okeys T) /\
                 forall c, In c (ckpts (os_store s)) -> c < a -> c <= v).
  Proof.
    intros R Tr Ix. pose proof (run_inv0 H Hnn interval _ _ _ R Tr) as I.
    destruct (i_orph I x a Ix) as ((_ & _ & Ia & D) & (_ & L) & A). auto.
  Qed.

  (** the pruner is exact on the histories where no checkpoint
      loses pending orphans ([no_loss]: every checkpoint with a non-empty [tree.branchOrphans]
      has a branch root).  After such a history and [prune_tree st n] with
      [c = FindPrevious(n)], every branch row left is a node of the tree of some checkpoint
      that is retained ([>= c] and [>=] every earlier prune bound): no garbage survives.  Without
      [no_loss] the statement is false ([prune_exact_refuted] below). *)
  Theorem prune_exact_partial hist s tr n c st' key row :
    no_loss ostate_empty hist = true ->
    os_run H false false interval ostate_empty hist = Some s ->
    os_trace H false false interval ostate_empty hist = Some tr ->
    prune_tree (os_store s) n = Some st' ->
    find_previous (ckpts (os_store s)) n = FPVal c ->
    In (key, row) (branches st') ->
    exists v T, In (v, T) tr /\ Z.max (run_floor H interval ostate_empty hist (-1)) c <= v /\ In key (okeys T).
  Proof.
    intros NL R Tr P FP Ir. pose proof (run_inv0_full _ _ _ NL R Tr) as I.
    set (lo := run_floor H interval ostate_empty hist (-1)) in *.
    pose proof (prune_inv _ _ _ _ _ _ _ I P FP) as I'.
    destruct (i_lo I') as (A & B). rewrite ck_of_mk in B.
    assert (ckpts st' = ckpts (os_store s)) as CE.
    { apply prune_tree_with_some in P. destruct P as (c' & _ & ->). reflexivity. }
    destruct (i_full I' eq_refl key row Ir) as [K|[K|(a & K)]]; cbn [os_root os_pending os_store] in K.
    - pose proof (i_rows I' key row Ir) as L.
      destruct (proj1 (i_live I' key K) L) as (T & T1 & T2). eexists _, T. split; [exact T1|]. split; [|exact T2].
      rewrite ck_of_mk. lia.
    - destruct (i_pend I' key K) as (_ & _ & (T & T1 & T2) & _). eexists _, T. split; [exact T1|]. split; [|exact T2].
      rewrite ck_of_mk. lia.
    - destruct (i_orph I' key a K) as (_ & (La & v & T & T1 & T2 & T3 & T4) & _). exists v, T.
      split; [assumption|]. split; [|assumption]. cbn [os_store] in T4.
      destruct (i_trace I' _ _ T1) as (V0 & _).
      destruct A as [A|A]; [lia|]. apply T4; [exact A|lia].
  Qed.
End Runs2.

Print Assumptions checkpoint_orphans_reach.
Print Assumptions checkpoint_orphans_sound.
Print Assumptions prune_exact_partial.

(** the executable counterpart on the example history of V2OrphansFacts.v: after a third
    prune to 8 (c = 7) every remaining branch row is reached by checkpoint 7 or 9 *)
Example x_hist_prune_exact_example :
  match os_run sha256 false false 2 ostate_empty x_hist, os_trace sha256 false false 2 ostate_empty x_hist with
  | Some s, Some tr =>
      match prune_tree (os_store s) 8 with
      | Some st' => Some (rows_reached_check st' 7 tr, retained_load_ok st' 7 tr,
                          length (branches (os_store s)), length (branches st'))
      | None => None
      end
  | _, _ => None
  end = Some (true, true, 16%nat, 12%nat).
Proof. destruct x_hist_run as (-> & ->). vm_compute. reflexivity. Qed.

(** * REFUTATION of the unconditional exactness of the pruner *)
Lemma not_reached_check (tr : list (Z * option node)) m key :
  existsb (fun p => (m <=? fst p) && in_keys key (okeys (snd p))) tr = false ->
  ~ exists v T, In (v, T) tr /\ m <= v /\ In key (okeys T).
Proof.
  intros E (v & T & IT & L & K). apply not_true_iff_false in E. apply E, existsb_exists.
  exists (v, T). split; [assumption|]. cbn [fst snd]. apply andb_true_intro. split; [lia|apply in_keys_iff, K].
Qed.

(** the history found by the differential harness (checkpoint interval 1, keys "ab", "c", "a"):
    v1 empty; v2 Set ab, Set c; v3 Set c; v4 nothing; v5 Remove ab, Remove c (tree empty: the
    checkpoint writes no orphan row and drops the pending orphan 3.1); v6 Set a, Set c, Set ab;
    DeleteVersionsTo 3; v7 Remove c; v8 nothing.  Then DeleteVersionsTo 7. *)
Definition x_kab : bytes := [97%N; 98%N].
Definition x_kc : bytes := [99%N].
Definition x_ka : bytes := [97%N].

Definition x_hist_leak : list hstep :=
  [ HVersion [];
    HVersion [LSet x_kab [1%N]; LSet x_kc [2%N]];
    HVersion [LSet x_kc [3%N]];
    HVersion [];
    HVersion [LDel x_kab; LDel x_kc];
    HVersion [LSet x_ka [4%N]; LSet x_kc [5%N]; LSet x_kab [6%N]];
    HPrune 3;
    HVersion [LDel x_kc];
    HVersion [] ].

(** what the stores hold along the leak history: branch row keys, orphan rows, pending orphans *)
Definition x_store_summary (hist : list hstep) : option (list nkey2 * list (nkey2 * Z) * list nkey2) :=
  match os_run sha256 false false 1 ostate_empty hist with
  | Some s => Some (map fst (branches (os_store s)), borphans (os_store s), os_pending s)
  | None => None
  end.

(** after v5 the only orphan row is 2.1@3 (3.1@5 is never written, nothing is pending); after
    the last deletion the branch row 3.1 is still there - as in the real database *)
Example x_hist_leak_example :
  x_store_summary (firstn 5 x_hist_leak) = Some ([(2, 1); (3, 1)], [((2, 1), 3)], []) /\
  x_store_summary x_hist_leak = Some ([(3, 1); (6, 1); (6, 2)], [((6, 1), 7)], []) /\
  x_store_summary (x_hist_leak ++ [HPrune 7]) = Some ([(3, 1); (6, 2)], [], []) /\
  no_loss sha256 1 ostate_empty x_hist_leak = false.
Proof. repeat split; vm_compute; reflexivity. Qed.

Definition x_leak_table := Eval vm_compute in table_of sha256 (run_strings 1 x_hist_leak).
Lemma x_leak_table_ok b : sha256 b = memo sha256 x_leak_table b.
Proof. revert b. apply memo_sound. vm_compute. reflexivity. Qed.

(** REFUTED (the statement of [prune_exact_partial] without [no_loss]): after the
    leak history and DeleteVersionsTo 7 (c = 7, earlier prune bound 3) the branch row 3.1 is left
    although no retained checkpoint (7, 8) reaches it - the last tree holding it is checkpoint
    4, its orphan row was never written.  A storage leak of the Go code; nothing needed is
    lost (the safety theorems of V2OrphansFacts.v hold). *)
Theorem prune_exact_refuted :
  exists hist s tr n c st' key row,
    os_run sha256 false false 1 ostate_empty hist = Some s /\
    os_trace sha256 false false 1 ostate_empty hist = Some tr /\
    prune_tree (os_store s) n = Some st' /\
    find_previous (ckpts (os_store s)) n = FPVal c /\
    In (key, row) (branches st') /\
    ~ exists v T, In (v, T) tr /\ Z.max (run_floor sha256 1 ostate_empty hist (-1)) c <= v /\ In key (okeys T).
Proof.
  exists x_hist_leak. eexists. eexists. exists 7, 7. eexists. exists (3, 1). eexists.
  rewrite (os_run_hext _ _ x_leak_table_ok), (os_trace_hext _ _ x_leak_table_ok),
    (run_floor_hext _ _ x_leak_table_ok).
  do 4 (split; [vm_compute; reflexivity|]).
  split; [left; reflexivity|].
  apply not_reached_check. vm_compute. reflexivity.
Qed.

Print Assumptions prune_exact_refuted.
Print Assumptions x_hist_leak_example.

(** the hypothesis of [prune_exact_partial] holds on the example history of V2OrphansFacts.v *)
Example x_hist_no_loss : no_loss sha256 2 ostate_empty x_hist = true.
Proof. vm_compute. reflexivity. Qed.
