(** Facts about V2Leaves.v: examples, the refutation of the unaligned leaf prune (the trial
    change to the Go code kept under /verif/seeded/C20c), soundness of leaf_orphan rows, the
    leaf pruner keeps every replay from a retained checkpoint and every current leaf row, and
    the refutation of exactness (a leak). *)
From Coq Require Import ZArith List Bool Lia.
From IAVL Require Import Bytes Varint ListFacts Tree MTree V2 V2Orphans Sha256.
From IAVL Require Import V2Leaves.
Import ListNotations.
Local Open Scope Z_scope.

(** * 0. Lists and the current-leaf map *)

Lemma key_eqb_eq a b : key_eqb a b = true <-> a = b.
Proof.
  unfold key_eqb. destruct a as [a1 a2], b as [b1 b2]. cbn [fst snd].
  rewrite andb_true_iff, !Z.eqb_eq. split; [intros [-> ->]; reflexivity|intros E; inversion E; auto].
Qed.

Lemma in_keys_iff k l : in_keys k l = true <-> In k l.
Proof.
  unfold in_keys. rewrite existsb_exists. split.
  - intros (x & I & E). apply key_eqb_eq in E. subst. exact I.
  - intros I. exists k. split; [exact I|apply key_eqb_eq; reflexivity].
Qed.

Lemma cur_del_In k c x : In x (cur_del k c) <-> In x c /\ fst x <> k.
Proof.
  unfold cur_del. rewrite filter_In. rewrite negb_true_iff, beq_false. split; intros [I N]; split; auto.
Qed.

Lemma cur_keys_del_incl k c nk : In nk (cur_keys (cur_del k c)) -> In nk (cur_keys c).
Proof.
  unfold cur_keys. rewrite !in_map_iff. intros (x & E & I). exists x. split; [exact E|].
  apply cur_del_In in I. apply I.
Qed.

Lemma cur_keys_del_nodup k c : NoDup (cur_keys c) -> NoDup (cur_keys (cur_del k c)).
Proof. apply NoDup_map_filter. Qed.

Lemma cur_keys_put k nk v c : cur_keys (cur_put k nk v c) = cur_keys (cur_del k c) ++ [nk].
Proof. unfold cur_put, cur_keys. rewrite map_app. reflexivity. Qed.

Lemma cur_find_In k c e : cur_find k c = Some e -> In (k, e) c.
Proof.
  induction c as [|[k' e'] c IH]; cbn [cur_find]; [discriminate|].
  destruct (beq k k') eqn:B.
  - intros E. injection E as ->. apply beq_true in B. subst. left. reflexivity.
  - intros E. right. apply IH. exact E.
Qed.

Lemma nodup_map_inj {A B} (f : A -> B) l a b :
  NoDup (map f l) -> In a l -> In b l -> f a = f b -> a = b.
Proof.
  induction l as [|x l IH]; cbn [map]; intros N Ia Ib E; [destruct Ia|].
  inversion N as [|? ? NI N']; subst. destruct Ia as [->|Ia], Ib as [->|Ib].
  - reflexivity.
  - exfalso. apply NI. rewrite E. apply in_map. exact Ib.
  - exfalso. apply NI. rewrite <- E. apply in_map. exact Ia.
  - apply IH; auto.
Qed.

Lemma cur_find_del_fresh k c nk v :
  NoDup (cur_keys c) -> cur_find k c = Some (nk, v) -> ~ In nk (cur_keys (cur_del k c)).
Proof.
  intros N F J. apply cur_find_In in F. unfold cur_keys in J. apply in_map_iff in J.
  destruct J as (x & E & I). apply cur_del_In in I. destruct I as [I Nk].
  assert (x = (k, (nk, v))) as ->.
  { apply (nodup_map_inj (fun x => fst (snd x)) c); auto. }
  apply Nk. reflexivity.
Qed.

Lemma cur_keys_In c k nk v : In (k, (nk, v)) c -> In nk (cur_keys c).
Proof. intros I. unfold cur_keys. apply in_map_iff. exists (k, (nk, v)). split; [reflexivity|exact I]. Qed.

Lemma get_leaf_In nk row l : NoDup (map fst l) -> In (nk, row) l -> get_leaf nk l = Some row.
Proof.
  induction l as [|[k r] l IH]; cbn [map fst get_leaf]; intros N I; [destruct I|].
  inversion N as [|? ? NI N']; subst. destruct I as [I|I].
  - inversion I; subst. replace (key_eqb nk nk) with true by (symmetry; apply key_eqb_eq; reflexivity).
    reflexivity.
  - destruct (key_eqb nk k) eqn:Q; [|auto]. apply key_eqb_eq in Q. subst. exfalso. apply NI.
    apply in_map_iff. exists (k, row). auto.
Qed.

(** * 1. The pruner *)

Lemma in_dead_keys (orph : list (nkey2 * Z)) c nk :
  in_keys nk (map fst (filter (fun o => snd o <=? c) orph)) = true <->
  exists at_, In (nk, at_) orph /\ at_ <= c.
Proof.
  rewrite in_keys_iff, in_map_iff. split.
  - intros ([nk' at_] & <- & I). apply filter_In in I. cbn [fst snd] in *. exists at_.
    rewrite <- Z.leb_le. exact I.
  - intros (at_ & I & L). exists (nk, at_). split; [reflexivity|]. apply filter_In.
    split; [exact I|apply Z.leb_le, L].
Qed.

(** the part of exactness that holds: the pruner removes exactly what the orphan rows name - a
    leaf row is deleted iff a [leaf_orphan] row with [at <= c] names it, no orphan row with
    [at <= c] and no [leaf_delete] row below [c] is left.  The full statement, "every leaf row
    left is in a replay range above the bound or is current in some version >= the bound", is
    refuted in section 5 ([prune_leaves_exact_refuted]). *)
Theorem prune_leaves_exact_partial st c :
  (forall r, In r (leaves st) ->
     (In r (leaves (prune_leaves_to st c)) <->
      ~ exists at_, In (fst r, at_) (lorphans st) /\ at_ <= c)) /\
  (forall nk at_, In (nk, at_) (lorphans (prune_leaves_to st c)) <-> In (nk, at_) (lorphans st) /\ c < at_) /\
  (forall d, In d (ldeletes (prune_leaves_to st c)) <-> In d (ldeletes st) /\ c <= fst (fst d)).
Proof.
  unfold prune_leaves_to; cbn [leaves lorphans ldeletes]. split; [|split].
  - intros r I. rewrite filter_In, negb_true_iff, <- not_true_iff_false, in_dead_keys. tauto.
  - intros nk at_. rewrite filter_In. cbn [snd]. rewrite negb_true_iff, Z.leb_gt. reflexivity.
  - intros d. rewrite filter_In, negb_true_iff, Z.ltb_ge. reflexivity.
Qed.
Print Assumptions prune_leaves_exact_partial.

Lemma raw_prune st c cc t :
  (forall nk at_, In (nk, at_) (lorphans st) -> fst nk < at_) -> c <= cc ->
  replay_raw (prune_leaves_to st c) cc t = replay_raw st cc t.
Proof.
  intros O L. unfold replay_raw. f_equal; unfold prune_leaves_to; cbn [leaves ldeletes];
    apply filter_filter_imp; intros x I R; apply andb_true_iff, proj1, Z.ltb_lt in R.
  - assert (K : In x (leaves (prune_leaves_to st c))).
    { apply (prune_leaves_exact_partial st c); [exact I|]. intros (at_ & J & La). apply O in J. lia. }
    apply filter_In in K. apply K.
  - apply negb_true_iff, Z.ltb_ge, Z.le_trans with cc; [exact L|apply Z.lt_le_incl, R].
Qed.

Lemma raw_save H st1 st2 v cur dels orph c t :
  replay_raw st1 c t = replay_raw st2 c t ->
  replay_raw (save_leaves H st1 v cur dels orph) c t = replay_raw (save_leaves H st2 v cur dels orph) c t.
Proof.
  unfold replay_raw, save_leaves; cbn [leaves ldeletes]. intros E. injection E as E1 E2.
  rewrite !filter_app, E1, E2. reflexivity.
Qed.

(** * 2. What one operation does to the working set *)

Definition with_store (s : lstate) (st : lstore) (fl : Z) : lstate :=
  LState (ls_cur s) (ls_version s) (ls_lseq s) (ls_dels s) (ls_orph s) (ls_dirty s) (ls_ckpts s) st fl.

Lemma with_apply s st fl o : ls_apply (with_store s st fl) o = with_store (ls_apply s o) st fl.
Proof.
  destruct o as [k v|k]; cbn [ls_apply with_store ls_cur ls_version ls_lseq ls_dels ls_orph ls_dirty
                              ls_ckpts ls_store ls_floor]; [reflexivity|].
  destruct (cur_find k (ls_cur s)) as [[nk v0]|]; [|reflexivity].
  destruct (fst nk =? ls_version s + 1); reflexivity.
Qed.

Lemma with_apply_all ops : forall s st fl,
  ls_apply_all (with_store s st fl) ops = with_store (ls_apply_all s ops) st fl.
Proof.
  unfold ls_apply_all. induction ops as [|o ops IH]; cbn [fold_left]; intros s st fl; [reflexivity|].
  rewrite with_apply. apply IH.
Qed.

Lemma apply_frame s o :
  ls_version (ls_apply s o) = ls_version s /\ ls_store (ls_apply s o) = ls_store s /\
  ls_floor (ls_apply s o) = ls_floor s /\ ls_lseq s <= ls_lseq (ls_apply s o).
Proof.
  destruct o as [k v|k]; cbn [ls_apply]; [cbn [ls_lseq]; repeat split; lia|].
  destruct (cur_find k (ls_cur s)) as [[nk v0]|]; [|repeat split; lia].
  destruct (fst nk =? ls_version s + 1); cbn [ls_lseq]; repeat split; lia.
Qed.

Lemma apply_all_store ops s : ls_store (ls_apply_all s ops) = ls_store s.
Proof.
  apply (fold_left_inv ls_apply (fun s' => ls_store s' = ls_store s)); [|reflexivity].
  intros a o <-. apply apply_frame.
Qed.

Lemma apply_cur s o x :
  In x (ls_cur (ls_apply s o)) ->
  In x (ls_cur s) \/ fst (snd x) = (ls_version s + 1, leaf_seq_start + ls_lseq (ls_apply s o)).
Proof.
  destruct o as [k v|k]; cbn [ls_apply].
  - cbn [ls_cur ls_lseq]. unfold cur_put. rewrite in_snoc, cur_del_In.
    intros [[I _]| ->]; [left; exact I|right; reflexivity].
  - destruct (cur_find k (ls_cur s)) as [[nk0 v0]|]; [|auto].
    destruct (fst nk0 =? ls_version s + 1); cbn [ls_cur]; rewrite cur_del_In; intros [I _]; left; exact I.
Qed.

Lemma apply_cur_keys s o nk :
  In nk (cur_keys (ls_cur (ls_apply s o))) ->
  In nk (cur_keys (ls_cur s)) \/ nk = (ls_version s + 1, leaf_seq_start + ls_lseq (ls_apply s o)).
Proof.
  unfold cur_keys. rewrite !in_map_iff. intros (x & <- & I). apply apply_cur in I.
  destruct I as [I|I]; [left; exists x; auto|right; exact I].
Qed.

Lemma apply_nodup s o :
  NoDup (cur_keys (ls_cur s)) ->
  ~ In (ls_version s + 1, leaf_seq_start + (ls_lseq s + 1)) (cur_keys (ls_cur s)) ->
  NoDup (cur_keys (ls_cur (ls_apply s o))).
Proof.
  intros N F. destruct o as [k v|k]; cbn [ls_apply].
  - cbn [ls_cur]. rewrite cur_keys_put. apply NoDup_snoc; [apply cur_keys_del_nodup, N|].
    intros J. apply F, (cur_keys_del_incl k), J.
  - destruct (cur_find k (ls_cur s)) as [[nk0 v0]|]; [|exact N].
    destruct (fst nk0 =? ls_version s + 1); cbn [ls_cur]; apply cur_keys_del_nodup, N.
Qed.

Lemma leaf_orphan_of_In wv d nk x : In x (leaf_orphan_of wv d nk) -> x = nk /\ fst nk <> wv.
Proof.
  unfold leaf_orphan_of, leaf_dirty. destruct (fst nk =? wv) eqn:Q; cbn [orb]; [intros []|].
  destruct (okey_eqb d nk); [intros []|]. intros [<-|[]]. split; [reflexivity|apply Z.eqb_neq, Q].
Qed.

(** a new entry of [tree.leafOrphans] is a leaf of an earlier version that has just left the
    working set *)
Lemma apply_orph s o nk :
  NoDup (cur_keys (ls_cur s)) -> In nk (ls_orph (ls_apply s o)) ->
  In nk (ls_orph s) \/
  (In nk (cur_keys (ls_cur s)) /\ fst nk <> ls_version s + 1 /\
   ~ In nk (cur_keys (ls_cur (ls_apply s o)))).
Proof.
  intros N. destruct o as [k v|k]; cbn [ls_apply].
  - cbn [ls_orph ls_cur]. rewrite in_app_iff. intros [J|J]; [left; exact J|right].
    destruct (cur_find k (ls_cur s)) as [[nk0 v0]|] eqn:F; [|destruct J].
    apply leaf_orphan_of_In in J. destruct J as [-> Q].
    split; [apply cur_find_In in F; apply (cur_keys_In _ _ _ _ F)|]. split; [exact Q|].
    rewrite cur_keys_put, in_snoc. intros [J| ->]; [|apply Q; reflexivity].
    revert J. apply (cur_find_del_fresh k _ nk0 v0); assumption.
  - destruct (cur_find k (ls_cur s)) as [[nk0 v0]|]; [|auto].
    destruct (fst nk0 =? ls_version s + 1); cbn [ls_orph]; auto.
Qed.

(** * 3. The invariant of a run *)

Section Rows.
  Variable H : bytes -> bytes.

  Definition row_of_entry (k : bytes) (nk : nkey2) (v : bytes) : nkey2 * leafrow :=
    (nk, LeafRow k v (H (leaf_preimage H (fst nk) k v))).

  (** [s] is the state, [tr] the current leaves after every version so far.  Node keys are
      unique and bounded by the version and the sequence counter; what is recorded as orphaned
      ([ls_orph] in this version, a [leaf_orphan] row before) is of an earlier version and has
      left the working set for good, but was a current leaf from its version on; every leaf
      written before this version has its row, and so has every leaf current in a version from
      [ls_floor s] on; row keys are unique; the trace has every version. *)
  Record linv (s : lstate) (tr : ltrace) : Prop := {
    cur_nodup : NoDup (cur_keys (ls_cur s));
    cur_bound : forall nk, In nk (cur_keys (ls_cur s)) ->
      fst nk <= ls_version s + 1 /\ (fst nk = ls_version s + 1 -> snd nk <= leaf_seq_start + ls_lseq s);
    cur_stored : forall k nk v, In (k, (nk, v)) (ls_cur s) -> fst nk <= ls_version s ->
      In (row_of_entry k nk v) (leaves (ls_store s));
    cur_live : forall nk w c, In nk (cur_keys (ls_cur s)) -> fst nk <= ls_version s ->
      In (w, c) tr -> fst nk <= w -> In nk (cur_keys c);
    orph_old : forall nk, In nk (ls_orph s) -> fst nk <= ls_version s /\ ~ In nk (cur_keys (ls_cur s));
    orph_live : forall nk w c, In nk (ls_orph s) -> In (w, c) tr -> fst nk <= w -> In nk (cur_keys c);
    row_old : forall nk at_, In (nk, at_) (lorphans (ls_store s)) ->
      fst nk < at_ <= ls_version s /\ ~ In nk (cur_keys (ls_cur s));
    row_live : forall nk at_ w c, In (nk, at_) (lorphans (ls_store s)) -> In (w, c) tr ->
      fst nk <= w < at_ -> In nk (cur_keys c);
    row_dead : forall nk at_ w c, In (nk, at_) (lorphans (ls_store s)) -> In (w, c) tr -> at_ <= w ->
      ~ In nk (cur_keys c);
    rows_nodup : NoDup (map fst (leaves (ls_store s)));
    rows_bound : forall r, In r (leaves (ls_store s)) -> fst (fst r) <= ls_version s;
    tr_stored : forall w c k nk v, In (w, c) tr -> ls_floor s <= w -> In (k, (nk, v)) c ->
      In (row_of_entry k nk v) (leaves (ls_store s));
    tr_bound : forall w c, In (w, c) tr -> w <= ls_version s;
    tr_total : forall w, 1 <= w <= ls_version s -> exists c, In (w, c) tr
  }.
End Rows.

Arguments cur_nodup {H s tr}.
Arguments cur_bound {H s tr}.
Arguments cur_stored {H s tr}.
Arguments cur_live {H s tr}.
Arguments orph_old {H s tr}.
Arguments orph_live {H s tr}.
Arguments row_old {H s tr}.
Arguments row_live {H s tr}.
Arguments row_dead {H s tr}.
Arguments rows_nodup {H s tr}.
Arguments rows_bound {H s tr}.
Arguments tr_stored {H s tr}.
Arguments tr_bound {H s tr}.
Arguments tr_total {H s tr}.

Section Inv.
  Variable H : bytes -> bytes.

  Lemma new_rows_In v c k nk val :
    In (k, (nk, val)) c -> fst nk = v -> In (row_of_entry H k nk val) (new_leaf_rows H v c).
  Proof.
    intros I E. unfold new_leaf_rows, row_of_entry. apply in_map_iff. exists (k, (nk, val)).
    cbn [fst snd]. split; [reflexivity|]. apply filter_In. split; [exact I|]. cbn [fst snd].
    apply Z.eqb_eq. exact E.
  Qed.

  Lemma new_rows_keys v c : map fst (new_leaf_rows H v c) =
    map (fun x => fst (snd x)) (filter (fun x => fst (fst (snd x)) =? v) c).
  Proof. unfold new_leaf_rows. rewrite map_map. reflexivity. Qed.

  Lemma new_rows_ver v c r : In r (new_leaf_rows H v c) -> fst (fst r) = v.
  Proof.
    unfold new_leaf_rows. rewrite in_map_iff. intros (x & <- & I). apply filter_In in I.
    apply Z.eqb_eq, I.
  Qed.

  Lemma save_orph_In st v c dels orph nk at_ :
    In (nk, at_) (lorphans (save_leaves H st v c dels orph)) ->
    In (nk, at_) (lorphans st) \/ (In nk orph /\ at_ = v).
  Proof.
    cbn [save_leaves lorphans]. rewrite in_app_iff, in_map_iff.
    intros [I|(x & E & I)]; [left; exact I|right]. inversion E; subst. auto.
  Qed.

  Lemma linv_empty : linv H ls_empty [].
  Proof. constructor; cbn; intros; try contradiction; try lia; constructor. Qed.

  Lemma apply_linv s tr o : linv H s tr -> linv H (ls_apply s o) tr.
  Proof.
    intros I. destruct (apply_frame s o) as (Ev & Es & Ef & Lq).
    (* a key of this version or older that is out of the working set stays out *)
    assert (Out : forall nk, fst nk <= ls_version s -> ~ In nk (cur_keys (ls_cur s)) ->
                    ~ In nk (cur_keys (ls_cur (ls_apply s o)))).
    { intros nk L N J. apply apply_cur_keys in J. destruct J as [J| ->]; [auto|cbn [fst] in L; lia]. }
    (* the fields that do not mention the working set are those of [I] *)
    constructor; rewrite ?Ev, ?Es, ?Ef; try apply I.
    - apply apply_nodup; [exact (cur_nodup I)|]. intros J. apply (cur_bound I) in J. cbn [fst snd] in J. lia.
    - intros nk J. apply apply_cur_keys in J. destruct J as [J| ->]; [|cbn [fst snd]; lia].
      apply (cur_bound I) in J. lia.
    - intros k nk v J L. apply apply_cur in J. destruct J as [J|J]; [apply (cur_stored I), L; exact J|].
      cbn [fst snd] in J. subst nk. cbn [fst] in L. lia.
    - intros nk w c J L. apply apply_cur_keys in J. destruct J as [J| ->]; [|cbn [fst] in L; lia].
      apply (cur_live I), L. exact J.
    - intros nk J. apply apply_orph in J; [|exact (cur_nodup I)]. destruct J as [J|(J & N & F)].
      + apply (orph_old I) in J. split; [apply J|apply Out; apply J].
      + apply (cur_bound I) in J. split; [lia|exact F].
    - intros nk w c J. apply apply_orph in J; [|exact (cur_nodup I)].
      destruct J as [J|(J & N & _)]; [apply (orph_live I), J|].
      apply (cur_live I); [exact J|]. apply (cur_bound I) in J. lia.
    - intros nk at_ J. apply (row_old I) in J. split; [apply J|apply Out; [lia|apply J]].
  Qed.

  Lemma apply_all_linv ops s tr : linv H s tr -> linv H (ls_apply_all s ops) tr.
  Proof. apply (fold_left_inv ls_apply (fun s => linv H s tr)). intros a o. apply apply_linv. Qed.

  Lemma save_linv interval s tr :
    linv H s tr -> linv H (ls_save H interval s) (tr ++ [(ls_version s + 1, ls_cur s)]).
  Proof.
    intros I.
    assert (St : forall k nk v, In (k, (nk, v)) (ls_cur s) ->
              In (row_of_entry H k nk v)
                 (leaves (save_leaves H (ls_store s) (ls_version s + 1) (ls_cur s) (ls_dels s) (ls_orph s)))).
    { intros k nk v J. cbn [save_leaves leaves]. apply in_app_iff.
      pose proof (cur_keys_In _ _ _ _ J) as B. apply (cur_bound I) in B.
      destruct (Z.eq_dec (fst nk) (ls_version s + 1)) as [Q|Q].
      - right. apply new_rows_In; auto.
      - left. apply (cur_stored I); [exact J|lia]. }
    constructor; cbn [ls_save ls_cur ls_version ls_lseq ls_orph ls_store ls_floor].
    - exact (cur_nodup I).
    - intros nk J. apply (cur_bound I) in J. lia.
    - intros k nk v J _. apply St, J.
    - intros nk w c J L Jt Lw. apply in_snoc in Jt. destruct Jt as [Jt|Jt]; [|inversion Jt; subst; exact J].
      apply (cur_live I nk w c); auto. apply (tr_bound I) in Jt. lia.
    - intros nk [].
    - intros nk w c [].
    - intros nk at_ J. apply save_orph_In in J.
      destruct J as [J|[J ->]]; [apply (row_old I) in J|apply (orph_old I) in J]; (split; [lia|apply J]).
    - intros nk at_ w c J Jt Lw. apply save_orph_In in J. apply in_snoc in Jt.
      destruct J as [J|[J ->]], Jt as [Jt|Jt]; try (inversion Jt; subst w c).
      + exact (row_live I nk at_ w c J Jt Lw).
      + apply (row_old I) in J. lia.
      + apply (orph_live I nk w c J Jt). lia.
      + lia.
    - intros nk at_ w c J Jt L. apply save_orph_In in J. apply in_snoc in Jt.
      destruct Jt as [Jt|Jt]; [|inversion Jt; subst w c].
      + destruct J as [J|[J ->]]; [exact (row_dead I nk at_ w c J Jt L)|]. apply (tr_bound I) in Jt. lia.
      + destruct J as [J|[J _]]; [apply (row_old I) in J|apply (orph_old I) in J]; apply J.
    - cbn [save_leaves leaves]. rewrite map_app. apply NoDup_app_intro; [exact (rows_nodup I)| |].
      + rewrite new_rows_keys. apply NoDup_map_filter, (cur_nodup I).
      + intros x J J'. apply in_map_iff in J, J'. destruct J as (r & <- & J), J' as (r' & E & J').
        apply (rows_bound I) in J. apply new_rows_ver in J'. rewrite <- E in J. lia.
    - intros r J. cbn [save_leaves leaves] in J. apply in_app_iff in J.
      destruct J as [J|J]; [apply (rows_bound I) in J|apply new_rows_ver in J]; lia.
    - intros w c k nk v J L Jc. apply in_snoc in J. destruct J as [J|J]; [|inversion J; subst; apply St, Jc].
      cbn [save_leaves leaves]. apply in_app_iff. left. exact (tr_stored I w c k nk v J L Jc).
    - intros w c J. apply in_snoc in J. destruct J as [J|J]; [apply (tr_bound I) in J|inversion J]; lia.
    - intros w Lw. destruct (Z.eq_dec w (ls_version s + 1)) as [->|N].
      + eexists. apply in_snoc. right. reflexivity.
      + destruct (tr_total I w ltac:(lia)) as (c0 & J). exists c0. apply in_snoc. left. exact J.
  Qed.

  Lemma shrink_linv s tr st' c :
    linv H s tr -> incl (lorphans st') (lorphans (ls_store s)) ->
    (exists p, leaves st' = filter p (leaves (ls_store s))) ->
    (forall r, In r (leaves (ls_store s)) ->
       ~ (exists at_, In (fst r, at_) (lorphans (ls_store s)) /\ at_ <= c) -> In r (leaves st')) ->
    linv H (with_store s st' (Z.max (ls_floor s) c)) tr.
  Proof.
    intros I Io (p & Ep) Keep.
    (* the fields that mention neither the store nor the bound are those of [I] *)
    constructor; cbn [with_store ls_cur ls_version ls_lseq ls_orph ls_store ls_floor]; try apply I.
    - intros k nk v J L. apply Keep; [apply (cur_stored I), L; exact J|]. intros (at_ & Jo & _).
      apply (row_old I) in Jo. apply Jo, (cur_keys_In _ k nk v), J.
    - intros nk at_ J. apply (row_old I), Io, J.
    - intros nk at_ w c0 J. apply (row_live I), Io, J.
    - intros nk at_ w c0 J. apply (row_dead I), Io, J.
    - rewrite Ep. apply NoDup_map_filter, (rows_nodup I).
    - intros r J. rewrite Ep in J. apply filter_In in J. apply (rows_bound I), J.
    - intros w c0 k nk v J L Jc. apply Keep; [apply (tr_stored I w c0); auto; lia|].
      intros (at_ & Jo & La). apply (row_dead I nk at_ w c0 Jo J); [lia|].
      apply (cur_keys_In _ k nk v), Jc.
  Qed.

  Lemma ls_step_cases interval s tr e s' tr' :
    ls_step H false interval (s, tr) e = Some (s', tr') ->
    (exists ops, e = HVersion ops /\ s' = ls_save H interval (ls_apply_all s ops) /\
       tr' = tr ++ [(ls_version (ls_apply_all s ops) + 1, ls_cur (ls_apply_all s ops))]) \/
    (exists n c, e = HPrune n /\ find_previous (ls_ckpts s) n = FPVal c /\
       s' = with_store s (if c =? -1 then ls_store s else prune_leaves_to (ls_store s) c)
                       (Z.max (ls_floor s) c) /\ tr' = tr).
  Proof.
    destruct e as [ops|n]; cbn [ls_step]; intros S.
    - left. exists ops. injection S as <- <-. auto.
    - right. unfold prune_leaves_b in S.
      destruct (find_previous (ls_ckpts s) n) as [c| |] eqn:E; try discriminate. exists n, c.
      destruct (c =? -1) eqn:Q; injection S as <- <-; [apply Z.eqb_eq in Q; subst c|]; auto.
  Qed.

  Lemma step_linv interval s tr e s' tr' :
    linv H s tr -> ls_step H false interval (s, tr) e = Some (s', tr') -> linv H s' tr'.
  Proof.
    intros I S.
    destruct (ls_step_cases _ _ _ _ _ _ S) as [(ops & _ & -> & ->)|(n & c & _ & _ & -> & ->)].
    - apply save_linv, apply_all_linv, I.
    - destruct (prune_leaves_exact_partial (ls_store s) c) as (Pl & Po & _).
      apply shrink_linv; [exact I| | |]; destruct (c =? -1).
      + apply incl_refl.
      + intros [nk at_] J. apply Po in J. apply J.
      + exists (fun _ => true). symmetry. apply filter_all. reflexivity.
      + eexists. reflexivity.
      + auto.
      + intros r J. apply Pl, J.
  Qed.

  Lemma run_app interval h1 : forall h2 str,
    ls_run_tr H false interval str (h1 ++ h2) =
    match ls_run_tr H false interval str h1 with
    | Some str' => ls_run_tr H false interval str' h2
    | None => None
    end.
  Proof.
    induction h1 as [|e h1 IH]; intros h2 str; cbn [app ls_run_tr]; [reflexivity|].
    destruct (ls_step H false interval str e) as [str1|]; [apply IH|reflexivity].
  Qed.

  Lemma ls_run_ind interval (P : list hstep -> lstate -> ltrace -> Prop) s0 tr0 :
    P [] s0 tr0 ->
    (forall h s tr e s' tr', ls_run_tr H false interval (s0, tr0) h = Some (s, tr) -> P h s tr ->
       ls_step H false interval (s, tr) e = Some (s', tr') -> P (h ++ [e]) s' tr') ->
    forall hist s tr, ls_run_tr H false interval (s0, tr0) hist = Some (s, tr) -> P hist s tr.
  Proof.
    intros P0 PS hist. induction hist as [|e h IH] using rev_ind; intros s tr R.
    - injection R as <- <-. exact P0.
    - rewrite run_app in R.
      destruct (ls_run_tr H false interval (s0, tr0) h) as [[s1 tr1]|] eqn:R1; [|discriminate].
      cbn [ls_run_tr] in R. destruct (ls_step H false interval (s1, tr1) e) as [[s2 tr2]|] eqn:S; [|discriminate].
      injection R as <- <-. apply (PS h s1 tr1); auto.
  Qed.

  Lemma run_linv interval s0 tr0 hist s tr :
    linv H s0 tr0 -> ls_run_tr H false interval (s0, tr0) hist = Some (s, tr) -> linv H s tr.
  Proof.
    intros I0. revert hist s tr. apply (ls_run_ind interval (fun _ => linv H)); [exact I0|].
    intros h s tr e s' tr' _. apply step_linv.
  Qed.

  Lemma with_save interval s st fl :
    ls_save H interval (with_store s st fl) =
    (with_store (ls_save H interval s)
               (save_leaves H st (ls_version s + 1) (ls_cur s) (ls_dels s) (ls_orph s)) fl).
  Proof. reflexivity. Qed.

  Lemma run_sim interval s0 tr0 hist s tr :
    linv H s0 tr0 -> ls_run_tr H false interval (s0, tr0) hist = Some (s, tr) ->
    exists sf st fl,
      ls_run_tr H false interval (s0, tr0) (no_prunes hist) = Some (sf, tr) /\
      s = with_store sf st fl /\
      forall c t, fl <= c -> replay_raw st c t = replay_raw (ls_store sf) c t.
  Proof.
    intros I0. revert hist s tr. apply ls_run_ind.
    - exists s0, (ls_store s0), (ls_floor s0). destruct s0. auto.
    - intros h s tr e s' tr' Rh (sf & st & fl & Rf & -> & A) S.
      pose proof (run_linv _ _ _ _ _ _ I0 Rh) as I.
      unfold no_prunes. rewrite filter_app. fold (no_prunes h). rewrite run_app, Rf.
      destruct (ls_step_cases _ _ _ _ _ _ S) as [(ops & -> & -> & ->)|(n & c & -> & _ & -> & ->)];
        cbn [filter ls_run_tr ls_step].
      + rewrite with_apply_all, with_save. eexists _, _, _. split; [reflexivity|]. split; [reflexivity|].
        intros c t L. apply raw_save. rewrite apply_all_store. apply A, L.
      + exists sf. eexists _, _. split; [reflexivity|]. split; [reflexivity|].
        cbn [with_store ls_store ls_floor]. intros cc t L.
        destruct (c =? -1); [apply A; lia|]. rewrite raw_prune; [apply A; lia| |lia].
        intros nk at_ J. apply (row_old I) in J. apply J.
  Qed.
End Inv.

(** * 4. Theorems *)

(** Soundness of the orphan rows.  A [leaf_orphan] row [((v,s), at)] in the store after any history: [v < at],
    the leaf [(v,s)] is a current leaf (of the trace of the run: the leaves of the tree after
    every version) in every version of [[v, at)] and in no version from [at] on. *)
Theorem leaf_orphans_sound H interval hist s tr nk at_ :
  ls_run_tr H false interval (ls_empty, []) hist = Some (s, tr) ->
  In (nk, at_) (lorphans (ls_store s)) ->
  fst nk < at_ <= ls_version s /\
  (forall w c, In (w, c) tr -> fst nk <= w < at_ -> In nk (cur_keys c)) /\
  (forall w c, In (w, c) tr -> at_ <= w -> ~ In nk (cur_keys c)).
Proof.
  intros R J. pose proof (run_linv H interval _ _ hist s tr (linv_empty H) R) as I.
  split; [apply (row_old I), J|].
  split; intros w c; [apply (row_live I), J|apply (row_dead I), J].
Qed.
Print Assumptions leaf_orphans_sound.

(** The pruner loses nothing a retained checkpoint needs.  After ANY history (versions and prunes, in any order; take a history
    ending with the prune of interest), with [ls_floor s] the largest aligned bound
    [FindPrevious(n)] any prune used: the trace of current leaves is that of the uninterrupted
    run; for every [c >= ls_floor s] (in particular every retained checkpoint) and every target
    [t] the replayed rows of [(c, t]] are exactly those of the uninterrupted run; and every
    leaf that is current in a version [w >= ls_floor s] (in particular in a retained
    checkpoint tree) still has its row. *)
Theorem prune_leaves_keeps_replay H interval hist s tr :
  ls_run_tr H false interval (ls_empty, []) hist = Some (s, tr) ->
  exists sf,
    ls_run_tr H false interval (ls_empty, []) (no_prunes hist) = Some (sf, tr) /\
    ls_cur sf = ls_cur s /\ ls_version sf = ls_version s /\ ls_ckpts sf = ls_ckpts s /\
    (forall c t, ls_floor s <= c -> replay (ls_store s) c t = replay (ls_store sf) c t) /\
    (forall w cur k nk v, In (w, cur) tr -> ls_floor s <= w -> In (k, (nk, v)) cur ->
       In (row_of_entry H k nk v) (leaves (ls_store s))).
Proof.
  intros R. pose proof (run_linv H interval _ _ hist s tr (linv_empty H) R) as I.
  destruct (run_sim H interval _ _ hist s tr (linv_empty H) R) as (sf & st & fl & Rf & -> & A).
  exists sf. split; [exact Rf|]. cbn [with_store ls_cur ls_version ls_ckpts ls_store ls_floor] in *.
  repeat split; [|exact (tr_stored I)].
  intros c t L. unfold replay. rewrite (A c t L). reflexivity.
Qed.
Print Assumptions prune_leaves_keeps_replay.

(** the trace has every version of the run; [leaf] has one row per node key, so [getLeaf] of a
    leaf current at a version [>= ls_floor s] returns exactly its row *)
Theorem run_trace_and_getleaf H interval hist s tr :
  ls_run_tr H false interval (ls_empty, []) hist = Some (s, tr) ->
  (forall w, 1 <= w <= ls_version s -> exists c, In (w, c) tr) /\
  NoDup (map fst (leaves (ls_store s))) /\
  (forall w cur k nk v, In (w, cur) tr -> ls_floor s <= w -> In (k, (nk, v)) cur ->
     get_leaf nk (leaves (ls_store s)) = Some (LeafRow k v (H (leaf_preimage H (fst nk) k v)))).
Proof.
  intros R. pose proof (run_linv H interval _ _ hist s tr (linv_empty H) R) as I.
  split; [exact (tr_total I)|]. split; [exact (rows_nodup I)|]. intros w cur k nk v J L Jc.
  apply get_leaf_In; [exact (rows_nodup I)|]. exact (tr_stored I w cur k nk v J L Jc).
Qed.
Print Assumptions run_trace_and_getleaf.

Lemma prune_step_spec H interval s tr n c :
  find_previous (ls_ckpts s) n = FPVal c ->
  exists s', ls_step H false interval (s, tr) (HPrune n) = Some (s', tr) /\
    prune_leaves (ls_ckpts s) (ls_store s) n = Some (ls_store s') /\
    ls_floor s' = Z.max (ls_floor s) c /\
    ls_store s' = (if c =? -1 then ls_store s else prune_leaves_to (ls_store s) c).
Proof.
  intros E. cbn [ls_step]. unfold prune_leaves, prune_leaves_b. rewrite E.
  destruct (c =? -1) eqn:Q; eexists; (split; [reflexivity|]); cbn [option_map fst ls_store ls_floor]; auto.
  apply Z.eqb_eq in Q. subst. auto.
Qed.

(** [prune_leaves_keeps_replay] in the shape "after any history, then [prune_leaves]".
    After any history (with earlier prunes), [prune_leaves] with [c = find_previous cks n]:
    for every [c' >= c] (and >= the bounds of the earlier prunes; every retained checkpoint
    is) and every target [t], the rows replayed for [(c', t]] are exactly those of the
    uninterrupted run, and every leaf current in a version [w >= c] (same proviso; in
    particular in a retained checkpoint tree) is still returned by [get_leaf]. *)
Theorem prune_leaves_keeps_replay_last H interval hist s0 tr n c st' :
  ls_run_tr H false interval (ls_empty, []) hist = Some (s0, tr) ->
  find_previous (ls_ckpts s0) n = FPVal c ->
  prune_leaves (ls_ckpts s0) (ls_store s0) n = Some st' ->
  exists sf,
    ls_run_tr H false interval (ls_empty, []) (no_prunes hist) = Some (sf, tr) /\
    (forall c' t, Z.max (ls_floor s0) c <= c' -> replay st' c' t = replay (ls_store sf) c' t) /\
    (forall w cur k nk v, In (w, cur) tr -> Z.max (ls_floor s0) c <= w -> In (k, (nk, v)) cur ->
       get_leaf nk (leaves st') = Some (LeafRow k v (H (leaf_preimage H (fst nk) k v)))).
Proof.
  intros R E P.
  destruct (prune_step_spec H interval s0 tr n c E) as (s1 & S & P1 & F1 & _).
  rewrite P in P1. injection P1 as ->.
  assert (R1 : ls_run_tr H false interval (ls_empty, []) (hist ++ [HPrune n]) = Some (s1, tr)).
  { rewrite run_app, R. cbn [ls_run_tr]. rewrite S. reflexivity. }
  destruct (prune_leaves_keeps_replay H interval _ _ _ R1) as (sf & Rf & _ & _ & _ & A & _).
  destruct (run_trace_and_getleaf H interval _ _ _ R1) as (_ & _ & G).
  exists sf. split.
  - unfold no_prunes in Rf |- *. rewrite filter_app in Rf. cbn [filter] in Rf. rewrite app_nil_r in Rf. exact Rf.
  - rewrite F1 in A, G. split; [exact A|exact G].
Qed.
Print Assumptions prune_leaves_keeps_replay_last.

(** * 5. Examples (SHA-256) and refutations *)

Definition xK (n : N) : bytes := [n].

(** 9 versions, checkpoint interval 4 (checkpoints 1, 5, 9).  Updates of committed leaves
    (key 1 in versions 2, 3, 6; key 3 in 4), removals of a present key (2 in version 2, 4 in
    5, 5 in 7) and of absent keys (20 in version 2), a key set and removed in ONE version
    (6 in version 3: the leaf takes sequence 2, no [leaf] row, no [leaf_delete] row, the
    sequence is not reused: version 3 has rows 1 and 3 - NOT excluded, nothing is assumed
    about the operations), a key re-created after its removal (2 in version 7), and two
    prunes: DeleteVersionsTo(4) (aligned to 1) and DeleteVersionsTo(6) (aligned to 5). *)
Definition x_hist : list hstep :=
  [ HVersion [LSet (xK 1) (xK 11); LSet (xK 2) (xK 12); LSet (xK 3) (xK 13); LSet (xK 4) (xK 14)];
    HVersion [LSet (xK 1) (xK 21); LDel (xK 2); LDel (xK 20)];
    HVersion [LSet (xK 5) (xK 15); LSet (xK 6) (xK 16); LDel (xK 6); LSet (xK 1) (xK 31)];
    HVersion [LSet (xK 3) (xK 23)];
    HPrune 4;
    HVersion [LSet (xK 7) (xK 17); LDel (xK 4)];
    HVersion [LSet (xK 1) (xK 41)];
    HVersion [LDel (xK 5); LSet (xK 2) (xK 22)];
    HPrune 6;
    HVersion [LSet (xK 8) (xK 18)];
    HVersion [LSet (xK 9) (xK 19)] ].

Definition x_view (s : lstate) :=
  (map fst (leaves (ls_store s)), ldeletes (ls_store s), lorphans (ls_store s), ls_ckpts s, ls_floor s).

Definition sq (n : Z) : Z := leaf_seq_start + n.

Example x_rows_v4 :
  option_map x_view (ls_run sha256 false 4 ls_empty (firstn 4 x_hist)) =
  Some ([(1, sq 1); (1, sq 2); (1, sq 3); (1, sq 4); (2, sq 1); (3, sq 1); (3, sq 3); (4, sq 1)],
        [((2, sq 2), xK 2)],
        [((1, sq 1), 2); ((2, sq 1), 3); ((1, sq 3), 4)], [1], -1).
Proof. vm_compute. reflexivity. Qed.

(** DeleteVersionsTo(4): aligned to checkpoint 1, no orphan row has [at <= 1]: nothing deleted *)
Example x_rows_prune4 :
  option_map x_view (ls_run sha256 false 4 ls_empty (firstn 5 x_hist)) =
  Some ([(1, sq 1); (1, sq 2); (1, sq 3); (1, sq 4); (2, sq 1); (3, sq 1); (3, sq 3); (4, sq 1)],
        [((2, sq 2), xK 2)],
        [((1, sq 1), 2); ((2, sq 1), 3); ((1, sq 3), 4)], [1], 1).
Proof. vm_compute. reflexivity. Qed.

(** before and after DeleteVersionsTo(6) (aligned to checkpoint 5) *)
Example x_rows_v7 :
  option_map x_view (ls_run sha256 false 4 ls_empty (firstn 8 x_hist)) =
  Some ([(1, sq 1); (1, sq 2); (1, sq 3); (1, sq 4); (2, sq 1); (3, sq 1); (3, sq 3); (4, sq 1);
         (5, sq 1); (6, sq 1); (7, sq 2)],
        [((2, sq 2), xK 2); ((5, sq 2), xK 4); ((7, sq 1), xK 5)],
        [((1, sq 1), 2); ((2, sq 1), 3); ((1, sq 3), 4); ((3, sq 3), 6)], [1; 5], 1).
Proof. vm_compute. reflexivity. Qed.

Example x_rows_prune6 :
  option_map x_view (ls_run sha256 false 4 ls_empty (firstn 9 x_hist)) =
  Some ([(1, sq 2); (1, sq 4); (3, sq 1); (3, sq 3); (4, sq 1); (5, sq 1); (6, sq 1); (7, sq 2)],
        [((5, sq 2), xK 4); ((7, sq 1), xK 5)],
        [((3, sq 3), 6)], [1; 5], 5).
Proof. vm_compute. reflexivity. Qed.

Example x_rows_end :
  option_map x_view (ls_run sha256 false 4 ls_empty x_hist) =
  Some ([(1, sq 2); (1, sq 4); (3, sq 1); (3, sq 3); (4, sq 1); (5, sq 1); (6, sq 1); (7, sq 2);
         (8, sq 1); (9, sq 1)],
        [((5, sq 2), xK 4); ((7, sq 1), xK 5)],
        [((3, sq 3), 6)], [1; 5; 9], 5).
Proof. vm_compute. reflexivity. Qed.

Example x_leaf_row :
  option_map (fun s => get_leaf (1, sq 1) (leaves (ls_store s))) (ls_run sha256 false 4 ls_empty (firstn 1 x_hist)) =
  Some (Some (LeafRow (xK 1) (xK 11) (sha256 (leaf_preimage sha256 1 (xK 1) (xK 11))))).
Proof. vm_compute. reflexivity. Qed.

Example x_replay_5_9 :
  option_map (fun s => replay (ls_store s) 5 9) (ls_run sha256 false 4 ls_empty x_hist) =
  Some [((6, sq 1), LSet (xK 1) (xK 41)); ((7, sq 1), LDel (xK 5)); ((7, sq 2), LSet (xK 2) (xK 22));
        ((8, sq 1), LSet (xK 8) (xK 18)); ((9, sq 1), LSet (xK 9) (xK 19))].
Proof. vm_compute. reflexivity. Qed.

(** TIES.  (a) the current leaves of this model are the leaves of the tree of
    [V2Orphans.os_run] on the same history; (b) the per-version rows of the uninterrupted run
    are exactly [V2.v]'s [db_log] (so V2.v's replay theorems speak about these rows). *)
Example x_tree_tie :
  match ls_run sha256 false 4 ls_empty x_hist, os_run sha256 false false 4 ostate_empty x_hist with
  | Some s, Some o => cur_matches_tree (ls_cur s) (os_root o) && (ls_version s =? os_version o)
  | _, _ => false
  end = true.
Proof. vm_compute. reflexivity. Qed.

Definition ops_of (h : list hstep) : list (list logop * bool) :=
  flat_map (fun e => match e with HVersion ops => [(ops, false)] | HPrune _ => [] end) h.

Example x_log_tie :
  match ls_run sha256 false 4 ls_empty (no_prunes x_hist),
        v2_history sha256 4 (v2t_empty, db_empty) (ops_of x_hist) with
  | Some s, Some (_, db) =>
      Some (map (fun v => (v, replay_version_rows (ls_store s) v)) [1; 2; 3; 4; 5; 6; 7; 8; 9], ls_ckpts s)
      = Some (db_log db, db_ckpts db)
  | _, _ => False
  end.
Proof. vm_compute. reflexivity. Qed.

Example x_keeps_replay_example :
  match ls_run sha256 false 4 ls_empty x_hist, ls_run sha256 false 4 ls_empty (no_prunes x_hist) with
  | Some s, Some sf =>
      ls_floor s = 5 /\ replay (ls_store s) 5 7 = replay (ls_store sf) 5 7 /\
      replay (ls_store s) 5 9 = replay (ls_store sf) 5 9 /\ replay (ls_store s) 9 9 = []
  | _, _ => False
  end.
Proof. vm_compute. repeat split; reflexivity. Qed.

(** SEEDED VARIANT /verif/seeded/C20c REFUTED.  Versions 1-4 of [x_hist], checkpoints [1]
    (interval 4), then DeleteVersionsTo(4): the aligned bound is checkpoint 1, versions 2, 3, 4 stay loadable by
    replay from checkpoint 1.  The unaligned pruner (batch opened with 4) deletes the leaf
    rows orphaned at 2, 3, 4 - among them the leaf (2, 1) written in version 2 - and every
    leaf_delete row below 4: the replay of (1, 2] from the retained checkpoint 1, needed to
    load the retained version 2, loses BOTH its rows; the code as it is keeps them. *)
Theorem leaf_prune_unaligned_refuted :
  exists hist s su sf,
    ls_run sha256 false 4 ls_empty hist = Some s /\
    ls_run sha256 true 4 ls_empty hist = Some su /\
    ls_run sha256 false 4 ls_empty (no_prunes hist) = Some sf /\
    ls_ckpts s = [1] /\ find_previous (ls_ckpts s) 4 = FPVal 1 /\
    replay (ls_store sf) 1 2 = [((2, sq 1), LSet (xK 1) (xK 21)); ((2, sq 2), LDel (xK 2))] /\
    replay (ls_store s) 1 2 = replay (ls_store sf) 1 2 /\
    replay (ls_store su) 1 2 = [] /\
    map fst (leaves (ls_store su)) = [(1, sq 2); (1, sq 4); (3, sq 1); (3, sq 3); (4, sq 1)] /\
    ldeletes (ls_store su) = [].
Proof.
  exists (firstn 5 x_hist). eexists. eexists. eexists.
  split; [vm_compute; reflexivity|]. split; [vm_compute; reflexivity|]. split; [vm_compute; reflexivity|].
  repeat split; vm_compute; reflexivity.
Qed.
Print Assumptions leaf_prune_unaligned_refuted.

(** EXACTNESS REFUTED ("after the prune every remaining leaf row is needed: it is
    in a replay range above the bound or current in some version >= the bound").
    [recursiveRemove] records NO leaf orphan for the leaf it removes: the row of a removed key
    is never deleted.  After [x_hist] (bound 5): the row (1, 2) - key 2, removed in version 2 -
    and the row (1, 4) - key 4, removed in version 5 - are still in [leaf]; their version is
    <= 5 (no replay from a retained checkpoint reads them) and they are current in no version
    >= 5.  A leak, not a loss.  The same holds for the leaf that stays dirty in memory (a leaf
    root updated in consecutive versions, [ls_dirty]): [x_dirty_leak]. *)
Definition leaked (s : lstate) (tr : ltrace) (nk : nkey2) : bool :=
  in_keys nk (map fst (leaves (ls_store s))) && (fst nk <=? ls_floor s) &&
  forallb (fun wc => negb (ls_floor s <=? fst wc) || negb (in_keys nk (cur_keys (snd wc)))) tr.

Lemma leaked_spec s tr nk :
  leaked s tr nk = true ->
  In nk (map fst (leaves (ls_store s))) /\ fst nk <= ls_floor s /\
  forall w c, In (w, c) tr -> ls_floor s <= w -> ~ In nk (cur_keys c).
Proof.
  intros L. unfold leaked in L. apply andb_true_iff in L. destruct L as [L L3].
  apply andb_true_iff in L. destruct L as [L1 L2]. split; [|split].
  - apply in_keys_iff, L1.
  - apply Z.leb_le in L2. exact L2.
  - intros w c I Lw J. rewrite forallb_forall in L3. specialize (L3 _ I). cbn [fst snd] in L3.
    apply orb_true_iff in L3. destruct L3 as [L3|L3]; apply negb_true_iff in L3.
    + apply Z.leb_gt in L3. lia.
    + apply in_keys_iff in J. rewrite J in L3. discriminate.
Qed.

Theorem prune_leaves_exact_refuted :
  exists hist s tr nk,
    ls_run_tr sha256 false 4 (ls_empty, []) hist = Some (s, tr) /\ ls_floor s = 5 /\
    In nk (map fst (leaves (ls_store s))) /\ fst nk <= ls_floor s /\
    forall w c, In (w, c) tr -> ls_floor s <= w -> ~ In nk (cur_keys c).
Proof.
  exists x_hist. eexists. eexists. exists (1, sq 2).
  split; [vm_compute; reflexivity|]. split; [vm_compute; reflexivity|].
  apply leaked_spec. vm_compute. reflexivity.
Qed.
Print Assumptions prune_leaves_exact_refuted.

(** a root that is a leaf stays dirty in memory: its update in the next version records no
    orphan, the old row (1, 1) is never pruned *)
Example x_dirty_leak :
  option_map x_view
    (ls_run sha256 false 1 ls_empty
       [HVersion [LSet (xK 1) (xK 11)]; HVersion [LSet (xK 1) (xK 21)]; HVersion [LSet (xK 1) (xK 31)]; HPrune 3]) =
  Some ([(1, sq 1); (2, sq 1); (3, sq 1)], [], [], [1; 2; 3], 3).
Proof. vm_compute. reflexivity. Qed.

(** the orphan row left after [x_hist], ((3, 3), 6): key 1's leaf written in version 3 and
    replaced in version 6; where it is a current leaf (leaf_orphans_sound: exactly [3, 6)) *)
Example x_orphan_sound_example :
  match ls_run_tr sha256 false 4 (ls_empty, []) x_hist with
  | Some (s, tr) =>
      (lorphans (ls_store s), map (fun wc => (fst wc, in_keys (3, sq 3) (cur_keys (snd wc)))) tr)
  | None => ([], [])
  end =
  ([((3, sq 3), 6)],
   [(1, false); (2, false); (3, true); (4, true); (5, true); (6, false); (7, false); (8, false); (9, false)]).
Proof. vm_compute. reflexivity. Qed.
