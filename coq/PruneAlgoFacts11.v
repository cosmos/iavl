(** PruneAlgoFacts11: the physical node store along a history.

    [phys_step]: a commit applies the node writes of [Store.commit_ops], DeleteVersionsTo runs the
    physical algorithm [prune_forest] (on the store's own list of re-keyed versions, with a flush
    schedule and a flush mode taken from an oracle), LoadVersionForOverwriting applies
    [Store.rollback_ops] computed from the physical store, nothing else writes nodes.
    [phys_run_inv]: for every in-contract history and all oracles the physical store is
    [phys_of r (forest s)] with [rekey_ok r (forest s)] after every step - or [H] collides. *)
From Coq Require Import Lia Sorted.
From IAVL Require Import Bytes Varint Tree VMap TreeFacts MTree MTreeFacts HashFacts VersionFacts
  Store StoreFacts PruneAlgo PruneAlgoFacts1 PruneAlgoFacts2 PruneAlgoFacts3 PruneAlgoFacts4
  PruneAlgoFacts5 PruneAlgoFacts6 PruneAlgoFacts7 PruneAlgoFacts8 PruneAlgoFacts9 PruneAlgoFacts10.
Local Open Scope Z_scope.

(** ** [rekey] commutes with writes on versions that are not re-keyed *)
Lemma rkk_id r p : ~ In (fst (fst p)) r -> rkk r p = p.
Proof.
  intros N. unfold rkk. destruct (snd p); try reflexivity.
  destruct (existsb (Z.eqb (fst (fst p))) r) eqn:E; [apply (in_r_true r) in E; contradiction|].
  rewrite andb_false_r. reflexivity.
Qed.

Lemma kcmp_fst_ne a b b' : fst a <> fst b -> fst b' = fst b -> kcmp a b' = kcmp a b.
Proof.
  intros N E. unfold kcmp. rewrite E. destruct (fst a ?= fst b) eqn:C; try reflexivity.
  apply Z.compare_eq in C. contradiction.
Qed.

Lemma kcmp_rkk r k p : ~ In (fst k) r -> kcmp k (fst (rkk r p)) = kcmp k (fst p).
Proof.
  intros N. destruct (in_dec Z.eq_dec (fst (fst p)) r) as [I|NI].
  - apply kcmp_fst_ne; [intros E; rewrite E in N; contradiction|apply rkk_fst].
  - rewrite (rkk_id r p NI). reflexivity.
Qed.

Lemma rekey_mset r k e st :
  ~ In (fst k) r -> rekey r (mset kcmp k e st) = mset kcmp k e (rekey r st).
Proof.
  intros N. rewrite !rekey_map. induction st as [|[k1 e1] st IH]; cbn [mset map].
  - rewrite (rkk_id r (k, e)) by exact N. reflexivity.
  - destruct (rkk r (k1, e1)) as [k1' e1'] eqn:R.
    pose proof (kcmp_rkk r k (k1, e1) N) as Kc. rewrite R in Kc. cbn [fst] in Kc. rewrite Kc.
    destruct (kcmp k k1) eqn:C; cbn [map].
    + rewrite (rkk_id r (k, e)) by exact N. reflexivity.
    + rewrite (rkk_id r (k, e)) by exact N. rewrite R. reflexivity.
    + rewrite R, IH. reflexivity.
Qed.

Lemma rekey_mdel r k st :
  ~ In (fst k) r -> rekey r (mdel kcmp k st) = mdel kcmp k (rekey r st).
Proof.
  intros N. rewrite !rekey_map. induction st as [|[k1 e1] st IH]; cbn [mdel map]; [reflexivity|].
  destruct (rkk r (k1, e1)) as [k1' e1'] eqn:R.
  pose proof (kcmp_rkk r k (k1, e1) N) as Kc. rewrite R in Kc. cbn [fst] in Kc. rewrite Kc.
  destruct (kcmp k k1) eqn:C; cbn [map].
  - reflexivity.
  - rewrite R. reflexivity.
  - rewrite R, IH. reflexivity.
Qed.

Definition ver_free (r : list Z) (o : wop) : Prop :=
  match o with
  | WSet (KNode k) _ | WDel (KNode k) => ~ In (fst k) r
  | _ => True
  end.

Lemma rekey_sapply r o st : ver_free r o -> rekey r (sapply st o) = sapply (rekey r st) o.
Proof.
  destruct o as [[k|k|] [e|e|e]|[k|k|]]; cbn [ver_free sapply]; intros N; try reflexivity.
  - apply rekey_mset, N.
  - apply rekey_mdel, N.
Qed.

Lemma rekey_sapply_all r ops : forall st,
  Forall (ver_free r) ops -> rekey r (sapply_all st ops) = sapply_all (rekey r st) ops.
Proof.
  unfold sapply_all. induction ops as [|o ops IH]; intros st F; [reflexivity|].
  inversion F; subst. cbn [fold_left]. rewrite IH by assumption. rewrite rekey_sapply by assumption.
  reflexivity.
Qed.

Lemma nodes_apply_ops ops : forall d, nodes (apply_ops d ops) = sapply_all (nodes d) ops.
Proof.
  unfold apply_ops, sapply_all. induction ops as [|o ops IH]; intros d; [reflexivity|].
  cbn [fold_left]. rewrite IH. f_equal.
  destruct o as [[k|k|] [e|e|e]|[k|k|]]; reflexivity.
Qed.

(** ** The re-keyed versions of a physical store *)
Lemma rekeyed_phys r f :
  forest_inv f -> NoDup (map fst f) -> rekey_ok r f -> rekeyed (phys_of r f) = r.
Proof.
  intros FI ND [Sr RK].
  apply (sorted_same_elements Z.lt); [intros x; lia|intros x y; lia| |exact Sr|].
  - apply rekeyed_sorted, phys_sorted, FI.
  - intros w. rewrite rekeyed_In. split.
    + intros (e & I). apply (phys_In f FI ND) in I.
      destruct I as [(u & Su & K & _)|(v & rt & _ & E)].
      * symmetry in K. apply pkey_eq_zero in K; [apply K|exact (sub_of_nonce f FI u Su)].
      * destruct (root_entry_Some _ _ _ _ E) as [Q _]. inversion Q.
    + intros Iw. destruct (RK w Iw) as (_ & u & Su & Ku). exists (ENode (snode_of u)).
      apply (phys_In f FI ND). left. exists u. unfold node_key in Ku. inversion Ku as [[Vu Nu]].
      rewrite <- Vu in Iw. rewrite (pkey_zero r u Nu Iw). auto.
Qed.

(** ** The physical history *)
Definition phys_step (H : bytes -> bytes) (fast : bool) (s : mstate) (st : store) (o : op)
           (orc : list bool * bool) : store :=
  match o with
  | OSave => sapply_all st (commit_ops H fast s)
  | OPrune n =>
      if latest_version s <=? n then st
      else
        match prune_forest H (snd orc) (rekeyed st) (forest s) (fst orc) n with
        | POk (st', _, _) => st'
        | _ => st
        end
  | OLvfo v =>
      match do_lvfo s v with
      | (_, XOk) => sapply_all st (rollback_ops (Db st [] None) v)
      | _ => st
      end
  | _ => st
  end.

Fixpoint phys_trace (H : bytes -> bytes) (fast : bool) (s : mstate) (st : store) (ops : list op)
         (orcs : list (list bool * bool)) : list (mstate * store) :=
  (s, st) ::
  match ops with
  | [] => []
  | o :: rest =>
      phys_trace H fast (fst (step H s o)) (phys_step H fast s st o (hd ([], false) orcs)) rest (tl orcs)
  end.

Definition no_write (o : op) : bool :=
  match o with OSave | OPrune _ | OLvfo _ => false | _ => true end.

Lemma no_write_forest H s o : no_write o = true -> forest (fst (step H s o)) = forest s.
Proof.
  destruct o as [k v|k|k| | | |v|n|v|t rd|k v|v| | | | | ]; cbn [step no_write]; try reflexivity; try discriminate;
    intros _.
  - destruct (do_set_same s k v) as (_ & _ & Ef & _). exact Ef.
  - destruct (do_remove_same s k) as (_ & _ & Ef & _). exact Ef.
  - apply do_reopen_forest.
  - apply do_load_forest.
  - destruct t as [|v]; [reflexivity|]. destruct (lookup v (forest s)); reflexivity.
  - destruct (lookup v (forest s)) as [[nd|]|]; reflexivity.
Qed.

Lemma no_write_store H fast s st o orc : no_write o = true -> phys_step H fast s st o orc = st.
Proof. destruct o; try discriminate; reflexivity. Qed.

Definition phys_inv (p : mstate * store) : Prop :=
  exists r, snd p = phys_of r (forest (fst p)) /\ rekey_ok r (forest (fst p)).

(** the numbers of every forest met fit int64 *)
Fixpoint bounded_run (H : bytes -> bytes) (s : mstate) (ops : list op) : Prop :=
  forest_bounds (forest s) /\
  match ops with
  | [] => True
  | o :: rest => bounded_run H (fst (step H s o)) rest
  end.

Lemma first_of_forest_app (f g : forest_t) : f <> [] -> first_of_forest (f ++ g) = first_of_forest f.
Proof. destruct f; [congruence|reflexivity]. Qed.

Lemma rekey_ok_nonempty r f w : rekey_ok r f -> In w r -> f <> [].
Proof. intros [_ RK] I -> . destruct (RK w I) as (_ & u & (v & t & [] & _) & _). Qed.

Lemma first_in_forest (f : forest_t) : f <> [] -> exists rt, In (first_of_forest f, rt) f.
Proof. destruct f as [|[v rt] f]; [congruence|]. intros _. exists rt. left. reflexivity. Qed.

Section History.
  Variable H : bytes -> bytes.
  Hypothesis Hlen : forall x, length (H x) = 32%nat.
  Variable fast : bool.

  Lemma save_inv s st :
    store_ok H s -> phys_inv (s, st) -> phys_inv (fst (step H s OSave), phys_step H fast s st OSave ([], false)).
  Proof.
    intros SO (r & Est & RK). cbn [fst snd] in *. cbn [step phys_step].
    pose proof SO as [SI HI C FI B].
    set (E := expected_store (forest s)).
    pose proof (commit_exact H fast s (Db E [] None) SO eq_refl) as CE.
    rewrite nodes_apply_ops in CE. cbn [nodes] in CE.
    assert (VF : Forall (ver_free r) (commit_ops H fast s)).
    { destruct (lookup (working_version s) (forest s)) as [e0|] eqn:L.
      - rewrite (commit_ops_old H fast s e0 L). constructor.
      - rewrite (commit_ops_new H fast s L). apply Forall_app. split.
        + eapply Forall_impl; [|apply meta_not_node].
          intros o No. destruct o as [[k|k|] [e|e|e]|[k|k|]]; cbn in No |- *; try exact I; discriminate.
        + rewrite commit_node_ops_eq. apply Forall_forall. intros o Io. apply in_map_iff in Io.
          destruct Io as ([k e] & <- & Ip). cbn [set_node ver_free fst snd].
          destruct (commit_keys_fresh H s SO L _ Ip) as [Vk _]. cbn [fst] in Vk. rewrite Vk.
          intros Ir. destruct RK as [_ RK]. destruct (RK _ Ir) as (Lt & u & (v & t & Iv & _) & _).
          destruct (save_fresh H s SO L) as (_ & Fr & _).
          assert (NE : forest s <> []) by (intros Q; rewrite Q in Iv; contradiction).
          destruct (first_in_forest (forest s) NE) as (rt & If). specialize (Fr _ _ If). lia. }
    exists r. cbn [fst snd]. split.
    - rewrite Est. unfold phys_of. fold E. rewrite <- (rekey_sapply_all r _ E VF), CE. reflexivity.
    - destruct (lookup (working_version s) (forest s)) as [e0|] eqn:L.
      + rewrite (do_save_old_forest H s e0 L). exact RK.
      + destruct (do_save_new_forest H s L) as (Ef & _). rewrite Ef.
        destruct RK as [Sr RK]. split; [exact Sr|]. intros w Iw.
        destruct (RK w Iw) as (Lt & u & (v & t & Iv & Su) & Ku).
        assert (NE : forest s <> []) by (intros Q; rewrite Q in Iv; contradiction).
        rewrite (first_of_forest_app _ _ NE). split; [exact Lt|].
        exists u. split; [|exact Ku]. exists v, t. split; [apply in_or_app; left; exact Iv|exact Su].
  Qed.

  Lemma rollback_keys_rekey r v st :
    (forall w, In w r -> w <= v) ->
    map fst (filter (fun p => v <? fst (fst p)) (rekey r st)) =
    map fst (filter (fun p => v <? fst (fst p)) st).
  Proof.
    intros Hr. rewrite rekey_map. induction st as [|p st IH]; cbn [map filter]; [reflexivity|].
    rewrite rkk_fst. destruct (v <? fst (fst p)) eqn:C; [|exact IH].
    cbn [map]. rewrite IH. f_equal. rewrite rkk_id; [reflexivity|].
    intros I. specialize (Hr _ I). apply Z.ltb_lt in C. lia.
  Qed.

  Lemma lvfo_inv s st v :
    store_ok H s -> 1 <= v -> phys_inv (s, st) ->
    phys_inv (fst (step H s (OLvfo v)), phys_step H fast s st (OLvfo v) ([], false)).
  Proof.
    intros SO Pv (r & Est & RK). cbn [fst snd] in *. cbn [step phys_step].
    pose proof SO as [SI HI C FI B]. pose proof (inv_nodup s SI) as ND.
    pose proof (contig_forest_ok s C) as OK.
    unfold do_lvfo. destruct (do_load_pos s v ltac:(lia)) as [E|(r0 & L & E)]; rewrite E.
    { cbn [fst]. exists r. auto. }
    cbn [fst forest].
    assert (Iv : In v (map fst (forest s))).
    { apply in_map_iff. exists (v, r0). split; [reflexivity|apply lookup_In, L]. }
    assert (NE : forest s <> []) by (intros Q; rewrite Q in Iv; contradiction).
    destruct (forest_ok_range _ _ OK NE) as (R1 & _ & _).
    pose proof (proj1 (forest_ok_In _ _ v OK) Iv) as [_ Rv].
    assert (Hr : forall w, In w r -> w <= v).
    { intros w Iw. destruct RK as [_ RK]. destruct (RK w Iw) as (Lt & _).
      rewrite first_of_forest_eq in Lt. lia. }
    set (Ex := expected_store (forest s)).
    pose proof (rollback_exact_forest (forest s) (init_ver s) (Db Ex [] None) v FI OK ND Iv eq_refl) as RE.
    rewrite nodes_apply_ops in RE. cbn [nodes] in RE.
    assert (Eops : rollback_ops (Db st [] None) v = rollback_ops (Db Ex [] None) v).
    { unfold rollback_ops. cbn [nodes label]. rewrite Est. unfold phys_of. fold Ex.
      rewrite store_latest_rekey, (rollback_keys_rekey r v Ex Hr). reflexivity. }
    assert (VF : Forall (ver_free r) (rollback_ops (Db Ex [] None) v)).
    { unfold rollback_ops. cbn [nodes label]. destruct (store_latest Ex <? v + 1); [constructor|].
      rewrite app_nil_r. apply Forall_forall. intros o Io. apply in_map_iff in Io.
      destruct Io as (k & <- & Ik). cbn [del_node ver_free]. apply in_map_iff in Ik.
      destruct Ik as (p & <- & Ip). apply filter_In in Ip. destruct Ip as [_ Cp].
      apply Z.ltb_lt in Cp. intros Ir. specialize (Hr _ Ir). lia. }
    exists r. cbn [fst snd forest]. split.
    - rewrite Eops, Est. unfold phys_of. fold Ex. rewrite <- (rekey_sapply_all r _ Ex VF), RE. reflexivity.
    - destruct RK as [Sr RK]. split; [exact Sr|]. intros w Iw.
      destruct (RK w Iw) as (Lt & u & (x & t & Ix & Su) & Ku).
      assert (Ef : first_of_forest (filter (fun p => fst p <=? v) (forest s)) = first_of_forest (forest s)).
      { rewrite first_of_forest_eq in *. destruct (forest s) as [|[a y] f1]; [congruence|].
        cbn [first_of] in *. cbn [filter fst]. rewrite (proj2 (Z.leb_le a v)) by lia. reflexivity. }
      rewrite Ef. split; [exact Lt|]. exists u. split; [|exact Ku].
      rewrite first_of_forest_eq in Lt.
      assert (If : In (first_of (forest s)) (map fst (forest s))).
      { apply (forest_ok_In _ _ _ OK). split; [exact NE|lia]. }
      assert (Vu : ver (nmeta u) = w) by (unfold node_key in Ku; congruence).
      assert (Ix' : In x (map fst (forest s))) by (apply in_map_iff; exists (x, Some t); auto).
      pose proof (proj1 (forest_ok_In _ _ x OK) Ix') as [_ Rx].
      destruct (chain_down (forest s) (init_ver s) (first_of (forest s)) FI OK If
                  (Z.to_nat (x - first_of (forest s))) x t u ltac:(lia) Ix Su ltac:(lia))
        as (t0 & I0 & S0).
      exists (first_of (forest s)), t0. split; [|exact S0]. apply filter_In. split; [exact I0|].
      cbn [fst]. apply Z.leb_le. lia.
  Qed.

  Lemma prune_inv s st n orc :
    store_ok H s -> forest_bounds (forest s) -> phys_inv (s, st) ->
    phys_inv (fst (step H s (OPrune n)), phys_step H fast s st (OPrune n) orc) \/ collision H.
  Proof.
    intros SO FB (r & Est & RK). cbn [fst snd] in *. cbn [step phys_step].
    pose proof SO as [SI HI C FI B]. pose proof (inv_nodup s SI) as ND.
    destruct (do_prune_cases s n) as [[Ge E]|[Ln E]]; rewrite E; cbn [fst forest].
    - rewrite (proj2 (Z.leb_le _ _) Ge). left. exists r. auto.
    - rewrite (proj2 (Z.leb_gt _ _) Ln).
      rewrite Est, (rekeyed_phys r (forest s) FI ND RK).
      destruct (prune_refines H Hlen s r (fst orc) (snd orc) n SO FB RK Ln)
        as [(st' & log & fl & Ep & Q1 & Q2 & _)|Col]; [left|right; exact Col].
      rewrite Ep. exists (rekeyed st'). auto.
  Qed.

  Lemma other_inv s st o orc :
    no_write o = true ->
    phys_inv (s, st) -> phys_inv (fst (step H s o), phys_step H fast s st o orc).
  Proof.
    intros NO (r & Est & RK). cbn [fst snd] in *. exists r. cbn [fst snd].
    rewrite (no_write_forest H s o NO), (no_write_store H fast s st o orc NO). auto.
  Qed.

  Theorem phys_step_inv s st o orc :
    store_ok H s -> in_contract s o -> forest_bounds (forest s) -> phys_inv (s, st) ->
    phys_inv (fst (step H s o), phys_step H fast s st o orc) \/ collision H.
  Proof.
    intros SO IC FB PI.
    destruct o as [k v|k|k| | | |v|n|v|t rd|k v|v| | | | | ];
      try (left; apply other_inv; [reflexivity|exact PI]).
    - left. exact (save_inv s st SO PI).
    - exact (prune_inv s st n orc SO FB PI).
    - left. exact (lvfo_inv s st v SO IC PI).
  Qed.

  Theorem phys_run_inv ops : forall s st orcs,
    store_ok H s -> run_ok H s ops -> bounded_run H s ops -> phys_inv (s, st) ->
    Forall phys_inv (phys_trace H fast s st ops orcs) \/ collision H.
  Proof.
    induction ops as [|o ops IH]; intros s st orcs SO R BR PI; cbn [phys_trace].
    - left. constructor; [exact PI|constructor].
    - destruct R as [IC R]. destruct BR as [FB BR].
      destruct (phys_step_inv s st o (hd ([], false) orcs) SO IC FB PI) as [PI'|Col]; [|right; exact Col].
      destruct (IH _ _ (tl orcs) (store_ok_step H s o SO IC) R BR PI') as [F|Col]; [|right; exact Col].
      left. constructor; assumption.
  Qed.

  Corollary phys_run_reachable iv b ops orcs :
    init_ok iv b -> run_ok H (init_state iv b) ops -> bounded_run H (init_state iv b) ops ->
    Forall phys_inv (phys_trace H fast (init_state iv b) [] ops orcs) \/ collision H.
  Proof.
    intros IO R BR. apply phys_run_inv; auto; [apply store_ok_init, IO|].
    exists []. cbn. split; [reflexivity|]. split; [constructor|intros w []].
  Qed.
End History.
