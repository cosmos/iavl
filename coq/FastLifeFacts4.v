(** FastLifeFacts4: the hypothesis [save_honest] of the fast-index theorems (FastLifeFacts3)
    holds unless the hash function collides.

    SaveVersion on an existing version number compares root hashes.  With a hash function of
    fixed output length, and heights / sizes / versions / key lengths in the range the encoders
    are injective on (int64, Go slice lengths), equal root hashes of two well-formed
    hash-consistent trees mean equal contents, or else two different inputs of [H] with the same
    image can be exhibited ([recommit_honest_or_collision], constructive). *)
From Coq Require Import Lia.
From IAVL Require Import Bytes Varint VarintFacts ListFacts Tree VMap TreeFacts MTree MTreeFacts HashFacts
  VersionFacts Store StoreFacts FastLife FastLifeFacts1 FastLifeFacts2 FastLifeFacts3 FastLifeFacts.
Local Open Scope Z_scope.

Definition i64 (x : Z) : Prop := - 2 ^ 63 <= x < 2 ^ 63.
Definition klen_ok (k : bytes) : Prop := (N.of_nat (length k) < 2 ^ 63 - 1)%N.

(** every number and key of the tree is in the range where the encoders are injective *)
Fixpoint enc_ok (wv : Z) (t : node) : Prop :=
  match t with
  | Leaf k _ m => i64 (eff_ver wv m) /\ klen_ok k
  | Inner _ h s m l r => i64 h /\ i64 s /\ i64 (eff_ver wv m) /\ enc_ok wv l /\ enc_ok wv r
  end.

Definition oenc_ok (wv : Z) (t : option node) : Prop :=
  match t with None => True | Some n => enc_ok wv n end.

Lemma varint_app_inj x y r1 r2 :
  i64 x -> i64 y -> varint_enc x ++ r1 = varint_enc y ++ r2 -> x = y /\ r1 = r2.
Proof.
  intros Hx Hy E. pose proof (varint_roundtrip x r1 Hx) as A.
  pose proof (varint_roundtrip y r2 Hy) as B. rewrite E in A. rewrite A in B.
  inversion B; subst y. split; [reflexivity|]. exact (app_inv_head _ _ _ E).
Qed.

Lemma bytes_app_inj k1 k2 r1 r2 :
  klen_ok k1 -> klen_ok k2 -> bytes_enc k1 ++ r1 = bytes_enc k2 ++ r2 -> k1 = k2 /\ r1 = r2.
Proof.
  intros H1 H2 E. pose proof (bytes_roundtrip k1 r1 H1) as A.
  pose proof (bytes_roundtrip k2 r2 H2) as B. rewrite E in A. rewrite A in B.
  inversion B; subst k2. split; [reflexivity|]. exact (app_inv_head _ _ _ E).
Qed.

Section Honest.
  Variable H : bytes -> bytes.
  Hypothesis Hlen : forall x, length (H x) = 32%nat.

  Definition collides : Prop := exists x y : bytes, x <> y /\ H x = H y.

  Lemma H_eq_cases x y : H x = H y -> x = y \/ collides.
  Proof.
    intros E. destruct (list_eq_dec N.eq_dec x y) as [Q|Q]; [left; exact Q|].
    right. exists x, y. auto.
  Qed.

  Lemma varint_enc_nonempty x : varint_enc x <> [].
  Proof. pose proof (varint_enc_length x) as L. destruct (varint_enc x); cbn in L; [lia|discriminate]. Qed.

  Lemma inner_height_pos nk h s m l r : wf (Inner nk h s m l r) -> 0 < h.
  Proof.
    cbn [wf]. intros (Wl & Wr & _ & _ & _ & Hh & _).
    pose proof (height_nonneg l Wl). pose proof (height_nonneg r Wr). lia.
  Qed.

  (** a leaf is hashed with height 0 *)
  Lemma leaf_inner_preimage_ne ver k v h s ver' lh rh :
    i64 h -> 0 < h -> leaf_preimage H ver k v <> inner_preimage h s ver' lh rh.
  Proof.
    intros Hh P E. unfold leaf_preimage, inner_preimage in E.
    assert (Z0 : i64 0) by (unfold i64; lia).
    destruct (varint_app_inj _ _ _ _ Z0 Hh E) as [E0 _]. lia.
  Qed.

  Theorem pure_hash_inj wv1 t1 : forall wv2 t2,
    wf t1 -> wf t2 -> enc_ok wv1 t1 -> enc_ok wv2 t2 ->
    pure_hash H wv1 t1 = pure_hash H wv2 t2 -> elems t1 = elems t2 \/ collides.
  Proof.
    induction t1 as [k1 v1 m1|nk1 h1 s1 m1 l1 IHl r1 IHr];
      intros wv2 [k2 v2 m2|nk2 h2 s2 m2 l2 r2] W1 W2 B1 B2 E; cbn [pure_hash] in E;
      apply H_eq_cases in E; (destruct E as [E|E]; [|right; exact E]).
    - (* leaf / leaf *)
      unfold leaf_preimage in E. apply app_inv_head in E. apply app_inv_head in E.
      destruct B1 as [V1 K1], B2 as [V2 K2].
      destruct (varint_app_inj _ _ _ _ V1 V2 E) as [_ E1].
      destruct (bytes_app_inj _ _ _ _ K1 K2 E1) as [-> E2].
      inversion E2 as [E3]. apply H_eq_cases in E3. destruct E3 as [->|C]; [|right; exact C].
      left. reflexivity.
    - exfalso. exact (leaf_inner_preimage_ne _ _ _ _ _ _ _ _ (proj1 B2) (inner_height_pos _ _ _ _ _ _ W2) E).
    - exfalso. symmetry in E.
      exact (leaf_inner_preimage_ne _ _ _ _ _ _ _ _ (proj1 B1) (inner_height_pos _ _ _ _ _ _ W1) E).
    - (* inner / inner *)
      unfold inner_preimage in E.
      destruct B1 as (Bh1 & Bs1 & Bv1 & Bl1 & Br1), B2 as (Bh2 & Bs2 & Bv2 & Bl2 & Br2).
      destruct (varint_app_inj _ _ _ _ Bh1 Bh2 E) as [_ E1].
      destruct (varint_app_inj _ _ _ _ Bs1 Bs2 E1) as [_ E2].
      destruct (varint_app_inj _ _ _ _ Bv1 Bv2 E2) as [_ E3].
      assert (PL : forall wv t, length (pure_hash H wv t) = 32%nat)
        by (intros wv t; destruct t; apply Hlen).
      assert (LL : length (32%N :: pure_hash H wv1 l1) = length (32%N :: pure_hash H wv2 l2))
        by (cbn [length]; rewrite !PL; reflexivity).
      destruct (app_inj_len _ _ _ _ LL E3) as [E4 E5].
      inversion E4 as [E6]. inversion E5 as [E7].
      cbn [wf] in W1, W2. destruct W1 as (Wl1 & Wr1 & _), W2 as (Wl2 & Wr2 & _).
      destruct (IHl _ _ Wl1 Wl2 Bl1 Bl2 E6) as [A|C]; [|right; exact C].
      destruct (IHr _ _ Wr1 Wr2 Br1 Br2 E7) as [B|C]; [|right; exact C].
      left. cbn [elems]. rewrite A, B. reflexivity.
  Qed.

  (** the hash test of SaveVersion on an existing version *)
  Theorem recommit_honest_or_collision s e :
    state_inv s -> hash_inv H s ->
    lookup (working_version s) (forest s) = Some e ->
    oenc_ok (working_version s) (root s) -> oenc_ok 0 e ->
    snd (do_save H s) <> XErr ->
    oelems e = oelems (root s) \/ collides.
  Proof.
    intros I HI L Br Be NE.
    destruct (save_existing_sharp H s e L) as [[Same _]|[_ E]]; [|rewrite E in NE; cbn [snd] in NE; congruence].
    pose proof (hash_inv_lookup H s _ e HI L) as Se.
    destruct (state_inv_lookup s _ e I L) as [Oe _].
    pose proof (inv_root s I) as Or. pose proof (hi_root H s HI) as Hr.
    unfold same_root_hash in Same. destruct e as [en|].
    - cbn [osaved] in Se. destruct Se as [He Pe].
      destruct (hash_ok_root H en He (all_persisted_root en Pe)) as [Ehs _].
      rewrite Ehs, (root_hash_pure H _ _ Hr) in Same. cbn [oinv oenc_ok] in Oe, Be.
      destruct (root s) as [n|]; cbn [opure_hash oinv oenc_ok onode_ok] in *.
      + destruct (pure_hash_inj 0 en _ n (proj1 Oe) (proj1 Or) Be Br Same) as [A|C];
          [left; exact A|right; exact C].
      + right. destruct en as [k v m|k h s0 m l r]; cbn [pure_hash] in Same;
          apply H_eq_cases in Same; (destruct Same as [Q|C]; [|exact C]); exfalso;
          unfold leaf_preimage, inner_preimage in Q;
          match type of Q with varint_enc ?x ++ _ = [] =>
            pose proof (varint_enc_nonempty x) as N; destruct (varint_enc x); [congruence|discriminate Q]
          end.
    - destruct (root s) as [n|]; [contradiction|]. left. reflexivity.
  Qed.

  Corollary save_honest_collision_free s :
    (forall x y, H x = H y -> x = y) ->
    state_inv s -> hash_inv H s ->
    oenc_ok (working_version s) (root s) ->
    (forall e, lookup (working_version s) (forest s) = Some e -> oenc_ok 0 e) ->
    save_honest H s.
  Proof.
    intros Inj I HI Br Be e L NE.
    destruct (recommit_honest_or_collision s e I HI L Br (Be e L) NE) as [A|(x & y & N & E)];
      [exact A|]. exfalso. apply N, Inj, E.
  Qed.

  (** ** The lift without [save_honest]: collision-free hash, encodable numbers *)

  (** the contract without the honesty clause; instead, at each SaveVersion, the working tree and
      the stored tree of the same number (if any) have encodable numbers and keys *)
  Fixpoint frun_ok_cf (st : fstate) (ops : list fop) : Prop :=
    match ops with
    | [] => True
    | o :: rest =>
        in_contract (ms st) (logical o) /\
        match o with
        | FSave =>
            oenc_ok (working_version (ms st)) (root (ms st)) /\
            forall e, lookup (working_version (ms st)) (forest (ms st)) = Some e -> oenc_ok 0 e
        | FOpenAt _ v => snd (do_load (fresh_ms (ms st)) v) <> XErr   (* the load succeeds *)
        | _ => True
        end /\
        frun_ok_cf (fst (fstep H st o)) rest
    end.

  Lemma frun_ok_of_cf :
    (forall x y, H x = H y -> x = y) ->
    forall ops st, FastLifeFacts.fgood st -> hash_inv H (ms st) ->
    frun_ok_cf st ops -> FastLifeFacts.frun_ok H st ops.
  Proof.
    intros Inj. induction ops as [|o ops IH]; intros st G HI R; cbn [FastLifeFacts.frun_ok];
      [exact Logic.I|].
    destruct R as (IC & B & R).
    assert (FC : fin_contract H st o).
    { split; [exact IC|]. destruct o; try exact Logic.I; [|exact B].
      destruct B as [Br Be]. apply save_honest_collision_free; try assumption. apply G. }
    split; [exact FC|].
    apply IH; [apply FastLifeFacts.fgood_step; assumption| |exact R].
    destruct (FastLifeFacts.fstep_logical H st o (FastLifeFacts.fg_inv _ G)
                (FastLifeFacts.fg_contig _ G) FC (FastLifeFacts.fg_coh _ G)) as [M _].
    rewrite M. apply run_hash_inv; [apply G|exact HI].
  Qed.

  Theorem frun_logical_collision_free iv b skip0 ops :
    (forall x y, H x = H y -> x = y) ->
    init_ok iv b ->
    let st0 := fst (fstep H (finit iv b) (FOpen skip0)) in
    frun_ok_cf st0 ops ->
    snd (frun H st0 ops) =
      FastLifeFacts.visible ops (snd (run H (ms st0) (concat (map logical_ops ops)))) /\
    ms (fst (frun H st0 ops)) = fst (run H (ms st0) (concat (map logical_ops ops))) /\
    fcoh (fst (frun H st0 ops)).
  Proof.
    intros Inj IO st0 R.
    assert (Hiv : 0 <= iv) by (unfold init_ok in IO; destruct b; lia).
    assert (Hn : iv <> 0 \/ b = false) by (unfold init_ok in IO; destruct b; [left; lia|right; reflexivity]).
    assert (HI0 : hash_inv H (ms st0)).
    { unfold st0. rewrite (FastLifeFacts.fstep_ms H (finit iv b) (FOpen skip0) eq_refl).
      cbn [finit ms logical].
      apply step_hash_inv; [apply state_inv_init, Hiv|apply hash_inv_init, Hn]. }
    destruct (FastLifeFacts.frun_logical H iv b skip0 ops IO
                (frun_ok_of_cf Inj ops st0 (FastLifeFacts.fgood_opened H iv b skip0 IO) HI0 R))
      as (_ & E1 & E2 & Co).
    auto.
  Qed.
End Honest.

Print Assumptions recommit_honest_or_collision.
Print Assumptions save_honest_collision_free.
Print Assumptions frun_logical_collision_free.
