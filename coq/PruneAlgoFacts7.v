(** PruneAlgoFacts7: the final store of a deletion ([final_phys], [final_rekey_ok], [final_norm])
    and reading a safe disk back ([readable_safe]). *)
From Coq Require Import Lia Sorted.
From IAVL Require Import Bytes Varint Tree VMap TreeFacts MTree MTreeFacts HashFacts VersionFacts
  Store StoreFacts PruneAlgo PruneAlgoFacts1 PruneAlgoFacts2 PruneAlgoFacts3 PruneAlgoFacts4
  PruneAlgoFacts5 PruneAlgoFacts6.
Local Open Scope Z_scope.

(** ** Normal form of keys *)
Lemma norm_key_node_key u : 1 <= nonce (nmeta u) -> norm_key (node_key u) = node_key u.
Proof.
  intros Nn. unfold norm_key, node_key. cbn [snd fst].
  destruct (nonce (nmeta u) =? 0) eqn:E; [|reflexivity]. apply Z.eqb_eq in E. lia.
Qed.

Lemma norm_key_pkey r u : 1 <= nonce (nmeta u) -> norm_key (pkey r u) = node_key u.
Proof.
  intros Nn. destruct (pkey_cases r u) as [(N1 & _ & K)|(_ & K)]; rewrite K.
  - unfold norm_key, node_key. cbn [fst snd Z.eqb]. rewrite N1. reflexivity.
  - apply norm_key_node_key, Nn.
Qed.

Lemma store_of_mset_all l : store_of l = mset_all kcmp l [].
Proof. reflexivity. Qed.

(** ** The final store *)
Section Final.
  Variable f0 : forest_t.
  Hypothesis FI0 : forest_inv f0.
  Variable f : forest_t.                 (* what is left *)
  Hypothesis FI : forest_inv f.
  Hypothesis ND : NoDup (map fst f).
  Variables (r : list Z) (b : Z) (V : store).
  Hypothesis Cx : ctx f0 (sub_of f) f f r b.
  Hypothesis PV : pst (pentry (sub_of f) f r) V.
  Hypothesis Hb : b = first_of_forest f.

  Lemma V_In k e : In (k, e) V <-> pentry (sub_of f) f r k e.
  Proof.
    destruct PV as [S F]. rewrite <- F. split.
    - apply (mfind_In kcmp kcmp_ok), S.
    - apply (In_mfind kcmp kcmp_ok).
  Qed.

  Lemma rekeyed_V w :
    In w (rekeyed V) <->
    exists u, sub_of f u /\ nonce (nmeta u) = 1 /\ ver (nmeta u) = w /\ In w r.
  Proof.
    rewrite rekeyed_In. split.
    - intros (e & I). apply V_In in I.
      destruct (pentry_at_zero f0 FI0 _ f r w e (c_desc _ _ _ _ _ _ Cx) I) as (u & A & B & C & D & _).
      exists u. auto.
    - intros (u & Su & N1 & Vu & Ir). exists (ENode (snode_of u)). apply V_In. left.
      exists u. rewrite <- Vu in Ir |- *. rewrite (pkey_zero r u N1 Ir). auto.
  Qed.

  Lemma pkey_rekeyed u : sub_of f u -> pkey (rekeyed V) u = pkey r u.
  Proof.
    intros Su. unfold pkey. destruct (nonce (nmeta u) =? 1) eqn:N1; cbn [andb]; [|reflexivity].
    apply Z.eqb_eq in N1.
    assert (E : in_r (rekeyed V) (ver (nmeta u)) = in_r r (ver (nmeta u))); [|rewrite E; reflexivity].
    destruct (in_r r (ver (nmeta u))) eqn:E2.
    - apply in_r_true in E2. apply in_r_true. apply rekeyed_V. exists u. auto.
    - destruct (in_r (rekeyed V) (ver (nmeta u))) eqn:E1; [|reflexivity].
      apply in_r_true in E1. apply rekeyed_V in E1. destruct E1 as (_ & _ & _ & _ & Ir).
      apply in_r_true in Ir. congruence.
  Qed.

  Theorem final_phys : V = phys_of (rekeyed V) f.
  Proof.
    apply (pst_ext (pentry (sub_of f) f (rekeyed V))); [|apply phys_pst; assumption].
    apply (pst_equiv (pentry (sub_of f) f r)); [|exact PV].
    (* both ways: the two lists give every node of [f] the same key *)
    intros k e. split; (intros [(u & Su & -> & ->)|A]; [|right; exact A]); left; exists u;
      rewrite (pkey_rekeyed u Su); auto.
  Qed.

  Theorem final_rekey_ok : rekey_ok (rekeyed V) f.
  Proof.
    split; [apply rekeyed_sorted, PV|].
    intros w Iw. apply rekeyed_V in Iw. destruct Iw as (u & Su & N1 & Vu & Ir). split.
    - rewrite <- Hb. exact (c_rb _ _ _ _ _ _ Cx w Ir).
    - exists u. split; [exact Su|]. unfold node_key. congruence.
  Qed.

  Theorem final_norm : norm_store V = expected_store f.
  Proof.
    unfold norm_store. rewrite store_of_mset_all.
    set (l := map (fun p => (norm_key (fst p), norm_entry (snd p))) V).
    assert (A : forall k e, In (k, e) l <-> In (k, e) (reach f)).
    { intros k e. unfold l. rewrite in_map_iff, reach_In. split.
      - intros ([k0 e0] & Q & I). cbn [fst snd] in Q. inversion Q; subst k e. apply V_In in I.
        destruct I as [(u & Su & -> & ->)|(w & rt & I & Er)].
        + left. exists u. split; [exact Su|]. split; [|reflexivity].
          apply norm_key_pkey, (sub_of_nonce f FI u Su).
        + right. exists w, rt. split; [exact I|].
          destruct (root_entry_Some _ _ _ _ Er) as [-> [[_ ->]|(t & -> & -> & _)]]; [exact Er|].
          cbn [norm_entry]. rewrite norm_key_node_key; [exact Er|].
          apply (sub_of_nonce f FI). exists w, t. split; [exact I|apply sub_refl].
      - intros [(u & Su & -> & ->)|(w & rt & I & Er)].
        + exists (pkey r u, ENode (snode_of u)). cbn [fst snd norm_entry]. split.
          * rewrite (norm_key_pkey r u (sub_of_nonce f FI u Su)). reflexivity.
          * apply V_In. left. exists u. auto.
        + exists (k, e). cbn [fst snd]. split.
          * destruct (root_entry_Some _ _ _ _ Er) as [-> [[_ ->]|(t & Ert & -> & _)]]; [reflexivity|].
            cbn [norm_entry]. rewrite norm_key_node_key; [reflexivity|].
            apply (sub_of_nonce f FI). exists w, t. split; [rewrite <- Ert; exact I|apply sub_refl].
          * apply V_In. right. exists w, rt. auto. }
    apply store_unique; [exact FI|exact ND|apply (msorted_mset_all kcmp kcmp_ok); exact Logic.I|].
    intros k e. rewrite (mfind_mset_all_Some kcmp kcmp_ok k e l []); cbn [mfind].
    - rewrite A. split; [intros [I|[_ Q]]; [exact I|discriminate Q]|auto].
    - intros e1 e2 I1 I2. apply A in I1, I2. exact (reach_functional f k e1 e2 FI ND I1 I2).
  Qed.
End Final.

(** ** Reading a safe disk back *)
Fixpoint node_beq_refl (t : node) : node_beq t t = true.
Proof.
  assert (M : forall m, meta_beq m m = true).
  { intros m. unfold meta_beq. rewrite !Z.eqb_refl. cbn [andb]. apply beq_true. reflexivity. }
  destruct t as [k v m|k h s m l r]; cbn [node_beq].
  - rewrite M, (proj2 (beq_true k k) eq_refl), (proj2 (beq_true v v) eq_refl). reflexivity.
  - rewrite M, (proj2 (beq_true k k) eq_refl), !Z.eqb_refl, (node_beq_refl l), (node_beq_refl r).
    reflexivity.
Qed.

Lemma keyok_nonce d k u : keyok d k u -> 1 <= nonce (nmeta u) -> norm_nonce k = nonce (nmeta u).
Proof.
  intros [->|(N1 & -> & _)] Nn; unfold norm_nonce, node_key; cbn [snd].
  - destruct (nonce (nmeta u) =? 0) eqn:E; [apply Z.eqb_eq in E; lia|reflexivity].
  - cbn [Z.eqb]. congruence.
Qed.

Section Read.
  Variable H : bytes -> bytes.
  Variables (L : node -> Prop) (sro : forest_t) (b : Z) (d : store).
  Hypothesis S : safe L sro b d.
  Hypothesis LH : forall u, L u -> fhash H u = hs (nmeta u).
  Hypothesis Lsub : forall u c, L u -> subtree c u -> L c.
  Hypothesis Lnonce : forall u, L u -> 1 <= nonce (nmeta u).
  Hypothesis Lcoh : forall u u', L u -> L u' -> node_key u = node_key u' -> u = u'.

  Lemma load_node_ok : forall fuel u k,
    L u -> keyok d k u -> (ncount u <= fuel)%nat -> load_node H fuel d k = Some u.
  Proof.
    induction fuel as [|fuel IH]; intros u k Lu K Fu; [pose proof (ncount_pos u); lia|].
    cbn [load_node]. rewrite (get_node_keyok L sro b d k u S Lu K).
    pose proof (keyok_ver _ _ _ K) as Ev. pose proof (keyok_nonce _ _ _ K (Lnonce u Lu)) as En.
    pose proof (LH u Lu) as Eh.
    destruct u as [key val m|key h s m l r]; cbn [snode_of].
    - cbn [nmeta] in *.
      assert (Fh : fetched_hash H k (SLeaf key val) = hs m).
      { rewrite <- Eh. exact (fetched_fhash H k (Leaf key val m) Ev). }
      rewrite Fh, Ev, En. destruct m; reflexivity.
    - cbn [ncount] in Fu.
      rewrite (IH l (node_key l)); [|apply (Lsub _ _ Lu), sub_left, sub_refl|left; reflexivity|lia].
      rewrite (IH r (node_key r)); [|apply (Lsub _ _ Lu), sub_right, sub_refl|left; reflexivity|lia].
      cbn [nmeta fhash fetched_hash] in *. rewrite Ev, En. destruct m; reflexivity.
  Qed.

  (** every live node occupies a key of its own *)
  Definition place (u : node) : nodekey :=
    if mhas kcmp (node_key u) d then node_key u else (ver (nmeta u), 0).

  Lemma place_In u : L u -> In (place u) (map fst d) /\
    (place u = node_key u \/ (place u = (ver (nmeta u), 0) /\ nonce (nmeta u) = 1)).
  Proof.
    intros Lu. destruct S as (_ & A & _). specialize (A u Lu). unfold get_node in A. unfold place, mhas.
    destruct (mfind kcmp (node_key u) d) as [e|] eqn:F.
    - split; [|left; reflexivity]. apply in_map_iff. exists (node_key u, e). split; [reflexivity|].
      apply (In_mfind kcmp kcmp_ok), F.
    - destruct (snd (node_key u) =? 1) eqn:N1; [|discriminate]. apply Z.eqb_eq in N1.
      cbn [node_key fst snd] in *.
      destruct (mfind kcmp (ver (nmeta u), 0) d) as [e|] eqn:F0; [|discriminate].
      split; [|right; auto]. apply in_map_iff. exists ((ver (nmeta u), 0), e). split; [reflexivity|].
      apply (In_mfind kcmp kcmp_ok), F0.
  Qed.

  Lemma place_inj u u' : L u -> L u' -> place u = place u' -> u = u'.
  Proof.
    intros Lu Lu' E. apply Lcoh; auto.
    pose proof (Lnonce u Lu). pose proof (Lnonce u' Lu').
    destruct (place_In u Lu) as [_ [A|[A A1]]]; destruct (place_In u' Lu') as [_ [B|[B B1]]];
      rewrite A, B in E.
    - exact E.
    - unfold node_key in E. inversion E. lia.
    - unfold node_key in E. inversion E. lia.
    - unfold node_key. inversion E. congruence.
  Qed.

  Lemma live_count (l : list node) :
    NoDup l -> (forall u, In u l -> L u) -> (length l <= length d)%nat.
  Proof.
    intros N HL. rewrite <- (map_length place l), <- (map_length fst d).
    apply NoDup_incl_length.
    - clear -N HL Lcoh Lnonce S. induction l as [|a l IH]; cbn [map]; [constructor|].
      inversion N as [|x xs Nin N']; subst. constructor.
      + intros I. apply in_map_iff in I. destruct I as (a' & E & I').
        assert (a' = a) by (apply place_inj; auto; [apply HL; right; exact I'|apply HL; left; reflexivity]).
        subst. contradiction.
      + apply IH; auto. intros u Iu. apply HL. right. exact Iu.
    - intros k I. apply in_map_iff in I. destruct I as (u & <- & Iu). apply place_In, HL, Iu.
  Qed.
End Read.

Theorem readable_safe (H : bytes -> bytes) (f : forest_t) b d :
  forest_inv f -> (forall w t, In (w, Some t) f -> wf t) ->
  (forall u, sub_of f u -> fhash H u = hs (nmeta u)) ->
  safe (sub_of f) f b d -> readable H d f = true.
Proof.
  intros FI WF LH Sd. unfold readable. apply forallb_forall. intros [w rt] I. cbn [fst snd].
  assert (Lsub : forall u c, sub_of f u -> subtree c u -> sub_of f c).
  { intros u c (w' & t & I' & Su) Sc. exists w', t. split; [exact I'|exact (sub_trans _ _ _ Sc Su)]. }
  pose proof (get_root_safe (sub_of f) f b d w rt Sd I) as G.
  assert (HL : forall t, rt = Some t -> sub_of f t).
  { intros t ->. exists w, t. split; [exact I|apply sub_refl]. }
  specialize (G HL). unfold load_version. destruct rt as [t|].
  - destruct G as (k & G & K). rewrite G.
    assert (Ct : (ncount t <= S (length d))%nat).
    { rewrite <- pre_length.
      pose proof (live_count (sub_of f) f b d Sd (sub_of_nonce f FI) (fi_coh f FI) (pre t)
                    (pre_NoDup t (WF _ _ I))) as C.
      assert (forall u, In u (pre t) -> sub_of f u).
      { intros u Iu. apply pre_In in Iu. exists w, t. auto. }
      specialize (C H0). lia. }
    rewrite (load_node_ok H (sub_of f) f b d Sd LH Lsub (sub_of_nonce f FI) (S (length d)) t k
               (HL t eq_refl) K Ct).
    apply node_beq_refl.
  - rewrite G. reflexivity.
Qed.
