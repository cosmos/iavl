(** Proofs about the node store model (Store.v): property C12.

    Plan.  A sorted association list is determined by its lookup function ([msorted_ext]), so
    every "the store is exactly ..." statement is proved through [mfind].  [expected_store f] is
    characterised by membership in [reach f] ([expected_find]), which is a functional relation
    on forests satisfying [forest_inv] (same node key => same node; a node with key (v,1) of a
    retained version v is the root of v; node versions are bounded by the version of the tree
    they occur in; a node older than its tree occurs in the previous retained tree).
    [forest_inv] holds in every state reachable within the usage contract ([store_ok_step]). *)
From Coq Require Import Lia Sorted.
From IAVL Require Export ListFacts.
From IAVL Require Import Bytes Varint Tree VMap TreeFacts MTree MTreeFacts HashFacts VersionFacts HashTable Store PruneAlgo.
Local Open Scope Z_scope.

(** ** Sorted association lists *)
Record cmp_ok {K : Type} (cmp : K -> K -> comparison) : Prop := CmpOk {
  c_eq : forall a b, cmp a b = Eq -> a = b;
  c_refl : forall a, cmp a a = Eq;
  c_antisym : forall a b, cmp b a = CompOpp (cmp a b);
  c_trans : forall a b c, cmp a b = Lt -> cmp b c = Lt -> cmp a c = Lt
}.

Section SMapFacts.
  Context {K V : Type}.
  Variable cmp : K -> K -> comparison.
  Hypothesis OK : cmp_ok cmp.

  Fixpoint msorted (l : list (K * V)) : Prop :=
    match l with
    | [] => True
    | (k, _) :: r => Forall (fun p => cmp k (fst p) = Lt) r /\ msorted r
    end.

  Lemma cmp_gt_lt a b : cmp a b = Gt -> cmp b a = Lt.
  Proof. intros E. rewrite (c_antisym cmp OK a b), E. reflexivity. Qed.

  Lemma cmp_lt_gt a b : cmp a b = Lt -> cmp b a = Gt.
  Proof. intros E. rewrite (c_antisym cmp OK a b), E. reflexivity. Qed.

  Lemma cmp_eq_sym a b : cmp a b = Eq -> cmp b a = Eq.
  Proof. intros E. rewrite (c_antisym cmp OK a b), E. reflexivity. Qed.

  Lemma mfind_mset k k' v (l : list (K * V)) :
    mfind cmp k (mset cmp k' v l) = match cmp k k' with Eq => Some v | _ => mfind cmp k l end.
  Proof.
    induction l as [|[k1 v1] r IH]; cbn [mset mfind]; [reflexivity|].
    destruct (cmp k' k1) eqn:E1; cbn [mfind].
    - apply (c_eq cmp OK) in E1. subst k1. destruct (cmp k k'); reflexivity.
    - reflexivity.
    - rewrite IH. destruct (cmp k k1) eqn:E2; try reflexivity.
      destruct (cmp k k') eqn:E3; try reflexivity.
      apply (c_eq cmp OK) in E2, E3. subst. rewrite (c_refl cmp OK) in E1. discriminate.
  Qed.

  Lemma mfind_lt_all k (l : list (K * V)) :
    Forall (fun p => cmp k (fst p) = Lt) l -> mfind cmp k l = None.
  Proof.
    induction l as [|[k1 v1] r IH]; intros F; cbn [mfind]; [reflexivity|].
    inversion F as [|x xs F1 F2]; subst. cbn [fst] in F1. rewrite F1. auto.
  Qed.

  Lemma Forall_lt_trans a b (l : list (K * V)) :
    cmp a b = Lt -> Forall (fun p => cmp b (fst p) = Lt) l -> Forall (fun p => cmp a (fst p) = Lt) l.
  Proof.
    intros E F. rewrite Forall_forall in *. intros p I. exact (c_trans cmp OK _ _ _ E (F p I)).
  Qed.

  Lemma mfind_mdel k k' (l : list (K * V)) :
    msorted l ->
    mfind cmp k (mdel cmp k' l) = match cmp k k' with Eq => None | _ => mfind cmp k l end.
  Proof.
    induction l as [|[k1 v1] r IH]; cbn [mdel mfind msorted]; intros S.
    - destruct (cmp k k'); reflexivity.
    - destruct S as [F S]. destruct (cmp k' k1) eqn:E1; cbn [mfind].
      + apply (c_eq cmp OK) in E1. subst k1.
        destruct (cmp k k') eqn:E2; try reflexivity.
        apply (c_eq cmp OK) in E2. subst k. apply mfind_lt_all, F.
      + destruct (cmp k k') eqn:E2; try reflexivity.
        apply (c_eq cmp OK) in E2. subst k. rewrite E1. apply mfind_lt_all.
        exact (Forall_lt_trans _ _ _ E1 F).
      + rewrite (IH S). destruct (cmp k k') eqn:E2; try reflexivity.
        apply (c_eq cmp OK) in E2. subst k. rewrite E1. reflexivity.
  Qed.

  Lemma Forall_mset (P : K * V -> Prop) k v l : P (k, v) -> Forall P l -> Forall P (mset cmp k v l).
  Proof.
    intros Pk. induction l as [|[k1 v1] r IH]; cbn [mset]; intros F.
    - constructor; auto.
    - inversion F; subst. destruct (cmp k k1); repeat constructor; auto.
  Qed.

  Lemma Forall_mdel (P : K * V -> Prop) k l : Forall P l -> Forall P (mdel cmp k l).
  Proof.
    induction l as [|[k1 v1] r IH]; cbn [mdel]; intros F; [constructor|].
    inversion F; subst. destruct (cmp k k1); auto.
  Qed.

  Lemma msorted_mset k v l : msorted l -> msorted (mset cmp k v l).
  Proof.
    induction l as [|[k1 v1] r IH]; cbn [mset msorted]; intros S.
    - split; [constructor|exact I].
    - destruct S as [F S]. destruct (cmp k k1) eqn:E; cbn [msorted].
      + apply (c_eq cmp OK) in E. subst k1. auto.
      + split; [|auto]. constructor; [exact E|]. exact (Forall_lt_trans _ _ _ E F).
      + split; [|auto]. apply Forall_mset; [|exact F]. cbn [fst]. apply cmp_gt_lt, E.
  Qed.

  Lemma msorted_mdel k l : msorted l -> msorted (mdel cmp k l).
  Proof.
    induction l as [|[k1 v1] r IH]; cbn [mdel msorted]; intros S; [exact I|].
    destruct S as [F S]. destruct (cmp k k1) eqn:E; cbn [msorted]; auto.
    split; [apply Forall_mdel, F|auto].
  Qed.

  Lemma mfind_In k v (l : list (K * V)) : msorted l -> In (k, v) l -> mfind cmp k l = Some v.
  Proof.
    induction l as [|[k1 v1] r IH]; cbn [msorted mfind In]; intros S HI; [contradiction|].
    destruct S as [F S]. destruct HI as [E|HI].
    - inversion E; subst. rewrite (c_refl cmp OK). reflexivity.
    - rewrite Forall_forall in F. specialize (F _ HI). cbn [fst] in F.
      rewrite (cmp_lt_gt _ _ F). auto.
  Qed.

  Lemma In_mfind k v (l : list (K * V)) : mfind cmp k l = Some v -> In (k, v) l.
  Proof.
    induction l as [|[k1 v1] r IH]; cbn [mfind In]; [discriminate|].
    destruct (cmp k k1) eqn:E; auto.
    intros Hv. inversion Hv; subst. apply (c_eq cmp OK) in E. subst. auto.
  Qed.

  Lemma mfind_In_iff k v (l : list (K * V)) : msorted l -> (mfind cmp k l = Some v <-> In (k, v) l).
  Proof. intros S. split; [apply In_mfind|apply mfind_In, S]. Qed.

  Lemma mfind_None_notin k (l : list (K * V)) : mfind cmp k l = None -> ~ In k (map fst l).
  Proof.
    induction l as [|[k1 v1] r IH]; cbn [mfind map In fst]; [tauto|].
    destruct (cmp k k1) eqn:E; [discriminate| |]; intros N [C|C]; try (exact (IH N C));
      subst; rewrite (c_refl cmp OK) in E; discriminate.
  Qed.

  Lemma notin_mfind_None k (l : list (K * V)) : ~ In k (map fst l) -> mfind cmp k l = None.
  Proof.
    intros N. destruct (mfind cmp k l) as [v|] eqn:E; [|reflexivity].
    exfalso. apply N. apply In_mfind in E. apply in_map_iff. exists (k, v). auto.
  Qed.

  Lemma msorted_NoDup (l : list (K * V)) : msorted l -> NoDup (map fst l).
  Proof.
    induction l as [|[k1 v1] r IH]; cbn [msorted map fst]; intros S; [constructor|].
    destruct S as [F S]. constructor; [|auto].
    intros C. apply in_map_iff in C. destruct C as (p & E & HI).
    rewrite Forall_forall in F. specialize (F _ HI). rewrite E, (c_refl cmp OK) in F. discriminate.
  Qed.

  Lemma msorted_ext (l1 : list (K * V)) : forall l2,
    msorted l1 -> msorted l2 -> (forall k, mfind cmp k l1 = mfind cmp k l2) -> l1 = l2.
  Proof.
    induction l1 as [|[k1 v1] r1 IH]; intros [|[k2 v2] r2] S1 S2 E.
    - reflexivity.
    - specialize (E k2). cbn [mfind] in E. rewrite (c_refl cmp OK) in E. discriminate.
    - specialize (E k1). cbn [mfind] in E. rewrite (c_refl cmp OK) in E. discriminate.
    - cbn [msorted] in S1, S2. destruct S1 as [F1 S1], S2 as [F2 S2].
      assert (Ek : k1 = k2).
      { pose proof (E k1) as A. pose proof (E k2) as B. cbn [mfind] in A, B.
        rewrite (c_refl cmp OK) in A, B.
        destruct (cmp k1 k2) eqn:C; [apply (c_eq cmp OK), C| |].
        - (* k1 < k2: k1 is below everything of l2 *)
          rewrite (mfind_lt_all k1 r2 (Forall_lt_trans _ _ _ C F2)) in A. discriminate.
        - apply cmp_gt_lt in C.
          rewrite C, (mfind_lt_all k2 r1 (Forall_lt_trans _ _ _ C F1)) in B. discriminate. }
      subst k2.
      assert (Ev : v1 = v2).
      { specialize (E k1). cbn [mfind] in E. rewrite (c_refl cmp OK) in E. congruence. }
      subst v2. f_equal. apply IH; auto.
      intros k. specialize (E k). cbn [mfind] in E.
      destruct (cmp k k1) eqn:C; auto.
      apply (c_eq cmp OK) in C. subst k.
      rewrite (mfind_lt_all k1 r1 F1), (mfind_lt_all k1 r2 F2). reflexivity.
  Qed.

  Definition mset_all (ps : list (K * V)) (st : list (K * V)) : list (K * V) :=
    fold_left (fun st p => mset cmp (fst p) (snd p) st) ps st.
  Definition mdel_all (ks : list K) (st : list (K * V)) : list (K * V) :=
    fold_left (fun st k => mdel cmp k st) ks st.

  Fixpoint lastb (k : K) (ps : list (K * V)) : option V :=
    match ps with
    | [] => None
    | p :: r =>
        match lastb k r with
        | Some v => Some v
        | None => match cmp k (fst p) with Eq => Some (snd p) | _ => None end
        end
    end.

  Lemma mfind_mset_all k ps : forall st,
    mfind cmp k (mset_all ps st) =
      match lastb k ps with Some v => Some v | None => mfind cmp k st end.
  Proof.
    unfold mset_all. induction ps as [|p r IH]; intros st; cbn [fold_left lastb]; [reflexivity|].
    rewrite IH, mfind_mset. destruct (lastb k r); [reflexivity|].
    destruct (cmp k (fst p)); reflexivity.
  Qed.

  Lemma msorted_mset_all ps : forall st, msorted st -> msorted (mset_all ps st).
  Proof.
    unfold mset_all. induction ps as [|p r IH]; intros st S; cbn [fold_left]; auto.
    apply IH, msorted_mset, S.
  Qed.

  Lemma msorted_mdel_all ks : forall st, msorted st -> msorted (mdel_all ks st).
  Proof.
    unfold mdel_all. induction ks as [|p r IH]; intros st S; cbn [fold_left]; auto.
    apply IH, msorted_mdel, S.
  Qed.

  Lemma lastb_In k v ps : lastb k ps = Some v -> In (k, v) ps.
  Proof.
    induction ps as [|[k1 v1] r IH]; cbn [lastb In fst snd]; [discriminate|].
    destruct (lastb k r) as [w|].
    - intros E. right. apply IH. exact E.
    - destruct (cmp k k1) eqn:C; try discriminate.
      intros E. inversion E; subst. apply (c_eq cmp OK) in C. subst. auto.
  Qed.

  Lemma lastb_None k ps : lastb k ps = None -> ~ In k (map fst ps).
  Proof.
    induction ps as [|[k1 v1] r IH]; cbn [lastb In map fst snd]; [tauto|].
    destruct (lastb k r) as [w|]; [discriminate|].
    destruct (cmp k k1) eqn:C; [discriminate| |]; intros _ [E|E]; try (exact (IH eq_refl E));
      subst; rewrite (c_refl cmp OK) in C; discriminate.
  Qed.

  Lemma mfind_mset_all_Some k v ps st :
    (forall v1 v2, In (k, v1) ps -> In (k, v2) ps -> v1 = v2) ->
    (mfind cmp k (mset_all ps st) = Some v <->
     In (k, v) ps \/ (~ In k (map fst ps) /\ mfind cmp k st = Some v)).
  Proof.
    intros Fn. rewrite mfind_mset_all. destruct (lastb k ps) as [w|] eqn:L.
    - apply lastb_In in L. split.
      + intros Q. injection Q as <-. auto.
      + intros [HI|[N _]]; [rewrite (Fn _ _ L HI); reflexivity|].
        exfalso. apply N, in_map_iff. exists (k, w). auto.
    - apply lastb_None in L. split; [auto|]. intros [HI|[_ Q]]; [|exact Q].
      exfalso. apply L, in_map_iff. exists (k, v). auto.
  Qed.

  Lemma mfind_mset_all_notin k ps st :
    ~ In k (map fst ps) -> mfind cmp k (mset_all ps st) = mfind cmp k st.
  Proof.
    intros N. rewrite mfind_mset_all. destruct (lastb k ps) as [v|] eqn:L; [|reflexivity].
    exfalso. apply N, in_map_iff. exists (k, v). split; [reflexivity|apply lastb_In, L].
  Qed.

  Lemma mfind_mset_all_in k ps st :
    In k (map fst ps) -> exists v, mfind cmp k (mset_all ps st) = Some v.
  Proof.
    intros HI. rewrite mfind_mset_all. destruct (lastb k ps) as [v|] eqn:L; [eauto|].
    exfalso. exact (lastb_None _ _ L HI).
  Qed.

  Lemma mfind_mdel_all_Some k v ks : forall st, msorted st ->
    (mfind cmp k (mdel_all ks st) = Some v <-> ~ In k ks /\ mfind cmp k st = Some v).
  Proof.
    unfold mdel_all. induction ks as [|k1 r IH]; intros st S; cbn [fold_left In]; [tauto|].
    rewrite (IH _ (msorted_mdel k1 st S)), (mfind_mdel _ _ _ S).
    destruct (cmp k k1) eqn:C.
    1:{ apply (c_eq cmp OK) in C. subst k1. split; [intros [_ Q]; discriminate Q|tauto]. }
    all: assert (k1 <> k) by (intros ->; rewrite (c_refl cmp OK) in C; discriminate); tauto.
  Qed.

  Lemma mfind_mdel_all_in k ks st : msorted st -> In k ks -> mfind cmp k (mdel_all ks st) = None.
  Proof.
    intros S HI. destruct (mfind cmp k (mdel_all ks st)) as [v|] eqn:E; [|reflexivity].
    apply (mfind_mdel_all_Some _ _ _ _ S) in E. tauto.
  Qed.

  Lemma mfind_mdel_all_notin k ks st :
    msorted st -> ~ In k ks -> mfind cmp k (mdel_all ks st) = mfind cmp k st.
  Proof.
    intros S N. apply option_ext. intros v. rewrite (mfind_mdel_all_Some _ _ _ _ S). tauto.
  Qed.

  Lemma key_in_dec k (ks : list K) : In k ks \/ ~ In k ks.
  Proof.
    induction ks as [|a r IH]; cbn [In]; [tauto|].
    destruct (cmp a k) eqn:C; [left; left; apply (c_eq cmp OK), C| |];
      (assert (a <> k) by (intros ->; rewrite (c_refl cmp OK) in C; discriminate); tauto).
  Qed.

  Lemma mset_mdel_all_exact ps ks (old new : list (K * V)) :
    msorted old -> msorted new ->
    (forall k v, In (k, v) ps -> In (k, v) new) ->
    (forall k v, In (k, v) new -> In (k, v) ps \/ In (k, v) old) ->
    (forall k, In k ks <-> In k (map fst old) /\ mfind cmp k new = None) ->
    mdel_all ks (mset_all ps old) = new.
  Proof.
    intros So Sn Pn Np Ks. pose proof (msorted_mset_all ps old So) as Sa.
    apply msorted_ext; [apply msorted_mdel_all, Sa|exact Sn|]. intros k. apply option_ext. intros v.
    rewrite (mfind_mdel_all_Some k v ks _ Sa), (mfind_mset_all_Some k v ps old), Ks.
    2:{ intros v1 v2 I1 I2. apply Pn, (mfind_In _ _ _ Sn) in I1, I2. congruence. }
    split.
    - intros [N [A|[NA Fo]]]; [exact (mfind_In _ _ _ Sn (Pn _ _ A))|].
      (* an old pair that is neither deleted nor written again: [new] has the key, and has
         taken its value from [old] *)
      destruct (mfind cmp k new) as [v'|] eqn:M.
      + destruct (Np _ _ (In_mfind _ _ _ M)) as [A|A].
        * exfalso. apply NA, in_map_iff. exists (k, v'). auto.
        * rewrite <- Fo. symmetry. exact (mfind_In _ _ _ So A).
      + exfalso. apply N. split; [|reflexivity]. apply in_map_iff. exists (k, v). split; [reflexivity|].
        exact (In_mfind _ _ _ Fo).
    - intros A. split; [intros [_ X]; congruence|].
      destruct (key_in_dec k (map fst ps)) as [X|X].
      + left. destruct (In_map_fst_pair _ _ X) as [v2 X2].
        pose proof (mfind_In _ _ _ Sn (Pn _ _ X2)) as M. replace v with v2 by congruence. exact X2.
      + destruct (Np _ _ (In_mfind _ _ _ A)) as [A'|A'].
        * exfalso. apply X, in_map_iff. exists (k, v). auto.
        * right. split; [exact X|exact (mfind_In _ _ _ So A')].
  Qed.
End SMapFacts.

Arguments msorted {K V} cmp l.
Arguments lastb {K V} cmp k ps.
Arguments mset_all {K V} cmp ps st.
Arguments mdel_all {K V} cmp ks st.

Section SMapMore.
  Context {K V : Type}.
  Variable cmp : K -> K -> comparison.

  Lemma In_mset p k v (l : list (K * V)) : In p (mset cmp k v l) -> p = (k, v) \/ In p l.
  Proof.
    induction l as [|[k1 v1] r IH]; cbn [mset In]; [intros [E|[]]; auto|].
    destruct (cmp k k1); cbn [In].
    - intros [E|HI]; auto.
    - intros [E|[E|HI]]; auto.
    - intros [E|HI]; auto. destruct (IH HI); auto.
  Qed.

  Lemma In_mset_all p ps : forall st : list (K * V), In p (mset_all cmp ps st) -> In p ps \/ In p st.
  Proof.
    unfold mset_all. induction ps as [|[k v] r IH]; intros st; cbn [fold_left In]; [tauto|].
    intros HI. destruct (IH _ HI) as [A|A]; [tauto|]. cbn [fst snd] in A.
    apply In_mset in A. destruct A as [A|A]; auto.
  Qed.

  Lemma In_mdel p k (l : list (K * V)) : In p (mdel cmp k l) -> In p l.
  Proof.
    induction l as [|[k1 v1] r IH]; cbn [mdel In]; [tauto|].
    destruct (cmp k k1); cbn [In]; tauto.
  Qed.

  Lemma In_mdel_all p ks : forall st : list (K * V), In p (mdel_all cmp ks st) -> In p st.
  Proof.
    unfold mdel_all. induction ks as [|k r IH]; intros st; cbn [fold_left]; [tauto|].
    intros HI. apply IH in HI. apply In_mdel in HI. exact HI.
  Qed.

  Lemma msorted_filter (p : K * V -> bool) l : msorted cmp l -> msorted cmp (filter p l).
  Proof.
    induction l as [|[k v] r IH]; cbn [msorted filter]; intros S; [exact I|].
    destruct S as [F S]. destruct (p (k, v)); cbn [msorted]; auto using Forall_filter.
  Qed.

  Lemma msorted_keys (l : list (K * V)) :
    msorted cmp l -> StronglySorted (fun a b => cmp a b = Lt) (map fst l).
  Proof.
    induction l as [|[k v] r IH]; cbn [msorted map fst]; intros S; constructor; [tauto|].
    apply Forall_map, S.
  Qed.

  Lemma msorted_app (a b : list (K * V)) :
    msorted cmp a -> msorted cmp b ->
    (forall x y, In x a -> In y b -> cmp (fst x) (fst y) = Lt) -> msorted cmp (a ++ b).
  Proof.
    induction a as [|[k v] a IH]; intros Sa Sb X; [exact Sb|].
    cbn [app msorted] in *. destruct Sa as [F Sa]. split.
    - apply Forall_app. split; [exact F|]. apply Forall_forall. intros y Iy.
      exact (X (k, v) y (or_introl eq_refl) Iy).
    - apply IH; [exact Sa|exact Sb|]. intros x y Ix Iy. apply X; [right; exact Ix|exact Iy].
  Qed.
End SMapMore.

Lemma msorted_map {K V K' V'} (cmp : K -> K -> comparison) (cmp' : K' -> K' -> comparison)
      (g : K * V -> K' * V') (l : list (K * V)) :
  msorted cmp l ->
  (forall p q, In p l -> In q l -> cmp (fst p) (fst q) = Lt -> cmp' (fst (g p)) (fst (g q)) = Lt) ->
  msorted cmp' (map g l).
Proof.
  induction l as [|[k v] l IH]; intros S M; [exact I|].
  cbn [msorted map] in *. destruct S as [F S].
  destruct (g (k, v)) as [k' v'] eqn:G. split.
  - apply Forall_forall. intros q Iq. apply in_map_iff in Iq. destruct Iq as (q0 & <- & Iq0).
    rewrite Forall_forall in F.
    pose proof (M (k, v) q0 (or_introl eq_refl) (or_intror Iq0) (F q0 Iq0)) as X.
    rewrite G in X. exact X.
  - apply IH; [exact S|]. intros p q Ip Iq. apply M; right; assumption.
Qed.

(** ** The two key orders *)
Definition klt (a b : nodekey) : Prop := fst a < fst b \/ (fst a = fst b /\ snd a < snd b).

Lemma kcmp_Lt a b : kcmp a b = Lt <-> klt a b.
Proof.
  destruct a as [a1 a2], b as [b1 b2]. unfold kcmp, klt. cbn [fst snd].
  destruct (Z.compare_spec a1 b1) as [E|E|E].
  - rewrite Z.compare_lt_iff. lia.
  - split; [left; exact E|reflexivity].
  - split; [discriminate|lia].
Qed.

Lemma kcmp_Eq a b : kcmp a b = Eq <-> a = b.
Proof.
  destruct a as [a1 a2], b as [b1 b2]. unfold kcmp. cbn [fst snd].
  destruct (Z.compare_spec a1 b1) as [E|E|E].
  - rewrite Z.compare_eq_iff. split; [intros ->; subst; reflexivity|intros Q; inversion Q; reflexivity].
  - split; [discriminate|intros Q; inversion Q; lia].
  - split; [discriminate|intros Q; inversion Q; lia].
Qed.

Lemma kcmp_ok : cmp_ok kcmp.
Proof.
  constructor.
  - intros a b. apply kcmp_Eq.
  - intros a. apply kcmp_Eq. reflexivity.
  - intros [a1 a2] [b1 b2]. unfold kcmp. cbn [fst snd].
    rewrite (Z.compare_antisym a1 b1), (Z.compare_antisym a2 b2).
    destruct (a1 ?= b1); reflexivity.
  - intros a b c. rewrite !kcmp_Lt. unfold klt. lia.
Qed.

Lemma bcmp_ok : cmp_ok bcmp.
Proof.
  constructor.
  - exact bcmp_eq.
  - exact bcmp_refl.
  - exact bcmp_antisym.
  - exact bcmp_lt_trans.
Qed.

Lemma keqb_true a b : keqb a b = true <-> a = b.
Proof.
  destruct a as [a1 a2], b as [b1 b2]. unfold keqb. cbn [fst snd].
  rewrite Bool.andb_true_iff, !Z.eqb_eq. split; [intros [-> ->]; reflexivity|intros Q; inversion Q; auto].
Qed.

Lemma keqb_false a b : keqb a b = false <-> a <> b.
Proof.
  rewrite <- keqb_true. destruct (keqb a b); split; congruence.
Qed.

Lemma keqb_refl k : keqb k k = true.
Proof. apply keqb_true. reflexivity. Qed.

Lemma kcmp_keqb {A : Type} (k k' : nodekey) (x y : A) :
  match kcmp k k' with Eq => x | _ => y end = if keqb k k' then x else y.
Proof.
  destruct (keqb k k') eqn:F.
  - apply keqb_true in F. subst k'. rewrite (c_refl kcmp kcmp_ok). reflexivity.
  - apply keqb_false in F. destruct (kcmp k k') eqn:E; try reflexivity.
    apply kcmp_Eq in E. contradiction.
Qed.

Lemma mfind_mset_k {V} k k' (v : V) (d : list (nodekey * V)) :
  mfind kcmp k (mset kcmp k' v d) = if keqb k k' then Some v else mfind kcmp k d.
Proof. rewrite (mfind_mset kcmp kcmp_ok). apply kcmp_keqb. Qed.

Lemma mfind_mdel_k {V} k k' (d : list (nodekey * V)) :
  msorted kcmp d -> mfind kcmp k (mdel kcmp k' d) = if keqb k k' then None else mfind kcmp k d.
Proof. intros S. rewrite (mfind_mdel kcmp kcmp_ok _ _ _ S). apply kcmp_keqb. Qed.

#[export] Hint Resolve kcmp_ok bcmp_ok : core.

(** ** Subtrees *)
Lemma sub_inv u t :
  subtree u t ->
  u = t \/ match t with Leaf _ _ _ => False | Inner _ _ _ _ l r => subtree u l \/ subtree u r end.
Proof. intros S. inversion S; subst; auto. Qed.

Lemma sub_trans a b c : subtree a b -> subtree b c -> subtree a c.
Proof.
  intros S1 S2. induction S2 as [t|u k h s m l r _ IH|u k h s m l r _ IH]; [exact S1| |].
  - apply sub_left, IH, S1.
  - apply sub_right, IH, S1.
Qed.

Lemma sub_leaf u k v m : subtree u (Leaf k v m) -> u = Leaf k v m.
Proof. intros S. apply sub_inv in S. destruct S as [E|[]]. exact E. Qed.

Definition from_old (t base : node) : Prop :=
  forall u, subtree u t -> ver (nmeta u) <> 0 -> subtree u base.

Lemma from_old_subtree t b : subtree t b -> from_old t b.
Proof. intros S u Su _. exact (sub_trans _ _ _ Su S). Qed.

Lemma from_old_refl t : from_old t t.
Proof. apply from_old_subtree, sub_refl. Qed.

Lemma from_old_trans a b c : from_old a b -> from_old b c -> from_old a c.
Proof. intros F1 F2 u Su P. exact (F2 u (F1 u Su P) P). Qed.

Lemma from_old_leaf k v b : from_old (Leaf k v new_meta) b.
Proof. intros u Su P. apply sub_leaf in Su. subst u. cbn in P. congruence. Qed.

Lemma from_old_inner k h s l r b :
  from_old l b -> from_old r b -> from_old (Inner k h s new_meta l r) b.
Proof.
  intros Fl Fr u Su P. apply sub_inv in Su. destruct Su as [E|[Su|Su]].
  - subst u. cbn in P. congruence.
  - exact (Fl u Su P).
  - exact (Fr u Su P).
Qed.

Lemma from_old_mk k l r b : from_old l b -> from_old r b -> from_old (mk k l r) b.
Proof. unfold mk. apply from_old_inner. Qed.

Create HintDb sub.
#[global] Hint Resolve sub_refl sub_left sub_right : sub.
Ltac old_nodes :=
  repeat first [ assumption | apply from_old_leaf | apply from_old_inner
               | (apply from_old_subtree; solve [auto 7 with sub]) ].

Lemma rotR_from_old t : from_old (rotR t) t.
Proof.
  destruct t as [k v m|k h s m l r]; [apply from_old_refl|].
  destruct l as [lk lv lm|lk lh ls lm ll lr]; [apply from_old_refl|].
  unfold rotR, mk. old_nodes.
Qed.

Lemma rotL_from_old t : from_old (rotL t) t.
Proof.
  destruct t as [k v m|k h s m l r]; [apply from_old_refl|].
  destruct r as [rk rv rm|rk rh rs rm rl rr]; [apply from_old_refl|].
  unfold rotL, mk. old_nodes.
Qed.

Lemma balance_from_old t : from_old (balance t) t.
Proof.
  destruct t as [k v m|k h s m l r]; [apply from_old_refl|].
  unfold balance.
  destruct (1 <? height l - height r) eqn:E1.
  - destruct (0 <=? bal_of l) eqn:E2; [apply rotR_from_old|].
    destruct l as [lk lv lm|lk lh ls lm ll lr]; [apply from_old_refl|].
    destruct lr as [ak av am|ak ah asz am al ar]; unfold rotL, rotR, mk; old_nodes.
  - destruct (height l - height r <? -1) eqn:E3; [|apply from_old_refl].
    destruct (bal_of r <=? 0) eqn:E2; [apply rotL_from_old|].
    destruct r as [rk rv rm|rk rh rs rm rl rr]; [apply from_old_refl|].
    destruct rl as [ak av am|ak ah asz am al ar]; unfold rotR, rotL, mk; old_nodes.
Qed.

Theorem set_from_old t k v : from_old (fst (set t k v)) t.
Proof.
  induction t as [lk lv m|nk h s m l IHl r IHr]; cbn [set].
  - destruct (bcmp k lk); cbn [fst]; old_nodes.
  - destruct (blt k nk).
    + destruct (set l k v) as [l' upd]. cbn [fst] in IHl.
      assert (Fl : from_old l' (Inner nk h s m l r)).
      { eapply from_old_trans; [exact IHl|]. apply from_old_subtree. auto 7 with sub. }
      destruct upd; cbn [fst]; [old_nodes|].
      eapply from_old_trans; [apply balance_from_old|]. apply from_old_mk; old_nodes.
    + destruct (set r k v) as [r' upd]. cbn [fst] in IHr.
      assert (Fr : from_old r' (Inner nk h s m l r)).
      { eapply from_old_trans; [exact IHr|]. apply from_old_subtree. auto 7 with sub. }
      destruct upd; cbn [fst]; [old_nodes|].
      eapply from_old_trans; [apply balance_from_old|]. apply from_old_mk; old_nodes.
Qed.

Theorem remove_from_old t k : forall t', rm_self (remove t k) = Some t' -> from_old t' t.
Proof.
  induction t as [lk lv m|nk h s m l IHl r IHr]; intros t'; cbn [remove]; cbv zeta.
  - destruct (beq k lk); cbn [rm_self]; intros E; [discriminate E|].
    injection E as <-. apply from_old_refl.
  - destruct (blt k nk).
    + destruct (rm_val (remove l k)) as [val|].
      * destruct (rm_self (remove l k)) as [l'|]; cbn [rm_self]; intros E; injection E as <-.
        -- assert (Fl : from_old l' (Inner nk h s m l r)).
           { eapply from_old_trans; [apply IHl; reflexivity|]. apply from_old_subtree. auto 7 with sub. }
           eapply from_old_trans; [apply balance_from_old|]. apply from_old_mk; old_nodes.
        -- old_nodes.
      * cbn [rm_self]. intros E. injection E as <-. apply from_old_refl.
    + destruct (rm_val (remove r k)) as [val|].
      * destruct (rm_self (remove r k)) as [r'|]; cbn [rm_self]; intros E; injection E as <-.
        -- assert (Fr : from_old r' (Inner nk h s m l r)).
           { eapply from_old_trans; [apply IHr; reflexivity|]. apply from_old_subtree. auto 7 with sub. }
           eapply from_old_trans; [apply balance_from_old|]. apply from_old_mk; old_nodes.
        -- old_nodes.
      * cbn [rm_self]. intros E. injection E as <-. apply from_old_refl.
Qed.

(** ** saveNewNodes: [assign] is [stamp] plus the list of writes *)
Section Assign.
  Variable H : bytes -> bytes.

  Lemma is_new_false t : is_new t = false <-> ver (nmeta t) <> 0.
  Proof. unfold is_new. apply Z.eqb_neq. Qed.
  Lemma is_new_true t : is_new t = true <-> ver (nmeta t) = 0.
  Proof. unfold is_new. apply Z.eqb_eq. Qed.

  Lemma assign_old wv n t : is_new t = false -> assign H wv n t = (t, n, []).
  Proof. intros E. destruct t; cbn [assign]; rewrite E; reflexivity. Qed.

  Lemma assign_leaf wv n k v m :
    is_new (Leaf k v m) = true ->
    assign H wv n (Leaf k v m) =
      (Leaf k v (Meta wv (n + 1) (H (leaf_preimage H wv k v))), n + 1,
       [((wv, n + 1), SLeaf k v)]).
  Proof. intros E. cbn [assign]. rewrite E. reflexivity. Qed.

  Lemma assign_inner wv n k h s m l r :
    is_new (Inner k h s m l r) = true ->
    assign H wv n (Inner k h s m l r) =
      (let '(l', n1, wl) := assign H wv (n + 1) l in
       let '(r', n2, wr) := assign H wv n1 r in
       let t' := Inner k h s (Meta wv (n + 1)
                   (H (inner_preimage h s wv (hs (nmeta l')) (hs (nmeta r'))))) l' r' in
       (t', n2, wl ++ wr ++ [(node_key t', snode_of t')])).
  Proof. intros E. cbn [assign]. rewrite E. reflexivity. Qed.

  Lemma stamp_old wv n t : is_new t = false -> stamp H wv n t = (t, n).
  Proof. intros E. destruct t; cbn [stamp]; rewrite E; reflexivity. Qed.

  Lemma assign_ind wv (P : Z -> node -> node * Z * list (nodekey * snode) -> Prop) :
    (forall n t, is_new t = false -> P n t (t, n, [])) ->
    (forall n k v m, is_new (Leaf k v m) = true ->
       P n (Leaf k v m) (Leaf k v (Meta wv (n + 1) (H (leaf_preimage H wv k v))), n + 1,
                         [((wv, n + 1), SLeaf k v)])) ->
    (forall n k h s m l r l' n1 wl r' n2 wr, is_new (Inner k h s m l r) = true ->
       assign H wv (n + 1) l = (l', n1, wl) -> assign H wv n1 r = (r', n2, wr) ->
       P (n + 1) l (l', n1, wl) -> P n1 r (r', n2, wr) ->
       P n (Inner k h s m l r)
         (let t' := Inner k h s (Meta wv (n + 1)
                      (H (inner_preimage h s wv (hs (nmeta l')) (hs (nmeta r'))))) l' r' in
          (t', n2, wl ++ wr ++ [(node_key t', snode_of t')]))) ->
    forall t n, P n t (assign H wv n t).
  Proof.
    intros Pold Pleaf Pinner. induction t as [k v m|k h s m l IHl r IHr]; intros n.
    - destruct (is_new (Leaf k v m)) eqn:E.
      + rewrite (assign_leaf _ _ _ _ _ E). apply Pleaf, E.
      + rewrite (assign_old _ _ _ E). apply Pold, E.
    - destruct (is_new (Inner k h s m l r)) eqn:E.
      + rewrite (assign_inner _ _ _ _ _ _ _ _ E).
        specialize (IHl (n + 1)). destruct (assign H wv (n + 1) l) as [[l' n1] wl] eqn:El.
        specialize (IHr n1). destruct (assign H wv n1 r) as [[r' n2] wr] eqn:Er.
        exact (Pinner n k h s m l r l' n1 wl r' n2 wr E El Er IHl IHr).
      + rewrite (assign_old _ _ _ E). apply Pold, E.
  Qed.

  Lemma assign_stamp wv t : forall n, fst (assign H wv n t) = stamp H wv n t.
  Proof.
    apply (assign_ind wv (fun n t a => fst a = stamp H wv n t)); cbv zeta; cbn [fst].
    - intros n t0 E. rewrite (stamp_old _ _ _ E). reflexivity.
    - intros n k v m E. rewrite stamp_leaf, E. reflexivity.
    - intros n k h s m l r l' n1 wl r' n2 wr E _ _ IHl IHr.
      rewrite stamp_inner, E, <- IHl, <- IHr. reflexivity.
  Qed.

  Lemma assign_keys wv t : forall n,
    n <= snd (fst (assign H wv n t)) /\
    forall p, In p (snd (assign H wv n t)) ->
      fst (fst p) = wv /\ n < snd (fst p) <= snd (fst (assign H wv n t)).
  Proof.
    apply (assign_ind wv (fun n t a => n <= snd (fst a) /\
             forall p, In p (snd a) -> fst (fst p) = wv /\ n < snd (fst p) <= snd (fst a)));
      cbv zeta; cbn [fst snd].
    - intros n t0 _. split; [lia|]. intros p [].
    - intros n k v m _. split; [lia|]. intros p [<-|[]]. cbn [fst snd]. lia.
    - intros n k h s m l r l' n1 wl r' n2 wr _ _ _ [Ll Kl] [Lr Kr]. split; [lia|].
      intros p HI. apply in_app_or in HI. destruct HI as [HI|HI].
      + specialize (Kl p HI). lia.
      + apply in_app_or in HI. destruct HI as [HI|[<-|[]]].
        * specialize (Kr p HI). lia.
        * unfold node_key. cbn [fst snd nmeta ver nonce]. lia.
  Qed.

  Lemma assign_last wv n t :
    is_new t = true ->
    let t' := fst (fst (assign H wv n t)) in
    node_key t' = (wv, n + 1) /\
    exists W0, snd (assign H wv n t) = W0 ++ [(node_key t', snode_of t')] /\
               forall p, In p W0 -> fst (fst p) = wv /\ n + 1 < snd (fst p).
  Proof.
    intros E. destruct t as [k v m|k h s m l r].
    - rewrite (assign_leaf _ _ _ _ _ E). cbn [fst snd]. split; [reflexivity|].
      exists []. split; [reflexivity|]. intros p [].
    - rewrite (assign_inner _ _ _ _ _ _ _ _ E).
      pose proof (assign_keys wv l (n + 1)) as Kl.
      destruct (assign H wv (n + 1) l) as [[l' n1] wl].
      pose proof (assign_keys wv r n1) as Kr.
      destruct (assign H wv n1 r) as [[r' n2] wr].
      cbn [fst snd] in *. split; [reflexivity|].
      exists (wl ++ wr). split; [rewrite app_assoc; reflexivity|].
      destruct Kl as [Ll Kl], Kr as [Lr Kr].
      intros p HI. apply in_app_or in HI. destruct HI as [HI|HI].
      + specialize (Kl p HI). lia.
      + specialize (Kr p HI). lia.
  Qed.

  Definition oldok (wv : Z) (t : node) : Prop :=
    forall u, subtree u t -> ver (nmeta u) <> 0 -> ver (nmeta u) <> wv /\ all_persisted u.

  Lemma oldok_sub wv t u : oldok wv t -> subtree u t -> oldok wv u.
  Proof. intros O S w Sw. apply O. exact (sub_trans _ _ _ Sw S). Qed.

  Lemma oldok_persisted wv t u :
    oldok wv t -> is_new t = false -> subtree u t -> ver (nmeta u) <> 0 /\ ver (nmeta u) <> wv.
  Proof.
    intros O E S. apply is_new_false in E.
    destruct (O t (sub_refl t) E) as [_ P].
    pose proof (all_persisted_root u (all_persisted_subtree u t S P)) as Pu.
    split; [exact Pu|]. apply (O u S Pu).
  Qed.

  Lemma assign_sub wv t : wv <> 0 -> oldok wv t -> forall n u,
    subtree u (fst (fst (assign H wv n t))) ->
    (ver (nmeta u) <> wv /\ ver (nmeta u) <> 0 /\ subtree u t) \/
    (ver (nmeta u) = wv /\ n < nonce (nmeta u) <= snd (fst (assign H wv n t))).
  Proof.
    intros Hwv O n. revert t n O.
    apply (assign_ind wv (fun n t a => oldok wv t -> forall u, subtree u (fst (fst a)) ->
             (ver (nmeta u) <> wv /\ ver (nmeta u) <> 0 /\ subtree u t) \/
             (ver (nmeta u) = wv /\ n < nonce (nmeta u) <= snd (fst a)))); cbv zeta; cbn [fst snd].
    - intros n t E O u S. destruct (oldok_persisted _ _ _ O E S). left. auto.
    - intros n k v m _ _ u S. apply sub_leaf in S. subst u. right. cbn [nmeta ver nonce]. lia.
    - intros n k h s m l r l' n1 wl r' n2 wr _ El Er IHl IHr O u S.
      assert (Ol : oldok wv l) by (apply (oldok_sub _ _ _ O); auto 7 with sub).
      assert (Or : oldok wv r) by (apply (oldok_sub _ _ _ O); auto 7 with sub).
      pose proof (assign_keys wv l (n + 1)) as [Ll _]. rewrite El in Ll.
      pose proof (assign_keys wv r n1) as [Lr _]. rewrite Er in Lr. cbn [fst snd] in Ll, Lr.
      apply sub_inv in S. destruct S as [->|[S|S]].
      + right. cbn [nmeta ver nonce]. lia.
      + destruct (IHl Ol u S) as [(A & B & C)|(A & B)]; [left|right; lia].
        split; [exact A|]. split; [exact B|]. apply sub_left, C.
      + destruct (IHr Or u S) as [(A & B & C)|(A & B)]; [left|right; lia].
        split; [exact A|]. split; [exact B|]. apply sub_right, C.
  Qed.

  Lemma assign_inj wv t : wv <> 0 -> oldok wv t -> forall n u1 u2,
    subtree u1 (fst (fst (assign H wv n t))) -> subtree u2 (fst (fst (assign H wv n t))) ->
    ver (nmeta u1) = wv -> ver (nmeta u2) = wv -> nonce (nmeta u1) = nonce (nmeta u2) -> u1 = u2.
  Proof.
    intros Hwv O n. revert t n O.
    apply (assign_ind wv (fun n t a => oldok wv t -> forall u1 u2,
             subtree u1 (fst (fst a)) -> subtree u2 (fst (fst a)) ->
             ver (nmeta u1) = wv -> ver (nmeta u2) = wv -> nonce (nmeta u1) = nonce (nmeta u2) ->
             u1 = u2)); cbv zeta; cbn [fst snd].
    - intros n t E O u1 u2 S1 _ V1. destruct (oldok_persisted _ _ _ O E S1). congruence.
    - intros n k v m _ _ u1 u2 S1 S2 _ _ _. apply sub_leaf in S1, S2. congruence.
    - intros n k h s m l r l' n1 wl r' n2 wr _ El Er IHl IHr O u1 u2 S1 S2 V1 V2 N.
      assert (Ol : oldok wv l) by (apply (oldok_sub _ _ _ O); auto 7 with sub).
      assert (Or : oldok wv r) by (apply (oldok_sub _ _ _ O); auto 7 with sub).
      (* the root has nonce n+1, the left nodes (n+1, n1], the right ones (n1, n2] *)
      pose proof (assign_sub wv l Hwv Ol (n + 1)) as Bl. rewrite El in Bl.
      pose proof (assign_sub wv r Hwv Or n1) as Br. rewrite Er in Br.
      pose proof (assign_keys wv l (n + 1)) as [Ll _]. rewrite El in Ll.
      pose proof (assign_keys wv r n1) as [Lr _]. rewrite Er in Lr. cbn [fst snd] in Bl, Br, Ll, Lr.
      apply sub_inv in S1. apply sub_inv in S2.
      destruct S1 as [->|[S1|S1]]; destruct S2 as [->|[S2|S2]]; try reflexivity;
        cbn [nmeta ver nonce] in *;
        try (destruct (Bl _ S1) as [(A1 & _)|(_ & B1)]; [congruence|]);
        try (destruct (Br _ S1) as [(A1 & _)|(_ & B1)]; [congruence|]);
        try (destruct (Bl _ S2) as [(A2 & _)|(_ & B2)]; [congruence|]);
        try (destruct (Br _ S2) as [(A2 & _)|(_ & B2)]; [congruence|]);
        try lia.
      + apply (IHl Ol); assumption.
      + apply (IHr Or); assumption.
  Qed.

  Lemma assign_writes wv t : wv <> 0 -> oldok wv t -> forall n k sn,
    In (k, sn) (snd (assign H wv n t)) <->
    exists u, subtree u (fst (fst (assign H wv n t))) /\ ver (nmeta u) = wv /\
              k = node_key u /\ sn = snode_of u.
  Proof.
    intros Hwv O n. revert t n O.
    apply (assign_ind wv (fun n t a => oldok wv t -> forall k sn, In (k, sn) (snd a) <->
             exists u, subtree u (fst (fst a)) /\ ver (nmeta u) = wv /\
                       k = node_key u /\ sn = snode_of u)); cbv zeta; cbn [fst snd].
    - intros n t E O k sn. cbn [In]. split; [tauto|].
      intros (u & S & V & _). destruct (oldok_persisted _ _ _ O E S). congruence.
    - intros n kk v m _ _ k sn. cbn [In]. split.
      + intros [Q|[]]. inversion Q; subst. eexists. split; [apply sub_refl|]. cbn. auto.
      + intros (u & S & V & -> & ->). apply sub_leaf in S. subst u. left. reflexivity.
    - intros n kk h s m l r l' n1 wl r' n2 wr _ _ _ IHl IHr O k sn.
      assert (Ol : oldok wv l) by (apply (oldok_sub _ _ _ O); auto 7 with sub).
      assert (Or : oldok wv r) by (apply (oldok_sub _ _ _ O); auto 7 with sub).
      rewrite !in_app_iff, (IHl Ol), (IHr Or). cbn [In]. split.
      + intros [(u & S & R)|[(u & S & R)|[Q|[]]]].
        * exists u. split; [apply sub_left, S|exact R].
        * exists u. split; [apply sub_right, S|exact R].
        * inversion Q; subst. eexists. split; [apply sub_refl|]. cbn. auto.
      + intros (u & S & V & -> & ->). apply sub_inv in S. destruct S as [->|[S|S]].
        * right. right. left. reflexivity.
        * left. exists u. auto.
        * right. left. exists u. auto.
  Qed.
End Assign.

(** ** Forests *)
Definition forest_t := list (Z * option node).

Definition sub_of (f : forest_t) (u : node) : Prop :=
  exists v t, In (v, Some t) f /\ subtree u t.

Record forest_inv (f : forest_t) : Prop := ForestInv {
  fi_coh : forall u u', sub_of f u -> sub_of f u' -> node_key u = node_key u' -> u = u';
  fi_ver : forall v t u, In (v, Some t) f -> subtree u t -> 1 <= ver (nmeta u) <= v;
  fi_root : forall v r u, In (v, r) f -> sub_of f u -> node_key u = (v, 1) -> r = Some u;
  fi_chain : forall v t u r0, In (v, Some t) f -> subtree u t -> ver (nmeta u) < v ->
                              In (v - 1, r0) f -> exists t0, r0 = Some t0 /\ subtree u t0;
  (* nonces start at 1 (nonce 0 is only used physically, for re-keyed roots) *)
  fi_nonce : forall v t u, In (v, Some t) f -> subtree u t -> 1 <= nonce (nmeta u)
}.

Lemma forest_inv_nil : forest_inv [].
Proof.
  constructor.
  - intros u u' (v & t & [] & _).
  - intros v t u [].
  - intros v r u [].
  - intros v t u r0 [].
  - intros v t u [].
Qed.

Lemma sub_of_filter (p : Z * option node -> bool) f u : sub_of (filter p f) u -> sub_of f u.
Proof. intros (v & t & HI & S). apply filter_In in HI. exists v, t. tauto. Qed.

Lemma forest_inv_filter (p : Z * option node -> bool) f : forest_inv f -> forest_inv (filter p f).
Proof.
  intros [C V R Ch Nn]. constructor.
  - intros u u' S1 S2. apply C; eapply sub_of_filter; eauto.
  - intros v t u HI. apply filter_In in HI. apply V, HI.
  - intros v r u HI S. apply filter_In in HI. apply (R v r u); [apply HI|eapply sub_of_filter; eauto].
  - intros v t u r0 HI S L HI0. apply filter_In in HI, HI0. apply (Ch v t u r0); tauto.
  - intros v t u HI. apply filter_In in HI. apply (Nn v t u), HI.
Qed.

Lemma In_snoc {A} (a b : A) l : In a (l ++ [b]) <-> In a l \/ b = a.
Proof. rewrite in_app_iff. cbn [In]. tauto. Qed.

Lemma sub_of_snoc f v x u :
  sub_of (f ++ [(v, x)]) u <-> sub_of f u \/ exists t, x = Some t /\ subtree u t.
Proof.
  unfold sub_of. split.
  - intros (w & t & HI & S). apply In_snoc in HI. destruct HI as [HI|Q]; [left; eauto|].
    inversion Q; subst. right. eauto.
  - intros [(w & t & HI & S)|(t & -> & S)].
    + exists w, t. split; [apply In_snoc; auto|exact S].
    + exists v, t. split; [apply In_snoc; auto|exact S].
Qed.

Lemma forest_inv_snoc f wv x :
  forest_inv f -> 1 <= wv -> (forall v r, In (v, r) f -> v < wv) ->
  (forall t u, x = Some t -> subtree u t ->
     sub_of f u \/ (ver (nmeta u) = wv /\ 1 <= nonce (nmeta u))) ->
  (forall t u u', x = Some t -> subtree u t -> subtree u' t -> ver (nmeta u) = wv ->
     node_key u = node_key u' -> u = u') ->
  (forall t u, x = Some t -> subtree u t -> node_key u = (wv, 1) -> u = t) ->
  (forall t u r0, x = Some t -> subtree u t -> ver (nmeta u) < wv -> In (wv - 1, r0) f ->
     exists t0, r0 = Some t0 /\ subtree u t0) ->
  forest_inv (f ++ [(wv, x)]).
Proof.
  intros FI Wpos Fr Cases Inj Root Chain.
  assert (OldLt : forall u, sub_of f u -> ver (nmeta u) < wv).
  { intros u (v & t & HI & S). pose proof (fi_ver f FI v t u HI S). specialize (Fr _ _ HI). lia. }
  assert (N : forall u, sub_of (f ++ [(wv, x)]) u ->
            sub_of f u \/ exists t, x = Some t /\ subtree u t /\ ver (nmeta u) = wv).
  { intros u S. apply sub_of_snoc in S. destruct S as [S|(t & E & S)]; [auto|].
    destruct (Cases t u E S) as [S'|[V _]]; [auto|right; eauto]. }
  constructor.
  - intros u u' S1 S2 K. apply N in S1, S2.
    assert (KV : ver (nmeta u) = ver (nmeta u')) by (unfold node_key in K; congruence).
    destruct S1 as [S1|(t & E & S1 & V1)], S2 as [S2|(t' & E' & S2 & V2)].
    + apply (fi_coh f FI); assumption.
    + pose proof (OldLt _ S1). lia.
    + pose proof (OldLt _ S2). lia.
    + rewrite E in E'. injection E' as <-. apply (Inj t); assumption.
  - intros v t u HI S. apply In_snoc in HI. destruct HI as [HI|Q]; [exact (fi_ver f FI v t u HI S)|].
    inversion Q; subst v x. destruct (Cases t u eq_refl S) as [S'|[V _]]; [|lia].
    pose proof (OldLt _ S'). destruct S' as (v & t' & HI & S').
    pose proof (fi_ver f FI _ _ _ HI S'). lia.
  - intros v r u HI S K. apply N in S. apply In_snoc in HI.
    assert (KV : ver (nmeta u) = v) by (unfold node_key in K; congruence).
    destruct HI as [HI|Q].
    + specialize (Fr _ _ HI). destruct S as [S|(t & _ & _ & V)]; [exact (fi_root f FI v r u HI S K)|lia].
    + injection Q as <- <-. destruct S as [S|(t & E & S & V)]; [pose proof (OldLt _ S); lia|].
      rewrite E, (Root t u E S K). reflexivity.
  - intros v t u r0 HI S Lt HI0. apply In_snoc in HI. destruct HI as [HI|Q].
    + specialize (Fr _ _ HI). apply (fi_chain f FI v t u r0 HI S Lt).
      apply In_snoc in HI0. destruct HI0 as [HI0|Q0]; [exact HI0|inversion Q0; lia].
    + inversion Q; subst v x. apply In_snoc in HI0. destruct HI0 as [HI0|Q0]; [|inversion Q0; lia].
      exact (Chain t u r0 eq_refl S Lt HI0).
  - intros v t u HI S. apply In_snoc in HI. destruct HI as [HI|Q]; [exact (fi_nonce f FI v t u HI S)|].
    inversion Q; subst v x.
    destruct (Cases t u eq_refl S) as [(v & t' & HI & S')|[_ N1]]; [exact (fi_nonce f FI _ _ _ HI S')|exact N1].
Qed.

Lemma nodes_of_In t k sn :
  In (k, sn) (nodes_of t) <-> exists u, subtree u t /\ k = node_key u /\ sn = snode_of u.
Proof.
  induction t as [kk v m|kk h s m l IHl r IHr]; cbn [nodes_of In].
  - split.
    + intros [Q|[]]. inversion Q; subst. eexists. split; [apply sub_refl|auto].
    + intros (u & S & -> & ->). apply sub_leaf in S. subst. left. reflexivity.
  - rewrite in_app_iff, IHl, IHr. split.
    + intros [Q|[(u & S & R)|(u & S & R)]].
      * inversion Q; subst. eexists. split; [apply sub_refl|auto].
      * exists u. split; [apply sub_left, S|exact R].
      * exists u. split; [apply sub_right, S|exact R].
    + intros (u & S & -> & ->). apply sub_inv in S. destruct S as [->|[S|S]].
      * left. reflexivity.
      * right. left. exists u. auto.
      * right. right. exists u. auto.
Qed.

Lemma root_entry_Some v r k e :
  root_entry v r = Some (k, e) ->
  k = (v, 1) /\
  ((r = None /\ e = EEmpty) \/
   (exists t, r = Some t /\ e = ERef (node_key t) /\ node_key t <> (v, 1))).
Proof.
  unfold root_entry. destruct r as [t|].
  - destruct (keqb (node_key t) (v, 1)) eqn:E; [discriminate|].
    intros Q. inversion Q; subst. split; [reflexivity|]. right. exists t.
    apply keqb_false in E. auto.
  - intros Q. inversion Q; subst. auto.
Qed.

Lemma root_entry_root v t : node_key t = (v, 1) -> root_entry v (Some t) = None.
Proof. intros E. unfold root_entry. rewrite E. rewrite (proj2 (keqb_true _ _) eq_refl). reflexivity. Qed.

Lemma tree_entries_In v r k e :
  In (k, e) (tree_entries (v, r)) <->
  (exists t u, r = Some t /\ subtree u t /\ k = node_key u /\ e = ENode (snode_of u)) \/
  root_entry v r = Some (k, e).
Proof.
  unfold tree_entries. cbn [fst snd]. rewrite in_app_iff. split.
  - intros [HI|HI].
    + left. destruct r as [t|]; [|contradiction]. apply in_map_iff in HI.
      destruct HI as ([k0 sn] & Q & HI). cbn [fst snd] in Q. inversion Q; subst.
      apply nodes_of_In in HI. destruct HI as (u & S & -> & ->). exists t, u. auto.
    + right. destruct (root_entry v r) as [p|]; [|contradiction].
      destruct HI as [->|[]]. reflexivity.
  - intros [(t & u & -> & S & -> & ->)|E].
    + left. apply in_map_iff. exists (node_key u, snode_of u). split; [reflexivity|].
      apply nodes_of_In. exists u. auto.
    + right. rewrite E. left. reflexivity.
Qed.

Lemma reach_In f k e :
  In (k, e) (reach f) <->
  (exists u, sub_of f u /\ k = node_key u /\ e = ENode (snode_of u)) \/
  (exists v r, In (v, r) f /\ root_entry v r = Some (k, e)).
Proof.
  unfold reach. rewrite in_flat_map. split.
  - intros ([v r] & HI & T). apply tree_entries_In in T.
    destruct T as [(t & u & -> & S & R)|E].
    + left. exists u. split; [|exact R]. exists v, t. auto.
    + right. exists v, r. auto.
  - intros [(u & (v & t & HI & S) & R)|(v & r & HI & E)].
    + exists (v, Some t). split; [exact HI|]. apply tree_entries_In. left. exists t, u. auto.
    + exists (v, r). split; [exact HI|]. apply tree_entries_In. right. exact E.
Qed.

Lemma reach_app f g : reach (f ++ g) = reach f ++ reach g.
Proof. unfold reach. apply flat_map_app. Qed.

Lemma reach_filter_incl (p : Z * option node -> bool) f x : In x (reach (filter p f)) -> In x (reach f).
Proof.
  unfold reach. rewrite !in_flat_map. intros (y & HI & T). apply filter_In in HI.
  exists y. tauto.
Qed.

Lemma reach_functional f k e e' :
  forest_inv f -> NoDup (map fst f) -> In (k, e) (reach f) -> In (k, e') (reach f) -> e = e'.
Proof.
  intros FI ND I1 I2. apply reach_In in I1, I2.
  destruct I1 as [(u & S & -> & ->)|(v & r & HI & E)];
    destruct I2 as [(u' & S' & K' & ->)|(v' & r' & HI' & E')].
  - rewrite (fi_coh f FI u u' S S' K'). reflexivity.
  - exfalso. destruct (root_entry_Some _ _ _ _ E') as [K _].
    pose proof (fi_root f FI v' r' u HI' S K) as ->.
    rewrite (root_entry_root _ _ K) in E'. discriminate.
  - exfalso. destruct (root_entry_Some _ _ _ _ E) as [K _]. rewrite K in K'. symmetry in K'.
    pose proof (fi_root f FI v r u' HI S' K') as ->.
    rewrite (root_entry_root _ _ K') in E. discriminate.
  - destruct (root_entry_Some _ _ _ _ E) as [K _].
    destruct (root_entry_Some _ _ _ _ E') as [K' _].
    assert (v' = v) by congruence. subst v'.
    rewrite (NoDup_fst_functional f v r r' ND HI HI') in E. congruence.
Qed.

Lemma expected_store_unfold f : expected_store f = mset_all kcmp (reach f) [].
Proof. reflexivity. Qed.

Lemma expected_sorted f : msorted kcmp (expected_store f).
Proof. rewrite expected_store_unfold. apply msorted_mset_all; [auto|exact I]. Qed.

Theorem expected_find f k e :
  forest_inv f -> NoDup (map fst f) ->
  (mfind kcmp k (expected_store f) = Some e <-> In (k, e) (reach f)).
Proof.
  intros FI ND. rewrite expected_store_unfold, (mfind_mset_all_Some kcmp kcmp_ok).
  - cbn [mfind]. split; [intros [A|[_ Q]]; [exact A|discriminate Q]|auto].
  - intros e1 e2. apply (reach_functional f k e1 e2 FI ND).
Qed.

Theorem store_unique f st :
  forest_inv f -> NoDup (map fst f) -> msorted kcmp st ->
  (forall k e, mfind kcmp k st = Some e <-> In (k, e) (reach f)) ->
  st = expected_store f.
Proof.
  intros FI ND S E. apply (msorted_ext kcmp kcmp_ok); [exact S|apply expected_sorted|].
  intros k. apply option_ext. intros e. rewrite E, (expected_find f k e FI ND). tauto.
Qed.

Corollary expected_In f k e :
  forest_inv f -> NoDup (map fst f) -> (In (k, e) (expected_store f) <-> In (k, e) (reach f)).
Proof.
  intros FI ND. rewrite <- (expected_find f k e FI ND). symmetry.
  apply (mfind_In_iff kcmp kcmp_ok), expected_sorted.
Qed.

Corollary expected_has_node f u :
  forest_inv f -> NoDup (map fst f) -> sub_of f u ->
  mfind kcmp (node_key u) (expected_store f) = Some (ENode (snode_of u)).
Proof.
  intros FI ND S. apply (expected_find f _ _ FI ND). apply reach_In. left. exists u. auto.
Qed.

Corollary expected_has_root f v r :
  forest_inv f -> NoDup (map fst f) -> In (v, r) f ->
  exists e, mfind kcmp (v, 1) (expected_store f) = Some e /\
            match r with
            | None => e = EEmpty
            | Some t => if keqb (node_key t) (v, 1) then e = ENode (snode_of t)
                        else e = ERef (node_key t)
            end.
Proof.
  intros FI ND HI. destruct r as [t|].
  - destruct (keqb (node_key t) (v, 1)) eqn:E.
    + apply keqb_true in E. exists (ENode (snode_of t)). split; [|reflexivity].
      rewrite <- E. apply expected_has_node; auto. exists v, t. split; [exact HI|apply sub_refl].
    + exists (ERef (node_key t)). split; [|reflexivity].
      apply (expected_find f _ _ FI ND). apply reach_In. right. exists v, (Some t).
      split; [exact HI|]. unfold root_entry. rewrite E. reflexivity.
  - exists EEmpty. split; [|reflexivity].
    apply (expected_find f _ _ FI ND). apply reach_In. right. exists v, None. auto.
Qed.

(** ** Applying writes: the three components *)
Lemma apply_ops_app d a b : apply_ops d (a ++ b) = apply_ops (apply_ops d a) b.
Proof. unfold apply_ops. apply fold_left_app. Qed.

Lemma apply_ops_cons d o ops : apply_ops d (o :: ops) = apply_ops (apply_op d o) ops.
Proof. reflexivity. Qed.

Definition node_op (o : wop) : bool :=
  match o with WSet (KNode _) _ | WDel (KNode _) => true | _ => false end.
Definition fast_op (o : wop) : bool :=
  match o with WSet (KFast _) _ | WDel (KFast _) => true | _ => false end.
Definition label_op (o : wop) : bool :=
  match o with WSet KLabel _ | WDel KLabel => true | _ => false end.

Lemma apply_ops_proj {A} (pr : db -> A) (h : A -> wop -> A) :
  (forall d o, pr (apply_op d o) = h (pr d) o) ->
  forall ops d, pr (apply_ops d ops) = fold_left h ops (pr d).
Proof.
  intros E. induction ops as [|o ops IH]; intros d; [reflexivity|].
  rewrite apply_ops_cons, IH, E. reflexivity.
Qed.

Lemma apply_ops_map {A B} (pr : db -> A) (g : B -> wop) (h : A -> B -> A) :
  (forall d b, pr (apply_op d (g b)) = h (pr d) b) ->
  forall l d, pr (apply_ops d (map g l)) = fold_left h l (pr d).
Proof.
  intros E. induction l as [|b l IH]; intros d; [reflexivity|].
  cbn [map]. rewrite apply_ops_cons, IH, E. reflexivity.
Qed.

Lemma apply_ops_other {A} (pr : db -> A) (is : wop -> bool) :
  (forall d o, is o = false -> pr (apply_op d o) = pr d) ->
  forall ops d, Forall (fun o => is o = false) ops -> pr (apply_ops d ops) = pr d.
Proof.
  intros E. induction ops as [|o ops IH]; intros d F; [reflexivity|].
  inversion F as [|x xs F1 F2]; subst. rewrite apply_ops_cons, (IH _ F2). apply E, F1.
Qed.

Lemma nodes_apply_ops ops : forall d, nodes (apply_ops d ops) = sapply_all (nodes d) ops.
Proof. apply apply_ops_proj. intros d [[k|k|] [e|e|e]|[k|k|]]; reflexivity. Qed.

Lemma nodes_other ops : forall d,
  Forall (fun o => node_op o = false) ops -> nodes (apply_ops d ops) = nodes d.
Proof.
  apply apply_ops_other. intros d [[k|k|] [e|e|e]|[k|k|]] E; cbn in E; try discriminate; reflexivity.
Qed.

Lemma fast_other ops : forall d,
  Forall (fun o => fast_op o = false) ops -> fastidx (apply_ops d ops) = fastidx d.
Proof.
  apply apply_ops_other. intros d [[k|k|] [e|e|e]|[k|k|]] E; cbn in E; try discriminate; reflexivity.
Qed.

Lemma label_other ops : forall d,
  Forall (fun o => label_op o = false) ops -> label (apply_ops d ops) = label d.
Proof.
  apply apply_ops_other. intros d [[k|k|] [e|e|e]|[k|k|]] E; cbn in E; try discriminate; reflexivity.
Qed.

Lemma nodes_set_nodes ps : forall d,
  nodes (apply_ops d (map set_node ps)) = mset_all kcmp ps (nodes d).
Proof. apply apply_ops_map. reflexivity. Qed.

Lemma nodes_set_snodes ps d :
  nodes (apply_ops d (map set_snode ps)) =
  mset_all kcmp (map (fun q => (fst q, ENode (snd q))) ps) (nodes d).
Proof.
  rewrite <- nodes_set_nodes, map_map. reflexivity.
Qed.

Lemma nodes_del_nodes ks : forall d,
  nodes (apply_ops d (map del_node ks)) = mdel_all kcmp ks (nodes d).
Proof. apply apply_ops_map. reflexivity. Qed.

Lemma fast_set_fast ps : forall d,
  fastidx (apply_ops d (map set_fast ps)) = mset_all bcmp ps (fastidx d).
Proof. apply apply_ops_map. reflexivity. Qed.

Lemma fast_del_fast ks : forall d,
  fastidx (apply_ops d (map del_fast ks)) = mdel_all bcmp ks (fastidx d).
Proof. apply apply_ops_map. reflexivity. Qed.

(** ** Deleting whole versions at specification level (C12 item 3) *)
Lemma NoDup_filter_fst (p : Z * option node -> bool) (f : forest_t) :
  NoDup (map fst f) -> NoDup (map fst (filter p f)).
Proof. apply NoDup_map_filter. Qed.

Lemma reach_split (p : Z * option node -> bool) f x :
  In x (reach f) -> In x (reach (filter p f)) \/ In x (reach (filter (fun y => negb (p y)) f)).
Proof.
  unfold reach. rewrite !in_flat_map. intros (y & HI & T).
  destruct (p y) eqn:E.
  - left. exists y. split; [apply filter_In; auto|exact T].
  - right. exists y. split; [apply filter_In; rewrite E; auto|exact T].
Qed.

Lemma expected_In_reach f k e : In (k, e) (expected_store f) -> In (k, e) (reach f).
Proof.
  intros HI. rewrite expected_store_unfold in HI. apply In_mset_all in HI. destruct HI as [HI|[]]. exact HI.
Qed.

Lemma mhas_true {K V} (cmp : K -> K -> comparison) k (l : list (K * V)) :
  mhas cmp k l = true <-> exists v, mfind cmp k l = Some v.
Proof.
  unfold mhas. destruct (mfind cmp k l) as [v|]; split; try discriminate; eauto.
  intros [v E]. discriminate.
Qed.

Lemma delete_to_filter (p : Z * option node -> bool) f Ks :
  forest_inv f -> NoDup (map fst f) ->
  (forall k e, In (k, e) (reach f) -> (~ In k Ks <-> In (k, e) (reach (filter p f)))) ->
  mdel_all kcmp Ks (expected_store f) = expected_store (filter p f).
Proof.
  intros FI ND HK.
  apply store_unique; [apply forest_inv_filter, FI|apply NoDup_filter_fst, ND| |].
  { apply (msorted_mdel_all kcmp), expected_sorted. }
  intros k e.
  rewrite (mfind_mdel_all_Some kcmp kcmp_ok _ _ _ _ (expected_sorted f)), (expected_find f k e FI ND).
  split.
  - intros [N HI]. apply (HK k e HI), N.
  - intros HI. pose proof (reach_filter_incl p f _ HI) as HI'. split; [apply (HK k e HI'), HI|exact HI'].
Qed.

Theorem drop_exact keep f d :
  forest_inv f -> NoDup (map fst f) -> nodes d = expected_store f ->
  nodes (apply_ops d (drop_ops keep f)) = expected_store (filter (fun p => keep (fst p)) f).
Proof.
  intros FI ND E.
  set (pk := fun p : Z * option node => keep (fst p)).
  assert (FIk : forest_inv (filter pk f)) by (apply forest_inv_filter, FI).
  assert (NDk : NoDup (map fst (filter pk f))) by (apply NoDup_filter_fst, ND).
  unfold drop_ops. fold pk. rewrite nodes_del_nodes, E. apply delete_to_filter; [exact FI|exact ND|].
  intros k e HI. rewrite filter_In, Bool.negb_true_iff. split.
  - intros N. destruct (reach_split pk f _ HI) as [A|A]; [exact A|].
    (* reached from a deleted version and not deleted: a kept version reaches it *)
    destruct (mfind kcmp k (expected_store (filter pk f))) as [e'|] eqn:M.
    + apply (expected_find _ k e' FIk NDk) in M.
      rewrite (reach_functional f k e e' FI ND HI (reach_filter_incl pk f _ M)). exact M.
    + exfalso. apply N. split; [|unfold mhas; rewrite M; reflexivity].
      apply in_map_iff. exists (k, e). split; [reflexivity|].
      apply expected_In; [apply forest_inv_filter, FI|apply NoDup_filter_fst, ND|exact A].
  - intros A [_ M]. apply (expected_find _ k e FIk NDk) in A. unfold mhas in M. rewrite A in M.
    discriminate.
Qed.

Theorem prune_spec_exact_forest f n d :
  forest_inv f -> NoDup (map fst f) -> nodes d = expected_store f ->
  nodes (apply_ops d (prune_ops f n)) = expected_store (filter (fun p => n <? fst p) f).
Proof. intros FI ND E. exact (drop_exact (fun v => n <? v) f d FI ND E). Qed.

Theorem drop_prefix_safe keep f d i k e :
  forest_inv f -> NoDup (map fst f) -> nodes d = expected_store f ->
  In (k, e) (reach (filter (fun p => keep (fst p)) f)) ->
  mfind kcmp k (nodes (apply_ops d (firstn i (drop_ops keep f)))) = Some e.
Proof.
  intros FI ND E A.
  set (pk := fun p : Z * option node => keep (fst p)) in *.
  unfold drop_ops. fold pk. rewrite firstn_map, nodes_del_nodes, E.
  apply (mfind_mdel_all_Some kcmp kcmp_ok _ _ _ _ (expected_sorted f)). split.
  - intros X. apply In_firstn, filter_In in X. destruct X as [_ X].
    apply expected_find in A; [|apply forest_inv_filter, FI|apply NoDup_filter_fst, ND].
    unfold mhas in X. rewrite A in X. discriminate.
  - apply (expected_find f k e FI ND), (reach_filter_incl pk f _ A).
Qed.

(** ** Emptied trees (C12 item 4) *)
Theorem empty_store f :
  (forall v r, In (v, r) f -> r = None) ->
  forall k e, In (k, e) (expected_store f) -> e = EEmpty /\ snd k = 1 /\ In (fst k) (map fst f).
Proof.
  intros A k e HI. apply expected_In_reach, reach_In in HI.
  destruct HI as [(u & (v & t & HI & _) & _)|(v & r & HI & E)].
  - specialize (A _ _ HI). discriminate.
  - pose proof (A _ _ HI) as ->. cbn [root_entry] in E. inversion E; subst. cbn [fst snd].
    split; [reflexivity|]. split; [reflexivity|]. apply in_map_iff. exists (v, None).
    split; [reflexivity|exact HI].
Qed.

Corollary empty_store_no_node f :
  (forall v r, In (v, r) f -> r = None) -> forall k n, ~ In (k, ENode n) (expected_store f).
Proof. intros A k n HI. destruct (empty_store f A _ _ HI) as [C _]. discriminate. Qed.

(** ** The latest version of a store *)
Lemma fold_max_spec (st : store) : forall a,
  a <= fold_left (fun acc p => Z.max acc (fst (fst p))) st a /\
  (forall p, In p st -> fst (fst p) <= fold_left (fun acc p => Z.max acc (fst (fst p))) st a) /\
  (forall m, a <= m -> (forall p, In p st -> fst (fst p) <= m) ->
             fold_left (fun acc p => Z.max acc (fst (fst p))) st a <= m).
Proof.
  induction st as [|q st IH]; intros a; cbn [fold_left In].
  - split; [lia|]. split; [tauto|]. intros m L _. exact L.
  - destruct (IH (Z.max a (fst (fst q)))) as (A & B & C). split; [lia|]. split.
    + intros p [<-|HI]; [lia|]. apply B, HI.
    + intros m L F. apply C; [|intros p HI; apply F; right; exact HI].
      specialize (F q (or_introl eq_refl)). lia.
Qed.

Lemma store_latest_nonneg st : 0 <= store_latest st.
Proof. apply (fold_max_spec st 0). Qed.

Lemma store_latest_ge st p : In p st -> fst (fst p) <= store_latest st.
Proof. apply (fold_max_spec st 0). Qed.

Lemma store_latest_le st m : 0 <= m -> (forall p, In p st -> fst (fst p) <= m) -> store_latest st <= m.
Proof. apply (fold_max_spec st 0). Qed.

Lemma store_latest_eq st m :
  0 <= m -> (forall p, In p st -> fst (fst p) <= m) -> (exists p, In p st /\ fst (fst p) = m) ->
  store_latest st = m.
Proof.
  intros L U (p & HI & E). pose proof (store_latest_le st m L U). pose proof (store_latest_ge st p HI). lia.
Qed.

Lemma forest_ok_version {A} (f : list (Z * A)) iv v a :
  forest_ok f iv -> In (v, a) f -> 1 <= v <= latest_of f /\ iv <= v.
Proof.
  intros OK HI. apply (in_map fst) in HI. cbn [fst] in HI.
  pose proof (proj1 (forest_ok_In f iv v OK) HI). destruct OK as [_ F].
  rewrite Forall_forall in F. specialize (F v HI). lia.
Qed.

Lemma reach_key_version f iv k e :
  forest_inv f -> forest_ok f iv -> In (k, e) (reach f) -> 1 <= fst k <= latest_of f.
Proof.
  intros FI OK HI. apply reach_In in HI.
  destruct HI as [(u & (v & t & HI & S) & -> & _)|(v & r & HI & E)];
    pose proof (forest_ok_version f iv v _ OK HI).
  - pose proof (fi_ver f FI v t u HI S). unfold node_key. cbn [fst]. lia.
  - destruct (root_entry_Some _ _ _ _ E) as [-> _]. cbn [fst]. lia.
Qed.

Lemma latest_has_root f iv :
  forest_inv f -> forest_ok f iv -> NoDup (map fst f) -> f <> [] ->
  1 <= latest_of f /\
  exists r e, In (latest_of f, r) f /\ mfind kcmp (latest_of f, 1) (expected_store f) = Some e.
Proof.
  intros FI OK ND NE. destruct (forest_ok_range f iv OK NE) as (R1 & _ & _). split; [lia|].
  assert (Il : In (latest_of f) (map fst f)) by (apply (forest_ok_In f iv _ OK); split; [exact NE|lia]).
  destruct (In_map_fst_pair f _ Il) as [r HI].
  destruct (expected_has_root f _ r FI ND HI) as (e & Fe & _). eauto.
Qed.

Theorem store_latest_expected f iv :
  forest_inv f -> forest_ok f iv -> NoDup (map fst f) -> f <> [] ->
  store_latest (expected_store f) = latest_of f.
Proof.
  intros FI OK ND NE. destruct (latest_has_root f iv FI OK ND NE) as (R1 & r & e & _ & Fe).
  apply store_latest_eq; [lia| |].
  - intros [k e'] HI. cbn [fst]. apply expected_In_reach in HI.
    apply (reach_key_version f iv k e' FI OK HI).
  - exists ((latest_of f, 1), e). split; [|reflexivity]. apply (In_mfind kcmp kcmp_ok), Fe.
Qed.

(** ** Rollback: DeleteVersionsFrom (C12 item 2) *)

Lemma chain_down f iv v : forest_inv f -> forest_ok f iv -> In v (map fst f) ->
  forall (d : nat) v' t u, v' = v + Z.of_nat d -> In (v', Some t) f -> subtree u t -> ver (nmeta u) <= v ->
  exists t0, In (v, Some t0) f /\ subtree u t0.
Proof.
  intros FI OK Iv. induction d as [|d IH]; intros v' t u E HI S L.
  - replace v' with v in HI by lia. exists t. auto.
  - assert (Iv' : In v' (map fst f)) by (apply in_map_iff; exists (v', Some t); auto).
    apply (forest_ok_In f iv v OK) in Iv. apply (forest_ok_In f iv v' OK) in Iv'.
    assert (Ip : In (v' - 1) (map fst f)) by (apply (forest_ok_In f iv _ OK); split; [tauto|lia]).
    destruct (In_map_fst_pair f _ Ip) as [r0 HI0].
    destruct (fi_chain f FI v' t u r0 HI S ltac:(lia) HI0) as (t0 & -> & S0).
    apply (IH (v' - 1) t0 u); [lia|exact HI0|exact S0|exact L].
Qed.

Lemma reach_filter_le f iv v k e :
  forest_inv f -> forest_ok f iv -> In v (map fst f) -> In (k, e) (reach f) ->
  (In (k, e) (reach (filter (fun p => fst p <=? v) f)) <-> fst k <= v).
Proof.
  intros FI OK Iv HI. set (pk := fun p : Z * option node => fst p <=? v).
  assert (Pk : forall w r, In (w, r) (filter pk f) <-> In (w, r) f /\ w <= v).
  { intros w r. unfold pk. rewrite filter_In. cbn [fst]. rewrite Z.leb_le. tauto. }
  split.
  - intros A. apply reach_In in A.
    destruct A as [(u & (v' & t & HI' & S) & -> & _)|(v' & r & HI' & Er)];
      apply Pk in HI'; destruct HI' as [HI' L].
    + pose proof (fi_ver f FI v' t u HI' S). unfold node_key. cbn [fst]. lia.
    + destruct (root_entry_Some _ _ _ _ Er) as [-> _]. exact L.
  - intros Lk. apply reach_In in HI. apply reach_In.
    destruct HI as [(u & (v' & t & HI & S) & -> & ->)|(v' & r & HI & Er)].
    + left. exists u. split; [|auto]. unfold node_key in Lk. cbn [fst] in Lk.
      destruct (Z.leb_spec v' v) as [L|L].
      * exists v', t. split; [apply Pk; auto|exact S].
      * destruct (chain_down f iv v FI OK Iv (Z.to_nat (v' - v)) v' t u ltac:(lia) HI S Lk)
          as (t0 & HI0 & S0).
        exists v, t0. split; [apply Pk; split; [exact HI0|lia]|exact S0].
    + right. exists v', r. split; [|exact Er]. apply Pk. split; [exact HI|].
      destruct (root_entry_Some _ _ _ _ Er) as [-> _]. exact Lk.
Qed.

Lemma rollback_keys_In (st : store) v k :
  In k (map fst (filter (fun p => v <? fst (fst p)) st)) <-> v < fst k /\ exists e, In (k, e) st.
Proof.
  rewrite in_map_iff. split.
  - intros ([k1 e1] & <- & HI). apply filter_In in HI. cbn [fst] in *. rewrite Z.ltb_lt in HI.
    split; [tauto|]. exists e1. tauto.
  - intros [C1 [e HI]]. exists (k, e). split; [reflexivity|]. apply filter_In. cbn [fst].
    rewrite Z.ltb_lt. tauto.
Qed.

Lemma rollback_delete_exact f iv v :
  forest_inv f -> forest_ok f iv -> NoDup (map fst f) -> In v (map fst f) ->
  mdel_all kcmp (map fst (filter (fun p => v <? fst (fst p)) (expected_store f))) (expected_store f)
  = expected_store (filter (fun p => fst p <=? v) f).
Proof.
  intros FI OK ND Iv. apply delete_to_filter; [exact FI|exact ND|].
  intros k e HI. rewrite (reach_filter_le f iv v k e FI OK Iv HI), rollback_keys_In. split.
  - intros N. destruct (Z.leb_spec (fst k) v) as [L|L]; [exact L|]. exfalso. apply N.
    split; [exact L|]. exists e. apply (expected_In f k e FI ND), HI.
  - intros L [C _]. lia.
Qed.

Theorem rollback_exact_forest f iv d v :
  forest_inv f -> forest_ok f iv -> NoDup (map fst f) -> In v (map fst f) ->
  nodes d = expected_store f ->
  nodes (apply_ops d (rollback_ops d v)) = expected_store (filter (fun p => fst p <=? v) f).
Proof.
  intros FI OK ND Iv E.
  assert (NE : f <> []) by (intros C; subst f; contradiction).
  pose proof (store_latest_expected f iv FI OK ND NE) as SL.
  unfold rollback_ops. rewrite E, SL.
  destruct (latest_of f <? v + 1) eqn:C.
  - (* nothing above v *)
    apply Z.ltb_lt in C. cbn [apply_ops fold_left]. rewrite E. f_equal. symmetry.
    apply filter_all. intros [w r] HI. cbn [fst].
    pose proof (forest_ok_version f iv w r OK HI). lia.
  - rewrite apply_ops_app, nodes_other.
    2:{ destruct (label d); repeat constructor. }
    rewrite nodes_del_nodes, E. apply (rollback_delete_exact f iv v); assumption.
Qed.

(** ** The store invariant of the state machine *)

Definition based (s : mstate) : Prop :=
  match root s with
  | None => True
  | Some n => forall u, subtree u n -> ver (nmeta u) <> 0 ->
                        exists b, last_saved s = Some b /\ subtree u b
  end.

(** The trees are well-formed AVL trees and the retained versions distinct ([MTreeFacts.state_inv]);
    saved trees carry the hashes [H] gives ([HashFacts.hash_inv]); the retained versions are
    consecutive and the last saved tree is that of the current version ([VersionFacts.contig]);
    node keys identify nodes across the retained trees ([forest_inv]); [based]. *)
Record store_ok (H : bytes -> bytes) (s : mstate) : Prop := StoreOk {
  so_inv : state_inv s;
  so_hash : hash_inv H s;
  so_contig : contig s;
  so_forest : forest_inv (forest s);
  so_based : based s
}.

Section Commit.
  Variable H : bytes -> bytes.

  Definition saved_root (s : mstate) : option node :=
    match root s with
    | None => None
    | Some n => Some (fst (stamp H (working_version s) 0 n))
    end.

  Lemma do_save_new_forest s :
    lookup (working_version s) (forest s) = None ->
    forest (fst (do_save H s)) = forest s ++ [(working_version s, saved_root s)] /\
    root (fst (do_save H s)) = saved_root s /\ last_saved (fst (do_save H s)) = saved_root s.
  Proof.
    intros L. rewrite (do_save_fresh H s L). auto.
  Qed.

  Lemma do_save_old_forest s e :
    lookup (working_version s) (forest s) = Some e -> forest (fst (do_save H s)) = forest s.
  Proof. intros L. destruct (do_save_existing H s e L) as [E|E]; rewrite E; reflexivity. Qed.

  Lemma commit_ops_old fast s e :
    lookup (working_version s) (forest s) = Some e -> commit_ops H fast s = [].
  Proof. intros L. unfold commit_ops, version_exists. rewrite L. reflexivity. Qed.

  Lemma commit_ops_new fast s :
    lookup (working_version s) (forest s) = None ->
    commit_ops H fast s = commit_meta_ops fast s ++ commit_node_ops H s.
  Proof. intros L. unfold commit_ops, version_exists. rewrite L. reflexivity. Qed.

  Lemma based_sub_of s n u :
    contig s -> based s -> root s = Some n -> subtree u n -> ver (nmeta u) <> 0 ->
    exists b, last_saved s = Some b /\ subtree u b /\ In (version s, Some b) (forest s).
  Proof.
    intros C B R S P. unfold based in B. rewrite R in B. destruct (B u S P) as (b & Lb & Sb).
    exists b. split; [exact Lb|]. split; [exact Sb|].
    destruct C as (_ & [(_ & _ & N & _)|Lk] & _); [congruence|].
    rewrite Lb in Lk. apply lookup_In, Lk.
  Qed.

  Lemma save_fresh s :
    store_ok H s -> lookup (working_version s) (forest s) = None ->
    1 <= working_version s /\
    (forall v r, In (v, r) (forest s) -> v < working_version s) /\
    (forest s <> [] -> version s = working_version s - 1).
  Proof.
    intros [SI HI C _ _] L. pose proof (working_version_pos H s SI HI) as P.
    split; [lia|].
    destruct (do_save_numbering s C L) as [(F & _ & _)|(NE & V & W)].
    - rewrite F. split; [intros v r []|congruence].
    - split; [|intros _; lia]. intros v r HI'.
      pose proof (forest_ok_version _ _ v r (contig_forest_ok s C) HI') as Iv.
      change (latest_of (forest s)) with (latest_version s) in Iv. lia.
  Qed.

  Lemma working_old s n u :
    store_ok H s -> lookup (working_version s) (forest s) = None -> root s = Some n ->
    subtree u n -> ver (nmeta u) <> 0 ->
    ver (nmeta u) < working_version s /\
    exists b, In (version s, Some b) (forest s) /\ subtree u b.
  Proof.
    intros SO L R S P. destruct (save_fresh s SO L) as (_ & Fr & _).
    destruct SO as [SI HI C FI B].
    destruct (based_sub_of s n u C B R S P) as (b & _ & Sb & Ib).
    pose proof (fi_ver _ FI _ _ _ Ib Sb). specialize (Fr _ _ Ib). split; [lia|eauto].
  Qed.

  Lemma root_oldok s n :
    store_ok H s -> lookup (working_version s) (forest s) = None -> root s = Some n ->
    oldok (working_version s) n.
  Proof.
    intros SO L R u S P. split; [pose proof (working_old s n u SO L R S P); lia|].
    pose proof (hi_root H s (so_hash H s SO)) as Hr. rewrite R in Hr. cbn [onode_ok] in Hr.
    exact (proj2 (hash_ok_root H u (hash_ok_subtree H u n S Hr) P)).
  Qed.

  Lemma saved_root_assign s n :
    root s = Some n -> saved_root s = Some (fst (fst (assign H (working_version s) 0 n))).
  Proof. intros R. unfold saved_root. rewrite R, assign_stamp. reflexivity. Qed.

  Lemma saved_root_Some s t :
    saved_root s = Some t ->
    exists n, root s = Some n /\ t = fst (fst (assign H (working_version s) 0 n)).
  Proof.
    unfold saved_root. destruct (root s) as [n|]; [|discriminate]. intros E. injection E as <-.
    exists n. rewrite assign_stamp. auto.
  Qed.

  Lemma saved_root_sub s t u :
    store_ok H s -> lookup (working_version s) (forest s) = None ->
    saved_root s = Some t -> subtree u t ->
    (ver (nmeta u) < working_version s /\
     exists b, In (version s, Some b) (forest s) /\ subtree u b) \/
    (ver (nmeta u) = working_version s /\ 1 <= nonce (nmeta u)).
  Proof.
    intros SO L E S. destruct (saved_root_Some s t E) as (n & R & ->).
    destruct (save_fresh s SO L) as (Wpos & _).
    destruct (assign_sub H (working_version s) n ltac:(lia) (root_oldok s n SO L R) 0 u S) as [(_ & P & Sn)|(V & N)].
    - left. exact (working_old s n u SO L R Sn P).
    - right. split; [exact V|lia].
  Qed.

  Theorem forest_inv_save s :
    store_ok H s -> lookup (working_version s) (forest s) = None ->
    forest_inv (forest s ++ [(working_version s, saved_root s)]).
  Proof.
    intros SO L. destruct (save_fresh s SO L) as (Wpos & Fr & Vprev).
    assert (Hwv : working_version s <> 0) by lia.
    apply forest_inv_snoc; [apply SO|exact Wpos|exact Fr| | | |].
    - intros t u E S.
      destruct (saved_root_sub s t u SO L E S) as [(_ & b & Ib & Sb)|N]; [left|right; exact N].
      exists (version s), b. auto.
    - intros t u u' E S S' V K. destruct (saved_root_Some s t E) as (n & R & ->).
      unfold node_key in K.
      apply (assign_inj H _ n Hwv (root_oldok s n SO L R) 0); [exact S|exact S'|exact V|congruence|congruence].
    - intros t u E S K. destruct (saved_root_Some s t E) as (n & R & ->).
      pose proof (root_oldok s n SO L R) as O. unfold node_key in K.
      destruct (is_new n) eqn:En.
      + destruct (assign_last H (working_version s) 0 n En) as (Kn & _). cbv zeta in Kn.
        unfold node_key in Kn. change (0 + 1) with 1 in Kn.
        apply (assign_inj H _ n Hwv O 0); [exact S|apply sub_refl|congruence|congruence|congruence].
      + exfalso. rewrite (assign_old H _ 0 n En) in S. cbn [fst] in S.
        destruct (oldok_persisted _ n u O En S). congruence.
    - intros t u r0 E S Lt HI0.
      destruct (saved_root_sub s t u SO L E S) as [(_ & b & Ib & Sb)|[V _]]; [|lia].
      assert (NE : forest s <> []) by (intros C; rewrite C in HI0; contradiction).
      rewrite (Vprev NE) in Ib. exists b. split; [|exact Sb].
      exact (NoDup_fst_functional _ _ r0 (Some b) (inv_nodup s (so_inv H s SO)) HI0 Ib).
  Qed.
End Commit.

Lemma sorted_msorted (l : kvs) : sorted l <-> msorted bcmp l.
Proof.
  induction l as [|[k v] l IH]; cbn [sorted msorted]; [tauto|]. rewrite IH.
  assert (F : Forall (fun p => k <b fst p) l <-> Forall (fun p => bcmp k (fst p) = Lt) l).
  { split; apply Forall_impl; intros p; apply bcmp_Lt. }
  rewrite F. tauto.
Qed.

Lemma assoc_mfind k (l : kvs) : assoc k l = mfind bcmp k l.
Proof.
  induction l as [|[k1 v1] l IH]; cbn [assoc mfind]; [reflexivity|].
  unfold beq. rewrite IH. destruct (bcmp k k1); reflexivity.
Qed.

Lemma ins_mset k v (l : kvs) : ins k v l = mset bcmp k v l.
Proof.
  induction l as [|[k1 v1] l IH]; cbn [ins mset]; [reflexivity|].
  rewrite IH. destruct (bcmp k k1); reflexivity.
Qed.

Lemma del_mdel k (l : kvs) : del k l = mdel bcmp k l.
Proof.
  induction l as [|[k1 v1] l IH]; cbn [del mdel]; [reflexivity|].
  rewrite IH. destruct (bcmp k k1); reflexivity.
Qed.

Lemma osorted_elems (t : option node) : oinv t -> msorted bcmp (oelems t).
Proof.
  destruct t as [n|]; cbn [oinv oelems]; [|intros _; exact I].
  intros [W _]. apply sorted_msorted, wf_sorted, W.
Qed.

(** ** Commit (C12 items 1 and 5) *)
Section CommitExact.
  Variable H : bytes -> bytes.

  Definition node_writes (s : mstate) : list (nodekey * entry) :=
    let wv := working_version s in
    match root s with
    | None => [((wv, 1), EEmpty)]
    | Some n =>
        if is_new n then map (fun q => (fst q, ENode (snd q))) (snd (assign H wv 0 n))
        else [((wv, 1), ERef (node_key n))]
    end.

  Lemma commit_node_ops_eq s : commit_node_ops H s = map set_node (node_writes s).
  Proof.
    unfold commit_node_ops, node_writes. cbv zeta. destruct (root s) as [n|]; [|reflexivity].
    destruct (is_new n); [|reflexivity]. rewrite map_map. reflexivity.
  Qed.

  Lemma meta_not_node fast s : Forall (fun o => node_op o = false) (commit_meta_ops fast s).
  Proof.
    unfold commit_meta_ops. destruct fast; [|constructor].
    apply Forall_app. split; [apply Forall_map_const; reflexivity|].
    apply Forall_app. split; [apply Forall_map_const; reflexivity|]. repeat constructor.
  Qed.

  Lemma node_ops_not_fast s : Forall (fun o => fast_op o = false) (commit_node_ops H s).
  Proof. rewrite commit_node_ops_eq. apply Forall_map_const. reflexivity. Qed.

  Lemma node_ops_not_label s : Forall (fun o => label_op o = false) (commit_node_ops H s).
  Proof. rewrite commit_node_ops_eq. apply Forall_map_const. reflexivity. Qed.

  Lemma node_writes_spec s :
    store_ok H s -> lookup (working_version s) (forest s) = None ->
    (forall p, In p (node_writes s) -> In p (tree_entries (working_version s, saved_root H s))) /\
    (forall p, In p (tree_entries (working_version s, saved_root H s)) ->
               In p (node_writes s) \/ In p (reach (forest s))).
  Proof.
    intros SO L. destruct (save_fresh H s SO L) as (Wpos & _).
    set (wv := working_version s) in *. assert (Hwv : wv <> 0) by lia.
    assert (Old : forall t u, saved_root H s = Some t -> subtree u t -> ver (nmeta u) <> wv ->
                    In (node_key u, ENode (snode_of u)) (reach (forest s))).
    { intros t u E S N. destruct (saved_root_sub H s t u SO L E S) as [(_ & b & Ib & Sb)|[V _]]; [|contradiction].
      apply reach_In. left. exists u. split; [exists (version s), b; auto|auto]. }
    unfold node_writes. fold wv. destruct (root s) as [n|] eqn:R.
    - pose proof (root_oldok H s n SO L R) as O. fold wv in O.
      rewrite (saved_root_assign H s n R) in *. fold wv in Old |- *.
      destruct (is_new n) eqn:En.
      + destruct (assign_last H wv 0 n En) as (Kn & _). cbv zeta in Kn.
        pose proof (assign_writes H wv n Hwv O 0) as AW.
        set (n' := fst (fst (assign H wv 0 n))) in *. split.
        * intros [k e] HI'. apply in_map_iff in HI'. destruct HI' as ([k0 sn] & Q & HI').
          cbn [fst snd] in Q. inversion Q; subst k0 e. apply AW in HI'.
          destruct HI' as (u & S & _ & -> & ->). apply tree_entries_In. left. exists n', u. auto.
        * intros [k e] HI'. apply tree_entries_In in HI'.
          destruct HI' as [(t & u & Q & S & -> & ->)|E].
          -- inversion Q; subst t. destruct (Z.eq_dec (ver (nmeta u)) wv) as [V|V].
             ++ left. apply in_map_iff. exists (node_key u, snode_of u). split; [reflexivity|].
                apply AW. exists u. auto.
             ++ right. exact (Old n' u eq_refl S V).
          -- rewrite (root_entry_root wv n' Kn) in E. discriminate.
      + rewrite (assign_old H wv 0 n En) in *. cbn [fst] in *.
        assert (Kn : keqb (node_key n) (wv, 1) = false).
        { apply keqb_false. intros K. destruct (oldok_persisted wv n n O En (sub_refl n)) as [_ N].
          unfold node_key in K. congruence. }
        split.
        * intros p [<-|[]]. apply tree_entries_In. right. unfold root_entry. rewrite Kn. reflexivity.
        * intros [k e] HI'. apply tree_entries_In in HI'.
          destruct HI' as [(t & u & Q & S & -> & ->)|E].
          -- inversion Q; subst t. right.
             destruct (oldok_persisted wv n u O En S) as [_ N]. exact (Old n u eq_refl S N).
          -- left. unfold root_entry in E. rewrite Kn in E. inversion E. left. reflexivity.
    - unfold saved_root. rewrite R. split.
      + intros p [<-|[]]. apply tree_entries_In. right. reflexivity.
      + intros [k e] HI'. apply tree_entries_In in HI'.
        destruct HI' as [(t & u & Q & _)|E]; [discriminate|].
        left. cbn [root_entry] in E. inversion E. left. reflexivity.
  Qed.

  Lemma do_save_nodup s : store_ok H s -> NoDup (map fst (forest (fst (do_save H s)))).
  Proof. intros SO. apply inv_nodup, do_save_inv, SO. Qed.

  (** C12.1: after all the writes of a commit the store is exactly the expected store of the
      new forest *)
  Theorem commit_exact fast s d :
    store_ok H s -> nodes d = expected_store (forest s) ->
    nodes (apply_ops d (commit_ops H fast s)) = expected_store (forest (fst (do_save H s))).
  Proof.
    intros SO E. destruct (lookup (working_version s) (forest s)) as [e0|] eqn:L.
    - rewrite (commit_ops_old H fast s e0 L), (do_save_old_forest H s e0 L). exact E.
    - rewrite (commit_ops_new H fast s L), apply_ops_app.
      pose proof (do_save_nodup s SO) as ND'.
      destruct (do_save_new_forest H s L) as (Ef & _). rewrite Ef in *.
      pose proof (forest_inv_save H s SO L) as FI'.
      destruct (node_writes_spec s SO L) as [W1 W2].
      pose proof SO as [SI HI C FI B]. pose proof (inv_nodup s SI) as ND.
      rewrite commit_node_ops_eq, nodes_set_nodes, (nodes_other _ _ (meta_not_node fast s)), E.
      set (f := forest s) in *. set (wv := working_version s) in *.
      assert (Rf : forall x, In x (reach (f ++ [(wv, saved_root H s)])) <->
                             In x (reach f) \/ In x (tree_entries (wv, saved_root H s))).
      { intros x. rewrite reach_app, in_app_iff. unfold reach at 2. cbn [flat_map].
        rewrite app_nil_r. tauto. }
      assert (W1' : forall k e, In (k, e) (node_writes s) ->
                                In (k, e) (reach (f ++ [(wv, saved_root H s)])))
        by (intros k e HI'; apply Rf; right; apply W1, HI').
      apply store_unique; [exact FI'|exact ND'| |].
      { apply (msorted_mset_all kcmp kcmp_ok), expected_sorted. }
      intros k e. rewrite (mfind_mset_all_Some kcmp kcmp_ok), (expected_find f k e FI ND), Rf.
      2:{ intros e1 e2 I1 I2. exact (reach_functional _ k e1 e2 FI' ND' (W1' _ _ I1) (W1' _ _ I2)). }
      split.
      + intros [A|[_ A]]; [right; apply W1, A|left; exact A].
      + intros A. destruct (key_in_dec kcmp kcmp_ok k (map fst (node_writes s))) as [X|X].
        * (* a written key: its entry in the new forest is the written one *)
          left. apply In_map_fst_pair in X. destruct X as [e2 X].
          rewrite (reach_functional _ k e e2 FI' ND'); [exact X|apply Rf, A|apply W1', X].
        * destruct A as [A|A]; [auto|]. destruct (W2 _ A) as [A'|A']; [|auto].
          exfalso. apply X, in_map_iff. exists (k, e). auto.
  Qed.

  Lemma expected_keys_lt s :
    store_ok H s -> lookup (working_version s) (forest s) = None ->
    forall p, In p (expected_store (forest s)) -> fst (fst p) < working_version s.
  Proof.
    intros SO L [k e] HI. cbn [fst]. destruct (save_fresh H s SO L) as (_ & Fr & _).
    pose proof SO as [SI HIv C FI B].
    apply expected_In_reach, reach_In in HI.
    destruct HI as [(u & (v & t & HI & S) & -> & _)|(v & r & HI & E)].
    - pose proof (fi_ver _ FI v t u HI S). specialize (Fr _ _ HI). unfold node_key. cbn [fst]. lia.
    - destruct (root_entry_Some _ _ _ _ E) as [-> _]. cbn [fst]. exact (Fr _ _ HI).
  Qed.

  Theorem commit_keys_fresh s :
    store_ok H s -> lookup (working_version s) (forest s) = None ->
    forall p, In p (node_writes s) ->
      fst (fst p) = working_version s /\ mfind kcmp (fst p) (expected_store (forest s)) = None.
  Proof.
    intros SO L p HI'.
    assert (V : fst (fst p) = working_version s).
    { unfold node_writes in HI'. cbv zeta in HI'. destruct (root s) as [n|].
      - destruct (is_new n).
        + apply in_map_iff in HI'. destruct HI' as (q & <- & HI'). cbn [fst].
          apply (proj2 (assign_keys H (working_version s) n 0) q HI').
        + destruct HI' as [<-|[]]. reflexivity.
      - destruct HI' as [<-|[]]. reflexivity. }
    split; [exact V|].
    destruct (mfind kcmp (fst p) (expected_store (forest s))) as [e|] eqn:Fe; [|reflexivity].
    apply (In_mfind kcmp kcmp_ok) in Fe. pose proof (expected_keys_lt s SO L _ Fe) as Lt.
    cbn [fst] in Lt. lia.
  Qed.

  Lemma new_leaves_In t k v : In (k, v) (new_leaves t) -> In (k, v) (elems t).
  Proof.
    induction t as [kk vv m|kk h s m l IHl r IHr]; cbn [new_leaves elems].
    - destruct (ver m =? 0); [auto|intros []].
    - rewrite !in_app_iff. tauto.
  Qed.

  Lemma elems_new_or_old t k v :
    In (k, v) (elems t) ->
    In (k, v) (new_leaves t) \/ exists m, subtree (Leaf k v m) t /\ ver m <> 0.
  Proof.
    induction t as [kk vv m|kk h s m l IHl r IHr]; cbn [new_leaves elems].
    - intros [Q|[]]. inversion Q; subst. destruct (ver m =? 0) eqn:E.
      + left. left. reflexivity.
      + right. exists m. split; [apply sub_refl|apply Z.eqb_neq, E].
    - rewrite !in_app_iff. intros [HI|HI].
      + destruct (IHl HI) as [A|(m' & S & P)]; [auto|]. right. exists m'. split; [apply sub_left, S|exact P].
      + destruct (IHr HI) as [A|(m' & S & P)]; [auto|]. right. exists m'. split; [apply sub_right, S|exact P].
  Qed.

  Lemma sub_elems u t p : subtree u t -> In p (elems u) -> In p (elems t).
  Proof.
    induction 1 as [t|u k h s m l r _ IH|u k h s m l r _ IH]; intros HI; [exact HI| |];
      cbn [elems]; apply in_or_app; auto.
  Qed.

  (** C12.5 (model level): the commit turns the index of the last saved tree into the index of
      the committed tree and labels it with the new version *)
  Theorem index_exact s d :
    store_ok H s -> lookup (working_version s) (forest s) = None ->
    fastidx d = oelems (last_saved s) ->
    fastidx (apply_ops d (commit_ops H true s)) = oelems (root (fst (do_save H s))) /\
    label (apply_ops d (commit_ops H true s)) = Some (working_version s).
  Proof.
    intros SO L E. pose proof SO as [SI HI C FI B].
    rewrite (commit_ops_new H true s L), apply_ops_app.
    rewrite (fast_other _ _ (node_ops_not_fast s)), (label_other _ _ (node_ops_not_label s)).
    unfold commit_meta_ops. rewrite !apply_ops_app. split; [|reflexivity].
    cbn [apply_ops fold_left apply_op set_label fastidx].
    rewrite fast_del_fast, fast_set_fast, E.
    destruct (do_save_new_forest H s L) as (_ & Er & _). rewrite Er.
    assert (Es : oelems (saved_root H s) = oelems (root s)).
    { unfold saved_root. destruct (root s); cbn [oelems]; [apply stamp_elems|reflexivity]. }
    rewrite Es. unfold based in B.
    apply (mset_mdel_all_exact bcmp bcmp_ok);
      [exact (osorted_elems _ (inv_saved s SI))|exact (osorted_elems _ (inv_root s SI))| | |].
    - intros k v. unfold fast_adds. destruct (root s) as [n|]; [apply new_leaves_In|intros []].
    - (* a leaf of the tree that is not new is a leaf of the last saved tree *)
      intros k v HI'. unfold fast_adds. destruct (root s) as [n|]; [|contradiction].
      cbn [oelems] in HI'. destruct (elems_new_or_old n k v HI') as [A|(m & S & P)]; [auto|].
      right. destruct (B _ S P) as (b & -> & Sb). cbn [oelems].
      apply (sub_elems _ _ _ Sb). left. reflexivity.
    - intros k. unfold fast_rems, mhas. rewrite filter_In, Bool.negb_true_iff.
      destruct (mfind bcmp k (oelems (root s))); intuition congruence.
  Qed.
End CommitExact.

(** ** The invariant holds in every state reachable within the usage contract *)
Section Reachable.
  Variable H : bytes -> bytes.

  Lemma based_leaf_new k v ls f iv a b ver0 :
    based (MState (Some (Leaf k v new_meta)) ver0 ls f iv a b).
  Proof.
    unfold based. cbn [root last_saved]. intros u S P. apply sub_leaf in S. subst u.
    cbn in P. congruence.
  Qed.

  Lemma based_same r ver0 f iv a b : based (MState r ver0 r f iv a b).
  Proof.
    unfold based. cbn [root last_saved]. destruct r as [n|]; [|exact I].
    intros u S _. exists n. auto.
  Qed.

  Lemma based_none ver0 ls f iv a b : based (MState None ver0 ls f iv a b).
  Proof. exact I. Qed.

  Lemma step_based s o : based s -> based (fst (step H s o)).
  Proof.
    intros B. destruct o as [k v|k|k| | | |v|n|v|t r|k v|v| | | | | ];
      rewrite ?step_read, ?step_get_versioned; cbn [step]; try exact B.
    - (* Set *)
      unfold do_set. destruct (root s) as [n|] eqn:R.
      + pose proof (set_from_old n k v) as F. destruct (set n k v) as [n' upd]. cbn [fst] in *.
        unfold based in *. rewrite R in B. cbn [root last_saved]. intros u S P.
        apply B; [apply F; assumption|exact P].
      + cbn [fst]. apply based_leaf_new.
    - (* Remove *)
      unfold do_remove. cbv zeta. destruct (root s) as [n|] eqn:R.
      2:{ cbn [fst]. unfold based. rewrite R. exact I. }
      destruct (rm_val (remove n k)) as [val|] eqn:EV.
      2:{ cbn [fst]. unfold based. rewrite R. unfold based in B. rewrite R in B. exact B. }
      cbn [fst]. unfold based in *. rewrite R in B. cbn [root last_saved].
      destruct (rm_self (remove n k)) as [t'|] eqn:ES; [|exact I].
      intros u S P. apply B; [apply (remove_from_old n k t' ES); assumption|exact P].
    - (* Save *)
      destruct (lookup (working_version s) (forest s)) as [e|] eqn:L.
      + destruct (do_save_existing H s e L) as [E|E]; rewrite E; cbn [fst].
        * apply based_same.
        * exact B.
      + rewrite (do_save_fresh H s L). apply based_same.
    - (* Rollback *)
      cbn [fst]. destruct (0 <? version s); [apply based_same|apply based_none].
    - (* Reopen *)
      destruct (do_reopen_cases s) as [E|[(_ & E)|(tv & r & _ & E)]]; rewrite E; cbn [fst];
        try apply based_none. apply based_same.
    - (* Load *)
      destruct (do_load_cases s v) as [E|[(_ & _ & E)|(tv & r & _ & E)]]; rewrite E; cbn [fst];
        try exact B. apply based_same.
    - (* Prune *)
      destruct (do_prune_cases s n) as [[_ E]|[_ E]]; rewrite E; cbn [fst]; exact B.
    - (* Lvfo *)
      destruct (do_lvfo_cases s v) as [E|[(_ & _ & E)|(tv & r & _ & E)]]; rewrite E; cbn [fst];
        try exact B. apply based_same.
  Qed.

  Lemma step_forest_cases s o :
    init_ver (fst (step H s o)) = init_ver s /\
    (forest (fst (step H s o)) = forest s \/
     (exists p, forest (fst (step H s o)) = filter p (forest s)) \/
     (lookup (working_version s) (forest s) = None /\
      forest (fst (step H s o)) = forest s ++ [(working_version s, saved_root H s)])).
  Proof.
    split; [apply step_bookkeeping|].
    destruct (step_forest H s o) as [E|[(_ & L & E)|[(n & _ & E)|(v & _ & E)]]]; eauto.
  Qed.

  Lemma init_ver_step s o : init_ver (fst (step H s o)) = init_ver s.
  Proof. apply step_forest_cases. Qed.

  Lemma forest_pred_step (P : Z -> forest_t -> Prop) :
    (forall iv p f, P iv f -> P iv (filter p f)) ->
    (forall s, store_ok H s -> lookup (working_version s) (forest s) = None ->
               P (init_ver s) (forest s) ->
               P (init_ver s) (forest s ++ [(working_version s, saved_root H s)])) ->
    forall s o, store_ok H s -> P (init_ver s) (forest s) ->
                P (init_ver (fst (step H s o))) (forest (fst (step H s o))).
  Proof.
    intros Pf Ps s o SO Ph.
    destruct (step_forest_cases s o) as [-> [->|[[p ->]|[L ->]]]]; auto.
  Qed.

  Lemma step_forest_inv s o :
    store_ok H s -> forest_inv (forest (fst (step H s o))).
  Proof.
    intros SO. apply (forest_pred_step (fun _ => forest_inv)); [ | |exact SO|apply SO].
    - intros _ p f. apply forest_inv_filter.
    - intros s0 SO0 L _. apply forest_inv_save; assumption.
  Qed.

  Theorem store_ok_step s o :
    store_ok H s -> in_contract s o -> store_ok H (fst (step H s o)).
  Proof.
    intros SO IC. pose proof SO as [SI HI C FI B]. constructor.
    - apply step_inv, SI.
    - apply step_hash_inv; assumption.
    - apply step_contig; assumption.
    - apply step_forest_inv, SO.
    - apply step_based, B.
  Qed.

  Theorem store_ok_run ops : forall s,
    store_ok H s -> run_ok H s ops -> store_ok H (fst (run H s ops)).
  Proof.
    induction ops as [|o ops IH]; intros s SO R; [exact SO|].
    rewrite run_cons. cbn [fst]. destruct R as [IC R]. apply IH; [|exact R].
    apply store_ok_step; assumption.
  Qed.

  Lemma store_ok_init iv b : init_ok iv b -> store_ok H (init_state iv b).
  Proof.
    intros IO. assert (0 <= iv /\ (iv <> 0 \/ b = false)) as [A1 A2].
    { unfold init_ok in IO. destruct b; split; try lia; try (right; reflexivity); try (left; lia). }
    constructor.
    - apply state_inv_init, A1.
    - apply hash_inv_init, A2.
    - apply contig_init, IO.
    - apply forest_inv_nil.
    - exact I.
  Qed.

  Theorem store_ok_reachable iv b ops :
    init_ok iv b -> run_ok H (init_state iv b) ops ->
    store_ok H (fst (run H (init_state iv b) ops)).
  Proof. intros IO R. apply store_ok_run; [apply store_ok_init, IO|exact R]. Qed.

  Theorem forest_pred_reachable (P : Z -> forest_t -> Prop) :
    (forall iv, P iv []) ->
    (forall iv p f, P iv f -> P iv (filter p f)) ->
    (forall s, store_ok H s -> lookup (working_version s) (forest s) = None ->
               P (init_ver s) (forest s) ->
               P (init_ver s) (forest s ++ [(working_version s, saved_root H s)])) ->
    forall iv b ops, init_ok iv b -> run_ok H (init_state iv b) ops ->
      P (init_ver (fst (run H (init_state iv b) ops))) (forest (fst (run H (init_state iv b) ops))).
  Proof.
    intros Pn Pf Ps iv b ops IO.
    assert (G : forall ops s, store_ok H s -> P (init_ver s) (forest s) -> run_ok H s ops ->
                  P (init_ver (fst (run H s ops))) (forest (fst (run H s ops)))).
    { clear ops. induction ops as [|o ops IH]; intros s SO Ph R; [exact Ph|].
      rewrite run_cons. cbn [fst]. destruct R as [IC R].
      apply IH; [apply store_ok_step; assumption|apply forest_pred_step; assumption|exact R]. }
    apply G; [apply store_ok_init, IO|apply Pn].
  Qed.

  (** C12.2: after DeleteVersionsFrom the store is exactly the expected store of the versions
      up to [v] *)
  Theorem rollback_exact s d v :
    store_ok H s -> in_range s v -> nodes d = expected_store (forest s) ->
    forest (fst (step H s (OLvfo v))) = filter (fun p => fst p <=? v) (forest s) /\
    nodes (apply_ops d (rollback_ops d v)) = expected_store (forest (fst (step H s (OLvfo v)))).
  Proof.
    intros SO IR E. pose proof SO as [SI HI C FI B].
    destruct (lvfo_removes_exactly H s v C IR) as (t & _ & Es & _).
    rewrite Es. cbn [fst forest]. split; [reflexivity|].
    apply (rollback_exact_forest (forest s) (init_ver s)); auto.
    - apply contig_forest_ok, C.
    - apply (inv_nodup s SI).
    - apply (in_range_available s v C), IR.
  Qed.

  (** C12.3: after the specification-level deletion of the versions up to [n] the store is
      exactly the expected store of the later versions *)
  Theorem prune_spec_exact s d n :
    store_ok H s -> n < latest_version s -> nodes d = expected_store (forest s) ->
    forest (fst (step H s (OPrune n))) = filter (fun p => n <? fst p) (forest s) /\
    nodes (apply_ops d (prune_ops (forest s) n)) =
      expected_store (forest (fst (step H s (OPrune n)))).
  Proof.
    intros SO Ln E. pose proof SO as [SI HI C FI B]. cbn [step].
    destruct (do_prune_cases s n) as [[Ge _]|[_ Es]]; [lia|].
    rewrite Es. cbn [fst forest]. split; [reflexivity|].
    apply prune_spec_exact_forest; auto. apply (inv_nodup s SI).
  Qed.
End Reachable.

Lemma reach_key_nonce f k e : forest_inv f -> In (k, e) (reach f) -> 1 <= snd k.
Proof.
  intros FI HI. apply reach_In in HI.
  destruct HI as [(u & (v & t & HI & S) & -> & _)|(v & r & HI & E)].
  - unfold node_key. cbn [snd]. exact (fi_nonce f FI v t u HI S).
  - destruct (root_entry_Some _ _ _ _ E) as [-> _]. cbn [snd]. lia.
Qed.

(** ** Children are never younger than their parent *)
Definition child_of (c u : node) : Prop :=
  match u with Leaf _ _ _ => False | Inner _ _ _ _ l r => c = l \/ c = r end.

(** stated for persisted nodes (a new node has version 0 until it is stamped) *)
Definition ver_mono (t : node) : Prop :=
  forall u c, subtree u t -> ver (nmeta u) <> 0 -> child_of c u -> ver (nmeta c) <= ver (nmeta u).

Lemma child_subtree c u : child_of c u -> subtree c u.
Proof. destruct u as [k v m|k h s m l r]; cbn [child_of]; [tauto|]. intros [->| ->]; auto 7 with sub. Qed.

Lemma ver_mono_from_old t b : from_old t b -> ver_mono b -> ver_mono t.
Proof. intros F M u c S P Ch. exact (M u c (F u S P) P Ch). Qed.

Lemma ver_mono_sub t u : ver_mono t -> subtree u t -> ver_mono u.
Proof. intros M S w c Sw. apply M. exact (sub_trans _ _ _ Sw S). Qed.

Theorem set_ver_mono t k v : ver_mono t -> ver_mono (fst (set t k v)).
Proof. apply ver_mono_from_old, set_from_old. Qed.

Theorem remove_ver_mono t k t' : rm_self (remove t k) = Some t' -> ver_mono t -> ver_mono t'.
Proof. intros E. apply ver_mono_from_old, (remove_from_old t k t' E). Qed.

Theorem stamp_ver_mono (H : bytes -> bytes) wv n t :
  wv <> 0 -> oldok wv t ->
  (forall u, subtree u t -> ver (nmeta u) <> 0 -> ver (nmeta u) < wv) ->
  ver_mono t -> ver_mono (fst (stamp H wv n t)).
Proof.
  intros Hwv O Lt M. rewrite <- assign_stamp.
  pose proof (assign_sub H wv t Hwv O n) as ASub.
  intros u c S P Ch.
  assert (Sc : subtree c (fst (fst (assign H wv n t)))) by exact (sub_trans _ _ _ (child_subtree c u Ch) S).
  destruct (ASub u S) as [(A1 & A2 & A3)|(A1 & _)].
  - exact (M u c A3 A2 Ch).
  - destruct (ASub c Sc) as [(C1 & C2 & C3)|(C1 & _)]; [|lia].
    specialize (Lt c C3 C2). lia.
Qed.

Section Mono.
  Variable H : bytes -> bytes.

  Definition mono_ok (s : mstate) : Prop :=
    forall v t, In (v, Some t) (forest s) -> ver_mono t.

  Lemma working_mono s n : store_ok H s -> mono_ok s -> root s = Some n -> ver_mono n.
  Proof.
    intros SO M R u c S P Ch.
    destruct (based_sub_of s n u (so_contig H s SO) (so_based H s SO) R S P) as (b & _ & Sb & Ib).
    exact (M _ b Ib u c Sb P Ch).
  Qed.

  Theorem mono_ok_reachable iv b ops :
    init_ok iv b -> run_ok H (init_state iv b) ops ->
    mono_ok (fst (run H (init_state iv b) ops)).
  Proof.
    intros IO RO. unfold mono_ok.
    apply (forest_pred_reachable H (fun _ f => forall v t, In (v, Some t) f -> ver_mono t));
      [ | | |exact IO|exact RO].
    - intros _ v t [].
    - intros _ p f M v t HI. apply filter_In in HI. apply (M v t), HI.
    - intros s SO L M v t HI. apply In_snoc in HI. destruct HI as [HI|Q]; [exact (M v t HI)|].
      injection Q as _ E. destruct (saved_root_Some H s t E) as (n & R & ->).
      rewrite assign_stamp. destruct (save_fresh H s SO L) as (Wpos & _).
      apply stamp_ver_mono.
      + lia.
      + apply (root_oldok H s n SO L R).
      + intros u S P. apply (working_old H s n u SO L R S P).
      + apply (working_mono s n SO M R).
  Qed.
End Mono.

(** ** The index rebuild (enableFastStorageAndCommitIfNotEnabled) *)
Theorem rebuild_exact d latest (t : option node) :
  oinv t -> msorted bcmp (fastidx d) ->
  fastidx (apply_ops d (rebuild_ops d latest t)) = oelems t /\
  label (apply_ops d (rebuild_ops d latest t)) = Some latest /\
  nodes (apply_ops d (rebuild_ops d latest t)) = nodes d.
Proof.
  intros O S. unfold rebuild_ops. rewrite !apply_ops_app. split; [|split].
  - cbn [apply_ops fold_left apply_op set_label fastidx].
    rewrite fast_set_fast, fast_del_fast.
    pose proof (osorted_elems t O) as St.
    apply (msorted_ext bcmp bcmp_ok); [|exact St|].
    { apply (msorted_mset_all bcmp bcmp_ok), (msorted_mdel_all bcmp), S. }
    intros k. apply option_ext. intros v.
    rewrite (mfind_mset_all_Some bcmp bcmp_ok), (mfind_mdel_all_Some bcmp bcmp_ok _ _ _ _ S).
    2:{ intros v1 v2. apply NoDup_fst_functional, (msorted_NoDup bcmp bcmp_ok), St. }
    rewrite (mfind_In_iff bcmp bcmp_ok k v _ St). split; [|auto].
    intros [A|(_ & N & Fe)]; [exact A|].
    exfalso. apply N, (in_map fst _ (k, v)), (In_mfind bcmp bcmp_ok), Fe.
  - reflexivity.
  - cbn [apply_ops fold_left apply_op set_label nodes].
    rewrite !nodes_other; [reflexivity| |]; apply Forall_map_const; reflexivity.
Qed.

(** a cut inside the rebuild leaves the label untouched: after a rollback (label reset) the
    next reopening rebuilds again *)
Theorem rebuild_prefix_label d latest t i :
  (i < length (rebuild_ops d latest t))%nat ->
  label (apply_ops d (firstn i (rebuild_ops d latest t))) = label d /\
  nodes (apply_ops d (firstn i (rebuild_ops d latest t))) = nodes d.
Proof.
  unfold rebuild_ops. rewrite app_assoc. set (A := map del_fast _ ++ map set_fast _).
  rewrite app_length. cbn [length]. intros Li.
  rewrite firstn_app_le by lia.
  split; [apply label_other|apply nodes_other]; apply Forall_firstn, Forall_app;
    split; apply Forall_map_const; reflexivity.
Qed.

(** ** No node is older than the initial version *)
Section Lo.
  Variable H : bytes -> bytes.

  Definition forest_lo (iv : Z) (f : forest_t) : Prop :=
    forall u, sub_of f u -> iv <= ver (nmeta u).

  Definition lo_ok (s : mstate) : Prop := forest_lo (init_ver s) (forest s).

  Lemma working_version_lo s : contig s -> init_ver s <= working_version s.
  Proof.
    intros C.
    destruct (contig_cases s C) as [(_ & _ & _ & _ & _ & _ & W)|(NE & _ & R & _ & W)]; [exact W|].
    destruct (contig_range s (contig_forest_ok s C) NE) as (_ & Lo & _). lia.
  Qed.

  Lemma forest_lo_filter iv p f : forest_lo iv f -> forest_lo iv (filter p f).
  Proof. intros M u Su. apply M. eapply sub_of_filter, Su. Qed.

  Lemma forest_lo_save s :
    store_ok H s -> lookup (working_version s) (forest s) = None -> lo_ok s ->
    forest_lo (init_ver s) (forest s ++ [(working_version s, saved_root H s)]).
  Proof.
    intros SO L M u Su. apply sub_of_snoc in Su. destruct Su as [Su|(t & E & Su)]; [exact (M u Su)|].
    destruct (saved_root_sub H s t u SO L E Su) as [(_ & b & Ib & Sb)|[V _]].
    - apply M. exists (version s), b. auto.
    - rewrite V. apply working_version_lo, SO.
  Qed.

  Theorem lo_ok_step s o : store_ok H s -> lo_ok s -> lo_ok (fst (step H s o)).
  Proof. apply (forest_pred_step H forest_lo forest_lo_filter forest_lo_save). Qed.

  Theorem lo_ok_reachable iv b ops :
    init_ok iv b -> run_ok H (init_state iv b) ops ->
    lo_ok (fst (run H (init_state iv b) ops)).
  Proof.
    apply (forest_pred_reachable H forest_lo); [|exact forest_lo_filter|exact forest_lo_save].
    intros iv0 u (w & t & [] & _).
  Qed.
End Lo.

(** ** [db_run] depends on the hash function through its values only (see HashTable.v) *)
Section HashExt.
  Variables H H' : bytes -> bytes.
  Hypothesis HE : forall b, H b = H' b.

  Lemma assign_hext wv t : forall n, assign H wv n t = assign H' wv n t.
  Proof.
    induction t as [k v m|k h s m l IHl r IHr]; intros n; cbn [assign]; destruct (negb _);
      try reflexivity.
    - rewrite (leaf_preimage_hext H H' HE), HE. reflexivity.
    - rewrite IHl. destruct (assign H' wv (n + 1) l) as [[l' n1] wl]. rewrite IHr.
      destruct (assign H' wv n1 r) as [[r' n2] wr]. rewrite HE. reflexivity.
  Qed.

  Lemma db_run_hext fast ops : forall s d, db_run H fast s d ops = db_run H' fast s d ops.
  Proof.
    induction ops as [|o ops IH]; intros s d; cbn [db_run]; [reflexivity|].
    rewrite (step_hext H H' HE), IH. f_equal.
    destruct o; cbn [db_step]; try reflexivity.
    unfold commit_ops, commit_node_ops. destruct (root s) as [n|]; [|reflexivity].
    rewrite assign_hext. reflexivity.
  Qed.
End HashExt.
