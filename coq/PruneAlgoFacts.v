(** PruneAlgoFacts: the physical DeleteVersionsTo of nodedb.go (PruneAlgo.v) refines its
    specification (Store.v) - summary file.

    Files: PruneAlgoFacts1 (order of the maximal common subtrees of two BSTs), 2 (stores described
    by their lookups, the physical store of a forest, safe disks), 3 (the invariant of the write
    batch, the single writes of deleteVersion), 4 (node iterator, root key cache, the traversal
    loop), 5 (deleteVersion), 6 (the loop over the versions), 7 (final store, reading a disk back),
    8 (forest-level theorems for forests without look-alike nodes), 9 (look-alike nodes give a hash
    collision), 10 (the main theorems at state level, the swapped-order variant, boolean checkers),
    11 (the physical store along a history), 12 (effective-mode runs are plain-mode runs), 13 (the
    keys that disappear are those [prune_version_ops] deletes), 14 (the order of the effective
    writes; it imports this file for the example data).

    This file restates main theorems in full (proofs: [exact]; Properties/C04, C05, C12 restate
    the others), prints their assumptions, and evaluates them on a concrete SHA-256 history. *)
From Coq Require Import Lia Sorted.
From IAVL Require Import Bytes Varint Sha256 Tree VMap TreeFacts MTree MTreeFacts HashFacts
  VersionFacts Ics23Facts Store StoreFacts PruneAlgo PruneAlgoFacts1 PruneAlgoFacts2 PruneAlgoFacts3
  PruneAlgoFacts4 PruneAlgoFacts5 PruneAlgoFacts6 PruneAlgoFacts7 PruneAlgoFacts8 PruneAlgoFacts9
  PruneAlgoFacts10 PruneAlgoFacts11 PruneAlgoFacts12 PruneAlgoFacts13 HashTable.
Local Open Scope Z_scope.

(** Reads: the physical store of a forest reads every version back
    ([PruneAlgoFacts10.phys_readable]); so does every [disk_ok] (= [safe]) store, the
    generalisation needed for the lagging disk *)
Theorem PA_disk_ok_readable :
  forall (H : bytes -> bytes) (f : forest_t) (d : store),
    forest_inv f -> (forall w t, In (w, Some t) f -> wf t) -> leaf_hashes H f ->
    disk_ok f d -> readable H d f = true.
Proof. exact disk_ok_readable. Qed.

(** One deleteVersion on the first version, any schedule, either flush mode: POk with
    [prune_fuel], the effective result is the physical store of the rest (with the explicit list of
    re-keyed versions [rk_next]), every disk state met is [disk_ok] for the rest *)
Theorem PA_delete_version_first :
  forall (H : bytes -> bytes) (f : forest_t) (iv : Z) (r : list Z) (sched : list bool) (eff : bool)
         (v : Z) (rv rn : option node) (f'' : forest_t),
    forest_inv f -> NoDup (map fst f) -> forest_ok f iv ->
    (forall w t, In (w, Some t) f -> wf t) -> no_confusion H f ->
    f = (v, rv) :: (v + 1, rn) :: f'' -> rekey_ok r f ->
    exists p' c',
      delete_version H (prune_fuel (phys_of r f)) v
        (Pdb (phys_of r f) [] sched [] [] eff [] [phys_of r f]) rkc_new = (POk p', c') /\
      let f' := (v + 1, rn) :: f'' in
      disk (pflush p') = phys_of (rk_next v rn r) f' /\
      Forall (disk_ok f') (dhist (pflush p')).
Proof. exact delete_version_first. Qed.

(** The whole call of DeleteVersionsTo: it succeeds for every schedule and both flush modes, and
    its final store is the physical store of the remaining forest, or [H] collides *)
Theorem PA_prune_refines :
  forall (H : bytes -> bytes), (forall x, length (H x) = 32%nat) ->
  forall (s : mstate) (r : list Z) (sched : list bool) (eff : bool) (n : Z),
    store_ok H s -> forest_bounds (forest s) ->
    rekey_ok r (forest s) -> n < latest_version s ->
    (exists st' log fl,
       prune_forest H eff r (forest s) sched n = POk (st', log, fl) /\
       let f' := filter (fun p => n <? fst p) (forest s) in
       st' = phys_of (rekeyed st') f' /\ rekey_ok (rekeyed st') f' /\
       norm_store st' = expected_store f')
    \/ collision H.
Proof. exact prune_refines. Qed.

Theorem PA_prune_refines_reachable :
  forall (H : bytes -> bytes), (forall x, length (H x) = 32%nat) ->
  forall (iv : Z) (b : bool) (ops : list op) (r : list Z) (sched : list bool) (eff : bool) (n : Z),
    init_ok iv b -> run_ok H (init_state iv b) ops ->
    let s := fst (run H (init_state iv b) ops) in
    forest_bounds (forest s) -> rekey_ok r (forest s) -> n < version s -> n < latest_version s ->
    (exists st' log fl,
       prune_forest H eff r (forest s) sched n = POk (st', log, fl) /\
       let f' := filter (fun p => n <? fst p) (forest s) in
       st' = phys_of (rekeyed st') f' /\ rekey_ok (rekeyed st') f' /\
       norm_store st' = expected_store f')
    \/ collision H.
Proof. exact prune_refines_reachable. Qed.

(** the same without any hypothesis on the hash function: the alternative is an explicit pair of
    different nodes of one tree with the same iterator hash *)
Theorem PA_prune_forest_or_confusion :
  forall (H : bytes -> bytes) (f : forest_t) (iv : Z),
    forest_inv f -> NoDup (map fst f) -> forest_ok f iv -> (forall w t, In (w, Some t) f -> wf t) ->
    forall (r : list Z) (sched : list bool) (eff : bool) (n : Z),
      rekey_ok r f -> n < latest_of_forest f ->
      (exists st' log fl,
         prune_forest H eff r f sched n = POk (st', log, fl) /\
         let f' := filter (fun p => n <? fst p) f in
         st' = phys_of (rekeyed st') f' /\ rekey_ok (rekeyed st') f' /\
         norm_store st' = expected_store f')
      \/ confusion H f.
Proof. exact prune_forest_or_confusion. Qed.

(** What readers and crashes see: every disk state the call goes through reads every retained
    version back *)
Theorem PA_prune_safe_at_every_moment :
  forall (H : bytes -> bytes), (forall x, length (H x) = 32%nat) ->
  forall (s : mstate) (r : list Z) (sched : list bool) (eff : bool) (n : Z),
    store_ok H s -> forest_bounds (forest s) ->
    rekey_ok r (forest s) -> n < latest_version s ->
    (exists disks,
       prune_forest_disks H eff r (forest s) sched n = POk disks /\
       Forall (fun d => readable H d (filter (fun p => n <? fst p) (forest s)) = true) disks)
    \/ collision H.
Proof. exact prune_safe_at_every_moment. Qed.

Theorem PA_prune_safe_reachable :
  forall (H : bytes -> bytes), (forall x, length (H x) = 32%nat) ->
  forall (iv : Z) (b : bool) (ops : list op) (r : list Z) (sched : list bool) (eff : bool) (n : Z),
    init_ok iv b -> run_ok H (init_state iv b) ops ->
    let s := fst (run H (init_state iv b) ops) in
    forest_bounds (forest s) -> rekey_ok r (forest s) -> n < version s -> n < latest_version s ->
    (exists disks,
       prune_forest_disks H eff r (forest s) sched n = POk disks /\
       Forall (fun d => readable H d (filter (fun p => n <? fst p) (forest s)) = true) disks)
    \/ collision H.
Proof. exact prune_safe_reachable. Qed.

(** the physical store along every in-contract history, all oracles *)
Theorem PA_phys_run_reachable :
  forall (H : bytes -> bytes), (forall x, length (H x) = 32%nat) ->
  forall (fast : bool) (iv : Z) (b : bool) (ops : list op) (orcs : list (list bool * bool)),
    init_ok iv b -> run_ok H (init_state iv b) ops -> bounded_run H (init_state iv b) ops ->
    Forall phys_inv (phys_trace H fast (init_state iv b) [] ops orcs) \/ collision H.
Proof. exact phys_run_reachable. Qed.

Theorem PA_phys_step_inv :
  forall (H : bytes -> bytes), (forall x, length (H x) = 32%nat) ->
  forall (fast : bool) (s : mstate) (st : store) (o : op) (orc : list bool * bool),
    store_ok H s -> in_contract s o -> forest_bounds (forest s) -> phys_inv (s, st) ->
    phys_inv (fst (step H s o), phys_step H fast s st o orc) \/ collision H.
Proof. exact phys_step_inv. Qed.

(** Effective mode: a run whose schedule is indexed by the EFFECTIVE writes is the run of a schedule
    indexed by the writes issued (one boolean per write: [false] at every ineffective deletion,
    the next boolean of the given schedule at every effective write, [false] once it is exhausted;
    built in [PruneAlgoFacts12.simp_pwrite]): same disk, batch, writes, effective writes and disk
    history.  ([PA_prune_refines], [PA_prune_safe_at_every_moment] and [PA_phys_run_reachable] are stated
    for both modes directly.) *)
Theorem PA_eff_run_is_plain_run :
  forall (H : bytes -> bytes) (fuel : nat) (vs : list Z) (st : store) (schedule : list bool) (c : rkc),
    exists schedule',
      twr (delete_range H fuel vs (Pdb st [] schedule [] [] true [] [st]) c)
          (delete_range H fuel vs (Pdb st [] schedule' [] [] false [] [st]) c).
Proof. exact eff_run_is_plain_run. Qed.

Theorem PA_eff_disks_plain :
  forall (H : bytes -> bytes) (st : store) (schedule : list bool) (first latest to : Z),
    exists schedule',
      prune_phys_disks H true st schedule first latest to =
      prune_phys_disks H false st schedule' first latest to.
Proof. exact eff_disks_plain. Qed.

Theorem PA_eff_store_plain :
  forall (H : bytes -> bytes) (st : store) (schedule : list bool) (first latest to : Z),
    exists schedule',
      match prune_phys H true st schedule first latest to,
            prune_phys H false st schedule' first latest to with
      | POk (d1, _, _), POk (d2, _, _) => d1 = d2
      | PNoVersion, PNoVersion | PErr, PErr | PFuel, PFuel => True
      | _, _ => False
      end.
Proof. exact eff_store_plain. Qed.

(** look-alike nodes give a collision *)
Theorem PA_confusion_collision :
  forall (H : bytes -> bytes), (forall x, length (H x) = 32%nat) ->
  forall (t u c : node),
    wf t -> hash_ok H t -> all_persisted t -> tbounds t ->
    subtree u t -> subtree c t -> u <> c -> fhash H u = fhash H c -> collision H.
Proof. exact confusion_collision. Qed.

Print Assumptions PA_disk_ok_readable.
Print Assumptions PA_delete_version_first.
Print Assumptions PA_prune_refines.
Print Assumptions PA_prune_refines_reachable.
Print Assumptions PA_prune_forest_or_confusion.
Print Assumptions PA_prune_safe_at_every_moment.
Print Assumptions PA_prune_safe_reachable.
Print Assumptions PA_phys_run_reachable.
Print Assumptions PA_phys_step_inv.
Print Assumptions PA_confusion_collision.
Print Assumptions PA_eff_run_is_plain_run.
Print Assumptions PA_eff_disks_plain.
Print Assumptions PA_eff_store_plain.

(** ** Examples (SHA-256): five versions: a one-leaf version, a commit without writes, inserts,
    a removal, an overwrite; a first deletion (to version 1) re-keys root (1,1); the second
    deletion (to version 3) starts from [r = [1]]. *)
Definition pa_a : bytes := [97%N].
Definition pa_b : bytes := [98%N].
Definition pa_c : bytes := [99%N].
Definition pa_d : bytes := [100%N].
Definition pa_hist : list op :=
  [OSet pa_a pa_a; OSave; OSave; OSet pa_b pa_b; OSet pa_c pa_c; OSave; ORemove pa_a; OSave;
   OSet pa_d pa_d; OSet pa_b pa_d; OSave].
Definition pa_state : mstate := fst (run sha256 (init_state 0 false) pa_hist).
Definition pa_f : forest_t := forest pa_state.
Definition pa_f1 : forest_t := filter (fun p => 1 <? fst p) pa_f.
Definition pa_sched1 : list bool := [false; true].
Definition pa_sched2 : list bool := [true; false; true; true; false; true; false; true; true].

(** The commit, the physical history and the contract check use the hash function through its
    values only. *)
Section HashExt.
  Variables H H' : bytes -> bytes.
  Hypothesis HE : forall b, H b = H' b.

  Lemma assign_hext wv t : forall n, assign H wv n t = assign H' wv n t.
  Proof.
    induction t as [k v m|k h s m l IHl r IHr]; intros n; cbn [assign]; destruct (negb _);
      try reflexivity.
    - rewrite (leaf_preimage_hext H H' HE), HE. reflexivity.
    - rewrite IHl. destruct (assign H' wv (n + 1) l) as [[l' n1] wl]. rewrite IHr.
      destruct (assign H' wv n1 r) as [[r' n2] wr]. rewrite HE. reflexivity.
  Qed.

  Lemma commit_ops_hext fast s : commit_ops H fast s = commit_ops H' fast s.
  Proof.
    unfold commit_ops, commit_node_ops. destruct (root s) as [n|]; [rewrite assign_hext|]; reflexivity.
  Qed.

  Lemma phys_step_hext fast s st o orc : phys_step H fast s st o orc = phys_step H' fast s st o orc.
  Proof.
    destruct o; cbn [phys_step]; rewrite ?commit_ops_hext, ?(prune_forest_hext H H' HE); reflexivity.
  Qed.

  Lemma phys_trace_hext fast ops : forall s st orcs,
    phys_trace H fast s st ops orcs = phys_trace H' fast s st ops orcs.
  Proof.
    induction ops as [|o ops IH]; intros s st orcs; cbn [phys_trace]; [reflexivity|].
    rewrite (step_hext H H' HE), phys_step_hext, IH. reflexivity.
  Qed.

  Lemma run_okb_hext ops : forall s, run_okb H s ops = run_okb H' s ops.
  Proof.
    induction ops as [|o ops IH]; intros s; cbn [run_okb]; [reflexivity|].
    rewrite (step_hext H H' HE), IH. reflexivity.
  Qed.

  Lemma trace_readable_hext (tr : list (mstate * store)) :
    forallb (fun p => match snd p with [] => true | _ => readable H (snd p) (forest (fst p)) end) tr =
    forallb (fun p => match snd p with [] => true | _ => readable H' (snd p) (forest (fst p)) end) tr.
  Proof.
    apply forallb_ext. intros p. destruct (snd p); [reflexivity|apply (readable_hext H H' HE)].
  Qed.
End HashExt.

(** the strings hashed when a persisted tree is built, written or read back *)
Fixpoint tree_preimages (H : bytes -> bytes) (t : node) : list bytes :=
  match t with
  | Leaf k v m => [v; leaf_preimage H (ver m) k v]
  | Inner _ h s m l r =>
      inner_preimage h s (ver m) (hs (nmeta l)) (hs (nmeta r)) ::
      tree_preimages H l ++ tree_preimages H r
  end.

Definition forest_preimages (H : bytes -> bytes) (f : forest_t) : list bytes :=
  flat_map (fun p => match snd p with Some t => tree_preimages H t | None => [] end) f.

(** The model hashes a leaf anew whenever it fetches it.  The examples below are evaluated with
    SHA-256 replaced by [memo sha256 pa_table], the table of the values SHA-256 takes on the nodes
    of the five versions and of a sixth (set a := b) that [pa_history_trace] adds: the models use
    the hash function through its values only (the [_hext] lemmas), and every entry of the table
    is checked against SHA-256 once, in [pa_table_ok]. *)
Definition pa_table : kvs :=
  Eval vm_compute in
  table_of sha256
    (forest_preimages sha256
       (forest (fst (run sha256 (init_state 0 false) (pa_hist ++ [OSet pa_a pa_b; OSave]))))).

Lemma pa_table_ok b : sha256 b = memo sha256 pa_table b.
Proof. revert b. apply memo_sound. vm_compute. reflexivity. Qed.

Definition pa_f_val : forest_t := Eval vm_compute in pa_f.
Lemma pa_f_eq : pa_f = pa_f_val.
Proof. unfold pa_f, pa_state. rewrite (run_hext _ _ pa_table_ok). reflexivity. Qed.

Definition pa_f1_val : forest_t := Eval vm_compute in pa_f1.
Lemma pa_f1_eq : pa_f1 = pa_f1_val.
Proof. unfold pa_f1. rewrite pa_f_eq. reflexivity. Qed.

Definition pa_run2_val := Eval vm_compute in prune_forest sha256 false [1] pa_f1 pa_sched2 3.
Lemma pa_run2_eq : prune_forest sha256 false [1] pa_f1_val pa_sched2 3 = pa_run2_val.
Proof. rewrite (prune_forest_hext _ _ pa_table_ok). reflexivity. Qed.

Definition pa_run2e_val := Eval vm_compute in prune_forest sha256 true [1] pa_f1 [] 3.
Lemma pa_run2e_eq : prune_forest sha256 true [1] pa_f1_val [] 3 = pa_run2e_val.
Proof. rewrite (prune_forest_hext _ _ pa_table_ok). reflexivity. Qed.

Example pa_hypotheses :
  init_ok 0 false /\
  run_okb sha256 (init_state 0 false) (pa_hist ++ [OPrune 1; OPrune 3]) = true /\
  forest_boundsb pa_f = true /\ rekey_okb [] pa_f = true /\
  forest_boundsb pa_f1 = true /\ rekey_okb [1] pa_f1 = true /\
  map fst pa_f = [1; 2; 3; 4; 5] /\ 1 < latest_of_forest pa_f /\ 3 < latest_of_forest pa_f1.
Proof.
  rewrite pa_f1_eq, pa_f_eq, (run_okb_hext _ _ pa_table_ok). vm_compute.
  repeat split; try reflexivity; try lia; discriminate.
Qed.

(** The kernel compares [forest pa_state] with [pa_f] by unfolding the constant on the right: with
    the sides the other way round, as at a use of [pa_hypotheses] for [forest pa_state], it runs the
    history to find the [forest] field. *)
Lemma pa_f_unfold : forest pa_state = pa_f.
Proof. exact (eq_refl (forest pa_state)). Qed.

Lemma pa_store_ok : store_ok sha256 pa_state.
Proof.
  apply store_ok_reachable; [exact (proj1 pa_hypotheses)|]. apply run_okb_iff.
  rewrite (run_okb_hext _ _ pa_table_ok). reflexivity.
Qed.

(** first deletion: the root of version 1 is re-keyed ((1,0) written, then (1,1) deleted) *)
Example pa_first_deletion :
  match prune_forest sha256 false [] pa_f pa_sched1 1 with
  | POk (st', log, fl) =>
      log = [set_node ((1, 0), ENode (SLeaf pa_a pa_a)); del_node (1, 1)] /\ fl = [1%nat] /\
      rekeyed st' = [1] /\ st' = phys_of [1] pa_f1 /\ norm_store st' = expected_store pa_f1
  | _ => False
  end.
Proof.
  rewrite pa_f1_eq, pa_f_eq, (prune_forest_hext _ _ pa_table_ok). vm_compute. repeat split; reflexivity.
Qed.

(** second deletion, [r = [1]]: versions 2 and 3 go; the computed result agrees with
    [prune_refines]; the re-keyed root (1,1) is an orphan of version 3: it is asked for under
    (1,1), so both (1,1) (absent) and (1,0) are deleted *)
Example pa_second_deletion :
  match prune_forest sha256 false [1] pa_f1 pa_sched2 3 with
  | POk (st', log, fl) =>
      (let f' := filter (fun p => 3 <? fst p) pa_f1 in
       st' = phys_of (rekeyed st') f' /\ rekey_okb (rekeyed st') f' = true /\
       norm_store st' = expected_store f') /\
      map fst st' = [(3, 2); (3, 3); (3, 4); (4, 1); (5, 1); (5, 2); (5, 3); (5, 4)] /\
      log = [del_node (2, 1); del_node (3, 1); del_node (1, 1); del_node (1, 0)] /\
      fl = [0%nat; 2%nat; 3%nat] /\ rekeyed st' = []
  | _ => False
  end.
Proof. rewrite pa_f1_eq, pa_run2_eq. vm_compute. repeat split; reflexivity. Qed.

(** every disk state reads every retained version back; and the final
    store is the same for another schedule and the other flush mode *)
Example pa_disks :
  match prune_forest_disks sha256 false [1] pa_f1 pa_sched2 3 with
  | POk disks =>
      length disks = 5%nat /\
      forallb (fun d => readable sha256 d (filter (fun p => 3 <? fst p) pa_f1)) disks = true
  | _ => False
  end.
Proof.
  rewrite pa_f1_eq, (prune_forest_disks_hext _ _ pa_table_ok). eval_match.
  rewrite (all_readable_hext _ _ pa_table_ok). vm_compute. split; reflexivity.
Qed.

Example pa_schedule_independent :
  match prune_forest sha256 false [1] pa_f1 pa_sched2 3, prune_forest sha256 true [1] pa_f1 [] 3,
        prune_forest sha256 false [1] pa_f1 (repeat true 20) 3 with
  | POk (a, _, _), POk (b, _, _), POk (c, _, _) => a = b /\ b = c
  | _, _, _ => False
  end.
Proof.
  rewrite pa_f1_eq, pa_run2_eq, pa_run2e_eq, (prune_forest_hext _ _ pa_table_ok). vm_compute.
  split; reflexivity.
Qed.

Example pa_phys_readable :
  readable sha256 (phys_of [] pa_f) pa_f = true /\ readable sha256 (phys_of [1] pa_f1) pa_f1 = true.
Proof. rewrite pa_f1_eq, pa_f_eq, !(readable_hext _ _ pa_table_ok). vm_compute. split; reflexivity. Qed.

(** the instance of the main theorem for the example (SHA-256 returns 32 bytes) *)
Example pa_main_instance sched eff :
  (exists st' log fl,
     prune_forest sha256 eff [] pa_f sched 1 = POk (st', log, fl) /\
     let f' := filter (fun p => 1 <? fst p) pa_f in
     st' = phys_of (rekeyed st') f' /\ rekey_ok (rekeyed st') f' /\
     norm_store st' = expected_store f')
  \/ collision sha256.
Proof.
  destruct pa_hypotheses as (_ & _ & FB & RK & _ & _ & _ & L1 & _). rewrite <- pa_f_unfold in *.
  apply (prune_refines sha256 sha256_length pa_state [] sched eff 1);
    [exact pa_store_ok|apply forest_boundsb_sound, FB|apply rekey_okb_sound, RK|exact L1].
Qed.

(** THE REFUTATION: with the two re-key writes swapped, a flush between them leaves a disk on
    which version 2 cannot be read (its reference (1,1) resolves neither directly nor through the
    fall-back to (1,0)).  The faithful order passes on the same input. *)
Theorem rekey_order_matters_refuted :
  exists (f : forest_t) (r : list Z) (sched : list bool) (n : Z),
    rekey_okb r f = true /\ n < latest_of_forest f /\
    match prune_forest_disks_swapped sha256 false r f sched n with
    | POk disks =>
        existsb (fun d => negb (readable sha256 d (filter (fun p => n <? fst p) f))) disks = true
    | _ => False
    end /\
    match prune_forest_disks sha256 false r f sched n with
    | POk good => forallb (fun d => readable sha256 d (filter (fun p => n <? fst p) f)) good = true
    | _ => False
    end.
Proof.
  exists pa_f_val, [], [false; true], 1.
  rewrite (prune_forest_disks_swapped_hext _ _ pa_table_ok), (prune_forest_disks_hext _ _ pa_table_ok).
  do 2 (split; [vm_compute; reflexivity|]).
  split; eval_match;
    [rewrite (some_unreadable_hext _ _ pa_table_ok)|rewrite (all_readable_hext _ _ pa_table_ok)];
    vm_compute; reflexivity.
Qed.

(** the swapped variant differs from the model in nothing else: without a flush between the two
    writes it produces the same final disk *)
Example swapped_same_without_flush :
  match prune_forest_disks_swapped sha256 false [] pa_f [] 1, prune_forest_disks sha256 false [] pa_f [] 1 with
  | POk a, POk b => last a [] = last b []
  | _, _ => False
  end.
Proof.
  rewrite pa_f_eq, (prune_forest_disks_swapped_hext _ _ pa_table_ok), (prune_forest_disks_hext _ _ pa_table_ok).
  vm_compute. reflexivity.
Qed.

(** the physical store after every step of the history, two deletions
    included (schedules and flush modes from the oracle list) *)
Example pa_history_trace :
  let ops := pa_hist ++ [OPrune 1; OSet pa_a pa_b; OSave; OPrune 3; OLvfo 5] in
  let orcs := repeat ([true; false; true], false) 11 ++ [(pa_sched1, false); ([], false); ([], false);
                (pa_sched2, true); ([], false)] in
  let tr := phys_trace sha256 true (init_state 0 false) [] ops orcs in
  run_okb sha256 (init_state 0 false) ops = true /\
  forallb (fun p => match snd p with [] => true | _ =>
                      readable sha256 (snd p) (forest (fst p)) end) tr = true /\
  map (fun p => rekeyed (snd p)) tr =
    [[]; []; []; []; []; []; []; []; []; []; []; []; [1]; [1]; [1]; []; []] /\
  map snd tr = map (fun p => phys_of (rekeyed (snd p)) (forest (fst p))) tr.
Proof.
  cbv zeta. rewrite (run_okb_hext _ _ pa_table_ok), !(phys_trace_hext _ _ pa_table_ok).
  rewrite (trace_readable_hext _ _ pa_table_ok).
  vm_compute. repeat split; reflexivity.
Qed.

(** deleting version 3 from versions 3..5 with [r = [1]]: the specification
    deletes (3,1), (1,1) and (1,0); (3,1) and (1,0) are present and disappear *)
Example pa_version_keys :
  let f := filter (fun p => 2 <? fst p) pa_f in
  let st := phys_of [1] f in
  let st' := phys_of (rk_next 3 (match lookup 4 f with Some t => t | None => None end) [1])
                     (filter (fun p => 3 <? fst p) f) in
  let dk := del_keys (prune_version_ops f 3) in
  dk = [(3, 1); (1, 1); (1, 0)] /\
  filter (fun k => negb (mhas kcmp k st')) (map fst st) = [(1, 0); (3, 1)] /\
  filter (fun k => existsb (keqb k) dk) (map fst st) = [(1, 0); (3, 1)] /\
  match delete_version sha256 (prune_fuel st) 3 (Pdb st [] [true; true] [] [] false [] [st]) rkc_new with
  | (POk p', _) => disk (pflush p') = st'
  | _ => False
  end.
Proof.
  rewrite pa_f_eq. intros f st st' dk. rewrite (delete_version_hext _ _ pa_table_ok). vm_compute.
  repeat split; reflexivity.
Qed.

(** in the second deletion the third write (deleting (1,1), absent) is
    ineffective; the effective-mode schedule [true; true; true] is the plain schedule
    [true; true; false; true] *)
Example pa_eff_plain :
  prune_forest_disks sha256 true [1] pa_f1 [true; true; true] 3 =
  prune_forest_disks sha256 false [1] pa_f1 [true; true; false; true] 3 /\
  match prune_forest sha256 true [1] pa_f1 [true; true; true] 3,
        prune_forest sha256 false [1] pa_f1 [true; true; false; true] 3 with
  | POk (d1, elog1, fl1), POk (d2, wlog2, fl2) =>
      d1 = d2 /\ length elog1 = 3%nat /\ length wlog2 = 4%nat /\
      fl1 = [0%nat; 1%nat; 2%nat] /\ fl2 = [0%nat; 1%nat; 3%nat]
  | _, _ => False
  end.
Proof.
  rewrite pa_f1_eq, !(prune_forest_disks_hext _ _ pa_table_ok), !(prune_forest_hext _ _ pa_table_ok).
  vm_compute. repeat split; reflexivity.
Qed.

Print Assumptions rekey_order_matters_refuted.
