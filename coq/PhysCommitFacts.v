(** PhysCommitFacts: the physical batches of a commit produce the byte image of the new state.

    [PhysCommit.commit_bops H st] is the byte-level write stream of SaveVersion for the FastLife
    state [st].  The byte image of the database of [st] is
      [img r st = encode_image (phys_of r (forest (ms st))) (fidx st) (dlabel st)]
    ([r]: the versions whose root node was re-keyed to nonce 0 by deletions).  CHOICE: the image
    is used AS the [VMap.kvs] the flusher model writes to - [DbImage.image] and [VMap.kvs] are both
    [list (bytes * bytes)], and the image lists its pairs in ascending db-key order
    (DbImageFacts.encode_image_sorted), so no conversion is needed; [VMap.ins]/[VMap.del] are
    [mset bcmp]/[mdel bcmp] (StoreFacts.ins_mset).

    Proved (all in full generality: index on or off, any [r], any initial version):
    1. [commit_bops_apply]: [kv_apply_ops (img r st) (commit_bops H st) = img r (fst (fstep H st FSave))]
       when the version does not exist yet (then the commit cannot fail: [MTree.do_save]).
       Hypotheses: [store_ok H (ms st)] (StoreFacts.store_ok_reachable: every reachable state),
       [rekey_ok r (forest (ms st))] (PruneAlgoFacts11.phys_run_inv: every reachable physical
       store; decidable form [rekey_okb]), and the decidable bounds [store_okb] of the physical
       store before and after (keys with a version in [0, 2^63) and a uint32 nonce: the byte order
       of the node keys is then the order of (version, nonce)).  [commit_bops_apply_b]: the same
       from [rekey_okb] and [forest_image_okb] of the new forest only.
    2. [commit_batches_apply] (every threshold), [commit_crash_images] (prefix at a cut position).
    3. [commit_node_bops_map], [commit_bops_node_suffix], [commit_bops_prefix]: the node part is
       [map node_bop] over the same list ([StoreFacts.node_writes]) of which [Store.commit_node_ops]
       is [map set_node]; [commit_prefix_image]: the database after the index part and [n] node
       writes is the byte image of the entry-level store with the first [n] writes of
       [Store.commit_ops H false] applied, under the new index and label - so CrashFacts'
       classification of the prefixes of [commit_ops] applies to these bytes.
    4. [commit_bops_sizes] (13-byte node keys, [FlusherFacts.keys_ok]),
       [commit_write_failure_reported].
    5. Examples with SHA-256: the stream, the batches for thresholds 150 / 100000, the equation of
       1 computed on four states (index on with removal and update; re-keyed root; initial
       version; index off), and the hypotheses of 1 established for the first one. *)
From Coq Require Import List ZArith Lia Bool Sorted.
Import ListNotations.
From IAVL Require Import Bytes Varint Sha256 Tree VMap TreeFacts MTree MTreeFacts VersionFacts
  Codec CodecFacts Store StoreFacts PruneAlgo PruneAlgoFacts2 PruneAlgoFacts6 PruneAlgoFacts10 PruneAlgoFacts11
  FastLife FastLifeFacts1 DbImage DbImageFacts Flusher FlusherFacts PhysCommit ListFacts VMapFacts.
Local Open Scope Z_scope.

(** * Writes that stay within one part of a database *)
(** writes whose keys all begin with the byte [p] pass by a part of the database whose keys begin
    with a greater byte, or with a smaller one *)
Definition ops_in (p : N) (ops : list bop) : Prop := Forall (fun o => hd_error (op_key o) = Some p) ops.

Lemma kv_apply_ops_below p q (M B : kvs) ops :
  region q B -> (p < q)%N -> ops_in p ops -> kv_apply_ops (M ++ B) ops = kv_apply_ops M ops ++ B.
Proof.
  intros RB L F. revert M. induction F as [|o ops Ko _ IH]; intros M; [reflexivity|].
  rewrite !kv_apply_ops_cons, <- IH. f_equal.
  destruct o as [k v|k]; cbn [kv_apply op_key] in *;
    [apply (VMapFacts.ins_app_l _ _ _ _ [q])|apply (VMapFacts.del_app_l _ _ _ [q])];
    eauto using hd_lt_bound, region_keys_ge.
Qed.

Lemma kv_apply_ops_above p q (A M : kvs) ops :
  region q A -> (q < p)%N -> ops_in p ops -> kv_apply_ops (A ++ M) ops = A ++ kv_apply_ops M ops.
Proof.
  intros RA L F. revert M. induction F as [|o ops Ko _ IH]; intros M; [reflexivity|].
  rewrite !kv_apply_ops_cons, <- IH. f_equal.
  destruct o as [k v|k]; cbn [kv_apply op_key] in *;
    [apply (VMapFacts.ins_app_r _ _ _ _ [p])|apply (VMapFacts.del_app_r _ _ _ [p])];
    eauto using hd_ge_bound, region_keys_lt.
Qed.

(** so writes to the index, to the label and to the nodes act on their own part of the image *)
Section ImageParts.
  Variables (st : list ((Z * Z) * entry)) (fi : list (bytes * (Z * bytes))) (l : option Z).
  Variable ops : list bop.

  Lemma image_fast_ops fi' :
    ops_in prefix_fast ops -> kv_apply_ops (encode_fast fi) ops = encode_fast fi' ->
    kv_apply_ops (encode_image st fi l) ops = encode_image st fi' l.
  Proof.
    intros F E. destruct (image_regions st fi l) as (_ & Rl & Rs). unfold encode_image.
    rewrite app_assoc, (kv_apply_ops_below prefix_fast _ _ _ _ Rs eq_refl F).
    rewrite (kv_apply_ops_below prefix_fast _ _ _ _ Rl eq_refl F), E, <- app_assoc. reflexivity.
  Qed.

  Lemma image_label_ops l' :
    ops_in prefix_meta ops -> kv_apply_ops (encode_label l) ops = encode_label l' ->
    kv_apply_ops (encode_image st fi l) ops = encode_image st fi l'.
  Proof.
    intros F E. destruct (image_regions st fi l) as (Rf & _ & Rs). unfold encode_image.
    rewrite (kv_apply_ops_above prefix_meta _ _ _ _ Rf eq_refl F).
    rewrite (kv_apply_ops_below prefix_meta _ _ _ _ Rs eq_refl F), E. reflexivity.
  Qed.

  Lemma image_node_ops st' :
    ops_in prefix_node ops -> kv_apply_ops (encode_store st) ops = encode_store st' ->
    kv_apply_ops (encode_image st fi l) ops = encode_image st' fi l.
  Proof.
    intros F E. destruct (image_regions st fi l) as (Rf & Rl & _). unfold encode_image.
    rewrite (kv_apply_ops_above prefix_node _ _ _ _ Rf eq_refl F).
    rewrite (kv_apply_ops_above prefix_node _ _ _ _ Rl eq_refl F), E. reflexivity.
  Qed.
End ImageParts.

(** * The encoders commute with the writes *)
Definition fast_add_bop (a : bytes * (Z * bytes)) : bop :=
  BSet (db_fast_key (fst a)) (encode_fast_node (fst (snd a)) (snd (snd a))).
Definition fast_rem_bop (r : bytes * unit) : bop := BDel (db_fast_key (fst r)).
Definition node_bop (p : (Z * Z) * entry) : bop :=
  BSet (node_db_key (fst p)) (encode_entry (fst p) (snd p)).

Lemma fast_adds_in ads : ops_in prefix_fast (map fast_add_bop ads).
Proof. apply Forall_map_const. reflexivity. Qed.

Lemma fast_rems_in rms : ops_in prefix_fast (map fast_rem_bop rms).
Proof. apply Forall_map_const. reflexivity. Qed.

Lemma node_bops_in ws : ops_in prefix_node (map node_bop ws).
Proof.
  apply Forall_map_const. intros p. cbn [node_bop op_key]. rewrite node_db_key_exact. reflexivity.
Qed.

Lemma ops_in_keys_ok p ops : ops_in p ops -> keys_ok ops.
Proof. apply Forall_impl. intros o Ho E. rewrite E in Ho. discriminate. Qed.

Lemma bops_of_set_nodes wv (ws : list ((Z * Z) * entry)) :
  flat_map (bop_of_wop wv) (map set_node ws) = map node_bop ws.
Proof.
  induction ws as [|[k e] ws IH]; [reflexivity|].
  cbn [map flat_map set_node bop_of_wop fst snd app]. rewrite IH. reflexivity.
Qed.

Lemma encode_fast_mset k (e : Z * bytes) (fi : list (bytes * (Z * bytes))) :
  encode_fast (mset bcmp k e fi)
  = ins (db_fast_key k) (encode_fast_node (fst e) (snd e)) (encode_fast fi).
Proof.
  rewrite ins_mset.
  apply (map_mset bcmp bcmp db_fast_key (fun p => encode_fast_node (fst (snd p)) (snd (snd p)))
           (fun _ => True) (fun a b _ _ => bcmp_fast_key a b)); [exact I|apply Forall_forall; auto].
Qed.

Lemma encode_fast_mdel k (fi : list (bytes * (Z * bytes))) :
  encode_fast (mdel bcmp k fi) = del (db_fast_key k) (encode_fast fi).
Proof.
  rewrite del_mdel.
  apply (map_mdel bcmp bcmp db_fast_key (fun p => encode_fast_node (fst (snd p)) (snd (snd p)))
           (fun _ => True) (fun a b _ _ => bcmp_fast_key a b)); [exact I|apply Forall_forall; auto].
Qed.

Lemma encode_store_mset k e (st : list ((Z * Z) * entry)) :
  skey_okb k = true -> skeys_ok st ->
  encode_store (mset kcmp k e st) = ins (node_db_key k) (encode_entry k e) (encode_store st).
Proof.
  rewrite ins_mset.
  apply (map_mset kcmp bcmp node_db_key (fun p => encode_entry (fst p) (snd p)) _ bcmp_node_key).
Qed.

Lemma encode_fast_adds ads : forall fi : list (bytes * (Z * bytes)),
  kv_apply_ops (encode_fast fi) (map fast_add_bop ads)
  = encode_fast (fold_left (fun acc a => mset bcmp (fst a) (snd a) acc) ads fi).
Proof.
  induction ads as [|a ads IH]; intros fi; [reflexivity|].
  cbn [map fold_left]. rewrite kv_apply_ops_cons, <- IH, encode_fast_mset. reflexivity.
Qed.

Lemma encode_fast_rems rms : forall fi : list (bytes * (Z * bytes)),
  kv_apply_ops (encode_fast fi) (map fast_rem_bop rms)
  = encode_fast (fold_left (fun acc r => mdel bcmp (fst r) acc) rms fi).
Proof.
  induction rms as [|a rms IH]; intros fi; [reflexivity|].
  cbn [map fold_left]. rewrite kv_apply_ops_cons, <- IH, encode_fast_mdel. reflexivity.
Qed.

Lemma sapply_set_nodes ws (st : list ((Z * Z) * entry)) :
  sapply_all st (map set_node ws) = mset_all kcmp ws st.
Proof. rewrite <- (nodes_apply_ops _ (Db st [] None)), nodes_set_nodes. reflexivity. Qed.

Lemma encode_store_writes ws : forall st : list ((Z * Z) * entry),
  skeys_ok st -> skeys_ok ws ->
  kv_apply_ops (encode_store st) (map node_bop ws) = encode_store (mset_all kcmp ws st).
Proof.
  induction ws as [|[k e] ws IH]; intros st Ks F; [reflexivity|].
  inversion F as [|? ? Kk F']; subst. cbn [fst] in Kk.
  cbn [map]. rewrite kv_apply_ops_cons. cbn [kv_apply node_bop fst snd].
  rewrite <- (encode_store_mset k e st Kk Ks).
  apply (IH (mset kcmp k e st)); [apply Forall_mset; assumption|exact F'].
Qed.

Lemma written_skeys_ok ws (st : list ((Z * Z) * entry)) :
  skeys_ok (sapply_all st (map set_node ws)) -> skeys_ok ws.
Proof.
  rewrite sapply_set_nodes. intros K. apply Forall_forall. intros [k e] Ip.
  unfold skeys_ok in K. rewrite Forall_forall in K.
  destruct (mfind_mset_all_in kcmp kcmp_ok k ws st) as [v M]; [apply in_map_iff; exists (k, e); auto|].
  exact (K _ (In_mfind kcmp kcmp_ok _ _ _ M)).
Qed.

Lemma image_fast_part (st : list ((Z * Z) * entry)) (fi : list (bytes * (Z * bytes))) l ads rms wv :
  kv_apply_ops (encode_image st fi l)
    (map fast_add_bop ads ++ map fast_rem_bop rms ++ [BSet db_meta_key (fast_storage_label wv)])
  = encode_image st
      (fold_left (fun acc r => mdel bcmp (fst r) acc) rms
         (fold_left (fun acc a => mset bcmp (fst a) (snd a) acc) ads fi))
      (Some wv).
Proof.
  rewrite !kv_apply_ops_app.
  rewrite (image_fast_ops st fi l _ _ (fast_adds_in ads) (encode_fast_adds ads fi)).
  rewrite (image_fast_ops st _ l _ _ (fast_rems_in rms) (encode_fast_rems rms _)).
  apply image_label_ops; [repeat constructor|].
  destruct l; cbn [encode_label kv_apply_ops fold_left kv_apply ins]; [rewrite bcmp_refl|]; reflexivity.
Qed.

Lemma image_node_writes fi l ws (st : list ((Z * Z) * entry)) :
  skeys_ok st -> skeys_ok ws ->
  kv_apply_ops (encode_image st fi l) (map node_bop ws)
  = encode_image (sapply_all st (map set_node ws)) fi l.
Proof.
  intros Ks F. rewrite sapply_set_nodes.
  apply image_node_ops; [apply node_bops_in|apply encode_store_writes; assumption].
Qed.

Lemma version_exists_false s v : version_exists s v = false -> lookup v (forest s) = None.
Proof. unfold version_exists. destruct (lookup v (forest s)); congruence. Qed.

Section Commit.
  Variable H : bytes -> bytes.

  (** the physical store after a commit that creates a version: the node writes applied to the
      physical store before (the re-keyed roots [r] are below every retained version) *)
  Lemma phys_commit r s :
    store_ok H s -> rekey_ok r (forest s) -> lookup (working_version s) (forest s) = None ->
    phys_of r (forest (fst (do_save H s)))
    = sapply_all (phys_of r (forest s)) (map set_node (node_writes H s)).
  Proof.
    intros SO RK L.
    set (E := expected_store (forest s)).
    pose proof (commit_exact H false s (Db E [] None) SO eq_refl) as CE.
    rewrite nodes_apply_ops in CE. cbn [nodes] in CE.
    rewrite (commit_ops_new H false s L) in CE. cbn [commit_meta_ops app] in CE.
    rewrite commit_node_ops_eq in CE.
    unfold phys_of. rewrite <- CE. fold E. apply rekey_sapply_all.
    apply Forall_forall. intros o Io. apply in_map_iff in Io. destruct Io as ([k e] & <- & Ip).
    cbn [set_node ver_free fst snd].
    destruct (commit_keys_fresh H s SO L _ Ip) as [Vk _]. cbn [fst] in Vk. rewrite Vk.
    intros Ir. destruct RK as [_ RK]. destruct (RK _ Ir) as (Lt & u & (v & t & Iv & _) & _).
    destruct (save_fresh H s SO L) as (_ & Fr & _).
    assert (NE : forest s <> []) by (intros Q; rewrite Q in Iv; contradiction).
    destruct (first_in_forest (forest s) NE) as (rt & If). specialize (Fr _ _ If). lia.
  Qed.

  Lemma fstep_save_new st :
    version_exists (ms st) (working_version (ms st)) = false ->
    fst (fstep H st FSave) =
    if skipf st then with_ms st (fst (do_save H (ms st)))
    else FS (fst (do_save H (ms st)))
            (fold_left (fun acc r => mdel bcmp (fst r) acc) (rems st)
               (fold_left (fun acc a => mset bcmp (fst a) (snd a) acc) (adds st) (fidx st)))
            (Some (working_version (ms st))) (Some (working_version (ms st))) (skipf st) [] [].
  Proof.
    intros V. cbn [fstep step]. rewrite V. unfold do_save. rewrite V. cbn [fst snd].
    reflexivity.
  Qed.

  Lemma fstep_save_ms st :
    version_exists (ms st) (working_version (ms st)) = false ->
    ms (fst (fstep H st FSave)) = fst (do_save H (ms st)).
  Proof. intros V. rewrite (fstep_save_new st V). destruct (skipf st); reflexivity. Qed.

  Definition img (r : list Z) (st : fstate) : kvs :=
    encode_image (phys_of r (forest (ms st))) (fidx st) (dlabel st).

  Lemma commit_fast_bops_apply S st :
    version_exists (ms st) (working_version (ms st)) = false ->
    kv_apply_ops (encode_image S (fidx st) (dlabel st)) (commit_fast_bops st)
    = encode_image S (fidx (fst (fstep H st FSave))) (dlabel (fst (fstep H st FSave))).
  Proof.
    intros V. rewrite (fstep_save_new st V). unfold commit_fast_bops.
    destruct (skipf st); [reflexivity|]. cbn [fidx dlabel]. apply image_fast_part.
  Qed.

  Theorem commit_node_bops_map st :
    commit_node_bops H st = map node_bop (node_writes H (ms st)) /\
    commit_node_ops H (ms st) = map set_node (node_writes H (ms st)).
  Proof.
    split; [|apply commit_node_ops_eq].
    unfold commit_node_bops. rewrite commit_node_ops_eq. apply bops_of_set_nodes.
  Qed.

  Theorem commit_bops_node_suffix st :
    version_exists (ms st) (working_version (ms st)) = false ->
    commit_bops H st = commit_fast_bops st ++ map node_bop (node_writes H (ms st)) /\
    commit_ops H false (ms st) = map set_node (node_writes H (ms st)).
  Proof.
    intros V. unfold commit_bops, commit_ops. rewrite V. cbn [commit_meta_ops app].
    destruct (commit_node_bops_map st) as [A B]. rewrite A, B. auto.
  Qed.

  (** a prefix of the byte stream that contains the index part and [n] node writes is the index
      part followed by the encoding of the first [n] writes of [Store.commit_ops] *)
  Theorem commit_bops_prefix st n :
    version_exists (ms st) (working_version (ms st)) = false ->
    firstn (length (commit_fast_bops st) + n) (commit_bops H st)
    = commit_fast_bops st ++ map node_bop (firstn n (node_writes H (ms st))) /\
    firstn n (commit_ops H false (ms st)) = map set_node (firstn n (node_writes H (ms st))).
  Proof.
    intros V. destruct (commit_bops_node_suffix st V) as [A B]. rewrite A, B.
    rewrite firstn_app_2, !firstn_map. auto.
  Qed.

  (** ... and the database it leaves is the byte image of the entry-level store with the first
      [n] node writes applied, the index and the label being those of the completed commit:
      CrashFacts' classification of the prefixes of [commit_ops] speaks about these bytes *)
  Theorem commit_prefix_image r st n :
    store_ok H (ms st) -> rekey_ok r (forest (ms st)) ->
    store_okb (phys_of r (forest (ms st))) = true ->
    store_okb (phys_of r (forest (ms (fst (fstep H st FSave))))) = true ->
    version_exists (ms st) (working_version (ms st)) = false ->
    kv_apply_ops (img r st) (firstn (length (commit_fast_bops st) + n) (commit_bops H st))
    = encode_image
        (sapply_all (phys_of r (forest (ms st))) (firstn n (commit_ops H false (ms st))))
        (fidx (fst (fstep H st FSave))) (dlabel (fst (fstep H st FSave))).
  Proof.
    intros SO RK OK0 OK1 V. destruct (commit_bops_prefix st n V) as [A B]. rewrite A, B.
    unfold img. rewrite kv_apply_ops_app, (commit_fast_bops_apply _ st V).
    apply image_node_writes; [apply store_okb_skeys, OK0|]. apply Forall_firstn.
    (* the keys written are keys of the store after the commit, which is within the bounds *)
    apply (written_skeys_ok _ (phys_of r (forest (ms st)))).
    rewrite <- (phys_commit r (ms st) SO RK (version_exists_false _ _ V)), <- (fstep_save_ms st V).
    apply store_okb_skeys, OK1.
  Qed.

  (** ** Applying the whole stream to the image of the store gives the image of the saved store
      (the case of [commit_prefix_image] where every node write is in) *)
  Theorem commit_bops_apply r st :
    store_ok H (ms st) -> rekey_ok r (forest (ms st)) ->
    store_okb (phys_of r (forest (ms st))) = true ->
    store_okb (phys_of r (forest (ms (fst (fstep H st FSave))))) = true ->
    version_exists (ms st) (working_version (ms st)) = false ->
    kv_apply_ops (img r st) (commit_bops H st) = img r (fst (fstep H st FSave)).
  Proof.
    intros SO RK OK0 OK1 V.
    pose proof (commit_prefix_image r st (length (node_writes H (ms st))) SO RK OK0 OK1 V) as P.
    destruct (commit_bops_node_suffix st V) as [A B].
    rewrite firstn_all2 in P by (rewrite A, app_length, map_length; lia).
    rewrite B, firstn_all2 in P by (rewrite map_length; lia).
    rewrite P. unfold img.
    rewrite (fstep_save_ms st V), (phys_commit r _ SO RK (version_exists_false _ _ V)). reflexivity.
  Qed.

  Lemma forest_image_okb_old s :
    lookup (working_version s) (forest s) = None ->
    forest_image_okb (forest (fst (do_save H s))) = true -> forest_image_okb (forest s) = true.
  Proof.
    intros L. destruct (do_save_new_forest H s L) as (Ef & _). rewrite Ef.
    unfold forest_image_okb. rewrite forallb_app, andb_true_iff. tauto.
  Qed.

  (** [commit_bops_apply] with decidable side conditions only (besides [store_ok], which holds in every
      reachable state: StoreFacts.store_ok_reachable) *)
  Theorem commit_bops_apply_b r st :
    store_ok H (ms st) ->
    rekey_okb r (forest (ms st)) = true ->
    forest_image_okb (forest (ms (fst (fstep H st FSave)))) = true ->
    version_exists (ms st) (working_version (ms st)) = false ->
    kv_apply_ops (img r st) (commit_bops H st) = img r (fst (fstep H st FSave)).
  Proof.
    intros SO RK FO V.
    apply (commit_bops_apply r st SO (rekey_okb_sound _ _ RK)); [| |exact V].
    - apply forest_image_ok_store. rewrite (fstep_save_ms st V) in FO.
      exact (forest_image_okb_old _ (version_exists_false _ _ V) FO).
    - apply forest_image_ok_store, FO.
  Qed.

  Theorem commit_batches_apply th r st :
    store_ok H (ms st) -> rekey_ok r (forest (ms st)) ->
    store_okb (phys_of r (forest (ms st))) = true ->
    store_okb (phys_of r (forest (ms (fst (fstep H st FSave))))) = true ->
    version_exists (ms st) (working_version (ms st)) = false ->
    kv_apply_batches (img r st) (commit_batches H th st) = img r (fst (fstep H st FSave)).
  Proof.
    intros SO RK OK0 OK1 V. unfold commit_batches. rewrite fl_apply_same.
    apply commit_bops_apply; assumption.
  Qed.

  (** after any number [i] of physical batches the database is the image with a prefix of the
      write stream applied, cut at one of the flusher's cut positions (or nothing / everything) *)
  Theorem commit_crash_images th r st i :
    exists n,
      In n (0%nat :: cut_positions th (commit_bops H st) ++ [length (commit_bops H st)]) /\
      kv_apply_batches (img r st) (firstn i (commit_batches H th st))
      = kv_apply_ops (img r st) (firstn n (commit_bops H st)).
  Proof. unfold commit_batches. apply fl_prefix_db_exists. Qed.

  Lemma node_db_key_length k : length (node_db_key k) = 13%nat.
  Proof. rewrite node_db_key_exact. cbn [length]. rewrite node_key_bytes_length. reflexivity. Qed.

  Theorem commit_bops_sizes st :
    Forall (fun o => length (op_key o) = 13%nat) (commit_node_bops H st) /\
    keys_ok (commit_bops H st).
  Proof.
    destruct (commit_node_bops_map st) as [A _]. split.
    - rewrite A. apply Forall_forall. intros o Io. apply in_map_iff in Io.
      destruct Io as (p & <- & _). apply node_db_key_length.
    - unfold commit_bops.
      destruct (version_exists (ms st) (working_version (ms st))); [constructor|].
      rewrite A. apply Forall_app. split; [|exact (ops_in_keys_ok _ _ (node_bops_in _))].
      unfold commit_fast_bops. destruct (skipf st); [constructor|].
      apply Forall_app. split; [exact (ops_in_keys_ok _ _ (fast_adds_in _))|].
      apply Forall_app. split; [exact (ops_in_keys_ok _ _ (fast_rems_in _))|].
      constructor; [discriminate|constructor].
  Qed.

  (** the [n]-th backend [Write] of a commit fails: SaveVersion's batch reports it (no
      [errKeyEmpty] can mask it), the database then holds exactly the first [n-1] physical
      batches, i.e. the image with a prefix of the stream applied, cut at a cut position *)
  Theorem commit_write_failure_reported th n st :
    (1 <= n <= length (commit_batches H th st))%nat ->
    exists s, ffl_commit th n (commit_bops H st) = FErr EWriteFailed s /\ nwrites s = n /\
      ffl_db_batches (FErr EWriteFailed s) = firstn (n - 1) (commit_batches H th st) /\
      forall m, kv_apply_batches m (ffl_db_batches (FErr EWriteFailed s))
                = kv_apply_ops m
                    (firstn (nth (n - 1) (0%nat :: cut_positions th (commit_bops H st) ++
                                          [length (commit_bops H st)]) (length (commit_bops H st)))
                            (commit_bops H st)).
  Proof.
    intros Hn. destruct (commit_bops_sizes st) as [_ K].
    destruct (fl_fault_reported th n (commit_bops H st) K Hn) as (s & E & Nw).
    exists s. split; [exact E|]. split; [exact Nw|].
    destruct (fl_fault_prefix th n (commit_bops H st) s E) as (A & _ & C). auto.
  Qed.
End Commit.

(** * Examples (SHA-256, computed) *)
Definition pc_a : bytes := [97%N].
Definition pc_b : bytes := [98%N].
Definition pc_c : bytes := [99%N].
Definition pc_d : bytes := [100%N].
Definition pc_e : bytes := [101%N].
Definition pc_1 : bytes := [49%N].
Definition pc_2 : bytes := [50%N].
Definition pc_3 : bytes := [51%N].

(** index enabled; two commits; then a removal, an update and an insertion, not yet committed *)
Definition pc_ex_hist : list fop :=
  [FOpen false; FSet pc_a pc_1; FSet pc_b pc_1; FSet pc_c pc_1; FSave; FSet pc_d pc_2; FSave;
   FRemove pc_a; FSet pc_b pc_3; FSet pc_e pc_3].
Definition pc_ex_st : fstate := Eval vm_compute in fst (frun sha256 (finit 0 false) pc_ex_hist).
Definition pc_ex_ops : list bop := Eval vm_compute in commit_bops sha256 pc_ex_st.

(** the stream and the state after the commit, evaluated once for the examples below *)
Lemma pc_ex_ops_eq : commit_bops sha256 pc_ex_st = pc_ex_ops.
Proof. vm_compute. reflexivity. Qed.

Definition pc_ex_saved : fstate := Eval vm_compute in fst (fstep sha256 pc_ex_st FSave).
Lemma pc_ex_saved_eq : fst (fstep sha256 pc_ex_st FSave) = pc_ex_saved.
Proof. vm_compute. reflexivity. Qed.

Example pc_ex_unsaved :
  adds pc_ex_st = [(pc_b, (3, pc_3)); (pc_e, (3, pc_3))] /\ rems pc_ex_st = [(pc_a, tt)] /\
  dlabel pc_ex_st = Some 2 /\ skipf pc_ex_st = false /\ working_version (ms pc_ex_st) = 3.
Proof. vm_compute. repeat split. Qed.

(** the stream: two index sets, one index delete, the label, five nodes (post-order, root last) *)
Example pc_ex_ops_shape :
  map (fun o => (op_key o, op_size o)) pc_ex_ops =
  [(db_fast_key pc_b, 5); (db_fast_key pc_e, 5); (db_fast_key pc_a, 2); (db_meta_key, 23);
   (node_db_key (3, 3), 19); (node_db_key (3, 2), 55); (node_db_key (3, 5), 19);
   (node_db_key (3, 4), 55); (node_db_key (3, 1), 55)].
Proof. vm_compute. reflexivity. Qed.

Example pc_ex_batches :
  map (@length bop) (commit_batches sha256 150 pc_ex_st) = [4; 1; 1; 1; 1; 1]%nat /\
  cut_positions 150 pc_ex_ops = [4; 5; 6; 7; 8]%nat /\
  commit_batches sha256 100000 pc_ex_st = [pc_ex_ops].
Proof. unfold commit_batches. rewrite pc_ex_ops_eq. vm_compute. repeat split. Qed.

Example pc_ex_equation :
  kv_apply_ops (img [] pc_ex_st) (commit_bops sha256 pc_ex_st)
  = img [] (fst (fstep sha256 pc_ex_st FSave)).
Proof. rewrite pc_ex_ops_eq, pc_ex_saved_eq. vm_compute. reflexivity. Qed.

Example pc_ex_hypotheses :
  store_ok sha256 (ms pc_ex_st) /\ rekey_okb [] (forest (ms pc_ex_st)) = true /\
  forest_image_okb (forest (ms (fst (fstep sha256 pc_ex_st FSave)))) = true /\
  version_exists (ms pc_ex_st) (working_version (ms pc_ex_st)) = false.
Proof.
  split; [|rewrite pc_ex_saved_eq; vm_compute; repeat split].
  assert (E : ms pc_ex_st = fst (run sha256 (init_state 0 false) (map logical pc_ex_hist)))
    by (vm_compute; reflexivity).
  rewrite E. apply store_ok_reachable; [cbn; lia|]. apply run_okb_iff. vm_compute. reflexivity.
Qed.

Example pc_ex_by_theorem :
  kv_apply_batches (img [] pc_ex_st) (commit_batches sha256 150 pc_ex_st)
  = img [] (fst (fstep sha256 pc_ex_st FSave)).
Proof.
  destruct pc_ex_hypotheses as (SO & RK & FO & V).
  unfold commit_batches. rewrite fl_apply_same. apply commit_bops_apply_b; assumption.
Qed.

(** a store with a re-keyed root: version 2 is committed without changes (its root entry refers
    to the root node (1,1)), version 1 is deleted (the node moves to (1,0)); then changes *)
Definition pc_ex_hist_rk : list fop :=
  [FOpen false; FSet pc_a pc_1; FSet pc_b pc_1; FSave; FSave; FPrune 1; FSet pc_c pc_2; FRemove pc_a].
Definition pc_ex_st_rk : fstate := Eval vm_compute in fst (frun sha256 (finit 0 false) pc_ex_hist_rk).

Example pc_ex_rk_equation :
  rekey_okb [1] (forest (ms pc_ex_st_rk)) = true /\
  map fst (phys_of [1] (forest (ms pc_ex_st_rk))) = [(1, 0); (1, 2); (1, 3); (2, 1)] /\
  kv_apply_ops (img [1] pc_ex_st_rk) (commit_bops sha256 pc_ex_st_rk)
  = img [1] (fst (fstep sha256 pc_ex_st_rk FSave)).
Proof. vm_compute. repeat split. Qed.

(** an initial version: the first commit creates version 7, the unsaved additions carry the stamp
    [tree.version + 1 = 1] (what Go writes); index off: only nodes are written *)
Definition pc_ex_st_iv : fstate :=
  Eval vm_compute in fst (frun sha256 (finit 7 true) [FOpen false; FSet pc_a pc_1; FSet pc_b pc_1]).
Definition pc_ex_st_off : fstate :=
  Eval vm_compute in fst (frun sha256 (finit 0 false) [FOpen true; FSet pc_a pc_1; FSet pc_b pc_1]).

Example pc_ex_iv_equation :
  working_version (ms pc_ex_st_iv) = 7 /\ map (fun a => fst (snd a)) (adds pc_ex_st_iv) = [1; 1] /\
  kv_apply_ops (img [] pc_ex_st_iv) (commit_bops sha256 pc_ex_st_iv)
  = img [] (fst (fstep sha256 pc_ex_st_iv FSave)).
Proof. vm_compute. repeat split. Qed.

Example pc_ex_off_equation :
  commit_fast_bops pc_ex_st_off = [] /\ length (commit_bops sha256 pc_ex_st_off) = 3%nat /\
  kv_apply_ops (img [] pc_ex_st_off) (commit_bops sha256 pc_ex_st_off)
  = img [] (fst (fstep sha256 pc_ex_st_off FSave)).
Proof. vm_compute. repeat split. Qed.

Print Assumptions commit_bops_apply.
Print Assumptions commit_bops_apply_b.
Print Assumptions commit_batches_apply.
Print Assumptions commit_crash_images.
Print Assumptions commit_bops_node_suffix.
Print Assumptions commit_bops_prefix.
Print Assumptions commit_prefix_image.
Print Assumptions commit_bops_sizes.
Print Assumptions commit_write_failure_reported.
Print Assumptions pc_ex_by_theorem.
