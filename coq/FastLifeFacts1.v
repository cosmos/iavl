(** FastLifeFacts1: list-level material for the fast-index life cycle (FastLife.v):
    the walk down a well-formed tree as a lookup [mfind bcmp] in its element list; folds of
    [mset] / [mdel] over sorted lists of writes; facts about [latest_version] under the contiguity invariant; the validity
    predicate of a persisted index ([idx_valid]) and the index built by
    enableFastStorageAndCommit ([rebuild]). *)
From Coq Require Import Lia.
From IAVL Require Import Bytes Varint Tree VMap TreeFacts MTree MTreeFacts VersionFacts
  Store StoreFacts FastLife.
Local Open Scope Z_scope.

Lemma walk_get_assoc t k : oinv t -> walk_get t k = mfind bcmp k (oelems t).
Proof.
  intros O. destruct t as [n|]; cbn [walk_get oelems mfind]; [|reflexivity].
  destruct O as [W _]. rewrite (get_spec n k W). cbn [snd]. apply assoc_mfind.
Qed.

Lemma walk_get_absent t k : oinv t -> mem k (oelems t) = false -> walk_get t k = None.
Proof.
  intros O M. rewrite (walk_get_assoc t k O), <- assoc_mfind. unfold mem in M.
  destruct (assoc k (oelems t)); [discriminate M|reflexivity].
Qed.

Lemma oelems_ext t1 t2 :
  oinv t1 -> oinv t2 -> (forall k, walk_get t1 k = walk_get t2 k) -> oelems t1 = oelems t2.
Proof.
  intros O1 O2 E. apply (msorted_ext bcmp bcmp_ok); try (apply osorted_elems; assumption).
  intros k. rewrite <- !walk_get_assoc by assumption. apply E.
Qed.

Lemma walk_get_oelems_eq t1 t2 k :
  oinv t1 -> oinv t2 -> oelems t1 = oelems t2 -> walk_get t1 k = walk_get t2 k.
Proof. intros O1 O2 E. rewrite !walk_get_assoc by assumption. rewrite E. reflexivity. Qed.

(** ** Mapping the values of a sorted list *)
Section MapVals.
  Context {K A B : Type}.
  Variable cmp : K -> K -> comparison.
  Variable f : A -> B.

  Definition mapv (l : list (K * A)) : list (K * B) := map (fun p => (fst p, f (snd p))) l.

  Lemma mfind_mapv k l : mfind cmp k (mapv l) = option_map f (mfind cmp k l).
  Proof.
    induction l as [|[k1 a1] l IH]; cbn [mapv map mfind fst snd option_map]; [reflexivity|].
    fold (mapv l). rewrite IH. destruct (cmp k k1); reflexivity.
  Qed.

  Lemma msorted_mapv l : msorted cmp l -> msorted cmp (mapv l).
  Proof.
    induction l as [|[k1 a1] l IH]; cbn [mapv map msorted fst snd]; [tauto|].
    fold (mapv l). intros [F S]. split; [|exact (IH S)].
    unfold mapv. rewrite Forall_map. eapply Forall_impl; [|exact F]. intros p. cbn [fst]. tauto.
  Qed.
End MapVals.

(** ** Folding writes over a sorted list of writes *)
Section Folds.
  Context {K : Type}.
  Variable cmp : K -> K -> comparison.
  Hypothesis OK : cmp_ok cmp.

  (** the overlay's addition loop: every pair of a sorted list of additions, through [f] *)
  Lemma mfind_fold_mset_vals {A B} (f : A -> B) k (ps : list (K * A)) : forall st,
    msorted cmp ps ->
    mfind cmp k (fold_left (fun acc a => mset cmp (fst a) (f (snd a)) acc) ps st) =
      match mfind cmp k ps with Some a => Some (f a) | None => mfind cmp k st end.
  Proof.
    induction ps as [|[k1 v1] ps IH]; intros st S; cbn [fold_left mfind fst snd]; [reflexivity|].
    destruct S as [F S]. rewrite (IH _ S), (mfind_mset cmp OK).
    destruct (cmp k k1) eqn:E; try reflexivity.
    apply (c_eq cmp OK) in E. subst k1. rewrite (mfind_lt_all cmp k ps F). reflexivity.
  Qed.

  Lemma msorted_fold_mset_vals {A B} (f : A -> B) (ps : list (K * A)) : forall st,
    msorted cmp st -> msorted cmp (fold_left (fun acc a => mset cmp (fst a) (f (snd a)) acc) ps st).
  Proof.
    induction ps as [|p ps IH]; intros st S; cbn [fold_left]; [exact S|].
    apply IH, (msorted_mset cmp OK), S.
  Qed.

  (** the write loop of saveFastNodeAdditions *)
  Lemma mfind_fold_mset {V} k (ps : list (K * V)) st :
    msorted cmp ps ->
    mfind cmp k (fold_left (fun acc a => mset cmp (fst a) (snd a) acc) ps st) =
      match mfind cmp k ps with Some v => Some v | None => mfind cmp k st end.
  Proof. exact (mfind_fold_mset_vals (fun v => v) k ps st). Qed.

  Lemma msorted_fold_mset {V} (ps : list (K * V)) st :
    msorted cmp st -> msorted cmp (fold_left (fun acc a => mset cmp (fst a) (snd a) acc) ps st).
  Proof. exact (msorted_fold_mset_vals (fun v => v) ps st). Qed.

  (** the delete loop of saveFastNodeRemovals *)
  Lemma mfind_fold_mdel {V W} k (rs : list (K * W)) : forall st : list (K * V),
    msorted cmp st ->
    mfind cmp k (fold_left (fun acc r => mdel cmp (fst r) acc) rs st) =
      match mfind cmp k rs with Some _ => None | None => mfind cmp k st end.
  Proof.
    induction rs as [|[k1 w1] rs IH]; intros st S; cbn [fold_left mfind fst]; [reflexivity|].
    rewrite (IH _ (msorted_mdel cmp k1 st S)), (mfind_mdel cmp OK _ _ _ S).
    destruct (cmp k k1); destruct (mfind cmp k rs); reflexivity.
  Qed.

  Lemma msorted_fold_mdel {V W} (rs : list (K * W)) : forall st : list (K * V),
    msorted cmp st -> msorted cmp (fold_left (fun acc r => mdel cmp (fst r) acc) rs st).
  Proof.
    induction rs as [|r rs IH]; intros st S; cbn [fold_left]; [exact S|].
    apply IH, (msorted_mdel cmp), S.
  Qed.
End Folds.

(** ** The retained versions under the contiguity invariant *)
Definition ltree (s : mstate) : option node :=
  match lookup (latest_version s) (forest s) with Some t => t | None => None end.

Lemma retained_le_latest s t tr :
  contig s -> lookup t (forest s) = Some tr -> first_version s <= t <= latest_version s.
Proof.
  intros C L. destruct (proj1 (in_range_lookup s t C)) as [_ R]; [eauto|]. exact R.
Qed.

Lemma latest_retained s :
  contig s -> forest s <> [] -> exists tr, lookup (latest_version s) (forest s) = Some tr.
Proof.
  intros C NE. apply (in_range_lookup s _ C). split; [exact NE|].
  destruct (contig_range s (contig_forest_ok s C) NE) as (R & _). lia.
Qed.

Lemma ltree_lookup s tr : lookup (latest_version s) (forest s) = Some tr -> ltree s = tr.
Proof. unfold ltree. intros ->. reflexivity. Qed.

Lemma ltree_empty s : forest s = [] -> ltree s = None.
Proof. unfold ltree. intros ->. reflexivity. Qed.

Lemma ltree_oinv s : state_inv s -> oinv (ltree s).
Proof.
  intros I. unfold ltree. destruct (lookup (latest_version s) (forest s)) as [t|] eqn:L.
  - exact (proj1 (state_inv_lookup s _ t I L)).
  - exact Logic.I.
Qed.

Lemma latest_empty s : forest s = [] -> latest_version s = 0.
Proof. unfold latest_version. intros ->. reflexivity. Qed.

Lemma contig_version_le_latest s : contig s -> 0 <= version s <= latest_version s.
Proof.
  intros C. destruct (available_range s C) as [(_ & _ & _ & L & V)|(_ & R1 & _ & R2 & _)]; lia.
Qed.

(** the saved tree is the retained tree of [version s] (nothing is retained on a fresh store) *)
Lemma contig_saved s :
  contig s ->
  (version s = 0 /\ forest s = [] /\ last_saved s = None) \/
  (forest s <> [] /\ lookup (version s) (forest s) = Some (last_saved s) /\ 1 <= version s).
Proof.
  intros C. destruct (contig_cases s C) as [(V & F & LS & _)|(NE & L & R & P & _)].
  - left. auto.
  - right. repeat split; auto. lia.
Qed.

Lemma saved_walk_latest s k :
  contig s -> version s = latest_version s -> walk_get (last_saved s) k = walk_get (ltree s) k.
Proof.
  intros C V. destruct (contig_saved s C) as [(_ & F & LS)|(_ & L & _)].
  - rewrite LS, (ltree_empty s F). reflexivity.
  - rewrite V in L. rewrite (ltree_lookup s _ L). reflexivity.
Qed.

(** ** Validity of a persisted index for the latest version *)
Notation vals := (mapv (fun e : Z * bytes => snd e)).

Record idx_valid (s : mstate) (ix : list (bytes * (Z * bytes))) : Prop := IdxValid {
  iv_sorted : msorted bcmp ix;
  iv_none : forall k, mfind bcmp k ix = None -> walk_get (ltree s) k = None;
  iv_some : forall k e v, mfind bcmp k ix = Some (e, v) ->
      e <= latest_version s /\
      forall t tr, lookup t (forest s) = Some tr -> e <= t <= latest_version s ->
                   walk_get tr k = Some v;
  iv_vals : vals ix = oelems (ltree s)
}.

Lemma vals_of_find t (ix : list (bytes * (Z * bytes))) :
  oinv t -> msorted bcmp ix ->
  (forall k, option_map snd (mfind bcmp k ix) = walk_get t k) ->
  vals ix = oelems t.
Proof.
  intros O S E. apply (msorted_ext bcmp bcmp_ok).
  - apply msorted_mapv, S.
  - apply osorted_elems, O.
  - intros k. rewrite mfind_mapv, <- walk_get_assoc by exact O. apply E.
Qed.

Lemma idx_valid_intro s ix :
  state_inv s -> contig s ->
  msorted bcmp ix ->
  (forall k, mfind bcmp k ix = None -> walk_get (ltree s) k = None) ->
  (forall k e v, mfind bcmp k ix = Some (e, v) ->
      e <= latest_version s /\ walk_get (ltree s) k = Some v /\
      forall t tr, lookup t (forest s) = Some tr -> e <= t <= latest_version s ->
                   walk_get tr k = Some v) ->
  idx_valid s ix.
Proof.
  intros I C S N P. constructor; auto.
  - intros k e v E. destruct (P k e v E) as (A & _ & B). auto.
  - apply vals_of_find; [apply ltree_oinv, I|exact S|].
    intros k. destruct (mfind bcmp k ix) as [[e v]|] eqn:E; cbn [option_map snd].
    + destruct (P k e v E) as (_ & A & _). symmetry. exact A.
    + symmetry. apply N, E.
Qed.

Lemma idx_valid_latest s ix k e v :
  contig s -> idx_valid s ix -> mfind bcmp k ix = Some (e, v) -> walk_get (ltree s) k = Some v.
Proof.
  intros C Vd E. destruct (nil_or_not (forest s)) as [F|NE].
  - exfalso. pose proof (iv_vals s ix Vd) as Vs. rewrite (ltree_empty s F) in Vs. cbn [oelems] in Vs.
    destruct ix as [|p ix]; [discriminate E|discriminate Vs].
  - destruct (latest_retained s C NE) as [tr L]. rewrite (ltree_lookup s tr L).
    destruct (iv_some s ix Vd k e v E) as [Le A]. apply (A _ _ L). lia.
Qed.

Lemma idx_valid_shrink s s' ix :
  latest_version s' = latest_version s -> ltree s' = ltree s ->
  (forall t tr, lookup t (forest s') = Some tr -> lookup t (forest s) = Some tr) ->
  idx_valid s ix -> idx_valid s' ix.
Proof.
  intros EL ET Sub Vd. destruct Vd as [S N P Vs]. constructor.
  - exact S.
  - rewrite ET. exact N.
  - intros k e v E. destruct (P k e v E) as [A B]. rewrite EL. split; [exact A|].
    intros t tr L R. apply (B t tr (Sub _ _ L) R).
  - rewrite ET. exact Vs.
Qed.

(** ** The index written by enableFastStorageAndCommit *)
Lemma rebuild_eq s :
  rebuild s = (map (fun p => (fst p, (latest_version s, snd p))) (oelems (ltree s)),
               Some (latest_version s)).
Proof. reflexivity. Qed.

Lemma mfind_stamped (lv : Z) k (l : kvs) :
  mfind bcmp k (map (fun p => (fst p, (lv, snd p))) l) =
  option_map (fun v => (lv, v)) (mfind bcmp k l).
Proof. exact (mfind_mapv bcmp (fun v : bytes => (lv, v)) k l). Qed.

Lemma rebuild_valid s : state_inv s -> contig s -> idx_valid s (fst (rebuild s)).
Proof.
  intros I C. rewrite rebuild_eq. cbn [fst]. pose proof (ltree_oinv s I) as O.
  apply idx_valid_intro; auto.
  - exact (msorted_mapv bcmp (fun v : bytes => (latest_version s, v)) _ (osorted_elems _ O)).
  - intros k. rewrite mfind_stamped, (walk_get_assoc _ k O).
    destruct (mfind bcmp k (oelems (ltree s))); [discriminate|reflexivity].
  - intros k e v. rewrite mfind_stamped.
    destruct (mfind bcmp k (oelems (ltree s))) as [w|] eqn:E; cbn [option_map]; [|discriminate].
    intros Q. inversion Q; subst e w. split; [lia|].
    assert (A : walk_get (ltree s) k = Some v) by (rewrite (walk_get_assoc _ k O); exact E).
    split; [exact A|]. intros t tr L R. assert (t = latest_version s) by lia. subst t.
    rewrite <- (ltree_lookup s tr L). exact A.
Qed.

(** ** [latest_version] and [ltree] after the operations that change the forest *)
Lemma prune_latest s n :
  contig s -> n < version s ->
  let s' := MState (root s) (version s) (last_saved s) (filter (fun p => n <? fst p) (forest s))
                   (init_ver s) (init_set s) (init_opt s) in
  latest_version s' = latest_version s /\ ltree s' = ltree s /\
  (forall t tr, lookup t (forest s') = Some tr -> lookup t (forest s) = Some tr).
Proof.
  intros C Hn s'. pose proof (contig_version_le_latest s C) as R.
  assert (EL : latest_version s' = latest_version s).
  { unfold latest_version, s'. cbn [forest]. apply (latest_filter_gt n (forest s)).
    change (latest_of (forest s)) with (latest_version s). lia. }
  split; [exact EL|]. split.
  - unfold ltree. rewrite EL. unfold s'. cbn [forest]. rewrite lookup_filter_gt.
    replace (n <? latest_version s) with true by (symmetry; apply Z.ltb_lt; lia). reflexivity.
  - intros t tr. unfold s'. cbn [forest]. rewrite lookup_filter_gt.
    destruct (n <? t); [tauto|discriminate].
Qed.
