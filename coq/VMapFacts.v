(** [kvs] as sorted finite maps: what [ins], [del], [assoc], [mem] and [rank] do, on any
    list, on a sorted one, and on a concatenation split at a bound. *)
From Coq Require Import Sorted.
From IAVL Require Import Bytes VMap ListFacts.
Local Open Scope Z_scope.

(** * [ins] and [del] keep what holds of every entry, and sortedness *)
Lemma Forall_ins (P : bytes * bytes -> Prop) k v l : P (k, v) -> Forall P l -> Forall P (ins k v l).
Proof.
  intros Pk. induction l as [|[k' v'] l IH]; cbn [ins]; intros F.
  - constructor; auto.
  - inversion F; subst. destruct (bcmp k k'); constructor; auto.
Qed.

Lemma Forall_del (P : bytes * bytes -> Prop) k l : Forall P l -> Forall P (del k l).
Proof.
  induction l as [|[k' v'] l IH]; cbn [del]; intros F; auto.
  inversion F; subst. destruct (bcmp k k'); auto.
Qed.

Lemma sorted_ins k v (l : kvs) : sorted l -> sorted (ins k v l).
Proof.
  induction l as [|[k2 v2] l IH]; cbn [ins sorted]; [auto|].
  intros [F S]. bcases k k2; cbn [sorted].
  - subst. auto.
  - split; [|auto]. constructor; [exact E|].
    eapply Forall_impl; [|exact F]. intros; border.
  - split; [|auto]. apply Forall_ins; auto.
Qed.

Lemma sorted_del k (l : kvs) : sorted l -> sorted (del k l).
Proof.
  induction l as [|[k2 v2] l IH]; cbn [del sorted]; [auto|].
  intros [F S]. bcases k k2; cbn [sorted]; auto.
  split; [|auto]. apply Forall_del; auto.
Qed.

Lemma sorted_filter f (l : kvs) : sorted l -> sorted (filter f l).
Proof.
  induction l as [|[k v] l IH]; cbn [filter sorted]; [auto|].
  intros [F S]. destruct (f (k, v)); cbn [sorted]; auto using Forall_filter.
Qed.

Lemma sorted_StronglySorted (l : kvs) : sorted l <-> StronglySorted (fun p q => fst p <b fst q) l.
Proof.
  induction l as [|[k v] l IH]; cbn [sorted].
  - split; [constructor|trivial].
  - rewrite IH. split.
    + intros [F S]. constructor; assumption.
    + intros S. apply StronglySorted_inv in S. tauto.
Qed.

Lemma sorted_NoDup (l : kvs) : sorted l -> NoDup (map fst l).
Proof.
  induction l as [|[k v] l IH]; cbn [sorted map fst]; intros S; [constructor|].
  destruct S as [F S]. constructor; [|auto].
  intros I. apply in_map_iff in I. destruct I as ([k' v'] & E & I). cbn [fst] in E. subst k'.
  rewrite Forall_forall in F. specialize (F _ I). cbn [fst] in F. border.
Qed.

(** * [assoc] and [mem] *)
Lemma assoc_ins k k' v (l : kvs) : assoc k (ins k' v l) = if beq k k' then Some v else assoc k l.
Proof.
  induction l as [|[k2 v2] l IH]; cbn [ins assoc]; [reflexivity|].
  bcases k' k2; cbn [assoc].
  - subst k2. destruct (beq k k'); reflexivity.
  - reflexivity.
  - rewrite IH. destruct (beq k k2) eqn:B2; [|reflexivity].
    destruct (beq k k') eqn:B1; [|reflexivity]. btests. subst. exfalso. border.
Qed.

Lemma assoc_del_ne k k' (l : kvs) : k <> k' -> assoc k (del k' l) = assoc k l.
Proof.
  intros NE. induction l as [|[k2 v2] l IH]; cbn [del assoc]; [reflexivity|].
  bcases k' k2; cbn [assoc].
  - subst k2. replace (beq k k') with false by (symmetry; apply beq_false; exact NE). reflexivity.
  - reflexivity.
  - rewrite IH. reflexivity.
Qed.

Lemma assoc_some_in k v (l : kvs) : assoc k l = Some v -> In (k, v) l.
Proof.
  induction l as [|[k2 v2] l IH]; cbn [assoc In]; [discriminate|].
  destruct (beq k k2) eqn:B; btests; intros E.
  - left. congruence.
  - right. auto.
Qed.

Lemma assoc_notin k (l : kvs) : ~ In k (map fst l) -> assoc k l = None.
Proof.
  intros N. destruct (assoc k l) as [v|] eqn:A; [|reflexivity].
  exfalso. exact (N (in_map fst _ _ (assoc_some_in _ _ _ A))).
Qed.

Lemma assoc_In_keys (l : kvs) k : In k (map fst l) -> assoc k l <> None.
Proof.
  induction l as [|[k' v'] l IH]; cbn [map fst In assoc]; [tauto|].
  intros [E|I0]; destruct (beq k k') eqn:B; btests; try congruence. auto.
Qed.

Lemma assoc_In_NoDup (l : kvs) k v : NoDup (map fst l) -> (assoc k l = Some v <-> In (k, v) l).
Proof.
  intros ND. split; [apply assoc_some_in|]. intros I.
  destruct (assoc k l) as [w|] eqn:A.
  - f_equal. exact (NoDup_fst_functional l k w v ND (assoc_some_in _ _ _ A) I).
  - exfalso. exact (assoc_In_keys l k (in_map fst _ _ I) A).
Qed.

Lemma assoc_in_sorted k v (l : kvs) : sorted l -> In (k, v) l -> assoc k l = Some v.
Proof. intros S. apply assoc_In_NoDup, sorted_NoDup, S. Qed.

Lemma assoc_none_lt k (l : kvs) : Forall (fun p => k <b fst p) l -> assoc k l = None.
Proof.
  intros F. apply assoc_notin. intros I. apply in_map_iff in I. destruct I as (p & <- & I).
  rewrite Forall_forall in F. specialize (F _ I). border.
Qed.

Lemma assoc_del_eq k (l : kvs) : sorted l -> assoc k (del k l) = None.
Proof.
  induction l as [|[k2 v2] l IH]; cbn [del sorted]; [reflexivity|].
  intros [F S]. bcases k k2.
  - subst k2. apply assoc_none_lt, F.
  - apply assoc_none_lt. constructor; [exact E|].
    eapply Forall_impl; [|exact F]. intros; border.
  - cbn [assoc]. replace (beq k k2) with false by (symmetry; apply beq_false; intro; subst; border).
    apply IH, S.
Qed.

Lemma ins_In k v (l : kvs) a b :
  sorted l -> (In (a, b) (ins k v l) <-> (a = k /\ b = v) \/ (a <> k /\ In (a, b) l)).
Proof.
  intros S. rewrite <- !assoc_In_NoDup, assoc_ins by auto using sorted_NoDup, sorted_ins.
  destruct (beq a k) eqn:E; btests; intuition congruence.
Qed.

Lemma del_In k (l : kvs) a b :
  sorted l -> (In (a, b) (del k l) <-> a <> k /\ In (a, b) l).
Proof.
  intros S. rewrite <- !assoc_In_NoDup by auto using sorted_NoDup, sorted_del.
  destruct (beq a k) eqn:E; btests.
  - subst a. rewrite assoc_del_eq by exact S. intuition congruence.
  - rewrite assoc_del_ne by exact E. tauto.
Qed.

Lemma assoc_filter (f : bytes * bytes -> bool) k (l : kvs) :
  (forall v, f (k, v) = true) -> assoc k (filter f l) = assoc k l.
Proof.
  intros Hf. induction l as [|[k' v'] l IH]; cbn [filter assoc]; [reflexivity|].
  destruct (beq k k') eqn:E.
  - btests. subst k'. rewrite Hf. cbn [assoc]. unfold beq. rewrite bcmp_refl. reflexivity.
  - destruct (f (k', v')); cbn [assoc]; rewrite ?E; exact IH.
Qed.

Lemma assoc_filter_key (g : bytes -> bool) k (l : kvs) :
  assoc k (filter (fun p => g (fst p)) l) = if g k then assoc k l else None.
Proof.
  destruct (g k) eqn:G; [apply assoc_filter; intros v; exact G|].
  apply assoc_notin. intros I. apply in_map_iff in I. destruct I as (p & <- & I).
  apply filter_In in I. destruct I as [_ I]. congruence.
Qed.

Lemma mem_true_in k (l : kvs) : mem k l = true <-> In k (map fst l).
Proof.
  unfold mem. split.
  - destruct (assoc k l) as [v|] eqn:A; [|discriminate]. intros _.
    apply assoc_some_in in A. apply in_map_iff. exists (k, v). auto.
  - intros I. destruct (assoc k l) eqn:A; [reflexivity|]. exfalso. exact (assoc_In_keys l k I A).
Qed.

Lemma mem_false_notin k (l : kvs) : mem k l = false <-> ~ In k (map fst l).
Proof. rewrite <- mem_true_in. destruct (mem k l); split; congruence. Qed.

Lemma del_absent k (l : kvs) : assoc k l = None -> del k l = l.
Proof.
  induction l as [|[k' v'] l IH]; cbn [assoc del]; intros A; [reflexivity|].
  unfold beq in A. destruct (bcmp k k') eqn:E.
  - discriminate A.
  - reflexivity.
  - rewrite (IH A). reflexivity.
Qed.

Lemma sorted_assoc_ext (l1 l2 : kvs) :
  sorted l1 -> sorted l2 -> (forall k, assoc k l1 = assoc k l2) -> l1 = l2.
Proof.
  intros S1 S2 E. apply (sorted_same_elements (fun p q : bytes * bytes => fst p <b fst q)).
  - intros x L. border.
  - intros x y L1 L2. border.
  - apply sorted_StronglySorted, S1.
  - apply sorted_StronglySorted, S2.
  - intros [k v]. rewrite <- !assoc_In_NoDup by (apply sorted_NoDup; assumption).
    rewrite E. reflexivity.
Qed.

(** * A concatenation split at a bound [b]: keys below [b], then keys from [b] on *)
Lemma ins_app_l k v l1 l2 b :
  k <b b -> keys_ge l2 b -> ins k v (l1 ++ l2) = ins k v l1 ++ l2.
Proof.
  intros Hk G. induction l1 as [|[k' v'] l1 IH]; cbn [app ins].
  - destruct l2 as [|[k2 v2] l2]; [reflexivity|]. inversion G; subst. cbn [ins fst] in *.
    bcases k k2; try reflexivity; exfalso; border.
  - destruct (bcmp k k'); [reflexivity|reflexivity|rewrite IH; reflexivity].
Qed.

Lemma ins_app_r k v l1 l2 b :
  b <=b k -> keys_lt l1 b -> ins k v (l1 ++ l2) = l1 ++ ins k v l2.
Proof.
  intros Hk L. induction l1 as [|[k' v'] l1 IH]; [reflexivity|].
  inversion L; subst. cbn [app ins fst] in *. bcases k k'; try (exfalso; border).
  rewrite IH; auto.
Qed.

Lemma del_app_l k l1 l2 b :
  k <b b -> keys_ge l2 b -> del k (l1 ++ l2) = del k l1 ++ l2.
Proof.
  intros Hk G. induction l1 as [|[k' v'] l1 IH]; cbn [app del].
  - destruct l2 as [|[k2 v2] l2]; [reflexivity|]. inversion G; subst. cbn [del fst] in *.
    bcases k k2; try reflexivity; exfalso; border.
  - destruct (bcmp k k'); [reflexivity|reflexivity|rewrite IH; reflexivity].
Qed.

Lemma del_app_r k l1 l2 b :
  b <=b k -> keys_lt l1 b -> del k (l1 ++ l2) = l1 ++ del k l2.
Proof.
  intros Hk L. induction l1 as [|[k' v'] l1 IH]; [reflexivity|].
  inversion L; subst. cbn [app del fst] in *. bcases k k'; try (exfalso; border).
  rewrite IH; auto.
Qed.

Lemma assoc_app_l k l1 l2 b : k <b b -> keys_ge l2 b -> assoc k (l1 ++ l2) = assoc k l1.
Proof.
  intros Hk G. induction l1 as [|[k' v'] l1 IH]; cbn [app assoc].
  - apply assoc_none_lt. eapply Forall_impl; [|exact G]. intros; border.
  - destruct (beq k k'); auto.
Qed.

Lemma assoc_app_r k l1 l2 b : b <=b k -> keys_lt l1 b -> assoc k (l1 ++ l2) = assoc k l2.
Proof.
  intros Hk L. induction l1 as [|[k' v'] l1 IH]; [reflexivity|].
  inversion L; subst. cbn [app assoc fst] in *.
  destruct (beq k k') eqn:E; btests; [exfalso; border | auto].
Qed.

Lemma mem_app_l k l1 l2 b : k <b b -> keys_ge l2 b -> mem k (l1 ++ l2) = mem k l1.
Proof. intros. unfold mem. erewrite assoc_app_l; eauto. Qed.

Lemma mem_app_r k l1 l2 b : b <=b k -> keys_lt l1 b -> mem k (l1 ++ l2) = mem k l2.
Proof. intros. unfold mem. erewrite assoc_app_r; eauto. Qed.

Lemma sorted_app l1 l2 b : sorted l1 -> sorted l2 -> keys_lt l1 b -> keys_ge l2 b -> sorted (l1 ++ l2).
Proof.
  intros S1 S2 L G. induction l1 as [|[k v] l1 IH]; [exact S2|].
  cbn [app sorted] in *. destruct S1 as [F S1]. inversion L; subst. cbn [fst] in *.
  split; [|apply IH; auto].
  apply Forall_app. split; auto.
  eapply Forall_impl; [|exact G]. intros; border.
Qed.

(** * [rank] *)
Lemma rank_nonneg k (l : kvs) : 0 <= rank k l.
Proof. unfold rank. lia. Qed.

Lemma rank_cons k k' v' rest :
  rank k ((k', v') :: rest) = (if blt k' k then 1 else 0) + rank k rest.
Proof. unfold rank. cbn [filter fst]. destruct (blt k' k); cbn [length]; lia. Qed.

Lemma rank_app k l1 l2 : rank k (l1 ++ l2) = rank k l1 + rank k l2.
Proof. unfold rank. rewrite filter_app, app_length, Nat2Z.inj_add. reflexivity. Qed.

Lemma rank_all_lt k l : Forall (fun p => fst p <b k) l -> rank k l = Z.of_nat (length l).
Proof.
  intros F. unfold rank. rewrite filter_all; [reflexivity|].
  rewrite Forall_forall in F. intros p I. apply blt_true, F, I.
Qed.

Lemma rank_all_ge k l : Forall (fun p => k <=b fst p) l -> rank k l = 0.
Proof.
  intros F. unfold rank. rewrite filter_none; [reflexivity|].
  rewrite Forall_forall in F. intros p I. apply blt_false, F, I.
Qed.
