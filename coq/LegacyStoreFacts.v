(** Proofs about the legacy node store, its writer and the deletions of the new library
    (LegacyStore.v): property C16, deletion side. *)
From IAVL Require Import Bytes Varint Sha256 Tree VMap ListFacts TreeFacts MTree MTreeFacts
  HashFacts HashTable Codec CodecFacts Legacy LegacyFacts LegacyStore.
Local Open Scope Z_scope.

Lemma bytes_eqb_eq a b : bytes_eqb a b = true <-> a = b.
Proof. split; [apply bytes_eqb_true|intros ->; apply bytes_eqb_refl]. Qed.

Lemma bytes_eqb_sym a b : bytes_eqb a b = bytes_eqb b a.
Proof. apply eq_true_iff_eq. rewrite !bytes_eqb_eq. split; auto. Qed.

Lemma hmem_true h l : hmem h l = true <-> In h l.
Proof.
  unfold hmem. rewrite existsb_exists. split.
  - intros (x & I & E). apply bytes_eqb_true in E. subst. exact I.
  - intros I. exists h. split; [exact I|apply bytes_eqb_refl].
Qed.

Lemma hmem_false h l : hmem h l = false <-> ~ In h l.
Proof.
  rewrite <- hmem_true. destruct (hmem h l); split; congruence.
Qed.

Lemma lfind_filter {A} (g : bytes -> bool) k (st : list (bytes * A)) :
  lfind k (filter (fun p => g (fst p)) st) = if g k then lfind k st else None.
Proof.
  induction st as [|[k' a] st IH]; cbn [filter lfind fst]; [destruct (g k); reflexivity|].
  destruct (bytes_eqb k k') eqn:E.
  - apply bytes_eqb_true in E. subst k'. destruct (g k); cbn [lfind].
    + rewrite bytes_eqb_refl. reflexivity.
    + exact IH.
  - destruct (g k'); cbn [lfind]; rewrite ?E; exact IH.
Qed.

Lemma lfind_ldel_all {A} k ks (st : list (bytes * A)) :
  lfind k (ldel_all ks st) = if hmem k ks then None else lfind k st.
Proof.
  unfold ldel_all. rewrite (lfind_filter (fun h => negb (hmem h ks))).
  destruct (hmem k ks); reflexivity.
Qed.

Lemma lfind_ldel_all_keep {A} k ks (st : list (bytes * A)) :
  ~ In k ks -> lfind k (ldel_all ks st) = lfind k st.
Proof. intros N. apply hmem_false in N. rewrite lfind_ldel_all, N. reflexivity. Qed.

Lemma lfind_ldel_all_None {A} k ks (st : list (bytes * A)) :
  lfind k st = None -> lfind k (ldel_all ks st) = None.
Proof. intros F. rewrite lfind_ldel_all, F. destruct (hmem k ks); reflexivity. Qed.

Lemma lfind_ldel {A} k k' (st : list (bytes * A)) :
  lfind k (ldel k' st) = if bytes_eqb k k' then None else lfind k st.
Proof.
  unfold ldel. rewrite (lfind_filter (fun h => negb (bytes_eqb h k'))).
  destruct (bytes_eqb k k'); reflexivity.
Qed.

Lemma lfind_lset {A} k k' (a : A) st :
  lfind k (lset k' a st) = if bytes_eqb k k' then Some a else lfind k st.
Proof.
  unfold lset. cbn [lfind]. destruct (bytes_eqb k k') eqn:E; [reflexivity|].
  rewrite lfind_ldel, E. reflexivity.
Qed.

Lemma lfind_lset_all {A} k (es st : list (bytes * A)) :
  lfind k (lset_all es st) = match lfind k es with Some a => Some a | None => lfind k st end.
Proof.
  induction es as [|[k' a] es IH]; cbn [lset_all fold_right lfind fst snd]; [reflexivity|].
  fold (lset_all es st). rewrite lfind_lset. destruct (bytes_eqb k k'); [reflexivity|exact IH].
Qed.

Lemma lfind_Some_In {A} k (a : A) st : lfind k st = Some a -> In (k, a) st.
Proof.
  induction st as [|[k' a'] st IH]; cbn [lfind]; [discriminate|].
  destruct (bytes_eqb k k') eqn:E.
  - intros Q. injection Q as ->. apply bytes_eqb_true in E. subst. left. reflexivity.
  - intros Q. right. auto.
Qed.

Lemma In_lfind {A} k (a : A) st : In (k, a) st -> exists a', lfind k st = Some a'.
Proof.
  induction st as [|[k' a'] st IH]; intros I; [destruct I|]. cbn [lfind].
  destruct (bytes_eqb k k') eqn:E; [eauto|].
  destruct I as [Q|I]; [|auto]. injection Q as -> ->. rewrite bytes_eqb_refl in E. discriminate.
Qed.

Lemma orph_add_In r x l : In x (orph_add r l) -> x = r \/ In x l.
Proof.
  unfold orph_add. destruct (existsb (orec_eqb r) l); [auto|]. intros [E|I]; auto.
Qed.

Lemma orph_adds_In x news l : In x (fold_right orph_add l news) -> In x news \/ In x l.
Proof.
  induction news as [|r news IH]; cbn [fold_right]; [auto|].
  intros I. apply orph_add_In in I. destruct I as [E|I]; [left; left; auto|].
  destruct (IH I); [left; right; assumption|right; assumption].
Qed.

Definition mx (l : list Z) : Z := fold_right Z.max 0 l.

Lemma mx_ge l x : In x l -> x <= mx l.
Proof.
  induction l as [|y l IH]; intros I; [destruct I|]. cbn [mx fold_right]. fold (mx l).
  destruct I as [->|I]; [lia|]. specialize (IH I). lia.
Qed.

Lemma mx_nonneg l : 0 <= mx l.
Proof. induction l as [|y l IH]; cbn [mx fold_right]; [lia|]. fold (mx l). lia. Qed.

Lemma mx_in l : mx l = 0 \/ In (mx l) l.
Proof.
  induction l as [|y l IH]; cbn [mx fold_right]; [auto|]. fold (mx l).
  destruct (Z.max_spec y (mx l)) as [[_ ->]|[_ ->]].
  - destruct IH as [E|I]; [left; exact E|right; right; exact I].
  - right. left. reflexivity.
Qed.

Lemma mx_unique l m : (forall x, In x l -> x <= m) -> m = 0 \/ In m l -> 0 <= m -> mx l = m.
Proof.
  intros Ub Wit Pos. pose proof (mx_nonneg l) as P0.
  assert (mx l <= m). { destruct (mx_in l) as [E|I]; [lia|auto]. }
  assert (m <= mx l). { destruct Wit as [E|I]; [lia|apply mx_ge, I]. }
  lia.
Qed.

Lemma mx_snoc l w : mx (l ++ [w]) = Z.max (mx l) w.
Proof.
  induction l as [|y l IH]; cbn [mx fold_right app]; [lia|]. fold (mx (l ++ [w])) (mx l).
  rewrite IH. lia.
Qed.

Lemma mx_lt l b : (forall x, In x l -> x < b) -> 0 < b -> mx l < b.
Proof. intros F P. destruct (mx_in l) as [E|I]; [lia|auto]. Qed.

Definition flatest (f : lforest) : Z := mx (filter (fun v => 1 <=? v) (map fst f)).
Definition fprev (f : lforest) (v : Z) : Z :=
  mx (filter (fun u => (1 <=? u) && (u <? v)) (map fst f)).

Lemma flatest_ge f v t : In (v, t) f -> 1 <= v -> v <= flatest f.
Proof.
  intros I P. apply mx_ge. apply filter_In. split.
  - apply in_map_iff. exists (v, t). auto.
  - apply Z.leb_le. exact P.
Qed.

Lemma flatest_in f : flatest f = 0 \/ (1 <= flatest f /\ In (flatest f) (map fst f)).
Proof.
  destruct (mx_in (filter (fun v => 1 <=? v) (map fst f))) as [E|I]; [left; exact E|right].
  apply filter_In in I. destruct I as [I P]. apply Z.leb_le in P. auto.
Qed.

Lemma flatest_snoc f w t : w = flatest f + 1 -> flatest (f ++ [(w, t)]) = w.
Proof.
  intros E. unfold flatest. rewrite map_app, filter_app. cbn [map filter fst].
  assert (P : 1 <=? w = true). { apply Z.leb_le. pose proof (mx_nonneg (filter (fun v => 1 <=? v) (map fst f))). unfold flatest in E. lia. }
  rewrite P, mx_snoc. unfold flatest in E. lia.
Qed.

Lemma flatest_remove f v :
  v <> flatest f -> flatest (filter (fun p => negb (fst p =? v)) f) = flatest f.
Proof.
  intros N. unfold flatest at 1. apply mx_unique.
  - intros x I. apply filter_In in I. destruct I as [I P]. apply Z.leb_le in P.
    apply in_map_iff in I. destruct I as ([x' t] & <- & I). apply filter_In in I.
    destruct I as [I _]. exact (flatest_ge f x' t I P).
  - destruct (flatest_in f) as [E|[P I]]; [left; exact E|right].
    apply filter_In. split; [|apply Z.leb_le; exact P].
    apply in_map_iff in I. destruct I as ([x t] & E & I). cbn [fst] in E.
    apply in_map_iff. exists (x, t). split; [exact E|]. apply filter_In. split; [exact I|].
    cbn [fst]. lia.
  - apply mx_nonneg.
Qed.

Lemma fprev_lt f v : 0 < v -> fprev f v < v.
Proof.
  intros P. apply mx_lt; [|exact P]. intros x I. apply filter_In in I. lia.
Qed.

Lemma fprev_ge f v u t : In (u, t) f -> 1 <= u -> u < v -> u <= fprev f v.
Proof.
  intros I P L. apply mx_ge. apply filter_In. split.
  - apply in_map_iff. exists (u, t). auto.
  - lia.
Qed.

Lemma fprev_succ_latest f : fprev f (flatest f + 1) = flatest f.
Proof.
  unfold fprev, flatest at 2. f_equal. apply filter_ext_in. intros x I.
  destruct (1 <=? x) eqn:P; [|reflexivity].
  assert (x <= flatest f) by (apply mx_ge, filter_In; auto). lia.
Qed.

Lemma NoDup_versions_filter (g : Z -> bool) (f : lforest) :
  NoDup (map fst f) -> NoDup (map fst (filter (fun p => g (fst p)) f)).
Proof. intros ND. rewrite <- (filter_map_comm g fst f). apply NoDup_filter, ND. Qed.

Section Facts.
  Variable H : bytes -> bytes.

  Lemma lview_eq t : lview H t = legacy_view H t.
  Proof. induction t as [|k h s m l IHl r IHr]; cbn [lview legacy_view]; [reflexivity|]. rewrite IHl, IHr. reflexivity. Qed.

  Lemma raw_version n : ln_version (legacy_raw H n) = ver (nmeta n).
  Proof. destruct n; reflexivity. Qed.

  Lemma legacy_nodes_In h r t :
    In (h, r) (legacy_nodes H t) -> exists n, subtree n t /\ h = nhash H n /\ r = legacy_raw H n.
  Proof.
    induction t as [k v m|k hh s m l IHl rr IHr]; cbn [legacy_nodes]; intros [E|I].
    1, 3: injection E as <- <-; eexists; split; [apply sub_refl|auto].
    - destruct I.
    - apply in_app_or in I. destruct I as [I|I]; [apply IHl in I|apply IHr in I];
        destruct I as (n & S & E); exists n; auto using sub_left, sub_right.
  Qed.

  Lemma sub_hash n t : subtree n t -> In (nhash H n) (tree_hashes H t).
  Proof.
    intros S. unfold tree_hashes. apply in_map_iff. exists (nhash H n, legacy_raw H n).
    split; [reflexivity|]. apply legacy_nodes_subtree, S.
  Qed.

  Lemma hash_sub h t : In h (tree_hashes H t) -> exists n, subtree n t /\ nhash H n = h.
  Proof.
    unfold tree_hashes. intros I. apply in_map_iff in I. destruct I as ([h' r] & E & I).
    cbn [fst] in E. subst h'. destruct (legacy_nodes_In _ _ _ I) as (n & S & E1 & _). eauto.
  Qed.

  Lemma ohash_sub h t :
    In h (otree_hashes H t) -> exists t' n, t = Some t' /\ subtree n t' /\ nhash H n = h.
  Proof.
    destruct t as [t'|]; cbn [otree_hashes]; [|intros []]. intros I.
    destruct (hash_sub _ _ I) as (n & S & E). eauto.
  Qed.

  Lemma save_branch_incl w t : incl (save_branch H w t) (legacy_nodes H t).
  Proof.
    induction t as [k v m|k h s m l IHl r IHr]; cbn [save_branch legacy_nodes nmeta];
      (destruct (ver m =? w); [|intros x []]).
    - apply incl_refl.
    - apply incl_app; [apply incl_tl, incl_app_app; assumption|].
      intros x [<-|[]]. left. reflexivity.
  Qed.

  Lemma save_branch_cover w t n :
    subtree n t ->
    In (nhash H n, legacy_raw H n) (save_branch H w t) \/
    exists a, subtree n a /\ subtree a t /\ ver (nmeta a) <> w.
  Proof.
    induction 1 as [t|u k h s m l r S IH|u k h s m l r S IH].
    { destruct (ver (nmeta t) =? w) eqn:E.
      - left. destruct t; cbn [save_branch nmeta] in *; rewrite E; apply in_or_app; right; left; reflexivity.
      - right. exists t. apply Z.eqb_neq in E. auto using sub_refl. }
    (* below the left and below the right child alike *)
    all: destruct (ver m =? w) eqn:E.
    2, 4: right; exists (Inner k h s m l r); apply Z.eqb_neq in E; auto using sub_left, sub_right, sub_refl.
    all: destruct IH as [I|(a & S1 & S2 & N)]; [left|right; exists a; auto using sub_left, sub_right].
    all: cbn [save_branch nmeta]; rewrite E; apply in_or_app; left; apply in_or_app; auto.
  Qed.

  Lemma stored_ldel_all dead st t :
    stored H st t -> (forall u, subtree u t -> ~ In (nhash H u) dead) ->
    stored H (ldel_all dead st) t.
  Proof. intros St N u S. rewrite lfind_ldel_all_keep; [exact (St u S)|exact (N u S)]. Qed.

  Lemma orphans_of_In h fr p cur :
    In (h, fr) (orphans_of H (Some p) cur) ->
    exists n, subtree n p /\ h = nhash H n /\ fr = ver (nmeta n) /\ ~ In h (otree_hashes H cur).
  Proof.
    unfold orphans_of. intros I. apply in_map_iff in I. destruct I as ([h' raw] & Q & I).
    cbn [fst snd] in Q. injection Q as -> <-. apply filter_In in I. destruct I as [I M].
    cbn [fst] in M. apply negb_true_iff, hmem_false in M.
    destruct (legacy_nodes_In _ _ _ I) as (n & S & -> & ->). exists n. rewrite raw_version. auto.
  Qed.

  Lemma legacy_history_log_fst st ops :
    fst (legacy_history_log H st ops) = legacy_history_from H st ops.
  Proof.
    revert st.
    induction ops as [|o ops IH]; intros st; cbn [legacy_history_log legacy_history_from fold_left];
      [reflexivity|].
    destruct (legacy_step H st o) as [st'|];
      [specialize (IH st')|specialize (IH st)]; destruct (legacy_history_log H _ ops); exact IH.
  Qed.
End Facts.

Lemma subtree_trans a b c : subtree a b -> subtree b c -> subtree a c.
Proof.
  intros S1 S2. induction S2 as [t|u k h s m l r _ IH|u k h s m l r _ IH]; [exact S1| |].
  - apply sub_left, IH, S1.
  - apply sub_right, IH, S1.
Qed.

Lemma latest_tree_Some_In (f : lforest) v p : latest_tree f v = Some p -> In (v, Some p) f.
Proof.
  unfold latest_tree. destruct (lookup v f) as [o|] eqn:Lk; [|discriminate].
  intros ->. apply lookup_In, Lk.
Qed.

Section Inv.
  Variable H : bytes -> bytes.
  (** the nodes on which [H] is assumed free of collisions: closed under subtrees *)
  Variable Univ : node -> Prop.
  Hypothesis Univ_sub : forall a b, subtree a b -> Univ b -> Univ a.
  Hypothesis Univ_inj :
    forall a b, Univ a -> Univ b -> nhash H a = nhash H b -> legacy_raw H a = legacy_raw H b.

  Lemma Univ_ver a b : Univ a -> Univ b -> nhash H a = nhash H b -> ver (nmeta a) = ver (nmeta b).
  Proof. intros Ua Ub E. rewrite <- !(raw_version H). f_equal. apply Univ_inj; assumption. Qed.

  Definition closed (db : ldb) (f : lforest) : Prop :=
    forall v t, In (v, Some t) f -> stored H (lnodes db) t.
  Definition roots_ok (db : ldb) (f : lforest) : Prop :=
    lroots db = map (fun p => (fst p, legacy_root_value H (snd p))) f.
  Definition vers_ok (f : lforest) : Prop :=
    forall v t n, In (v, Some t) f -> subtree n t -> 1 <= ver (nmeta n) <= v.
  Definition forest_univ (f : lforest) : Prop := forall v t, In (v, Some t) f -> Univ t.

  (** an orphan record names a node created at [from] that no retained version after [to] has *)
  Definition rec_ok (f : lforest) (r : orec) : Prop :=
    exists n, Univ n /\ nhash H n = orec_hash r /\ ver (nmeta n) = orec_from r /\
              forall v t, In (v, t) f -> orec_to r < v -> ~ In (orec_hash r) (otree_hashes H t).
  (** ... and every retained version of [from, to] has it *)
  Definition rec_life (f : lforest) (r : orec) : Prop :=
    forall v t, In (v, t) f -> orec_from r <= v <= orec_to r -> In (orec_hash r) (otree_hashes H t).
  (** both, for a record that ends before the latest version (what the old library writes) *)
  Definition rec_full (f : lforest) (r : orec) : Prop :=
    rec_ok f r /\ (1 <= orec_from r /\ orec_from r <= orec_to r < flatest f) /\ rec_life f r.
  Definition lifetime (f : lforest) : Prop :=
    forall c tc n a ta, In (c, Some tc) f -> subtree n tc -> In (a, ta) f ->
                        ver (nmeta n) <= a <= c -> In (nhash H n) (otree_hashes H ta).

  Record winv_of (R : lforest -> orec -> Prop) (db : ldb) (f : lforest) : Prop := {
    wi_closed : closed db f;
    wi_roots : roots_ok db f;
    wi_vers : vers_ok f;
    wi_univ : forest_univ f;
    wi_recs : forall r, In r (lorph db) -> R f r
  }.

  (** what the deletions of the new library need (holds after a legacy history, and still after
      a rollback, which leaves records that end at or after the new latest version) *)
  Definition winv := winv_of rec_ok.

  Record hinv (db : ldb) (f : lforest) : Prop := {
    hi_w : winv_of rec_full db f;
    hi_nodup : NoDup (map fst f);
    hi_pos : forall v t, In (v, t) f -> 1 <= v;
    hi_life : lifetime f
  }.

  Lemma hinv_winv db f : hinv db f -> winv db f.
  Proof. intros [[C R V U Rc] _ _ _]. constructor; auto. intros r I. apply Rc, I. Qed.

  Lemma rec_ok_incl f f' r : incl f' f -> rec_ok f r -> rec_ok f' r.
  Proof.
    intros Sub (n & A1 & A2 & A3 & A4). exists n. repeat split; auto.
    intros v t I. exact (A4 v t (Sub _ I)).
  Qed.

  Lemma roots_versions db f : roots_ok db f -> map fst (lroots db) = map fst f.
  Proof. intros R. rewrite R, map_map. reflexivity. Qed.

  Lemma max_version_flatest db f : roots_ok db f -> max_version (lroots db) = flatest f.
  Proof. intros R. unfold max_version, flatest. rewrite (roots_versions _ _ R). reflexivity. Qed.

  Lemma prev_version_fprev db f v : roots_ok db f -> prev_version (lroots db) v = fprev f v.
  Proof. intros R. unfold prev_version, fprev. rewrite (roots_versions _ _ R). reflexivity. Qed.

  Lemma roots_filter db f g :
    roots_ok db f ->
    filter (fun p => g (fst p)) (lroots db) =
    map (fun p => (fst p, legacy_root_value H (snd p))) (filter (fun p => g (fst p)) f).
  Proof. intros R. rewrite R, filter_map_comm. reflexivity. Qed.

  (** *** deleteLegacyNodes *)
  Lemma dln_dead st version : forall fuel nk dead,
    dln fuel st version nk = Some dead ->
    forall h, In h dead -> exists n, lfind h st = Some n /\ version <= ln_version n.
  Proof.
    induction fuel as [|f IH]; intros nk dead; cbn [dln]; [discriminate|].
    destruct (lfind nk st) as [n|] eqn:F; [|discriminate].
    destruct (ln_version n <? version) eqn:V.
    - intros Q. injection Q as <-. intros h [].
    - apply Z.ltb_ge in V. destruct (ln_height n =? 0).
      + intros Q. injection Q as <-. intros h [<-|[]]. eauto.
      + destruct (dln f st version (ln_left n)) as [dl|] eqn:L; [|discriminate].
        destruct (dln f st version (ln_right n)) as [dr|] eqn:R; [|discriminate].
        intros Q. injection Q as <-. intros h I.
        apply in_app_or in I. destruct I as [I|I]; [exact (IH _ _ L h I)|].
        apply in_app_or in I. destruct I as [I|I]; [exact (IH _ _ R h I)|].
        destruct I as [<-|[]]. eauto.
  Qed.

  Lemma dln_succeeds st version t : forall fuel,
    (ldepth t <= fuel)%nat ->
    stored H st t -> exists dead, dln fuel st version (nhash H t) = Some dead.
  Proof.
    induction t as [k v m|k h s m l IHl r IHr]; intros fuel F Fd;
      (destruct fuel as [|f]; [cbn [ldepth] in F; lia|]); cbn [dln]; unfold nhash; rewrite (Fd _ (sub_refl _)).
    - cbn [legacy_raw ln_version ln_height]. destruct (ver m <? version); [eauto|].
      cbn [Z.eqb]. eauto.
    - cbn [legacy_raw ln_version ln_height ln_left ln_right]. destruct (ver m <? version); [eauto|].
      destruct (h =? 0); [eauto|]. cbn [ldepth] in F.
      fold (nhash H l) (nhash H r).
      destruct (IHl f ltac:(lia) (stored_left _ _ _ _ _ _ _ _ Fd)) as [dl ->].
      destruct (IHr f ltac:(lia) (stored_right _ _ _ _ _ _ _ _ Fd)) as [dr ->].
      eauto.
  Qed.

  Lemma dln_roots_dead fuel st : forall rs dead,
    dln_roots dln fuel st rs = Some dead ->
    forall h, In h dead -> exists v rh n, In (v, rh) rs /\ lfind h st = Some n /\ v <= ln_version n.
  Proof.
    induction rs as [|[v rh] rs IH]; intros dead; cbn [dln_roots].
    - intros Q. injection Q as <-. intros h [].
    - destruct (match rh with [] => Some [] | _ => dln fuel st v rh end) as [d|] eqn:D; [|discriminate].
      destruct (dln_roots dln fuel st rs) as [d'|] eqn:D'; [|discriminate].
      intros Q. injection Q as <-. intros h I. apply in_app_or in I. destruct I as [I|I].
      + destruct rh as [|b rh].
        * injection D as <-. destruct I.
        * destruct (dln_dead _ _ _ _ _ D h I) as (n & F & V). exists v, (b :: rh), n.
          split; [left; reflexivity|auto].
      + destruct (IH _ eq_refl h I) as (v' & rh' & n & I' & F & V). exists v', rh', n.
        split; [right; exact I'|auto].
  Qed.

  Lemma dln_roots_succeeds fuel st : forall rs,
    (forall v rh, In (v, rh) rs -> rh = [] \/ exists dead, dln fuel st v rh = Some dead) ->
    exists dead, dln_roots dln fuel st rs = Some dead.
  Proof.
    induction rs as [|[v rh] rs IH]; intros A; cbn [dln_roots]; [eauto|].
    destruct IH as [d' ->]; [intros v' rh' I; apply A; right; exact I|].
    destruct (A v rh (or_introl eq_refl)) as [->|[d E]]; [eauto|].
    destruct rh as [|b rh]; [eauto|]. rewrite E. eauto.
  Qed.

  (** *** The legacy part of DeleteVersionsFrom *)
  Theorem rollback_legacy_inv db f fuel from :
    winv db f -> 1 <= from ->
    (forall v t, In (v, Some t) f -> (ldepth t <= fuel)%nat) ->
    exists db', rollback_legacy fuel db from = Some db' /\
      winv db' (filter (fun p => fst p <? from) f) /\
      (forall v, from <= v -> lookup v (lroots db') = None) /\
      (forall h n, lfind h (lnodes db) = Some n -> ln_version n < from ->
                   lfind h (lnodes db') = Some n) /\
      (forall h, lfind h (lnodes db) = None -> lfind h (lnodes db') = None) /\
      lorph db' = lorph db.
  Proof.
    intros [C R V U Rc] P Fu.
    set (f' := filter (fun p => fst p <? from) f).
    assert (Sub : incl f' f) by apply incl_filter.
    unfold rollback_legacy, rollback_legacy_with.
    set (L := legacy_latest db).
    set (sel := fun p : Z * bytes => (from <=? fst p) && (fst p <=? L)).
    assert (Kept : filter (fun p => negb (sel p)) (lroots db) =
                   filter (fun p => fst p <? from) (lroots db)).
    { apply filter_ext_in. intros p I. rewrite R in I. apply in_map_iff in I.
      destruct I as ([v t] & <- & I). unfold sel. cbn [fst].
      assert (B : from <= v -> v <= L).
      { intros Ge. unfold L, legacy_latest. rewrite (max_version_flatest _ _ R).
        pose proof (flatest_ge f v t I). destruct (flatest f =? 0) eqn:E; lia. }
      lia. }
    (* whatever the node table [st] has become *)
    assert (W : forall st, closed (Ldb st (lorph db) (lroots db)) f' ->
                winv (Ldb st (lorph db) (filter (fun p => negb (sel p)) (lroots db))) f').
    { intros st C'. constructor; cbn [lorph].
      - exact C'.
      - unfold roots_ok. cbn [lroots]. rewrite Kept. apply (roots_filter db f (fun v => v <? from) R).
      - intros v t n I. exact (V v t n (Sub _ I)).
      - intros v t I. exact (U v t (Sub _ I)).
      - intros r I. exact (rec_ok_incl _ _ r Sub (Rc r I)). }
    assert (NoRoot : forall v, from <= v ->
               lookup v (filter (fun p => negb (sel p)) (lroots db)) = None).
    { intros v Hv. rewrite Kept, (lookup_filter (fun x => x <? from)).
      apply Z.ltb_ge in Hv. rewrite Hv. reflexivity. }
    destruct (from <=? L) eqn:FL.
    - destruct (dln_roots_succeeds fuel (lnodes db) (filter sel (lroots db))) as [dead D].
      { intros v rh I. apply filter_In in I. destruct I as [I _]. rewrite R in I.
        apply in_map_iff in I. destruct I as ([v' t] & E & I). cbn [fst snd] in E.
        injection E as -> <-. destruct t as [t|]; [|left; reflexivity]. right.
        exact (dln_succeeds (lnodes db) v t fuel (Fu _ _ I) (C _ _ I)). }
      rewrite D. eexists. split; [reflexivity|].
      assert (Keep : forall h n, lfind h (lnodes db) = Some n -> ln_version n < from ->
                                 lfind h (ldel_all dead (lnodes db)) = Some n).
      { intros h n F Vn. rewrite lfind_ldel_all_keep; [exact F|]. intros M.
        destruct (dln_roots_dead _ _ _ _ D h M) as (v & rh & n' & I & F' & Vn').
        apply filter_In in I. destruct I as [_ S]. unfold sel in S. cbn [fst] in S.
        rewrite F in F'. injection F' as <-. lia. }
      split; [|split; [exact NoRoot|split; [exact Keep|split; [|reflexivity]]]].
      + apply W. intros v t I n S. apply Keep; [exact (C _ _ (Sub _ I) n S)|].
        rewrite raw_version. apply filter_In in I. destruct I as [I Lt]. cbn [fst] in Lt.
        apply Z.ltb_lt in Lt. pose proof (V _ _ _ I S). lia.
      + intros h. apply lfind_ldel_all_None.
    - (* no root record is selected *)
      eexists. split; [reflexivity|].
      assert (Eq : filter (fun p => negb (sel p)) (lroots db) = lroots db).
      { apply filter_all. intros p _. unfold sel. lia. }
      rewrite Eq in W, NoRoot. destruct db as [st o rs].
      split; [apply W; intros v t I; exact (C v t (Sub _ I))|auto].
  Qed.

  (** *** deleteLegacyVersions *)
  Theorem delete_legacy_versions_inv db f L tL tL1 :
    winv db f -> In (L, tL) f ->
    (forall t1, tL1 = Some t1 ->
       Univ t1 /\
       forall n, subtree n t1 -> ver (nmeta n) <= L -> exists t, tL = Some t /\ subtree n t) ->
    let db' := delete_legacy_versions H db L tL tL1 in
    (forall t1 n, tL1 = Some t1 -> subtree n t1 -> ver (nmeta n) <= L ->
                  lfind (nhash H n) (lnodes db') = Some (legacy_raw H n)) /\
    (forall h, lfind h (lnodes db) = None -> lfind h (lnodes db') = None) /\
    lroots db' = [] /\ lorph db' = [].
  Proof.
    intros [C R V U Rc] IL Top db'. split; [|split; [|split; reflexivity]].
    - intros t1 n -> S Vn. destruct (Top t1 eq_refl) as [U1 Chain].
      destruct (Chain n S Vn) as (t & -> & St).
      unfold db', delete_legacy_versions, delete_legacy_versions_with. cbn [lnodes].
      rewrite lfind_ldel_all_keep; [exact (C _ _ IL n St)|]. intros M.
      apply in_app_or in M. destruct M as [M|M].
      + unfold orphan_diff in M. apply filter_In in M. destruct M as [_ M].
        apply negb_true_iff, hmem_false in M. apply M. cbn [otree_hashes]. apply sub_hash, S.
      + apply in_map_iff in M. destruct M as (r & Eh & M). apply filter_In in M.
        destruct M as [Ir G]. destruct (Rc r Ir) as (n0 & U0 & Eh0 & Ev0 & Abs).
        (* the guard: the record ends before [L], for its node is not younger than [L] *)
        assert (ver (nmeta n) = ver (nmeta n0)).
        { apply Univ_ver; [exact (Univ_sub _ _ S U1)|exact U0|congruence]. }
        apply (Abs L (Some t) IL); [unfold sweep_guard in G; lia|].
        rewrite Eh. cbn [otree_hashes]. apply sub_hash, St.
    - intros h. apply lfind_ldel_all_None.
  Qed.

  (** the tree committed as the next version: in the universe, and each of its nodes is new
      (stamped with the new version) or a node of the latest version *)
  Definition commit_ok (f : lforest) (t : option node) : Prop :=
    forall c, t = Some c ->
      Univ c /\
      forall n, subtree n c ->
        ver (nmeta n) = flatest f + 1 \/
        exists p, latest_tree f (flatest f) = Some p /\ subtree n p.

  Lemma hinv_empty : hinv empty_ldb [].
  Proof.
    constructor; [constructor|..]; try (repeat intro; cbn in *; contradiction).
    - reflexivity.
    - constructor.
  Qed.

  Lemma rec_ok_snoc f w t r :
    rec_ok f r -> (orec_to r < w -> ~ In (orec_hash r) (otree_hashes H t)) ->
    rec_ok (f ++ [(w, t)]) r.
  Proof.
    intros (n & A1 & A2 & A3 & A4) New. exists n. repeat split; auto. intros v t0 I.
    apply in_snoc in I. destruct I as [I|Q]; [exact (A4 v t0 I)|]. injection Q as -> ->. exact New.
  Qed.

  Lemma rec_life_snoc f w t r :
    rec_life f r -> (orec_from r <= w <= orec_to r -> In (orec_hash r) (otree_hashes H t)) ->
    rec_life (f ++ [(w, t)]) r.
  Proof.
    intros L New v t0 I. apply in_snoc in I.
    destruct I as [I|Q]; [exact (L v t0 I)|]. injection Q as -> ->. exact New.
  Qed.

  Lemma commit_inv db f t db' :
    hinv db f -> commit_ok f t ->
    legacy_commit H db (flatest f + 1) (latest_tree f (flatest f)) t = Some db' ->
    hinv db' (f ++ [(flatest f + 1, t)]).
  Proof.
    intros [[C R V U Rc] ND Pos Lf] CO. unfold legacy_commit.
    rewrite (prev_version_fprev _ _ _ R), fprev_succ_latest.
    destruct (forallb _ _); [|discriminate]. intros Q. injection Q as <-.
    remember (flatest f + 1) as w eqn:Dw.
    assert (LeL : forall v t0, In (v, t0) f -> v <= flatest f).
    { intros v t0 I. apply (flatest_ge f v t0 I). eauto. }
    pose proof (fun x => proj1 (in_snoc x (w, t) f)) as Snoc.
    assert (W0 : 0 <= flatest f) by apply mx_nonneg.
    assert (FL' : flatest (f ++ [(w, t)]) = w) by (apply flatest_snoc, Dw).
    (* a node of the new tree that is not new is a node of the previous one *)
    assert (Old : forall c n, t = Some c -> subtree n c -> ver (nmeta n) <> w ->
                              exists p, In (flatest f, Some p) f /\ subtree n p).
    { intros c n Et S N. destruct (proj2 (CO c Et) n S) as [Ev|(p & Ep & Sp)]; [lia|].
      exists p. split; [apply latest_tree_Some_In, Ep|exact Sp]. }
    assert (V' : vers_ok (f ++ [(w, t)])).
    { intros v t0 n I S. destruct (Snoc _ I) as [I'|Q]; [exact (V _ _ _ I' S)|].
      injection Q as -> Et. destruct (Z.eq_dec (ver (nmeta n)) w) as [Ev|Nv]; [lia|].
      destruct (Old t0 n (eq_sym Et) S Nv) as (p & Ip & Sp). pose proof (V _ _ _ Ip Sp). lia. }
    assert (U' : forest_univ (f ++ [(w, t)])).
    { intros v t0 I. destruct (Snoc _ I) as [I'|Q]; [exact (U _ _ I')|].
      injection Q as -> Et. exact (proj1 (CO t0 (eq_sym Et))). }
    constructor; [constructor|..].
    - intros v t0 I n S. cbn [lnodes].
      destruct t as [c|]; [|destruct (Snoc _ I) as [I'|Q]; [exact (C _ _ I' n S)|discriminate]].
      fold (nhash H n). rewrite lfind_lset_all.
      destruct (lfind (nhash H n) (save_branch H w c)) as [a|] eqn:F.
      + (* an entry written under the hash of [n] is that of a node of [c] with this hash *)
        apply lfind_Some_In, save_branch_incl, legacy_nodes_In in F. destruct F as (n' & S' & E & ->).
        f_equal. symmetry. apply Univ_inj; [exact (Univ_sub _ _ S (U' _ _ I))| |exact E].
        exact (Univ_sub _ _ S' (proj1 (CO c eq_refl))).
      + destruct (Snoc _ I) as [I'|Q]; [exact (C _ _ I' n S)|]. injection Q as -> ->.
        destruct (save_branch_cover H w c n S) as [I2|(a & S1 & S2 & N)].
        * apply In_lfind in I2. destruct I2 as [a F']. rewrite F in F'. discriminate.
        * destruct (Old c a eq_refl S2 N) as (p & Ip & Sp).
          exact (C _ _ Ip n (subtree_trans _ _ _ S1 Sp)).
    - unfold roots_ok. cbn [lroots]. rewrite R, map_app. reflexivity.
    - exact V'.
    - exact U'.
    - intros r I. unfold rec_full. rewrite FL'. cbn [lorph] in I. apply orph_adds_In in I.
      destruct I as [I|I'].
      + (* a new one: a node of the latest tree, gone from the new tree *)
        apply in_map_iff in I. destruct I as ([h fr] & <- & I).
        destruct (latest_tree f (flatest f)) as [p|] eqn:Ep; [|destruct I].
        destruct (orphans_of_In _ _ _ _ _ I) as (n & S & -> & -> & M).
        apply latest_tree_Some_In in Ep. pose proof (V _ _ _ Ep S) as Vn.
        split; [apply rec_ok_snoc|split; [|apply rec_life_snoc]];
          unfold rec_ok, rec_life, orec_hash, orec_from, orec_to; cbn [fst snd].
        * exists n. repeat split; [exact (Univ_sub _ _ S (U _ _ Ep))|].
          intros v t0 I0 B. pose proof (LeL _ _ I0). lia.
        * intros _. exact M.
        * lia.
        * intros v t0 I0 B. apply (Lf _ _ n _ _ Ep S I0). lia.
        * lia.
      + (* an old one: the new tree does not bring its node back, for that node is older than
           the latest version and was not in it *)
        destruct (Rc r I') as (Ok & (B0 & B1 & B2) & Life).
        split; [apply rec_ok_snoc; [exact Ok|]|split; [lia|]].
        2: { apply rec_life_snoc; [exact Life|lia]. }
        destruct Ok as (n0 & U0 & Eh & Ev & Abs).
        intros _ M. destruct (ohash_sub _ _ _ M) as (c & n' & -> & S' & Eh').
        assert (Ev' : ver (nmeta n') = ver (nmeta n0)).
        { apply Univ_ver; [exact (Univ_sub _ _ S' (proj1 (CO c eq_refl)))|exact U0|congruence]. }
        destruct (Old c n' eq_refl S') as (p & Ip & Sp); [lia|].
        apply (Abs _ _ Ip B2). rewrite <- Eh'. cbn [otree_hashes]. apply sub_hash, Sp.
    - rewrite map_app. cbn [map fst]. apply NoDup_snoc; [exact ND|].
      intros I. apply in_map_iff in I. destruct I as ([v t0] & Ew & I). cbn [fst] in Ew.
      pose proof (LeL _ _ I). lia.
    - intros v t0 I. destruct (Snoc _ I) as [I'|Q]; [eauto|]. injection Q as -> _.
      lia.
    - intros c tc n a ta Ic S Ia B.
      destruct (Snoc _ Ic) as [Ic'|Qc]; destruct (Snoc _ Ia) as [Ia'|Qa].
      + exact (Lf _ _ _ _ _ Ic' S Ia' B).
      + injection Qa as -> _. pose proof (LeL _ _ Ic'). lia.
      + injection Qc as -> Et. pose proof (LeL _ _ Ia').
        destruct (Old tc n (eq_sym Et) S) as (p & Ip & Sp); [lia|].
        apply (Lf _ _ n _ _ Ip Sp Ia'). lia.
      + injection Qc as -> Et. injection Qa as _ <-. rewrite <- Et. cbn [otree_hashes].
        apply sub_hash, S.
  Qed.

  Lemma delete_inv db f v db' :
    hinv db f -> legacy_delete_version db v = Some db' ->
    hinv db' (filter (fun p => negb (fst p =? v)) f).
  Proof.
    intros [[C R V U Rc] ND Pos Lf]. unfold legacy_delete_version.
    rewrite (max_version_flatest _ _ R), (prev_version_fprev _ _ _ R).
    destruct (v <=? 0) eqn:E0; [discriminate|]. apply Z.leb_gt in E0.
    destruct (v =? flatest f) eqn:E1; [discriminate|]. apply Z.eqb_neq in E1.
    destruct (lookup v (lroots db)) as [rh|] eqn:Lk; [|discriminate]. intros Q. injection Q as <-.
    set (f' := filter (fun p => negb (fst p =? v)) f). set (pred := fprev f v).
    assert (Sub : incl f' f) by apply incl_filter.
    assert (VL : v < flatest f).
    { apply lookup_In in Lk. rewrite R in Lk. apply in_map_iff in Lk.
      destruct Lk as ([v' t] & Q & I). cbn [fst snd] in Q. injection Q as -> _.
      pose proof (flatest_ge f v t I). lia. }
    assert (FL' : flatest f' = flatest f) by (apply flatest_remove; exact E1).
    assert (PredLt : pred < v) by (apply fprev_lt; lia).
    (* a version that stays is after [v], or at most the one before [v] *)
    assert (Side : forall u t, In (u, t) f' -> v < u \/ u <= pred).
    { intros u t I. apply filter_In in I. destruct I as [I B]. cbn [fst] in B.
      destruct (Z.lt_ge_cases v u) as [Gt|Le]; [left; exact Gt|right].
      apply (fprev_ge f v u t I); [eauto|lia]. }
    (* the records that end at [v] are deleted with their nodes or moved, by a test [g] *)
    assert (Hit : forall (g : orec -> bool) r,
              In r (filter g (filter (fun r => orec_to r =? v) (lorph db))) ->
              In r (lorph db) /\ orec_to r = v /\ g r = true).
    { intros g r I. apply filter_In in I. destruct I as [I G]. apply filter_In in I.
      destruct I as [I T]. apply Z.eqb_eq in T. auto. }
    constructor; [constructor|..].
    - (* closed: a deleted node is in no version that stays *)
      intros u t I. apply stored_ldel_all; [exact (C _ _ (Sub _ I))|].
      intros n S M. apply in_map_iff in M. destruct M as (r & Eh & M).
      apply Hit in M. destruct M as (Ir & Eto & G).
      destruct (Rc r Ir) as ((n0 & U0 & Eh0 & Ev0 & Abs) & _ & _).
      assert (Ev : ver (nmeta n) = orec_from r).
      { rewrite <- Ev0. apply Univ_ver; [exact (Univ_sub _ _ S (U _ _ (Sub _ I)))|exact U0|congruence]. }
      pose proof (V _ _ _ (Sub _ I) S) as Vn. destruct (Side _ _ I) as [Gt|Le]; [|lia].
      apply (Abs u (Some t) (Sub _ I)); [lia|]. rewrite Eh. cbn [otree_hashes]. apply sub_hash, S.
    - exact (roots_filter db f (fun x => negb (x =? v)) R).
    - intros u t n I. exact (V u t n (Sub _ I)).
    - intros u t I. exact (U u t (Sub _ I)).
    - intros r' I. unfold rec_full. rewrite FL'. cbn [lorph] in I. apply orph_adds_In in I.
      destruct I as [I|I].
      + (* moved to end at the version before [v]: no version in between stays *)
        apply in_map_iff in I. destruct I as (r & <- & I). apply Hit in I.
        destruct I as (Ir & Eto & G).
        destruct (Rc r Ir) as ((n0 & U0 & Eh0 & Ev0 & Abs) & (B0 & B1 & B2) & Life).
        unfold rec_ok, rec_life, orec_hash, orec_from, orec_to in *. cbn [fst snd].
        split; [exists n0; repeat split; auto|split; [lia|]]; intros u t I0 B;
          pose proof (Side _ _ I0); [apply (Abs _ _ (Sub _ I0))|apply (Life _ _ (Sub _ I0))]; lia.
      + apply filter_In in I. destruct I as [Ir _]. destruct (Rc r' Ir) as (Ok & B & Life).
        split; [exact (rec_ok_incl _ _ _ Sub Ok)|split; [exact B|]].
        intros u t I0. exact (Life u t (Sub _ I0)).
    - exact (NoDup_versions_filter (fun x => negb (x =? v)) f ND).
    - intros u t I. exact (Pos u t (Sub _ I)).
    - intros c tc n a ta Ic S Ia. exact (Lf _ _ _ _ _ (Sub _ Ic) S (Sub _ Ia)).
  Qed.

  Definition step_ok (f : lforest) (o : lop) : Prop :=
    match o with LCommit t => commit_ok f t | LDelete _ => True end.

  Definition next_state (st : ldb * lforest) (o : lop) : ldb * lforest :=
    match legacy_step H st o with Some st' => st' | None => st end.

  Fixpoint hist_ok (st : ldb * lforest) (ops : list lop) : Prop :=
    match ops with
    | [] => True
    | o :: rest => step_ok (snd st) o /\ hist_ok (next_state st o) rest
    end.

  Lemma step_inv st o :
    hinv (fst st) (snd st) -> step_ok (snd st) o ->
    hinv (fst (next_state st o)) (snd (next_state st o)).
  Proof.
    destruct st as [db f]. cbn [fst snd]. intros I Ok. unfold next_state, legacy_step.
    destruct o as [t|v].
    - rewrite (max_version_flatest _ _ (wi_roots _ _ _ (hi_w _ _ I))).
      destruct (legacy_commit H db (flatest f + 1) (latest_tree f (flatest f)) t) as [db'|] eqn:E;
        [|exact I].
      cbn [fst snd]. exact (commit_inv _ _ _ _ I Ok E).
    - destruct (legacy_delete_version db v) as [db'|] eqn:E; [|exact I].
      cbn [fst snd]. exact (delete_inv _ _ _ _ I E).
  Qed.

  Lemma history_from_inv ops : forall st,
    hinv (fst st) (snd st) -> hist_ok st ops ->
    hinv (fst (legacy_history_from H st ops)) (snd (legacy_history_from H st ops)).
  Proof.
    induction ops as [|o ops IH]; intros st I Ok; [exact I|].
    destruct Ok as [Ok1 Ok2]. cbn [legacy_history_from fold_left].
    apply (IH (next_state st o)); [apply step_inv; assumption|exact Ok2].
  Qed.

  Theorem history_inv ops :
    hist_ok (empty_ldb, []) ops ->
    hinv (fst (legacy_history H ops)) (snd (legacy_history H ops)).
  Proof. intros Ok. apply history_from_inv; [exact hinv_empty|exact Ok]. Qed.
End Inv.

(** ** The theorems, for an explicit universe of trees on which [H] has no collision *)
Definition sub_of (U : list node) (n : node) : Prop := exists t, In t U /\ subtree n t.

Definition hash_inj_on (H : bytes -> bytes) (U : list node) : Prop :=
  forall a b, sub_of U a -> sub_of U b -> nhash H a = nhash H b -> legacy_raw H a = legacy_raw H b.

Lemma sub_of_sub U a b : subtree a b -> sub_of U b -> sub_of U a.
Proof. intros S (t & I & S'). exists t. split; [exact I|exact (subtree_trans _ _ _ S S')]. Qed.

Lemma sub_of_root U t : In t U -> sub_of U t.
Proof. intros I. exists t. split; [exact I|apply sub_refl]. Qed.

(** a legacy history over the trees of [U]: every committed tree is one of [U], and each of its
    nodes is either stamped with the version being committed or a node of the latest version
    (what an M1 commit produces); deletions are unconstrained (a refused one changes nothing) *)
Definition legacy_hist_ok (H : bytes -> bytes) (U : list node) (ops : list lop) : Prop :=
  hist_ok H (sub_of U) (empty_ldb, []) ops.

Definition tree_storable (H : bytes -> bytes) (t : node) : Prop :=
  legacy_ok H t /\ NoDup (tree_hashes H t) /\ nhash H t <> [].

Lemma In_lookup {A} v (a : A) l : NoDup (map fst l) -> In (v, a) l -> lookup v l = Some a.
Proof.
  intros ND I. destruct (lookup v l) as [b|] eqn:Lk.
  - apply lookup_In in Lk. f_equal. exact (NoDup_fst_functional l v b a ND Lk I).
  - apply lookup_None in Lk. destruct Lk. apply in_map_iff. exists (v, a). auto.
Qed.

Lemma meta_eqb_eq a b : meta_eqb a b = true <-> a = b.
Proof.
  destruct a as [a1 a2 a3], b as [b1 b2 b3]. unfold meta_eqb. cbn [ver nonce hs].
  rewrite !andb_true_iff, !Z.eqb_eq, bytes_eqb_eq.
  split; [intros [[-> ->] ->]; reflexivity|intros Q; injection Q; auto].
Qed.

Lemma node_eqb_eq a : forall b, node_eqb a b = true <-> a = b.
Proof.
  induction a as [k v m|k h s m l IHl r IHr]; intros [k' v' m'|k' h' s' m' l' r'];
    cbn [node_eqb]; try (split; discriminate).
  - rewrite !andb_true_iff, !bytes_eqb_eq, meta_eqb_eq.
    split; [intros [[-> ->] ->]; reflexivity|intros Q; injection Q; auto].
  - rewrite !andb_true_iff, bytes_eqb_eq, !Z.eqb_eq, meta_eqb_eq, IHl, IHr.
    split; [intros [[[[[-> ->] ->] ->] ->] ->]; reflexivity|intros Q; injection Q; intuition].
Qed.

Section Final.
  Variable H : bytes -> bytes.

  Lemma roots_lookup db f v t :
    roots_ok H db f -> NoDup (map fst f) -> In (v, t) f ->
    lookup v (lroots db) = Some (legacy_root_value H t).
  Proof.
    intros R ND I. rewrite R. apply In_lookup; [rewrite map_map; exact ND|].
    apply in_map_iff. exists (v, t). auto.
  Qed.

  (** the Prop-level invariants imply the executable audit *)
  Lemma closed_closedb db f :
    closed H db f -> roots_ok H db f -> NoDup (map fst f) ->
    (forall v t, In (v, Some t) f -> tree_storable H t) ->
    legacy_closedb H db f = true.
  Proof.
    intros C R ND St. unfold legacy_closedb. apply forallb_forall. intros [v t] I.
    unfold version_closedb. cbn [fst snd].
    pose proof (roots_lookup db f v t R ND I) as Lk.
    rewrite Lk, bytes_eqb_refl. cbn [andb]. unfold legacy_open. rewrite Lk.
    destruct t as [t|]; cbn [legacy_root_value]; [|reflexivity].
    destruct (St v t I) as (Ok & NDt & Ne).
    fold (nhash H t). destruct (nhash H t) as [|b0 hh] eqn:Eh; [congruence|]. rewrite <- Eh.
    (* the fuel, the size of the table, is enough: the hashes of [t] are distinct keys of it *)
    assert (Incl : incl (tree_hashes H t) (map fst (lnodes db))).
    { intros h Ih. destruct (hash_sub H _ _ Ih) as (n & S & <-).
      apply in_map_iff. exists (nhash H n, legacy_raw H n). split; [reflexivity|].
      apply lfind_Some_In. exact (C _ _ I n S). }
    pose proof (NoDup_incl_length NDt Incl) as Len. unfold tree_hashes in Len.
    rewrite !map_length in Len. pose proof (ldepth_nodes H t) as Dp.
    rewrite (legacy_load_stored H t (lnodes db));
      [|unfold lstore_bytes; rewrite map_length; lia|exact Ok|exact (C _ _ I)].
    rewrite <- lview_eq. apply node_eqb_eq. reflexivity.
  Qed.

  Lemma winv_readable Univ R db f :
    winv_of H Univ R db f -> NoDup (map fst f) ->
    (forall v t, In (v, t) f -> lookup v (lroots db) = Some (legacy_root_value H t)) /\
    (forall v t n, In (v, Some t) f -> subtree n t ->
                   lfind (nhash H n) (lnodes db) = Some (legacy_raw H n)) /\
    ((forall v t, In (v, Some t) f -> tree_storable H t) -> legacy_closedb H db f = true).
  Proof.
    intros [C Ro _ _ _] ND. split; [|split].
    - intros v t. apply roots_lookup; assumption.
    - intros v t n I. exact (C v t I n).
    - intros St. apply closed_closedb; assumption.
  Qed.

  Variable U : list node.
  Hypothesis Inj : hash_inj_on H U.

  Let Usub := sub_of_sub U.

  Lemma final_hinv ops :
    legacy_hist_ok H U ops ->
    hinv H (sub_of U) (fst (legacy_history H ops)) (snd (legacy_history H ops)).
  Proof. intros Ok. exact (history_inv H (sub_of U) Usub Inj ops Ok). Qed.

  (** 1. after any legacy history every retained version is in the database: its root record
      and all its nodes; and (for trees the codec can store) loads back as the M1 tree *)
  Theorem legacy_writer_closed ops :
    legacy_hist_ok H U ops ->
    let db := fst (legacy_history H ops) in
    let f := snd (legacy_history H ops) in
    (forall v t, In (v, t) f -> lookup v (lroots db) = Some (legacy_root_value H t)) /\
    (forall v t n, In (v, Some t) f -> subtree n t ->
                   lfind (nhash H n) (lnodes db) = Some (legacy_raw H n)) /\
    ((forall v t, In (v, Some t) f -> tree_storable H t) -> legacy_closedb H db f = true).
  Proof.
    intros Ok db f. destruct (final_hinv ops Ok) as [W ND _ _].
    exact (winv_readable _ _ _ _ W ND).
  Qed.

  (** 2. the orphan records: [((to, from), h)] names a node created at version [from], present
      in every retained version of [from, to] and in no retained version after [to] *)
  Theorem orphan_records_sound ops :
    legacy_hist_ok H U ops ->
    let db := fst (legacy_history H ops) in
    let f := snd (legacy_history H ops) in
    forall to from h, In ((to, from), h) (lorph db) ->
      from <= to /\
      (exists n, sub_of U n /\ nhash H n = h /\ ver (nmeta n) = from) /\
      (forall v t, In (v, t) f -> from <= v <= to -> In h (otree_hashes H t)) /\
      (forall v t, In (v, t) f -> to < v -> ~ In h (otree_hashes H t)) /\
      (exists v t, In (v, t) f /\ to < v).
  Proof.
    intros Ok db f to from h I. destruct (final_hinv ops Ok) as [[C R V Uv Rc] ND Pos Lf].
    fold db f in Rc, Pos. destruct (Rc _ I) as ((n & Un & Eh & Ev & Abs) & (B0 & B1 & B2) & Life).
    unfold rec_life, orec_hash, orec_from, orec_to in *. cbn [fst snd] in *.
    split; [lia|]. split; [eauto|]. split; [exact Life|]. split; [exact Abs|].
    destruct (flatest_in f) as [E|[P Iv]]; [lia|]. apply in_map_iff in Iv.
    destruct Iv as ([v t] & E & Iv). cbn [fst] in E. exists v, t. split; [exact Iv|lia].
  Qed.

  (** 3. the legacy part of DeleteVersionsFrom(from) after a legacy history: it succeeds, the
      versions below [from] stay complete, the versions from [from] on lose their root
      records, no node of a version below [from] is deleted, nothing appears, the orphan
      records are untouched *)
  Theorem rollback_legacy_safe ops fuel from :
    legacy_hist_ok H U ops -> 1 <= from ->
    let db := fst (legacy_history H ops) in
    let f := snd (legacy_history H ops) in
    (forall v t, In (v, Some t) f -> (ldepth t <= fuel)%nat) ->
    let f' := filter (fun p => fst p <? from) f in
    exists db', rollback_legacy fuel db from = Some db' /\
      (forall v t, In (v, t) f' -> lookup v (lroots db') = Some (legacy_root_value H t)) /\
      (forall v t n, In (v, Some t) f' -> subtree n t ->
                     lfind (nhash H n) (lnodes db') = Some (legacy_raw H n)) /\
      ((forall v t, In (v, Some t) f' -> tree_storable H t) -> legacy_closedb H db' f' = true) /\
      (forall v, from <= v -> lookup v (lroots db') = None) /\
      (forall h n, lfind h (lnodes db) = Some n -> ln_version n < from ->
                   lfind h (lnodes db') = Some n) /\
      (forall h, lfind h (lnodes db) = None -> lfind h (lnodes db') = None) /\
      lorph db' = lorph db.
  Proof.
    intros Ok P db f Fu f'. pose proof (final_hinv ops Ok) as I. fold db f in I.
    destruct (rollback_legacy_inv H (sub_of U) Usub Inj db f fuel from (hinv_winv _ _ _ _ I) P Fu)
      as (db' & E & W' & A).
    fold f' in W'. exists db'. split; [exact E|].
    destruct (winv_readable _ _ _ _ W' (NoDup_versions_filter (fun x => x <? from) f (hi_nodup _ _ _ _ I)))
      as (A1 & A2 & A3).
    split; [exact A1|split; [exact A2|split; [exact A3|exact A]]].
  Qed.

  (** 4. deleteLegacyVersions.  [tL1]: the tree of the first new-format version, committed on
      top of the retained legacy version [L]; its nodes of version <= L are nodes of the tree
      of [L] (stored in the legacy table), the others are new-format nodes.  All the legacy
      nodes of [tL1] survive, nothing appears, no root record and no orphan record is left.
      Holds right after a legacy history ... *)
  Definition on_top_of (L : Z) (tL tL1 : option node) : Prop :=
    forall t1, tL1 = Some t1 ->
      sub_of U t1 /\
      forall n, subtree n t1 -> ver (nmeta n) <= L -> exists t, tL = Some t /\ subtree n t.

  Definition legacy_part_kept (db' : ldb) (L : Z) (tL1 : option node) : Prop :=
    forall t1 n, tL1 = Some t1 -> subtree n t1 -> ver (nmeta n) <= L ->
                 lfind (nhash H n) (lnodes db') = Some (legacy_raw H n).

  Theorem delete_legacy_versions_safe ops L tL tL1 :
    legacy_hist_ok H U ops ->
    let db := fst (legacy_history H ops) in
    let f := snd (legacy_history H ops) in
    In (L, tL) f -> on_top_of L tL tL1 ->
    let db' := delete_legacy_versions H db L tL tL1 in
    legacy_part_kept db' L tL1 /\
    (forall h, lfind h (lnodes db) = None -> lfind h (lnodes db') = None) /\
    lroots db' = [] /\ lorph db' = [].
  Proof.
    intros Ok db f IL Top db'. pose proof (hinv_winv _ _ _ _ (final_hinv ops Ok)) as W. fold db f in W.
    exact (delete_legacy_versions_inv H (sub_of U) Usub Inj db f L tL tL1 W IL Top).
  Qed.

  (** ... and after a rollback into the legacy versions (orphan records of the rolled-back
      versions are still there: the case the guard [toVersion < L] is about) *)
  Theorem delete_legacy_versions_safe_after_rollback ops fuel from dbr L tL tL1 :
    legacy_hist_ok H U ops -> 1 <= from ->
    let db := fst (legacy_history H ops) in
    let f := snd (legacy_history H ops) in
    (forall v t, In (v, Some t) f -> (ldepth t <= fuel)%nat) ->
    rollback_legacy fuel db from = Some dbr ->
    In (L, tL) (filter (fun p => fst p <? from) f) -> on_top_of L tL tL1 ->
    let db' := delete_legacy_versions H dbr L tL tL1 in
    legacy_part_kept db' L tL1 /\
    (forall h, lfind h (lnodes dbr) = None -> lfind h (lnodes db') = None) /\
    lroots db' = [] /\ lorph db' = [].
  Proof.
    intros Ok P db f Fu E IL Top db'. pose proof (hinv_winv _ _ _ _ (final_hinv ops Ok)) as W.
    fold db f in W.
    destruct (rollback_legacy_inv H (sub_of U) Usub Inj db f fuel from W P Fu)
      as (dbr' & E' & W' & _).
    rewrite E in E'. injection E' as <-.
    exact (delete_legacy_versions_inv H (sub_of U) Usub Inj dbr _ L tL tL1 W' IL Top).
  Qed.
End Final.

(** ** Boolean checkers for the hypotheses (used by the examples) *)
Fixpoint subtreeb (n t : node) : bool :=
  node_eqb n t ||
  match t with
  | Leaf _ _ _ => false
  | Inner _ _ _ _ l r => subtreeb n l || subtreeb n r
  end.

Lemma subtreeb_sound n t : subtreeb n t = true -> subtree n t.
Proof.
  induction t as [k v m|k h s m l IHl r IHr]; cbn [subtreeb]; intros B;
    apply orb_prop in B; destruct B as [B|B];
    try (apply node_eqb_eq in B; subst; apply sub_refl); try discriminate.
  apply orb_prop in B. destruct B as [B|B]; [apply sub_left|apply sub_right]; auto.
Qed.

Fixpoint all_nodesb (P : node -> bool) (t : node) : bool :=
  P t && match t with
         | Leaf _ _ _ => true
         | Inner _ _ _ _ l r => all_nodesb P l && all_nodesb P r
         end.

Lemma all_nodesb_sound P t : all_nodesb P t = true -> forall n, subtree n t -> P n = true.
Proof.
  intros B n S. induction S as [t|u k h s m l r S IH|u k h s m l r S IH].
  - destruct t; apply andb_prop in B; tauto.
  - apply IH. cbn [all_nodesb] in B. rewrite !andb_true_iff in B. tauto.
  - apply IH. cbn [all_nodesb] in B. rewrite !andb_true_iff in B. tauto.
Qed.

Lemma inU_nodesb_sound U Q c :
  existsb (node_eqb c) U && all_nodesb Q c = true ->
  sub_of U c /\ forall n, subtree n c -> Q n = true.
Proof.
  intros B. apply andb_prop in B. destruct B as [B1 B2]. split; [|apply all_nodesb_sound, B2].
  apply existsb_exists in B1. destruct B1 as (c' & I & E). apply node_eqb_eq in E. subst c'.
  apply sub_of_root, I.
Qed.

Definition commit_okb (U : list node) (f : lforest) (t : option node) : bool :=
  match t with
  | None => true
  | Some c =>
      existsb (node_eqb c) U &&
      all_nodesb (fun n => (ver (nmeta n) =? flatest f + 1) ||
                           match latest_tree f (flatest f) with
                           | Some p => subtreeb n p
                           | None => false
                           end) c
  end.

Lemma commit_okb_sound U f t : commit_okb U f t = true -> commit_ok (sub_of U) f t.
Proof.
  intros B c ->. destruct (inU_nodesb_sound _ _ _ B) as [Uc A]. split; [exact Uc|].
  intros n S. pose proof (A n S) as Bn. cbv beta in Bn.
  apply orb_prop in Bn. destruct Bn as [Bn|Bn]; [left; apply Z.eqb_eq, Bn|right].
  destruct (latest_tree f (flatest f)) as [p|]; [|discriminate].
  exists p. split; [reflexivity|apply subtreeb_sound, Bn].
Qed.

Fixpoint hist_okb (H : bytes -> bytes) (U : list node) (st : ldb * lforest) (ops : list lop) : bool :=
  match ops with
  | [] => true
  | o :: rest =>
      match o with LCommit t => commit_okb U (snd st) t | LDelete _ => true end &&
      hist_okb H U (next_state H st o) rest
  end.

Lemma hist_okb_sound H U ops : forall st,
  hist_okb H U st ops = true -> hist_ok H (sub_of U) st ops.
Proof.
  induction ops as [|o ops IH]; intros st B; cbn [hist_ok]; [exact I|].
  cbn [hist_okb] in B. apply andb_prop in B. destruct B as [B1 B2]. split; [|apply IH, B2].
  destruct o as [t|v]; cbn [step_ok]; [apply commit_okb_sound, B1|exact I].
Qed.

Definition legacy_hist_okb (H : bytes -> bytes) (U : list node) (ops : list lop) : bool :=
  hist_okb H U (empty_ldb, []) ops.

Lemma legacy_hist_okb_sound H U ops : legacy_hist_okb H U ops = true -> legacy_hist_ok H U ops.
Proof. apply hist_okb_sound. Qed.

Lemma obytes_eqb_true a b : obytes_eqb a b = true -> a = b.
Proof.
  destruct a, b; cbn [obytes_eqb]; try discriminate; [|reflexivity].
  intros B. apply bytes_eqb_true in B. congruence.
Qed.

Lemma raw_eqb_true a b : raw_eqb a b = true -> a = b.
Proof.
  unfold raw_eqb. intros B.
  repeat (apply andb_prop in B; let X := fresh "B" in destruct B as [B X]).
  apply Z.eqb_eq in B, B5, B4. apply bytes_eqb_true in B3, B1, B0. apply obytes_eqb_true in B2.
  destruct a as [a1 a2 a3 a4 a5 a6 a7], b as [b1 b2 b3 b4 b5 b6 b7].
  cbn [ln_height ln_size ln_version ln_key ln_value ln_left ln_right] in *. congruence.
Qed.

Lemma functionalb_sound l :
  functionalb l = true -> forall h a b, In (h, a) l -> In (h, b) l -> a = b.
Proof.
  induction l as [|[h0 n0] l IH]; cbn [functionalb]; intros B h a b Ia Ib; [destruct Ia|].
  apply andb_prop in B. destruct B as [B1 B2].
  assert (Hd : forall x, In (h0, x) l -> n0 = x).
  { intros x Ix. pose proof (proj1 (forallb_forall _ _) B1 _ Ix) as Q. cbn [fst snd] in Q.
    rewrite bytes_eqb_refl in Q. cbn [negb orb] in Q. apply raw_eqb_true, Q. }
  destruct Ia as [Ea|Ia], Ib as [Eb|Ib].
  - congruence.
  - injection Ea as -> ->. apply Hd, Ib.
  - injection Eb as -> ->. symmetry. apply Hd, Ia.
  - exact (IH B2 h a b Ia Ib).
Qed.

Lemma hash_inj_listb_sound H U : hash_inj_listb H U = true -> hash_inj_on H U.
Proof.
  intros B a b (ta & Ia & Sa) (tb & Ib & Sb) E.
  apply (functionalb_sound _ B (nhash H a)).
  - apply in_flat_map. exists ta. split; [exact Ia|]. apply legacy_nodes_subtree, Sa.
  - rewrite E. apply in_flat_map. exists tb. split; [exact Ib|]. apply legacy_nodes_subtree, Sb.
Qed.

Definition tree_storableb (H : bytes -> bytes) (t : node) : bool :=
  legacy_okb H t && nodupb (tree_hashes H t) &&
  match nhash H t with [] => false | _ => true end.

Lemma tree_storableb_sound H t : tree_storableb H t = true -> tree_storable H t.
Proof.
  unfold tree_storableb. intros B. apply andb_prop in B. destruct B as [B B3].
  apply andb_prop in B. destruct B as [B1 B2]. split; [apply legacy_okb_sound, B1|].
  split; [apply nodupb_sound, B2|]. destruct (nhash H t); [discriminate|discriminate].
Qed.

Fixpoint ldepthb_le (fuel : nat) (t : node) : bool :=
  match fuel with
  | O => false
  | S f => match t with
           | Leaf _ _ _ => true
           | Inner _ _ _ _ l r => ldepthb_le f l && ldepthb_le f r
           end
  end.

Lemma ldepthb_le_sound t : forall fuel, ldepthb_le fuel t = true -> (ldepth t <= fuel)%nat.
Proof.
  induction t as [k v m|k h s m l IHl r IHr]; intros [|f]; cbn [ldepthb_le ldepth];
    try discriminate; [lia|].
  intros B. apply andb_prop in B. destruct B as [B1 B2]. apply IHl in B1. apply IHr in B2. lia.
Qed.

Definition forest_allb (P : node -> bool) (f : lforest) : bool :=
  forallb (fun p => match snd p with Some t => P t | None => true end) f.

Lemma forest_allb_sound P f :
  forest_allb P f = true -> forall v t, In (v, Some t) f -> P t = true.
Proof. intros B v t I. exact (proj1 (forallb_forall _ _) B _ I). Qed.

Definition on_top_ofb (U : list node) (L : Z) (tL tL1 : option node) : bool :=
  match tL1 with
  | None => true
  | Some t1 =>
      existsb (node_eqb t1) U &&
      all_nodesb (fun n => (L <? ver (nmeta n)) ||
                           match tL with Some t => subtreeb n t | None => false end) t1
  end.

Lemma on_top_ofb_sound U L tL tL1 : on_top_ofb U L tL tL1 = true -> on_top_of U L tL tL1.
Proof.
  intros B t1 ->. destruct (inU_nodesb_sound _ _ _ B) as [Ut A]. split; [exact Ut|].
  intros n S Vn. pose proof (A n S) as Bn. cbv beta in Bn.
  apply orb_prop in Bn. destruct Bn as [Bn|Bn]; [apply Z.ltb_lt in Bn; lia|].
  destruct tL as [t|]; [|discriminate]. exists t. split; [reflexivity|apply subtreeb_sound, Bn].
Qed.

Lemma latest_tree_In (f : lforest) v from :
  v < from -> (exists t, lookup v f = Some t) ->
  In (v, latest_tree f v) (filter (fun p => fst p <? from) f).
Proof.
  intros Lt [t Lk]. unfold latest_tree. rewrite Lk. apply lookup_In.
  rewrite (lookup_filter (fun x => x <? from)). apply Z.ltb_lt in Lt. rewrite Lt. exact Lk.
Qed.

(** ** Evaluation with a table of hashes
    The model hashes a node anew wherever it needs its hash, so the evaluation of a history
    applies the hash function to the same few strings hundreds of times.  Everything above
    depends on [H] through its values only: [H] may be replaced by a function that looks its
    argument up in a table of precomputed values first. *)
Section HashExt.
  Variables H H' : bytes -> bytes.
  Hypothesis HE : forall b, H b = H' b.

  Lemma legacy_raw_hext t : legacy_raw H t = legacy_raw H' t.
  Proof. destruct t; cbn [legacy_raw]; rewrite ?(pure_hash_hext _ _ HE); reflexivity. Qed.

  Lemma legacy_nodes_hext t : legacy_nodes H t = legacy_nodes H' t.
  Proof.
    induction t as [k v m|k h s m l IHl r IHr]; cbn [legacy_nodes];
      rewrite (pure_hash_hext _ _ HE), legacy_raw_hext; [|rewrite IHl, IHr]; reflexivity.
  Qed.

  Lemma otree_hashes_hext t : otree_hashes H t = otree_hashes H' t.
  Proof. destruct t; cbn [otree_hashes]; unfold tree_hashes; rewrite ?legacy_nodes_hext; reflexivity. Qed.

  Lemma legacy_root_value_hext t : legacy_root_value H t = legacy_root_value H' t.
  Proof. destruct t; cbn [legacy_root_value]; rewrite ?(pure_hash_hext _ _ HE); reflexivity. Qed.

  Lemma save_branch_hext w t : save_branch H w t = save_branch H' w t.
  Proof.
    induction t as [k v m|k h s m l IHl r IHr]; cbn [save_branch]; unfold nhash;
      rewrite (pure_hash_hext _ _ HE), legacy_raw_hext; [|rewrite IHl, IHr]; reflexivity.
  Qed.

  Lemma lview_hext t : lview H t = lview H' t.
  Proof.
    induction t as [k v m|k h s m l IHl r IHr]; cbn [lview]; unfold nhash;
      rewrite (pure_hash_hext _ _ HE); [|rewrite IHl, IHr]; reflexivity.
  Qed.

  Lemma legacy_step_hext st o : legacy_step H st o = legacy_step H' st o.
  Proof.
    destruct st as [db f], o as [cur|v]; cbn [legacy_step]; [|reflexivity].
    unfold legacy_commit, orphans_of.
    rewrite otree_hashes_hext, legacy_root_value_hext.
    destruct (latest_tree f _) as [p|]; [rewrite legacy_nodes_hext|];
      destruct cur as [c|]; rewrite ?save_branch_hext; reflexivity.
  Qed.

  Lemma legacy_history_hext ops : legacy_history H ops = legacy_history H' ops.
  Proof.
    unfold legacy_history. generalize (empty_ldb, @nil (Z * option node)).
    induction ops as [|o ops IH]; intros st; cbn [legacy_history_from fold_left]; [reflexivity|].
    rewrite legacy_step_hext. apply IH.
  Qed.

  Lemma legacy_history_log_hext ops : forall st,
    legacy_history_log H st ops = legacy_history_log H' st ops.
  Proof.
    induction ops as [|o ops IH]; intros st; cbn [legacy_history_log]; [reflexivity|].
    rewrite legacy_step_hext. destruct (legacy_step H' st o); rewrite IH; reflexivity.
  Qed.

  Lemma legacy_hist_okb_hext U ops : legacy_hist_okb H U ops = legacy_hist_okb H' U ops.
  Proof.
    unfold legacy_hist_okb. generalize (empty_ldb, @nil (Z * option node)).
    induction ops as [|o ops IH]; intros st; cbn [hist_okb]; [reflexivity|].
    unfold next_state. rewrite legacy_step_hext, IH. reflexivity.
  Qed.

  Lemma hash_inj_listb_hext ts : hash_inj_listb H ts = hash_inj_listb H' ts.
  Proof. unfold hash_inj_listb. f_equal. apply flat_map_ext, legacy_nodes_hext. Qed.

  Lemma legacy_closedb_hext db f : legacy_closedb H db f = legacy_closedb H' db f.
  Proof.
    unfold legacy_closedb. induction f as [|[v t] f IH]; cbn [forallb]; [reflexivity|].
    rewrite IH. f_equal. unfold version_closedb. rewrite legacy_root_value_hext.
    destruct t; cbn [snd]; rewrite ?lview_hext; reflexivity.
  Qed.

  Lemma delete_legacy_versions_with_hext g db L tL tL1 :
    delete_legacy_versions_with H g db L tL tL1 = delete_legacy_versions_with H' g db L tL tL1.
  Proof.
    unfold delete_legacy_versions_with, orphan_diff. rewrite !otree_hashes_hext. reflexivity.
  Qed.

  Lemma legacy_lost_hext db tL tL1 : legacy_lost H db tL tL1 = legacy_lost H' db tL tL1.
  Proof. unfold legacy_lost. rewrite !otree_hashes_hext. reflexivity. Qed.

  Lemma legacy_unreachable_hext db t : legacy_unreachable H db t = legacy_unreachable H' db t.
  Proof. unfold legacy_unreachable. rewrite otree_hashes_hext. reflexivity. Qed.

  Lemma legacy_garbage_hext db f : legacy_garbage H db f = legacy_garbage H' db f.
  Proof.
    unfold legacy_garbage.
    rewrite (flat_map_ext _ _ (fun p => otree_hashes_hext (snd p))). reflexivity.
  Qed.
  Lemma legacy_okb_hext t : legacy_okb H t = legacy_okb H' t.
  Proof.
    induction t as [k v m|k h s m l IHl r IHr]; cbn [legacy_okb]; rewrite legacy_raw_hext;
      [|rewrite IHl, IHr]; reflexivity.
  Qed.

  Lemma tree_storableb_hext t : tree_storableb H t = tree_storableb H' t.
  Proof.
    unfold tree_storableb, tree_hashes, nhash.
    rewrite legacy_okb_hext, legacy_nodes_hext, (pure_hash_hext _ _ HE). reflexivity.
  Qed.
End HashExt.

(** the strings hashed by [pure_hash H 0] in a tree *)
Fixpoint preimages (H : bytes -> bytes) (t : node) : list bytes :=
  match t with
  | Leaf k v m => [v; leaf_preimage H (ver m) k v]
  | Inner _ h s m l r =>
      preimages H l ++ preimages H r ++
      [inner_preimage h s (ver m) (pure_hash H 0 l) (pure_hash H 0 r)]
  end.

(** ** Refutations of the seeded variants, and of exactness, on concrete histories (SHA-256).
    A seeded variant is one of the trial changes to the Go code kept as patches under
    /verif/seeded/, cited by directory name (seeded/C16, seeded/C16b, seeded/C16e). *)
Definition m1_forest (ops : list op) : lforest :=
  forest (fst (MTree.run sha256 (init_state 0 false) ops)).
Definition with_tree (U : list node) (t : option node) : list node :=
  match t with Some n => U ++ [n] | None => U end.

(** [refA_ops]: v1 = {a, b}, v2 = v1 committed without changes, v3 adds c *)
Definition refA_ops : list lop :=
  Eval vm_compute in
  commits_of (m1_forest [OSet [97%N] [1%N]; OSet [98%N] [2%N]; OSave; OSave;
                         OSet [99%N] [3%N]; OSave]).

(** [refC_ops]: three legacy versions; version 3 replaces the value of key 2.  Rollback to version 2
    (DeleteVersionsFrom(3)): the orphan records written by the commit of version 3 stay, with
    [to = 2 =] the new latest legacy version.  Version 3' (new format, adds key 5) still uses
    the nodes they name. *)
Definition refC_m1 : list op :=
  [OSet [1%N] [10%N]; OSet [2%N] [20%N]; OSet [3%N] [30%N]; OSave; OSet [4%N] [40%N]; OSave;
   OSet [2%N] [21%N]; OSave].
Definition refC_ops : list lop := Eval vm_compute in commits_of (m1_forest refC_m1).
Definition refC_new : option node :=
  Eval vm_compute in
  latest_tree (m1_forest (refC_m1 ++ [OLvfo 2; OSet [5%N] [50%N]; OSave])) 3.

(** [refD_ops], against exactness of the final clean-up (REFUTED for the transcribed code).
    Legacy versions 1, 2, 3; the leaf
    of key 3 is created by version 2 and still used by version 3; the legacy library deletes
    version 2.  DeleteVersionsFrom(2): the only root record left in [2, 3] is [r<3>], and
    deleteLegacyNodes(3, ..) skips every node of version 2: that leaf stays in the table, no
    retained version reaches it and no orphan record names it.  After the commit of 2' and
    deleteLegacyVersions(1) it is still there, unreachable from the tree of 2'.  Nothing that
    must remain is lost. *)
Definition refD_m1 : list op :=
  [OSet [1%N] [10%N]; OSet [2%N] [20%N]; OSave; OSet [3%N] [30%N]; OSave; OSet [4%N] [40%N]; OSave].
Definition refD_ops : list lop :=
  Eval vm_compute in commits_of (m1_forest refD_m1) ++ [LDelete 2].
Definition refD_new : option node :=
  Eval vm_compute in
  latest_tree (m1_forest (refD_m1 ++ [OLvfo 1; OSet [5%N] [50%N]; OSave])) 2.

(** the hashes of the nodes of these three histories *)
Definition ref_table : kvs :=
  Eval vm_compute in
  table_of sha256 (flat_map (preimages sha256)
    (with_tree (with_tree (trees_of_ops (refA_ops ++ refC_ops ++ refD_ops)) refC_new) refD_new)).

Lemma ref_table_ok b : sha256 b = memo sha256 ref_table b.
Proof. revert b. apply memo_sound. vm_compute. reflexivity. Qed.

(** seeded/C16e.  DeleteVersionsFrom(2) with the children-test variant of deleteLegacyNodes
    deletes the root node that [r<2>] points to, which is the root of version 1: version 1
    no longer loads.  The transcribed code keeps it. *)
Theorem rollback_children_test_refuted :
  exists (ops : list lop) (from : Z),
    let db := fst (legacy_history sha256 ops) in
    let f := snd (legacy_history sha256 ops) in
    let f' := filter (fun p => fst p <? from) f in
    legacy_hist_okb sha256 (trees_of_ops ops) ops = true /\
    hash_inj_listb sha256 (trees_of_ops ops) = true /\
    legacy_closedb sha256 db f = true /\
    match rollback_legacy_children_test (legacy_fuel db) db from,
          rollback_legacy (legacy_fuel db) db from with
    | Some bad, Some good =>
        legacy_closedb sha256 bad f' = false /\ legacy_closedb sha256 good f' = true /\
        existsb (fun p => (ln_version (snd p) <? from) &&
                          negb (hmem (fst p) (map fst (lnodes bad)))) (lnodes db) = true
    | _, _ => False
    end.
Proof.
  exists refA_ops, 2. cbv zeta.
  rewrite (legacy_history_hext _ _ ref_table_ok), (legacy_hist_okb_hext _ _ ref_table_ok),
    (hash_inj_listb_hext _ _ ref_table_ok).
  do 3 (split; [vm_compute; reflexivity|]).
  eval_match. eval_match.
  rewrite !(legacy_closedb_hext _ _ ref_table_ok). vm_compute. repeat split; reflexivity.
Qed.

(** seeded/C16: the sweep guard [toVersion <= L] deletes legacy nodes of the first new
    version; the guard [toVersion < L] does not *)
Theorem sweep_guard_le_refuted :
  exists (ops : list lop) (from L : Z) (tL1 : option node),
    let db := fst (legacy_history sha256 ops) in
    let f := snd (legacy_history sha256 ops) in
    let tL := latest_tree f L in
    let U := with_tree (trees_of_ops ops) tL1 in
    legacy_hist_okb sha256 U ops = true /\ hash_inj_listb sha256 U = true /\
    on_top_ofb U L tL tL1 = true /\
    match rollback_legacy (legacy_fuel db) db from with
    | Some dbr =>
        legacy_latest dbr = L /\
        legacy_lost sha256 (delete_legacy_versions_le sha256 dbr L tL tL1) tL tL1 <> [] /\
        legacy_lost sha256 (delete_legacy_versions sha256 dbr L tL tL1) tL tL1 = []
    | None => False
    end.
Proof.
  exists refC_ops, 3, 2, refC_new. cbv zeta.
  rewrite (legacy_history_hext _ _ ref_table_ok), (legacy_hist_okb_hext _ _ ref_table_ok),
    (hash_inj_listb_hext _ _ ref_table_ok).
  do 3 (split; [vm_compute; reflexivity|]).
  eval_match.
  unfold delete_legacy_versions_le, delete_legacy_versions.
  rewrite !(legacy_lost_hext _ _ ref_table_ok), !(delete_legacy_versions_with_hext _ _ ref_table_ok).
  vm_compute. repeat split; try reflexivity. discriminate.
Qed.

(** [refE_forest]: one legacy version, one new version on top, DeleteVersionsTo(1).
    seeded/C16b: with [legacyLatestVersion > first] the legacy clean-up is skipped and the root
    record [r<1>] stays *)
Definition refE_forest : lforest :=
  m1_forest [OSet [1%N] [10%N]; OSave; OSet [2%N] [20%N]; OSave].

Theorem prune_legacy_gt_refuted :
  let db := fst (legacy_history sha256 (commits_of (firstn 1 refE_forest))) in
  let tL := latest_tree refE_forest 1 in
  let tL1 := latest_tree refE_forest 2 in
  legacy_latest db = 1 /\
  match prune_legacy sha256 db 1 1 2 tL tL1, prune_legacy_gt sha256 db 1 1 2 tL tL1 with
  | Some good, Some bad => lroots good = [] /\ lroots bad <> [] /\ legacy_lost sha256 good tL tL1 = []
  | _, _ => False
  end.
Proof. vm_compute. repeat split; try reflexivity. discriminate. Qed.

Theorem delete_legacy_versions_exact_refuted :
  exists (ops : list lop) (from L : Z) (tL1 : option node),
    let db := fst (legacy_history sha256 ops) in
    let f := snd (legacy_history sha256 ops) in
    let f' := filter (fun p => fst p <? from) f in
    let tL := latest_tree f L in
    let U := with_tree (trees_of_ops ops) tL1 in
    legacy_hist_okb sha256 U ops = true /\ hash_inj_listb sha256 U = true /\
    on_top_ofb U L tL tL1 = true /\
    legacy_garbage sha256 db f = [] /\
    match rollback_legacy (legacy_fuel db) db from with
    | Some dbr =>
        legacy_latest dbr = L /\ legacy_closedb sha256 dbr f' = true /\
        legacy_garbage sha256 dbr f' <> [] /\
        let db' := delete_legacy_versions sha256 dbr L tL tL1 in
        legacy_unreachable sha256 db' tL1 <> [] /\ legacy_lost sha256 db' tL tL1 = []
    | None => False
    end.
Proof.
  exists refD_ops, 2, 1, refD_new. cbv zeta.
  rewrite (legacy_history_hext _ _ ref_table_ok), (legacy_hist_okb_hext _ _ ref_table_ok),
    (hash_inj_listb_hext _ _ ref_table_ok), (legacy_garbage_hext _ _ ref_table_ok).
  do 4 (split; [vm_compute; reflexivity|]).
  eval_match.
  unfold delete_legacy_versions.
  rewrite (legacy_closedb_hext _ _ ref_table_ok), (legacy_garbage_hext _ _ ref_table_ok),
    (legacy_unreachable_hext _ _ ref_table_ok), (legacy_lost_hext _ _ ref_table_ok),
    !(delete_legacy_versions_with_hext _ _ ref_table_ok).
  vm_compute. repeat split; try reflexivity; discriminate.
Qed.
