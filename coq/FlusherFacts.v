(** Theorems about the BatchWithFlusher model ([Flusher.v]).  The state machine computes the
    greedy segmentation [segs] ([fl_batches_segs]); what is said of the physical batches
    (concatenation, size bound, maximality, cut positions) is an induction along it ([segs_ind]);
    the database level follows from the concatenation.  [ffl_commit_cases] gives every outcome
    over a backend whose [n]-th write fails. *)
From IAVL Require Import Bytes VMap Flusher ListFacts.
Local Open Scope Z_scope.

(** * Sizes *)

Lemma blen_nonneg b : 0 <= blen b.
Proof. unfold blen. lia. Qed.

Lemma op_size_nonneg o : 0 <= op_size o.
Proof.
  destruct o as [k v|k]; cbn [op_size].
  - pose proof (blen_nonneg k). pose proof (blen_nonneg v). lia.
  - apply blen_nonneg.
Qed.

Lemma batch_size_app a b : batch_size (a ++ b) = batch_size a + batch_size b.
Proof. unfold batch_size. induction a as [|o a IH]; cbn [app fold_right]; lia. Qed.

Lemma batch_size_cons o b : batch_size (o :: b) = op_size o + batch_size b.
Proof. reflexivity. Qed.

Lemma batch_size_single o : batch_size [o] = op_size o.
Proof. unfold batch_size. cbn [fold_right]. lia. Qed.

Lemma batch_size_nonneg b : 0 <= batch_size b.
Proof.
  induction b as [|o b IH]; [unfold batch_size; cbn [fold_right]; lia|].
  rewrite batch_size_cons. pose proof (op_size_nonneg o). lia.
Qed.

Lemma op_estimate_eq cur o : op_estimate cur o = cur + op_size o + 100.
Proof.
  destruct o as [k v|k]; unfold op_estimate, estimate, op_size, blen; cbn [length]; lia.
Qed.

(** * The state machine computes the greedy segmentation *)

(** the wrapper's view of [GetByteSize] agrees with the contents of the installed batch *)
Definition sized (st : fl) : Prop := psize st = batch_size (pending st).

Lemma fl_step_unfold th st o :
  fl_step th st o = fl_add o (if op_estimate (psize st) o >? th then fl_write st else st).
Proof. destruct o as [k v|k]; reflexivity. Qed.

(** one operation: when its size and the 100 bytes of over-accounting do not fit, the installed
    batch is written and the operation starts the next one *)
Lemma fl_step_eq th st o :
  fl_step th st o =
  if psize st + op_size o + 100 >? th then mkFl [o] (op_size o) (written st ++ [pending st])
  else mkFl (pending st ++ [o]) (psize st + op_size o) (written st).
Proof.
  rewrite fl_step_unfold, op_estimate_eq. destruct (psize st + op_size o + 100 >? th); reflexivity.
Qed.

Lemma fl_run_from_cons th o r st :
  fl_run_from th (o :: r) st = fl_run_from th r (fl_step th st o).
Proof. reflexivity. Qed.

Lemma fl_run_from_app th a b st :
  fl_run_from th (a ++ b) st = fl_run_from th b (fl_run_from th a st).
Proof. unfold fl_run_from. apply fold_left_app. Qed.

Lemma segs_cons th o r p :
  segs th (o :: r) p =
  if batch_size p + op_size o + 100 >? th then p :: segs th r [o] else segs th r (p ++ [o]).
Proof. cbn [segs]. rewrite op_estimate_eq. reflexivity. Qed.

Lemma segs_ind th (P : list bop -> list bop -> Prop) :
  (forall p, P [] p) ->
  (forall o r p, batch_size p + op_size o + 100 > th ->
     segs th (o :: r) p = p :: segs th r [o] -> P r [o] -> P (o :: r) p) ->
  (forall o r p, batch_size p + op_size o + 100 <= th ->
     segs th (o :: r) p = segs th r (p ++ [o]) -> P r (p ++ [o]) -> P (o :: r) p) ->
  forall ops p, P ops p.
Proof.
  intros P0 Pcut Pjoin. induction ops as [|o r IH]; intros p; [apply P0|].
  pose proof (segs_cons th o r p) as E. destruct (batch_size p + op_size o + 100 >? th) eqn:T.
  - apply Pcut; [lia|exact E|apply IH].
  - apply Pjoin; [lia|exact E|apply IH].
Qed.

Lemma fl_step_sized th st o : sized st -> sized (fl_step th st o).
Proof.
  unfold sized. intros Hs. rewrite fl_step_eq.
  destruct (psize st + op_size o + 100 >? th); cbn [psize pending].
  - rewrite batch_size_single. reflexivity.
  - rewrite batch_size_app, batch_size_single, Hs. reflexivity.
Qed.

Lemma fl_run_segs th ops : forall st, sized st ->
  written (fl_write (fl_run_from th ops st)) = written st ++ segs th ops (pending st)
  /\ sized (fl_run_from th ops st).
Proof.
  induction ops as [|o r IH]; intros st Hs.
  - split; [reflexivity|exact Hs].
  - rewrite fl_run_from_cons, segs_cons.
    destruct (IH _ (fl_step_sized th st o Hs)) as [H1 H2]. split; [|exact H2].
    unfold sized in Hs. rewrite H1, fl_step_eq, <- Hs.
    destruct (psize st + op_size o + 100 >? th); cbn [written pending].
    + rewrite <- app_assoc. reflexivity.
    + reflexivity.
Qed.

Lemma sized_init : sized fl_init.
Proof. reflexivity. Qed.

Theorem fl_batches_segs th ops : fl_batches th ops = segs th ops [].
Proof.
  unfold fl_batches, fl_run.
  destruct (fl_run_segs th ops fl_init sized_init) as [H _]. exact H.
Qed.

Theorem fl_run_sized th ops : sized (fl_run th ops).
Proof. apply (fl_run_segs th ops fl_init sized_init). Qed.

(** * Properties of the segmentation *)

Lemma segs_concat th : forall ops p, concat (segs th ops p) = p ++ ops.
Proof.
  refine (segs_ind th _ _ _ _).
  - intros p. cbn [segs concat]. rewrite !app_nil_r. reflexivity.
  - intros o r p _ E IH. rewrite E. cbn [concat]. rewrite IH. reflexivity.
  - intros o r p _ E IH. rewrite E, IH, <- app_assoc. reflexivity.
Qed.

Lemma segs_head th : forall ops p, exists q rest, segs th ops p = (p ++ q) :: rest.
Proof.
  refine (segs_ind th _ _ _ _).
  - intros p. exists [], []. rewrite app_nil_r. reflexivity.
  - intros o r p _ E _. exists [], (segs th r [o]). rewrite E, app_nil_r. reflexivity.
  - intros o r p _ E (q & rest & IH). exists (o :: q), rest. rewrite E, IH, <- app_assoc. reflexivity.
Qed.

(** 1. nothing lost, duplicated, reordered *)
Theorem fl_concat th ops : concat (fl_batches th ops) = ops.
Proof. rewrite fl_batches_segs, segs_concat. reflexivity. Qed.

Theorem fl_batches_contiguous th ops i :
  ops = concat (firstn i (fl_batches th ops)) ++ nth i (fl_batches th ops) []
        ++ concat (skipn (S i) (fl_batches th ops)).
Proof.
  rewrite <- (fl_concat th ops) at 1.
  generalize (fl_batches th ops) as bs. intros bs. revert i.
  induction bs as [|b bs IH]; intros i.
  - destruct i; reflexivity.
  - destruct i as [|i].
    + reflexivity.
    + cbn [firstn nth skipn concat]. rewrite (IH i) at 1. rewrite <- app_assoc. reflexivity.
Qed.

(** 2. size bound.  A batch is empty, a single operation, or its size plus the 100 bytes of
    over-accounting is within the threshold. *)
Definition ok_batch (th : Z) (b : list bop) : Prop :=
  b = [] \/ (exists o, b = [o]) \/ batch_size b + 100 <= th.

Lemma segs_bound th : forall ops p, ok_batch th p -> Forall (ok_batch th) (segs th ops p).
Proof.
  refine (segs_ind th _ _ _ _).
  - intros p Hp. constructor; [exact Hp|constructor].
  - intros o r p _ E IH Hp. rewrite E. constructor; [exact Hp|]. apply IH. right; left. exists o. reflexivity.
  - intros o r p L E IH _. rewrite E. apply IH. right; right. rewrite batch_size_app, batch_size_single. lia.
Qed.

Theorem fl_batch_bound_strong th ops : Forall (ok_batch th) (fl_batches th ops).
Proof. rewrite fl_batches_segs. apply segs_bound. left. reflexivity. Qed.

Theorem fl_batch_bound th ops b :
  0 <= th -> In b (fl_batches th ops) -> length b <> 1%nat -> batch_size b <= th.
Proof.
  intros Hth Hin Hlen.
  pose proof (fl_batch_bound_strong th ops) as HF. rewrite Forall_forall in HF.
  destruct (HF b Hin) as [E|[[o E]|E]].
  - subst b. unfold batch_size. cbn [fold_right]. exact Hth.
  - subst b. exfalso. apply Hlen. reflexivity.
  - lia.
Qed.

Lemma segs_nonempty th : forall ops p, p <> [] -> Forall (fun b => b <> []) (segs th ops p).
Proof.
  refine (segs_ind th _ _ _ _).
  - intros p Hp. constructor; [exact Hp|constructor].
  - intros o r p _ E IH Hp. rewrite E. constructor; [exact Hp|]. apply IH. discriminate.
  - intros o r p _ E IH _. rewrite E. apply IH. destruct p; discriminate.
Qed.

Lemma segs_tail_nonempty th : forall ops p, Forall (fun b => b <> []) (tl (segs th ops p)).
Proof.
  refine (segs_ind th _ _ _ _).
  - constructor.
  - intros o r p _ E _. rewrite E. cbn [tl]. apply segs_nonempty. discriminate.
  - intros o r p _ E IH. rewrite E. exact IH.
Qed.

Theorem fl_batches_nonempty th ops : Forall (fun b => b <> []) (tl (fl_batches th ops)).
Proof. rewrite fl_batches_segs. apply segs_tail_nonempty. Qed.

Theorem fl_first_batch_empty th ops :
  hd [] (fl_batches th ops) = [] <->
  match ops with [] => True | o :: _ => op_size o + 100 > th end.
Proof.
  rewrite fl_batches_segs. destruct ops as [|o r]; [split; auto|].
  - rewrite segs_cons. unfold batch_size at 1. cbn [fold_right].
    destruct (0 + op_size o + 100 >? th) eqn:E.
    + cbn [hd]. split; [lia|reflexivity].
    + destruct (segs_head th r ([] ++ [o])) as [q [rest H]]. rewrite H. cbn [hd app].
      split; [discriminate|lia].
Qed.

(** maximality: every batch that is followed by another one was cut because adding the first
    operation of the next batch was estimated above the threshold *)
Fixpoint maximal (th : Z) (bs : list (list bop)) : Prop :=
  match bs with
  | [] => True
  | b :: r =>
      match r with
      | [] => True
      | b' :: _ =>
          match b' with
          | [] => False
          | o :: _ => batch_size b + op_size o + 100 > th
          end /\ maximal th r
      end
  end.

Lemma segs_maximal th : forall ops p, maximal th (segs th ops p).
Proof.
  refine (segs_ind th _ _ _ _).
  - intros p. exact I.
  - intros o r p L E IH. rewrite E. destruct (segs_head th r [o]) as [q [rest H]]. rewrite H in *.
    cbn [app maximal] in *. split; [exact L|exact IH].
  - intros o r p _ E IH. rewrite E. exact IH.
Qed.

Theorem fl_batch_maximal th ops : maximal th (fl_batches th ops).
Proof. rewrite fl_batches_segs. apply segs_maximal. Qed.

Lemma maximal_nth th bs : maximal th bs -> forall i, (S i < length bs)%nat ->
  exists o q, nth (S i) bs [] = o :: q /\ batch_size (nth i bs []) + op_size o + 100 > th.
Proof.
  induction bs as [|b r IH]; intros Hm i Hi.
  - cbn [length] in Hi. lia.
  - destruct r as [|b' r']; [cbn [length] in Hi; lia|].
    cbn [maximal] in Hm. destruct Hm as [H1 H2].
    destruct i as [|i].
    + cbn [nth]. destruct b' as [|o q]; [contradiction|]. exists o, q. split; [reflexivity|exact H1].
    + cbn [length] in Hi. apply (IH H2 i). cbn [length]. lia.
Qed.

Theorem fl_batch_maximal_nth th ops i : (S i < length (fl_batches th ops))%nat ->
  exists o q, nth (S i) (fl_batches th ops) [] = o :: q /\
              batch_size (nth i (fl_batches th ops) []) + op_size o + 100 > th.
Proof. apply maximal_nth, fl_batch_maximal. Qed.

Lemma segs_small th : th < 100 -> forall ops p, segs th ops p = p :: map (fun o => [o]) ops.
Proof.
  intros Hth. refine (segs_ind th _ _ _ _).
  - reflexivity.
  - intros o r p _ E IH. rewrite E, IH. reflexivity.
  - intros o r p L _ _. pose proof (batch_size_nonneg p). pose proof (op_size_nonneg o). lia.
Qed.

Theorem fl_small_threshold th ops : th < 100 ->
  fl_batches th ops = [] :: map (fun o => [o]) ops.
Proof. intros Hth. rewrite fl_batches_segs. apply segs_small, Hth. Qed.

Lemma segs_large th : forall ops p, batch_size (p ++ ops) + 100 <= th -> segs th ops p = [p ++ ops].
Proof.
  refine (segs_ind th _ _ _ _).
  - intros p _. rewrite app_nil_r. reflexivity.
  - intros o r p L _ _ H. rewrite batch_size_app, batch_size_cons in H.
    pose proof (batch_size_nonneg r). lia.
  - intros o r p _ E IH H. rewrite <- app_assoc in IH. rewrite E. exact (IH H).
Qed.

Theorem fl_large_threshold th ops : batch_size ops + 100 <= th -> fl_batches th ops = [ops].
Proof. intros H. rewrite fl_batches_segs. apply (segs_large th ops []). exact H. Qed.

(** * Cut positions *)

Definition cnt (c : bop -> bool) (l : list bop) : nat := length (filter c l).

Lemma cnt_app c a b : cnt c (a ++ b) = (cnt c a + cnt c b)%nat.
Proof. unfold cnt. rewrite filter_app, app_length. reflexivity. Qed.

Lemma cnt_cons c o l : cnt c (o :: l) = (cnt c [o] + cnt c l)%nat.
Proof. exact (cnt_app c [o] l). Qed.

Lemma cnt_nil c : cnt c [] = 0%nat.
Proof. reflexivity. Qed.

Lemma cnt_all l : cnt (fun _ => true) l = length l.
Proof. unfold cnt. induction l as [|o l IH]; cbn [filter length]; [reflexivity|]. rewrite IH. reflexivity. Qed.

Fixpoint boundaries (c : bop -> bool) (bs : list (list bop)) (n : nat) : list nat :=
  match bs with
  | [] => []
  | b :: r => let n' := (n + cnt c b)%nat in n' :: boundaries c r n'
  end.

Lemma boundaries_length c bs : forall n, length (boundaries c bs n) = length bs.
Proof. induction bs as [|b r IH]; intros n; cbn [boundaries length]; [reflexivity|]. rewrite IH. reflexivity. Qed.

Lemma cuts_from_cons c th o r cur n :
  cuts_from c th (o :: r) cur n =
  if cur + op_size o + 100 >? th then n :: cuts_from c th r (op_size o) (n + cnt c [o])
  else cuts_from c th r (cur + op_size o) (n + cnt c [o]).
Proof.
  cbn [cuts_from]. rewrite op_estimate_eq.
  replace (if c o then S n else n) with (n + cnt c [o])%nat; [reflexivity|].
  unfold cnt. cbn [filter]. destruct (c o); cbn [length]; lia.
Qed.

Lemma cuts_segs c th : forall ops p m,
  boundaries c (segs th ops p) m
  = cuts_from c th ops (batch_size p) (m + cnt c p) ++ [(m + cnt c p + cnt c ops)%nat].
Proof.
  refine (segs_ind th _ _ _ _).
  - intros p m. cbn [segs boundaries cuts_from app]. rewrite cnt_nil, Nat.add_0_r. reflexivity.
  - intros o r p L E IH m. rewrite E, cuts_from_cons.
    destruct (batch_size p + op_size o + 100 >? th) eqn:T; [|lia].
    cbn [boundaries app]. rewrite IH, batch_size_single, (cnt_cons c o r), !Nat.add_assoc. reflexivity.
  - intros o r p L E IH m. rewrite E, cuts_from_cons.
    destruct (batch_size p + op_size o + 100 >? th) eqn:T; [lia|].
    rewrite IH, batch_size_app, batch_size_single, cnt_app, (cnt_cons c o r), !Nat.add_assoc.
    reflexivity.
Qed.

Theorem fl_cut_positions_counted c th ops :
  boundaries c (fl_batches th ops) 0 = cut_positions_counted c th ops ++ [cnt c ops].
Proof.
  rewrite fl_batches_segs. unfold cut_positions_counted.
  rewrite (cuts_segs c th ops [] 0%nat). reflexivity.
Qed.

Theorem fl_cut_positions th ops :
  boundaries (fun _ => true) (fl_batches th ops) 0 = cut_positions th ops ++ [length ops].
Proof. unfold cut_positions. rewrite fl_cut_positions_counted, cnt_all. reflexivity. Qed.

Theorem fl_batches_length th ops :
  length (fl_batches th ops) = S (length (cut_positions th ops)).
Proof.
  rewrite <- (boundaries_length (fun _ => true) (fl_batches th ops) 0%nat).
  rewrite fl_cut_positions, app_length. cbn [length]. lia.
Qed.

Lemma boundaries_nth c bs : forall i n,
  nth i (n :: boundaries c bs n) (n + cnt c (concat bs))%nat
  = (n + cnt c (concat (firstn i bs)))%nat.
Proof.
  induction bs as [|b r IH]; intros i n.
  - rewrite firstn_nil. cbn [concat boundaries]. rewrite cnt_nil, Nat.add_0_r.
    destruct i as [|[|i]]; reflexivity.
  - destruct i as [|i].
    + cbn [nth firstn concat]. rewrite cnt_nil. lia.
    + cbn [firstn concat boundaries]. rewrite !cnt_app.
      change (nth (S i) (n :: ?l) ?d) with (nth i l d).
      rewrite !Nat.add_assoc. rewrite (IH i (n + cnt c b)%nat). reflexivity.
Qed.

Lemma concat_firstn_prefix (bs : list (list bop)) i :
  concat (firstn i bs) = firstn (length (concat (firstn i bs))) (concat bs).
Proof.
  rewrite <- (firstn_skipn i bs) at 3. rewrite concat_app.
  rewrite firstn_app, Nat.sub_diag, firstn_all. cbn [firstn]. rewrite app_nil_r. reflexivity.
Qed.

Theorem fl_prefix_count c th ops i :
  cnt c (concat (firstn i (fl_batches th ops)))
  = nth i (0%nat :: cut_positions_counted c th ops ++ [cnt c ops]) (cnt c ops).
Proof.
  pose proof (boundaries_nth c (fl_batches th ops) i 0%nat) as H.
  rewrite fl_concat, fl_cut_positions_counted in H. cbn [Nat.add] in H. symmetry. exact H.
Qed.

(** 4. the first [i] physical batches are a prefix of [ops], of length [0], a cut position, or
    [length ops] *)
Theorem fl_prefix_states th ops i :
  concat (firstn i (fl_batches th ops))
  = firstn (nth i (0%nat :: cut_positions th ops ++ [length ops]) (length ops)) ops.
Proof.
  pose proof (fl_prefix_count (fun _ => true) th ops i) as H.
  rewrite !cnt_all in H. fold (cut_positions th ops) in H. rewrite <- H.
  rewrite (concat_firstn_prefix (fl_batches th ops) i) at 1. rewrite fl_concat. reflexivity.
Qed.

(** * Database level *)

Section Apply.
  Context {A : Type}.
  Variable f : A -> bop -> A.

  Definition apply_ops (d : A) (ops : list bop) : A := fold_left f ops d.
  Definition apply_batches (d : A) (bs : list (list bop)) : A := fold_left apply_ops bs d.

  Lemma apply_batches_concat bs : forall d, apply_batches d bs = apply_ops d (concat bs).
  Proof.
    induction bs as [|b r IH]; intros d; [reflexivity|].
    unfold apply_batches, apply_ops in *. cbn [fold_left concat]. rewrite fold_left_app. apply IH.
  Qed.

  (** 3. the batches one after the other = the operations in order, for every threshold *)
  Theorem fl_apply_same_gen th ops d : apply_batches d (fl_batches th ops) = apply_ops d ops.
  Proof. rewrite apply_batches_concat, fl_concat. reflexivity. Qed.

  Theorem fl_threshold_independent_gen th1 th2 ops d :
    apply_batches d (fl_batches th1 ops) = apply_batches d (fl_batches th2 ops).
  Proof. rewrite !fl_apply_same_gen. reflexivity. Qed.

  (** 4. database after the first [i] physical batches = database after a prefix of [ops] *)
  Theorem fl_prefix_db_gen th ops d i :
    apply_batches d (firstn i (fl_batches th ops))
    = apply_ops d (firstn (nth i (0%nat :: cut_positions th ops ++ [length ops]) (length ops)) ops).
  Proof. rewrite apply_batches_concat, fl_prefix_states. reflexivity. Qed.
End Apply.

Lemma kv_apply_ops_app m a b : kv_apply_ops m (a ++ b) = kv_apply_ops (kv_apply_ops m a) b.
Proof. unfold kv_apply_ops. apply fold_left_app. Qed.

Lemma kv_apply_ops_cons m o r : kv_apply_ops m (o :: r) = kv_apply_ops (kv_apply m o) r.
Proof. reflexivity. Qed.

Theorem fl_apply_same th ops m :
  kv_apply_batches m (fl_batches th ops) = kv_apply_ops m ops.
Proof. exact (fl_apply_same_gen kv_apply th ops m). Qed.

Theorem fl_threshold_independent th1 th2 ops m :
  kv_apply_batches m (fl_batches th1 ops) = kv_apply_batches m (fl_batches th2 ops).
Proof. exact (fl_threshold_independent_gen kv_apply th1 th2 ops m). Qed.

Theorem fl_prefix_db th ops m i :
  kv_apply_batches m (firstn i (fl_batches th ops))
  = kv_apply_ops m (firstn (nth i (0%nat :: cut_positions th ops ++ [length ops]) (length ops)) ops).
Proof. exact (fl_prefix_db_gen kv_apply th ops m i). Qed.

(** every crash image is one of [length (cut_positions th ops) + 2] prefixes *)
Theorem fl_prefix_db_exists th ops m i :
  exists n, In n (0%nat :: cut_positions th ops ++ [length ops]) /\
            kv_apply_batches m (firstn i (fl_batches th ops)) = kv_apply_ops m (firstn n ops).
Proof.
  rewrite fl_prefix_db.
  set (l := (0%nat :: cut_positions th ops ++ [length ops])).
  destruct (Nat.lt_ge_cases i (length l)) as [Hi|Hi].
  - exists (nth i l (length ops)). split; [apply nth_In; exact Hi|reflexivity].
  - exists (length ops). split.
    + unfold l. right. apply in_or_app. right. left. reflexivity.
    + rewrite (nth_overflow l (length ops) Hi). reflexivity.
Qed.

(** 5. cut positions are NOT monotone in the threshold: seven deletions of a 10-byte key;
    threshold 125 cuts after every 2 operations, threshold 135 after every 3 *)
Definition key10 : bytes := [1;2;3;4;5;6;7;8;9;10]%N.

Theorem fl_threshold_monotone_refuted :
  exists th1 th2 ops, th1 <= th2 /\
    ~ incl (cut_positions th2 ops) (cut_positions th1 ops).
Proof.
  exists 125, 135, (repeat (BDel key10) 7). split; [lia|].
  assert (H1 : cut_positions 125 (repeat (BDel key10) 7) = [2;4;6]%nat) by (vm_compute; reflexivity).
  assert (H2 : cut_positions 135 (repeat (BDel key10) 7) = [3;6]%nat) by (vm_compute; reflexivity).
  rewrite H1, H2. intros H. specialize (H 3%nat (or_introl eq_refl)).
  cbn [In] in H. repeat (destruct H as [H|H]; [discriminate|]). exact H.
Qed.

Lemma fl_run_concat th ops : concat (written (fl_run th ops)) ++ pending (fl_run th ops) = ops.
Proof.
  rewrite <- (fl_concat th ops) at 3. unfold fl_batches, fl_write. cbn [written].
  rewrite concat_app. cbn [concat]. rewrite app_nil_r. reflexivity.
Qed.

(** * 6. A failing physical write *)

Definition keys_ok (ops : list bop) : Prop := Forall (fun o => op_key o <> []) ops.

Definition healthy (n : nat) (s : ffl) : Prop :=
  nwrites s = length (written (fcore s)) /\ (n = 0 \/ nwrites s < n)%nat.

Definition flush_if (th : Z) (o : bop) (st : fl) : fl :=
  if op_estimate (psize st) o >? th then fl_write st else st.

Lemma ffl_op_spec th n o s : healthy n s ->
  match ffl_op th n o s with
  | FOk s' => fcore s' = fl_step th (fcore s) o /\ healthy n s' /\ op_key o <> []
  | FErr EWriteFailed s' =>
      fcore s' = fcore s /\ op_estimate (psize (fcore s)) o > th /\ nwrites s' = n /\
      n = S (length (written (fcore s)))
  | FErr EKeyEmpty s' =>
      op_key o = [] /\ fcore s' = flush_if th o (fcore s) /\ healthy n s'
  end.
Proof.
  intros [Hn Hf]. unfold ffl_op, flush_if. rewrite fl_step_unfold.
  destruct (op_estimate (psize (fcore s)) o >? th) eqn:E.
  - unfold ffl_write. destruct (Nat.eqb (S (nwrites s)) n) eqn:En.
    + apply Nat.eqb_eq in En. cbn [fcore nwrites]. repeat split; lia.
    + apply Nat.eqb_neq in En.
      assert (Hh : healthy n (mkFfl (fl_write (fcore s)) (S (nwrites s)))).
      { unfold healthy, fl_write. cbn [fcore nwrites written]. rewrite app_length. cbn [length]. lia. }
      destruct (op_key o); cbn [is_empty]; repeat split; try apply Hh; discriminate.
  - destruct (op_key o); cbn [is_empty]; repeat split; try assumption; discriminate.
Qed.

Lemma keys_ok_mid ops1 o ops2 : keys_ok (ops1 ++ o :: ops2) -> op_key o <> [].
Proof. intros K. apply Forall_app in K. destruct K as [_ K]. inversion K. assumption. Qed.

Lemma ffl_run_ok th n ops : forall s s', healthy n s -> ffl_run_from th n ops s = FOk s' ->
  fcore s' = fl_run_from th ops (fcore s) /\ healthy n s' /\ keys_ok ops.
Proof.
  induction ops as [|o r IH]; intros s s' Hh E; cbn [ffl_run_from] in E.
  - injection E as <-. split; [reflexivity|]. split; [exact Hh|constructor].
  - pose proof (ffl_op_spec th n o s Hh) as Ho.
    destruct (ffl_op th n o s) as [s1|e s1]; [|discriminate]. destruct Ho as (Hc & Hh1 & Hk).
    destruct (IH s1 s' Hh1 E) as (Hc2 & Hh2 & Hk2). rewrite fl_run_from_cons, <- Hc.
    split; [exact Hc2|]. split; [exact Hh2|constructor; assumption].
Qed.

Lemma ffl_run_err th n ops : forall s e s', ffl_run_from th n ops s = FErr e s' ->
  exists ops1 o ops2 s1, ops = ops1 ++ o :: ops2 /\
    ffl_run_from th n ops1 s = FOk s1 /\ ffl_op th n o s1 = FErr e s'.
Proof.
  induction ops as [|o r IH]; intros s e s' E; cbn [ffl_run_from] in E; [discriminate|].
  destruct (ffl_op th n o s) as [s1|e1 s1] eqn:Eo.
  - destruct (IH s1 e s' E) as (ops1 & o' & ops2 & s2 & -> & R & Eo').
    exists (o :: ops1), o', ops2, s2. cbn [ffl_run_from]. rewrite Eo. auto.
  - exists [], o, r, s. rewrite <- E. auto.
Qed.

Lemma healthy_init n : healthy n ffl_init.
Proof. unfold healthy. cbn. lia. Qed.

Lemma fl_batches_cut th ops1 o ops2 :
  op_estimate (psize (fl_run th ops1)) o > th ->
  fl_batches th (ops1 ++ o :: ops2)
  = written (fl_run th ops1) ++ pending (fl_run th ops1) :: segs th ops2 [o].
Proof.
  intros Hest. rewrite op_estimate_eq in Hest.
  unfold fl_batches, fl_run. rewrite fl_run_from_app, fl_run_from_cons. fold (fl_run th ops1).
  destruct (fl_run_segs th ops2 _ (fl_step_sized th _ o (fl_run_sized th ops1))) as [W _].
  rewrite W, fl_step_eq. destruct (psize (fl_run th ops1) + op_size o + 100 >? th) eqn:E; [|lia].
  cbn [written pending]. rewrite <- app_assoc. reflexivity.
Qed.

(** All outcomes of one logical operation ([ops], then the caller's [Write]) over a backend
    whose [n]-th [Write] fails. *)
Theorem ffl_commit_cases th n ops :
  match ffl_commit th n ops with
  | FOk s =>
      (* nothing failed: exactly the ideal run *)
      s = mkFfl (fl_write (fl_run th ops)) (length (fl_batches th ops)) /\
      (n = 0 \/ length (fl_batches th ops) < n)%nat /\ keys_ok ops
  | FErr EWriteFailed s =>
      (* the database holds exactly the first [n-1] physical batches, the wrapper still holds
         the [n]-th, the operations issued so far are a prefix of [ops], and the error came out
         of the [Set]/[Delete] of the next operation (whose estimate exceeded the threshold) or
         out of the final [Write] *)
      (1 <= n <= length (fl_batches th ops))%nat /\ nwrites s = n /\
      written (fcore s) = firstn (n - 1) (fl_batches th ops) /\
      pending (fcore s) = nth (n - 1) (fl_batches th ops) [] /\
      exists ops1 ops2, ops = ops1 ++ ops2 /\ keys_ok ops1 /\
        concat (written (fcore s)) ++ pending (fcore s) = ops1 /\
        match ops2 with
        | [] => True
        | o :: _ => op_estimate (psize (fcore s)) o > th
        end
  | FErr EKeyEmpty s =>
      (* the backend batch rejected an empty key; an automatic flush may just have happened *)
      exists ops1 o ops2, ops = ops1 ++ o :: ops2 /\ keys_ok ops1 /\ op_key o = [] /\
        fcore s = flush_if th o (fl_run th ops1) /\
        concat (written (fcore s)) ++ pending (fcore s) = ops1
  end.
Proof.
  unfold ffl_commit.
  destruct (ffl_run_from th n ops ffl_init) as [s1|e s1] eqn:Er.
  - destruct (ffl_run_ok th n ops _ _ (healthy_init n) Er) as (Hc & [Hn Hf] & Hk).
    cbn [fcore ffl_init] in Hc. fold (fl_run th ops) in Hc. rewrite Hc in Hn.
    assert (Hb : fl_batches th ops = written (fl_run th ops) ++ [pending (fl_run th ops)])
      by reflexivity.
    unfold ffl_write. rewrite Hc, Hb, app_length. cbn [length].
    destruct (Nat.eqb (S (nwrites s1)) n) eqn:En.
    + apply Nat.eqb_eq in En. cbn [fcore nwrites].
      replace (n - 1)%nat with (length (written (fl_run th ops))) by lia.
      rewrite firstn_length_app, nth_middle.
      repeat split; try lia.
      exists ops, []. rewrite app_nil_r, fl_run_concat. repeat split; assumption.
    + apply Nat.eqb_neq in En. rewrite <- Hn, Nat.add_1_r. repeat split; [lia|exact Hk].
  - (* the error came out of [o], issued on the ideal state after [ops1] *)
    destruct (ffl_run_err th n ops _ _ _ Er) as (ops1 & o & ops2 & s0 & He & R & Eo).
    destruct (ffl_run_ok th n ops1 _ _ (healthy_init n) R) as (Hc0 & Hh0 & Hk1).
    cbn [fcore ffl_init] in Hc0. fold (fl_run th ops1) in Hc0.
    pose proof (ffl_op_spec th n o s0 Hh0) as Ho. rewrite Eo, Hc0 in Ho. destruct e.
    + destruct Ho as (Hc & Hest & Hn1 & Hn2). rewrite <- Hc in Hest, Hn2.
      pose proof (fl_batches_cut th ops1 o ops2) as Hl. rewrite <- He, <- Hc in Hl.
      specialize (Hl Hest).
      rewrite Hl, app_length. cbn [length].
      replace (n - 1)%nat with (length (written (fcore s1))) by lia.
      rewrite firstn_length_app, nth_middle.
      repeat split; try lia.
      exists ops1, (o :: ops2). repeat split; try assumption. rewrite Hc. apply fl_run_concat.
    + destruct Ho as (Hk & Hc & _).
      exists ops1, o, ops2. repeat split; try assumption.
      rewrite Hc. unfold flush_if.
      destruct (op_estimate (psize (fl_run th ops1)) o >? th); [|apply fl_run_concat].
      unfold fl_write. cbn [written pending]. rewrite concat_app. cbn [concat].
      rewrite !app_nil_r. apply fl_run_concat.
Qed.

Lemma ffl_commit_keys_ok th n ops s : keys_ok ops -> ffl_commit th n ops <> FErr EKeyEmpty s.
Proof.
  intros Hk E. pose proof (ffl_commit_cases th n ops) as H. rewrite E in H.
  destruct H as (ops1 & o & ops2 & -> & _ & Hko & _). exact (keys_ok_mid _ _ _ Hk Hko).
Qed.

(** 6a. with non-empty keys, a failure number within the number of physical batches IS reported *)
Theorem fl_fault_reported th n ops :
  keys_ok ops -> (1 <= n <= length (fl_batches th ops))%nat ->
  exists s, ffl_commit th n ops = FErr EWriteFailed s /\ nwrites s = n.
Proof.
  intros Hk Hn. pose proof (ffl_commit_cases th n ops) as H.
  destruct (ffl_commit th n ops) as [s|[|] s] eqn:Ec.
  - destruct H as (_ & Hf & _). lia.
  - exists s. split; [reflexivity|apply H].
  - destruct (ffl_commit_keys_ok th n ops s Hk Ec).
Qed.

(** 6b. then the database holds exactly the first [n-1] batches = a prefix of [ops] at a cut
    position, and no later operation was applied *)
Theorem fl_fault_prefix th n ops s :
  ffl_commit th n ops = FErr EWriteFailed s ->
  ffl_db_batches (FErr EWriteFailed s) = firstn (n - 1) (fl_batches th ops) /\
  concat (ffl_db_batches (FErr EWriteFailed s))
  = firstn (nth (n - 1) (0%nat :: cut_positions th ops ++ [length ops]) (length ops)) ops /\
  forall m, kv_apply_batches m (ffl_db_batches (FErr EWriteFailed s))
            = kv_apply_ops m
                (firstn (nth (n - 1) (0%nat :: cut_positions th ops ++ [length ops]) (length ops)) ops).
Proof.
  intros E. pose proof (ffl_commit_cases th n ops) as H. rewrite E in H.
  destruct H as [_ [_ [Hw _]]].
  unfold ffl_db_batches, fres_state. rewrite Hw.
  split; [reflexivity|]. split.
  - apply fl_prefix_states.
  - intros m. apply fl_prefix_db.
Qed.

Theorem ffl_run_ideal th n ops :
  keys_ok ops -> (n = 0 \/ length (fl_batches th ops) < n)%nat ->
  ffl_commit th n ops
  = FOk (mkFfl (fl_write (fl_run th ops)) (length (fl_batches th ops))).
Proof.
  intros Hk Hn. pose proof (ffl_commit_cases th n ops) as H.
  destruct (ffl_commit th n ops) as [s|[|] s] eqn:Ec.
  - destruct H as [-> _]. reflexivity.
  - destruct H as [Hr _]. lia.
  - destruct (ffl_commit_keys_ok th n ops s Hk Ec).
Qed.

(** * 7. Examples (keys of 13 bytes, values of 20 to 120 bytes, thresholds 0, 1, 150, 200, 100000) *)

Definition key13 (i : N) : bytes := repeat i 13.
Definition val (n : nat) : bytes := repeat 7%N n.
Definition is_set (o : bop) : bool := match o with BSet _ _ => true | BDel _ => false end.

(** sizes 33, 73, 13, 133, 53, 13, 113 *)
Definition ops_ex : list bop :=
  [BSet (key13 1) (val 20); BSet (key13 2) (val 60); BDel (key13 1); BSet (key13 3) (val 120);
   BSet (key13 4) (val 40); BDel (key13 2); BSet (key13 5) (val 100)].

Example ex_sizes : map op_size ops_ex = [33; 73; 13; 133; 53; 13; 113].
Proof. vm_compute. reflexivity. Qed.

(** thresholds below 100: an EMPTY first physical batch, then one batch per operation *)
Example ex_th0 : map (map op_size) (fl_batches 0 ops_ex) = [[]; [33]; [73]; [13]; [133]; [53]; [13]; [113]]
  /\ cut_positions 0 ops_ex = [0; 1; 2; 3; 4; 5; 6]%nat
  /\ cut_positions_counted is_set 0 ops_ex = [0; 1; 2; 2; 3; 4; 4]%nat.
Proof. vm_compute. repeat split. Qed.

Example ex_th1 : fl_batches 1 ops_ex = fl_batches 0 ops_ex.
Proof. vm_compute. reflexivity. Qed.

(** 150: 33 + 100 fits, so the first batch is not empty; nothing else fits with its neighbour *)
Example ex_th150 : map (map op_size) (fl_batches 150 ops_ex) = [[33]; [73]; [13]; [133]; [53]; [13]; [113]]
  /\ cut_positions 150 ops_ex = [1; 2; 3; 4; 5; 6]%nat
  /\ cut_positions_counted is_set 150 ops_ex = [1; 2; 2; 3; 4; 4]%nat.
Proof. vm_compute. repeat split. Qed.

Example ex_th200 : map (map op_size) (fl_batches 200 ops_ex) = [[33]; [73; 13]; [133]; [53; 13]; [113]]
  /\ cut_positions 200 ops_ex = [1; 3; 4; 6]%nat
  /\ cut_positions_counted is_set 200 ops_ex = [1; 2; 3; 4]%nat.
Proof. vm_compute. repeat split. Qed.

Example ex_th100000 : fl_batches 100000 ops_ex = [ops_ex] /\ cut_positions 100000 ops_ex = [].
Proof. vm_compute. repeat split. Qed.

(** one oversized value (300 bytes, operation size 313 > 200): passed through alone *)
Definition ops_big : list bop :=
  [BSet (key13 1) (val 20); BSet (key13 2) (val 300); BSet (key13 3) (val 30); BDel (key13 1)].

Example ex_big200 : map (map op_size) (fl_batches 200 ops_big) = [[33]; [313]; [43; 13]]
  /\ cut_positions 200 ops_big = [1; 2]%nat.
Proof. vm_compute. repeat split. Qed.

Example ex_big150 : map (map op_size) (fl_batches 150 ops_big) = [[33]; [313]; [43]; [13]].
Proof. vm_compute. reflexivity. Qed.

Example ex_big0 : map (map op_size) (fl_batches 0 ops_big) = [[]; [33]; [313]; [43]; [13]].
Proof. vm_compute. reflexivity. Qed.

Example ex_db : kv_apply_batches [] (fl_batches 0 ops_ex) = kv_apply_batches [] (fl_batches 200 ops_ex)
  /\ map fst (kv_apply_batches [] (fl_batches 200 ops_ex)) = [key13 3; key13 4; key13 5].
Proof. vm_compute. repeat split. Qed.

Example ex_prefix : kv_apply_batches [] (firstn 2 (fl_batches 200 ops_ex)) = kv_apply_ops [] (firstn 3 ops_ex).
Proof. vm_compute. reflexivity. Qed.

(** the 2nd physical write fails (threshold 200): the error comes out of the 4th [Set]/[Delete]
    (3 operations accepted), the database holds the first batch only, the wrapper still holds
    the second batch *)
Example ex_fault2 :
  exists s, ffl_commit 200 2 ops_ex = FErr EWriteFailed s /\ nwrites s = 2%nat /\
            written (fcore s) = [firstn 1 ops_ex] /\ pending (fcore s) = firstn 2 (skipn 1 ops_ex) /\
            psize (fcore s) = 86.
Proof. eexists. vm_compute. repeat split. Qed.

(** the 5th = last write (the caller's [Write]) fails; a 6th never happens *)
Example ex_fault5 :
  exists s, ffl_commit 200 5 ops_ex = FErr EWriteFailed s /\
            map (map op_size) (written (fcore s)) = [[33]; [73; 13]; [133]; [53; 13]] /\
            map op_size (pending (fcore s)) = [113].
Proof. eexists. vm_compute. repeat split. Qed.

Example ex_fault6 :
  exists s, ffl_commit 200 6 ops_ex = FOk s /\ written (fcore s) = fl_batches 200 ops_ex.
Proof. eexists. vm_compute. repeat split. Qed.

(** an empty key is rejected by the backend batch AFTER the automatic flush it triggered *)
Example ex_empty_key :
  exists s, ffl_commit 200 0 [BSet (key13 1) (val 20); BSet [] (val 90); BSet (key13 2) (val 5)]
            = FErr EKeyEmpty s /\
            written (fcore s) = [[BSet (key13 1) (val 20)]] /\ pending (fcore s) = [] /\ nwrites s = 1%nat.
Proof. eexists. vm_compute. repeat split. Qed.

(** hypotheses of the fault theorems are satisfiable *)
Example ex_keys_ok : keys_ok ops_ex /\ (1 <= 2 <= length (fl_batches 200 ops_ex))%nat.
Proof. split; [repeat constructor; discriminate|vm_compute; split; repeat constructor]. Qed.

Print Assumptions fl_batches_segs.
Print Assumptions fl_concat.
Print Assumptions fl_batches_contiguous.
Print Assumptions fl_batch_bound_strong.
Print Assumptions fl_batch_bound.
Print Assumptions fl_batches_nonempty.
Print Assumptions fl_first_batch_empty.
Print Assumptions fl_batch_maximal.
Print Assumptions fl_batch_maximal_nth.
Print Assumptions fl_small_threshold.
Print Assumptions fl_large_threshold.
Print Assumptions fl_cut_positions_counted.
Print Assumptions fl_cut_positions.
Print Assumptions fl_batches_length.
Print Assumptions fl_prefix_count.
Print Assumptions fl_prefix_states.
Print Assumptions fl_apply_same_gen.
Print Assumptions fl_apply_same.
Print Assumptions fl_threshold_independent.
Print Assumptions fl_prefix_db.
Print Assumptions fl_prefix_db_exists.
Print Assumptions fl_threshold_monotone_refuted.
Print Assumptions ffl_commit_cases.
Print Assumptions fl_fault_reported.
Print Assumptions fl_fault_prefix.
Print Assumptions ffl_run_ideal.
