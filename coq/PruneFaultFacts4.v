(** PruneFaultFacts4: deleteVersion and the loop over the versions with a failing storage call
    ([dv_f_ok], [range_f_ok]): either no call failed and the result is PruneAlgo's, or the run
    stops with an error, its writes are a prefix of PruneAlgo's, and what it leaves behind is safe
    for the versions that are not being deleted. *)
From Coq Require Import Lia.
From IAVL Require Import Bytes Varint Tree VMap TreeFacts MTree MTreeFacts HashFacts VersionFacts
  Store StoreFacts PruneAlgo PruneAlgoFacts1 PruneAlgoFacts2 PruneAlgoFacts3 PruneAlgoFacts4
  PruneAlgoFacts5 PruneAlgoFacts6 PruneFault PruneFaultFacts1 PruneFaultFacts2 PruneFaultFacts3.
Local Open Scope Z_scope.

Section Outcome2.
  Variable fK : forest_t.
  Variable bK : Z.

  Definition outcome2 (r : pres pdb * rkc) (st : pres unit) (c' : rkc) (s s' : fdb) : Prop :=
    outcome fK bK (fst r) st s s' /\ match st with POk _ => snd r = c' | _ => True end.

  Lemma outcome2_live r st c' s s' :
    wadv s s' -> live s' -> rel2 r st c' s' -> outcome2 r st c' s s'.
  Proof. intros A L [R Rc]. split; [split; [exact A|left; auto]|exact Rc]. Qed.

  Lemma outcome2_dead r c s0 s :
    wadv s0 s -> ~ live s -> ERR fK bK (fp s) -> wpre (fp s0) (fp s) ->
    (forall pfin cfin, r = (POk pfin, cfin) -> wpre (fp s) pfin) -> outcome2 r PErr c s0 s.
  Proof.
    intros A D E W F. split; [|exact I]. apply outcome_dead; auto.
    intros pfin Ef. apply (F pfin (snd r)). rewrite <- Ef. apply surjective_pairing.
  Qed.

  Lemma outcome2_dead_write r c s0 s pm :
    wadv s0 s -> ~ live s -> fp s = pm \/ fp s = pflushed pm -> ERR fK bK pm ->
    wpre (fp s0) pm -> (forall pfin cfin, r = (POk pfin, cfin) -> wpre pm pfin) ->
    outcome2 r PErr c s0 s.
  Proof.
    intros A D E Er W F. split; [|exact I]. apply (outcome_dead_write fK bK _ _ _ pm); auto.
    intros pfin Ef. apply (F pfin (snd r)). rewrite <- Ef. apply surjective_pairing.
  Qed.

  Lemma outcome2_shift r st c' s0 s s' :
    outcome2 r st c' s s' -> wadv s0 s -> wpre (fp s0) (fp s) -> outcome2 r st c' s0 s'.
  Proof. intros [O Rc] A0 W0. split; [exact (outcome_shift fK bK _ _ _ _ _ O A0 W0)|exact Rc]. Qed.

  Lemma outcome2_dead_read r c s0 s :
    adv s0 s -> ~ live s -> ERR fK bK (fp s0) ->
    (forall pfin cfin, r = (POk pfin, cfin) -> wpre (fp s0) pfin) -> outcome2 r PErr c s0 s.
  Proof.
    intros A D E F. pose proof A as (Ep & _). apply outcome2_dead; auto.
    - apply adv_wadv, A.
    - rewrite Ep. exact E.
    - rewrite Ep. apply wpre_refl.
    - rewrite Ep. exact F.
  Qed.
End Outcome2.

Section VersionF.
  Variable H : bytes -> bytes.
  Variable f0 : forest_t.
  Variable iv : Z.
  Hypothesis FI : forest_inv f0.
  Hypothesis ND : NoDup (map fst f0).
  Hypothesis OK0 : forest_ok f0 iv.
  Hypothesis WF0 : forall w t, In (w, Some t) f0 -> wf t.
  Hypothesis NC0 : forall w t u c, In (w, Some t) f0 -> subtree u t -> subtree c t ->
                                   fhash H u = fhash H c -> u = c.
  Variable fuel : nat.
  Hypothesis Hfuel : forall w t, In (w, Some t) f0 -> (2 * ncount t + 1 <= fuel)%nat.

  Section OneF.
    Variables (v : Z) (rv rn : option node) (f'' : forest_t) (done : forest_t).
    Notation f' := ((v + 1, rn) :: f'').
    Notation fc := ((v, rv) :: (v + 1, rn) :: f'').
    Hypothesis Suffix : f0 = done ++ fc.
    Hypothesis Hz : map fst fc = zseq v (length fc).
    (** the versions that are not being deleted *)
    Variables (fK : forest_t) (bK : Z).
    Hypothesis HK2 : incl fK f'.
    Hypothesis HKb : v + 1 <= bK.

    Lemma HK1 x : sub_of fK x -> sub_of f' x.
    Proof. exact (sub_of_incl fK f' x HK2). Qed.

    Lemma ERR_fc p r :
      PIx f0 p (sub_of fc) fc fc r v -> ERR fK bK p.
    Proof.
      intros [_ P]. pose proof (incl_tl (v, rv) HK2) as HKc.
      apply (ERR_of_PI fK bK p _ fc r v _ P); [exact (fun x => sub_of_incl fK fc x HKc)|exact HKc|lia].
    Qed.

    Lemma ERR_f' p ro r b :
      PIx f0 p (sub_of f') ro f' r b -> b <= bK -> ERR fK bK p.
    Proof. intros [_ P] Hb. apply (ERR_of_PI fK bK p _ f' r b _ P); [exact HK1|exact HK2|exact Hb]. Qed.

    (** *** after the orphans: the re-keying *)
    Lemma tail_f_ok s c2 r st c' s' :
      PIx f0 (fp s) (sub_of f') f' f' r v -> cache_ok c2 (disk (fp s)) f' (v + 1) -> live s ->
      tail_f v s c2 = (st, c', s') ->
      outcome2 fK bK (dv_tail v (fp s) c2) st c' s s'.
    Proof.
      intros PX C2 Lv Q. pose proof PX as [Cx P]. pose proof (pi_disk _ _ _ _ _ _ P) as S.
      pose proof (ERR_f' (fp s) f' r v PX ltac:(lia)) as ERRp.
      assert (Wfin : forall pfin cfin, dv_tail v (fp s) c2 = (POk pfin, cfin) -> wpre (fp s) pfin).
      { intros pfin cfin E. exact (tail_wpre _ _ _ _ _ E). }
      destruct (rkc_get_ok (sub_of f') f' v (disk (fp s)) c2 (v + 1) (v + 1) rn S
                  (f'_roots_live v rn f'') (f'_nodup f0 ND v rv rn f'' done Suffix) C2
                  ltac:(lia) ltac:(left; reflexivity)) as (nextk & c3 & E3 & R3 & C3).
      unfold tail_f in Q. destruct (rkc_get_f c2 s (v + 1)) as [[x cx] s1] eqn:G.
      destruct (rkc_get_f_spec c2 s (v + 1) x cx s1 G Lv) as (A1 & B1).
      destruct B1 as [[L1 Ex]|[D1 ->]].
      2:{ inversion Q; subst. apply outcome2_dead_read; auto. }
      rewrite E3 in Ex. inversion Ex; subst x cx. clear Ex. pose proof A1 as (E1 & _).
      cbv beta iota zeta in Q.
      assert (Plain : dv_tail v (fp s) c2 = (POk (fp s), c3) -> (POk tt, c3, s1) = (st, c', s') ->
                outcome2 fK bK (dv_tail v (fp s) c2) st c' s s').
      { intros Ed Q'. inversion Q'; subst. apply outcome2_live; [apply adv_wadv, A1|exact L1|].
        rewrite Ed. split; [exact E1|reflexivity]. }
      assert (Ed0 : dv_tail v (fp s) c2 =
                match nextk with
                | Some nk =>
                    if keqb nk (v, 1) then
                      match get_node (disk (fp s)) nk with
                      | None => (PErr, c3)
                      | Some root =>
                          (POk (pwrite (pwrite (fp s) (set_node ((v, 0), ENode root))) (del_node (v, 1))), c3)
                      end
                    else (POk (fp s), c3)
                | None => (POk (fp s), c3)
                end).
      { unfold dv_tail. rewrite E3. reflexivity. }
      destruct nextk as [nk|]; [|exact (Plain Ed0 Q)].
      destruct (keqb nk (v, 1)) eqn:K; [|exact (Plain Ed0 Q)].
      apply keqb_true in K. subst nk.
      destruct (opt_cases rn) as [(tn & Ern)|Ern]; rewrite Ern in R3; cbn [rval] in R3; [|contradiction].
      assert (Ltn : sub_of f' tn).
      { exists (v + 1), tn. split; [left; rewrite Ern; reflexivity|apply sub_refl]. }
      pose proof (get_node_keyok (sub_of f') f' v (disk (fp s)) (v, 1) tn S Ltn R3) as Gn.
      rewrite Gn in Ed0.
      assert (Kt : node_key tn = (v, 1)).
      { destruct R3 as [Q0|(_ & Q0 & _)]; [symmetry; exact Q0|inversion Q0]. }
      set (o1 := set_node ((v, 0), ENode (snode_of tn))) in *.
      set (p3 := pwrite (fp s) o1) in *.
      assert (ERR3 : ERR fK bK p3).
      { apply ERR_pwrite; [exact ERRp|]. unfold o1. rewrite sapply_set.
        pose proof (proj1 (pi_Vgood _ _ _ _ _ _ P)) as SV.
        assert (HL : forall u, sub_of f' u -> sub_of f0 u).
        { intros u. apply sub_of_incl. intros x I. apply (fc_incl f0 v rv rn f'' done Suffix). right. exact I. }
        pose proof (safe_mset0 f0 FI (sub_of f') f' v (Vof (fp s)) tn HL SV Ltn Kt) as S3.
        exact (safe_anti _ _ _ _ _ _ _ S3 HK1 HK2 HKb). }
      destruct (get_node_f s1 (v, 1)) as [y s2] eqn:G2.
      destruct (get_node_f_spec s1 (v, 1) y s2 G2 L1) as (A2 & B2).
      pose proof (adv_trans _ _ _ A1 A2) as A12. pose proof A12 as (E2 & _).
      destruct B2 as [[L2 ->]|[D2 ->]].
      2:{ inversion Q; subst. apply outcome2_dead_read; auto. }
      rewrite E1, Gn in Q. change (set_node ((v, 0), ENode (snode_of tn))) with o1 in Q.
      destruct (pwrite_f s2 o1) as [ok1 s3] eqn:W1.
      destruct (pwrite_f_spec s2 o1 ok1 s3 W1 L2) as (A3 & B3). rewrite E2 in B3.
      pose proof (wadv_trans _ _ _ (adv_wadv _ _ A12) A3) as A13.
      destruct B3 as [(-> & L3 & E3')|(-> & D3 & E3')].
      2:{ inversion Q; subst. apply (outcome2_dead_write fK bK _ _ _ _ (fp s)); auto. apply wpre_refl. }
      fold p3 in E3'.
      destruct (pwrite_f s3 (del_node (v, 1))) as [ok2 s4] eqn:W2.
      destruct (pwrite_f_spec s3 _ ok2 s4 W2 L3) as (A4 & B4). rewrite E3' in B4.
      pose proof (wadv_trans _ _ _ A13 A4) as A14.
      destruct B4 as [(-> & L4 & E4)|(-> & D4 & E4)].
      - inversion Q; subst. apply outcome2_live; [exact A14|exact L4|].
        rewrite Ed0. split; [exact E4|reflexivity].
      - inversion Q; subst. apply (outcome2_dead_write fK bK _ _ _ _ p3); auto.
        + apply wpre_pwrite.
        + intros pfin cfin Ef. rewrite Ed0 in Ef. inversion Ef; subst. apply wpre_pwrite.
    Qed.

    (** *** traverseOrphans *)
    Lemma traverse_f_ok s c1 r tv st c' s' :
      rv = Some tv ->
      PIx f0 (fp s) (sub_of fc) fc fc r v -> cache_ok c1 (disk (fp s)) fc v -> live s ->
      traverse_f H true fuel v s c1 = (st, c', s') ->
      outcome2 fK bK (traverse_orphans H fuel v (fp s) c1) st c' s s'.
    Proof.
      intros Erv PX C1 Lv Q. pose proof PX as [Cx P].
      pose proof (pi_disk _ _ _ _ _ _ P) as S.
      pose proof (ERR_fc (fp s) r PX) as ERRp.
      assert (Wfin : forall pfin cfin, traverse_orphans H fuel v (fp s) c1 = (POk pfin, cfin) -> wpre (fp s) pfin).
      { intros pfin cfin E. exact (traverse_wpre H _ _ _ _ _ _ E). }
      destruct (traverse_start FI ND OK0 WF0 NC0 Hfuel Suffix Hz (fp s) c1 r tv Erv PX C1)
        as (curk & c2 & cur & pk & c3 & prev & E1 & En1 & E2 & En2 & Et & _ & LI0 & Fu).
      (* the run with the failing call *)
      unfold traverse_f in Q.
      destruct (rkc_get_f c1 s (v + 1)) as [[x1 cx1] s1] eqn:G1.
      destruct (rkc_get_f_spec c1 s (v + 1) x1 cx1 s1 G1 Lv) as (A1 & B1).
      destruct B1 as [[L1 Ex]|[D1 ->]].
      2:{ inversion Q; subst st c' s'. apply outcome2_dead_read; auto. }
      rewrite E1 in Ex. inversion Ex; subst x1 cx1. clear Ex. pose proof A1 as (Ep1 & _).
      destruct (nit_new_f s1 curk) as [y1 s2] eqn:N1.
      destruct (nit_new_f_spec s1 curk y1 s2 N1 L1) as (A2 & B2).
      pose proof (adv_trans _ _ _ A1 A2) as A12. pose proof A12 as (Ep2 & _).
      destruct B2 as [[L2 ->]|[D2 ->]].
      2:{ inversion Q; subst st c' s'. apply outcome2_dead_read; auto. }
      rewrite Ep1, En1 in Q.
      destruct (rkc_get_f c2 s2 v) as [[x2 cx2] s3] eqn:G2.
      destruct (rkc_get_f_spec c2 s2 v x2 cx2 s3 G2 L2) as (A3 & B3).
      pose proof (adv_trans _ _ _ A12 A3) as A13. pose proof A13 as (Ep3 & _).
      destruct B3 as [[L3 Ex]|[D3 ->]].
      2:{ inversion Q; subst st c' s'. apply outcome2_dead_read; auto. }
      rewrite Ep2, E2 in Ex. inversion Ex; subst x2 cx2. clear Ex.
      destruct (nit_new_f s3 (Some pk)) as [y2 s4] eqn:N2.
      destruct (nit_new_f_spec s3 (Some pk) y2 s4 N2 L3) as (A4 & B4).
      pose proof (adv_trans _ _ _ A13 A4) as A14. pose proof A14 as (Ep4 & _).
      destruct B4 as [[L4 ->]|[D4 ->]].
      2:{ inversion Q; subst st c' s'. apply outcome2_dead_read; auto. }
      rewrite Ep3, En2 in Q.
      destruct (orphans_loop_g H true fuel v s4 cur prev None) as [r0 s5] eqn:Lp.
      inversion Q; subst st c' s'. clear Q.
      rewrite <- Ep4 in LI0.
      pose proof (loop_f_ok H f0 v f' tv rn fc r
                    (LI_dec_v FI ND OK0 WF0 NC0 Hfuel Suffix Hz tv r Erv)
                    fK bK HK2 ltac:(lia)
                    fuel s4 cur prev None (olist rn) [tv] None r0 s5 LI0 Fu L4 Lp) as O5.
      rewrite Ep4 in O5. rewrite Et. split; [|destruct r0; reflexivity].
      apply (outcome_shift fK bK _ r0 s s4 s5 O5 (adv_wadv _ _ A14)). rewrite Ep4. apply wpre_refl.
    Qed.

    (** *** deleteVersion *)
    Theorem dv_f_ok s c r st c' s' :
      ST f0 (fp s) c fc r v -> live s ->
      delete_version_f H true fuel v s c = (st, c', s') ->
      outcome2 fK bK (delete_version H fuel v (fp s) c) st c' s s'.
    Proof.
      intros [PX C] Lv Q. pose proof PX as [Cx P]. pose proof (pi_disk _ _ _ _ _ _ P) as S.
      pose proof (ERR_fc (fp s) r PX) as ERRp.
      assert (Wfin : forall pfin cfin, delete_version H fuel v (fp s) c = (POk pfin, cfin) -> wpre (fp s) pfin).
      { intros pfin cfin E. exact (delete_version_wpre H _ _ _ _ _ _ E). }
      pose proof (fc_roots_live v rv rn f'') as RL.
      pose proof (fc_nodup f0 ND v rv rn f'' done Suffix) as NDc.
      pose proof (f'_roots_live v rn f'') as RL'.
      pose proof (v_notin_f' v rv rn f'' Hz) as NI.
      destruct (rkc_get_ok (sub_of fc) fc v (disk (fp s)) c v v rv S RL NDc C
                  ltac:(lia) ltac:(left; reflexivity)) as (rootk & c1 & E1 & R1 & C1).
      unfold delete_version_f in Q.
      destruct (rkc_get_f c s v) as [[x cx] s1] eqn:G.
      destruct (rkc_get_f_spec c s v x cx s1 G Lv) as (A1 & B1).
      destruct B1 as [[L1 Ex]|[D1 ->]].
      2:{ inversion Q; subst st c' s'. apply outcome2_dead_read; auto. }
      rewrite E1 in Ex. inversion Ex; subst x cx. clear Ex. pose proof A1 as (Ep1 & _).
      cbv beta iota zeta in Q.
      (* the tail, common to both cases *)
      assert (Tail : forall p1 c2 s3,
                delete_version H fuel v (fp s) c = dv_tail v (dv_p2 v rootk p1) c2 ->
                wpre (fp s) (dv_p2 v rootk p1) ->
                wadv s s3 -> live s3 -> fp s3 = dv_p2 v rootk p1 ->
                PIx f0 (dv_p2 v rootk p1) (sub_of f') f' f' r v ->
                cache_ok c2 (disk (dv_p2 v rootk p1)) f' (v + 1) ->
                tail_f v s3 c2 = (st, c', s') ->
                outcome2 fK bK (delete_version H fuel v (fp s) c) st c' s s').
      { intros p1 c2 s3 Ed Wp A3 L3 E3 PX2 C2 Qt. rewrite Ed, <- E3.
        apply (outcome2_shift fK bK _ st c' s s3 s'); [|exact A3|rewrite E3; exact Wp].
        apply (tail_f_ok s3 c2 r st c' s'); auto; rewrite E3; assumption. }
      destruct (opt_cases rv) as [(tv & Erv)|Erv]; rewrite Erv in R1.
      - (* a non-empty tree *)
        destruct rootk as [k|]; [|contradiction]. cbn [rval] in R1.
        destruct (traverse_ok FI ND OK0 WF0 NC0 Hfuel Suffix Hz (fp s) c1 r tv Erv PX C1)
          as (p1 & c3 & Et & PX1 & Tr & C3 & _).
        assert (Ed : delete_version H fuel v (fp s) c = dv_tail v (dv_p2 v (Some k) p1) c3).
        { rewrite dv_eq, E1. cbv beta iota zeta. unfold dv_step1. rewrite Et. reflexivity. }
        assert (W1 : wpre (fp s) p1) by exact (traverse_wpre H _ _ _ _ _ _ Et).
        assert (W2 : forall pfin cfin, delete_version H fuel v (fp s) c = (POk pfin, cfin) -> wpre p1 pfin).
        { intros pfin cfin Ef. rewrite Ed in Ef.
          exact (wpre_trans _ _ _ (p2_wpre v (Some k) p1) (tail_wpre _ _ _ _ _ Ef)). }
        assert (ERR1 : ERR fK bK p1) by (apply (ERR_f' p1 fc r v PX1); lia).
        pose proof (cache_next v rv rn f'' c3 (disk (fp s)) (disk p1) C3 Tr) as C3t.
        unfold step1_f in Q.
        destruct (traverse_f H true fuel v s1 c1) as [[y cy] s2] eqn:T.
        assert (PXs1 : PIx f0 (fp s1) (sub_of fc) fc fc r v) by (rewrite Ep1; exact PX).
        assert (C1s1 : cache_ok c1 (disk (fp s1)) fc v) by (rewrite Ep1; exact C1).
        pose proof (traverse_f_ok s1 c1 r tv y cy s2 Erv PXs1 C1s1 L1 T) as ((A2 & B2) & Rc).
        rewrite Ep1 in B2, Rc. rewrite Et in B2, Rc. cbn [fst snd] in B2, Rc.
        pose proof (wadv_trans _ _ _ (adv_wadv _ _ A1) A2) as A12.
        destruct B2 as [[L2 R2]|(D2 & -> & Er2 & W2' & F2)].
        2:{ inversion Q; subst st c' s'. apply outcome2_dead; auto.
            intros pfin cfin Ef. exact (wpre_trans _ _ _ (F2 p1 eq_refl) (W2 pfin cfin Ef)). }
        destruct y as [[]| | |]; cbn [rel] in R2; try contradiction.
        subst cy. unfold p2_f in Q.
        pose proof (root_entry_keyed v rv _ _ _ k tv S Erv R1) as Er.
        assert (Ep2 : dv_p2 v (Some k) p1 = if keqb k (v, 1) then p1 else pwrite p1 (del_node (v, 1))) by reflexivity.
        destruct (keqb k (v, 1)).
        + (* the root node sits under (v,1): no root entry *)
          apply (Tail p1 c3 s2 Ed); rewrite ?Ep2; auto.
          exact (PIx_root_entry_none f0 p1 (sub_of f') f' f' r v v rv PX1 (incl_refl _) Er).
        + destruct (pwrite_f s2 (del_node (v, 1))) as [ok s3] eqn:W.
          destruct (pwrite_f_spec s2 _ ok s3 W L2) as (A3 & B3). rewrite R2 in B3.
          pose proof (wadv_trans _ _ _ A12 A3) as A13.
          destruct B3 as [(-> & L3 & E3)|(-> & D3 & E3)].
          2:{ inversion Q; subst st c' s'. apply (outcome2_dead_write fK bK _ _ _ _ p1); auto. }
          apply (Tail p1 c3 s3 Ed); rewrite ?Ep2; auto.
          * exact (wpre_trans _ _ _ W1 (wpre_pwrite _ _)).
          * exact (PIx_root_entry_del f0 FI p1 (sub_of f') f' f' r v v rv _ _ PX1 (incl_refl _) NI Er).
          * exact (cache_pwrite f0 p1 _ (sub_of f') fc f' r v c3 f' (v + 1) PX1 RL' C3t).
      - (* an empty tree *)
        destruct rootk as [k|]; [contradiction|].
        assert (Ed : delete_version H fuel v (fp s) c = dv_tail v (dv_p2 v None (fp s)) c1).
        { rewrite dv_eq, E1. reflexivity. }
        assert (Ep2 : dv_p2 v None (fp s) = pwrite (fp s) (del_node (v, 1))) by reflexivity.
        pose proof (PIx_empty_tree f0 v rv rn f'' (fp s) r Erv PX) as PXa.
        assert (Er : root_entry v rv = Some ((v, 1), EEmpty)) by (rewrite Erv; reflexivity).
        unfold step1_f, p2_f in Q.
        destruct (pwrite_f s1 (del_node (v, 1))) as [ok s3] eqn:W.
        destruct (pwrite_f_spec s1 _ ok s3 W L1) as (A3 & B3). rewrite Ep1 in B3.
        pose proof (wadv_trans _ _ _ (adv_wadv _ _ A1) A3) as A13.
        destruct B3 as [(-> & L3 & E3)|(-> & D3 & E3)].
        2:{ inversion Q; subst st c' s'. apply (outcome2_dead_write fK bK _ _ _ _ (fp s)); auto.
            apply wpre_refl. }
        apply (Tail (fp s) c1 s3 Ed); rewrite ?Ep2; auto.
        + apply wpre_pwrite.
        + exact (PIx_root_entry_del f0 FI (fp s) (sub_of f') f' f' r v v rv _ _ PXa (incl_refl _) NI Er).
        + apply (cache_pwrite f0 (fp s) _ (sub_of f') fc f' r v c1 f' (v + 1) PXa RL').
          apply (cache_ok_shift c1 (disk (fp s)) v rv f' v (v + 1) C1); lia.
    Qed.
  End OneF.

  Lemma skipn_incl {A} n (l : list A) : incl (skipn n l) l.
  Proof. intros x I. rewrite <- (firstn_skipn n l). apply in_or_app. right. exact I. Qed.

  (** *** the loop over the versions *)
  Theorem range_f_ok (fK : forest_t) (bK : Z) : forall (n : nat) fc done v s c r st s',
    f0 = done ++ fc -> map fst fc = zseq v (length fc) -> (n < length fc)%nat ->
    ST f0 (fp s) c fc r v -> live s ->
    incl fK (skipn n fc) -> v + Z.of_nat n <= bK ->
    delete_range_f H true fuel (zseq v n) s c = (st, s') ->
    outcome fK bK (delete_range H fuel (zseq v n) (fp s) c) st s s'.
  Proof.
    induction n as [|n IH]; intros fc done v s c r st s' Suf Hz Ln HS Lv HK Hb Q.
    - cbn [zseq delete_range_f delete_range] in *. inversion Q; subst. split; [apply wadv_refl|].
      left. split; [exact Lv|reflexivity].
    - destruct fc as [|[v0 rv] [|[v1 rn] f'']]; cbn [length] in Ln; try lia.
      assert (E0 : v0 = v /\ v1 = v + 1).
      { cbn [map fst length zseq] in Hz. injection Hz as A B _. auto. }
      destruct E0 as [-> ->].
      cbn [zseq delete_range_f delete_range] in Q |- *.
      assert (HK2 : incl fK ((v + 1, rn) :: f'')).
      { intros x I. apply HK in I. cbn [skipn] in I. exact (skipn_incl n _ x I). }
      destruct (delete_version_ok FI ND OK0 WF0 NC0 Hfuel Suf Hz (fp s) c r HS)
        as (p1 & c1 & E1 & HS1 & _).
      destruct (delete_version_f H true fuel v s c) as [[y cy] s1] eqn:D.
      pose proof (dv_f_ok v rv rn f'' done Suf Hz fK bK HK2 ltac:(lia) s c r y cy s1 HS Lv D) as ((A1 & B1) & Rc).
      rewrite E1 in B1, Rc |- *. cbn [fst snd] in B1, Rc.
      destruct B1 as [[L1 R1]|(D1 & -> & Er1 & W1 & F1)].
      2:{ inversion Q; subst st s'. apply outcome_dead; auto.
          intros pfin Ef. exact (wpre_trans _ _ _ (F1 p1 eq_refl) (delete_range_wpre H _ _ _ _ _ Ef)). }
      destruct y as [[]| | |]; cbn [rel] in R1; try contradiction. subst cy.
      assert (HS1' : ST f0 (fp s1) c1 ((v + 1, rn) :: f'') (rk_next v rn r) (v + 1)) by (rewrite R1; exact HS1).
      rewrite <- R1.
      apply (outcome_shift fK bK _ st s s1 s'); [|exact A1|rewrite R1; exact (delete_version_wpre H _ _ _ _ _ _ E1)].
      apply (IH ((v + 1, rn) :: f'') (done ++ [(v, rv)]) (v + 1) s1 c1 (rk_next v rn r) st s'); auto.
      + rewrite Suf, <- app_assoc. reflexivity.
      + cbn [map fst length zseq] in Hz |- *. injection Hz as Hz'. rewrite Hz'. reflexivity.
      + cbn [length]. lia.
      + lia.
  Qed.
End VersionF.
