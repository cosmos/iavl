(** Proofs about version discovery on the physical node store (Discover.v).

    A freshly opened nodeDB finds the latest version as the version of the greatest node key and
    the first version by a binary search over [has_version] (existence of the key [(v,1)]).
    On the physical store [phys_of r f] of a forest [f] (roots of the versions in [r] re-keyed to
    [(v,0)]) the search stops at a boundary of [has_version] at or below the first retained version
    ([discover_first_lower]); that boundary is the first version exactly when no node stored
    under a root key [(v,1)] of a version below the first retained one survives in a retained
    tree ([stale_free]).  The finding C14-stale-root-key ([discover_stale_refuted]) is a
    reachable state where one does.

    Nothing here depends on the hash function. *)
From Coq Require Import Lia.
From IAVL Require Import Bytes Varint Sha256 Tree VMap TreeFacts MTree MTreeFacts HashFacts
  VersionFacts Store StoreFacts PruneAlgo PruneAlgoFacts2 Discover.
Local Open Scope Z_scope.

Definition stale_free (f : forest_t) : Prop :=
  forall v t u, In (v, Some t) f -> subtree u t -> nonce (nmeta u) = 1 ->
                first_of_forest f <= ver (nmeta u).

(** ** 1. The binary search *)

Lemma shiftr1_mid lo hi : lo < hi ->
  lo <= Z.shiftr (hi + lo) 1 < hi /\
  2 * (Z.shiftr (hi + lo) 1 - lo) <= hi - lo /\ 2 * (hi - (Z.shiftr (hi + lo) 1 + 1)) <= hi - lo - 1.
Proof.
  intros L. rewrite Z.shiftr_div_pow2 by lia. change (2 ^ 1) with 2.
  pose proof (Z.div_mod (hi + lo) 2 ltac:(lia)) as D.
  pose proof (Z.mod_pos_bound (hi + lo) 2 ltac:(lia)) as B. lia.
Qed.

(** WITHOUT any monotonicity: the search terminates within its fuel and returns a boundary *)
Theorem bsearch_general st : forall fuel lo hi,
  lo <= hi -> hi - lo < 2 ^ Z.of_nat fuel ->
  exists m, bsearch fuel st lo hi = Some m /\
            lo <= m <= hi /\
            (has_version st m = true \/ m = hi) /\
            (m = lo \/ has_version st (m - 1) = false).
Proof.
  induction fuel as [|fuel IH]; intros lo hi L B.
  - cbn [bsearch]. change (2 ^ Z.of_nat 0) with 1 in B.
    assert (E : lo = hi) by lia. subst hi. rewrite Z.ltb_irrefl.
    exists lo. repeat split; auto; lia.
  - cbn [bsearch]. destruct (lo <? hi) eqn:C.
    2:{ apply Z.ltb_ge in C. assert (E : lo = hi) by lia. subst hi.
        exists lo. repeat split; auto; lia. }
    apply Z.ltb_lt in C. cbv zeta.
    pose proof (shiftr1_mid lo hi C) as MB.
    set (mid := Z.shiftr (hi + lo) 1) in *.
    assert (P2 : 2 ^ Z.of_nat (S fuel) = 2 * 2 ^ Z.of_nat fuel).
    { rewrite Nat2Z.inj_succ, Z.pow_succ_r by lia. reflexivity. }
    destruct (has_version st mid) eqn:HM.
    + destruct (IH lo mid ltac:(lia) ltac:(lia)) as (m & E & R & A1 & A2).
      exists m. split; [exact E|]. split; [lia|]. split; [|exact A2].
      left. destruct A1 as [A1| ->]; [exact A1|exact HM].
    + destruct (IH (mid + 1) hi ltac:(lia) ltac:(lia)) as (m & E & R & A1 & A2).
      exists m. split; [exact E|]. split; [lia|]. split; [exact A1|].
      right. destruct A2 as [->|A2]; [|exact A2].
      replace (mid + 1 - 1) with mid by lia. exact HM.
Qed.

Definition has_mono (st : store) (lo hi : Z) : Prop :=
  forall a b, lo <= a -> a <= b -> b <= hi -> has_version st a = true -> has_version st b = true.

(** WITH monotonicity the result is the least version of [lo, hi] that exists *)
Theorem bsearch_spec st fuel lo hi :
  lo <= hi -> hi - lo < 2 ^ Z.of_nat fuel ->
  has_version st hi = true -> has_mono st lo hi ->
  exists m, bsearch fuel st lo hi = Some m /\
            lo <= m <= hi /\
            has_version st m = true /\
            (forall v, lo <= v < m -> has_version st v = false).
Proof.
  intros L B HH M.
  destruct (bsearch_general st fuel lo hi L B) as (m & E & R & A1 & A2).
  exists m. split; [exact E|]. split; [exact R|].
  assert (Hm : has_version st m = true) by (destruct A1 as [A1| ->]; assumption).
  split; [exact Hm|]. intros v Rv.
  destruct A2 as [->|A2]; [lia|].
  destruct (has_version st v) eqn:Hv; [|reflexivity].
  rewrite (M v (m - 1) ltac:(lia) ltac:(lia) ltac:(lia) Hv) in A2. discriminate.
Qed.

Lemma bsearch_point st fuel lo : bsearch fuel st lo lo = Some lo.
Proof. destruct fuel; cbn [bsearch]; rewrite Z.ltb_irrefl; reflexivity. Qed.

(** 64 units of fuel suffice below 2^63 *)
Lemma fuel64 hi : 0 <= hi -> hi < 2 ^ 63 -> hi - 0 < 2 ^ Z.of_nat 64.
Proof. intros L B. change (2 ^ Z.of_nat 64) with (2 * 2 ^ 63). lia. Qed.

Theorem discover_first_general st :
  0 <= discover_latest st < 2 ^ 63 ->
  exists m, discover_first st = Some m /\
            0 <= m <= discover_latest st /\
            (has_version st m = true \/ m = discover_latest st) /\
            (m = 0 \/ has_version st (m - 1) = false).
Proof.
  intros [L B]. unfold discover_first.
  apply bsearch_general; [exact L|apply fuel64; assumption].
Qed.

(** ** 2. [has_version] on the physical store of a forest *)

Lemma first_of_forest_eq (f : forest_t) : first_of_forest f = first_of f.
Proof. destruct f as [|[v a] f]; reflexivity. Qed.

Lemma latest_of_forest_eq (f : forest_t) : latest_of_forest f = latest_of f.
Proof. reflexivity. Qed.

Lemma NoDup_zseq a n : NoDup (zseq a n).
Proof.
  revert a. induction n as [|n IH]; intros a; cbn [zseq]; constructor; [|apply IH].
  rewrite In_zseq. lia.
Qed.

Lemma forest_ok_NoDup {A} (f : list (Z * A)) iv : forest_ok f iv -> NoDup (map fst f).
Proof. intros [C _]. rewrite C. apply NoDup_zseq. Qed.

Lemma has_version_In (st : store) v :
  has_version st v = true <-> exists e, In ((v, 1), e) st.
Proof.
  unfold has_version, mhas. destruct (mfind kcmp (v, 1) st) as [e|] eqn:E.
  - split; [intros _|reflexivity]. exists e. apply (In_mfind kcmp kcmp_ok), E.
  - split; [discriminate|]. intros [e HI]. exfalso.
    apply (mfind_None_notin kcmp kcmp_ok) in E. apply E. apply in_map_iff.
    exists ((v, 1), e). auto.
Qed.

Definition is_enode (e : entry) : bool := match e with ENode _ => true | _ => false end.

(** re-keying moves a node entry from [(w,1)] to [(w,0)]: what is found under [(v,1)] afterwards
    was there before and has not moved *)
Lemma In_rekey r (st : store) v e :
  In ((v, 1), e) (rekey r st) <->
  In ((v, 1), e) st /\ (is_enode e = true -> ~ In v r).
Proof.
  rewrite rekey_In. unfold rkk. cbn [fst snd]. split.
  - intros ([w n] & HI & Q). cbn [fst snd] in Q. destruct e as [sn| |]; cbn [is_enode];
      try (inversion Q; subst; split; [exact HI|discriminate]).
    destruct ((n =? 1) && existsb (Z.eqb w) r) eqn:C; inversion Q; subst. split; [exact HI|].
    intros _ Ir. apply (proj2 (in_r_true r _)) in Ir. unfold in_r in Ir. rewrite Ir in C. discriminate C.
  - intros [HI N]. exists (v, 1). split; [exact HI|]. cbn [fst snd].
    destruct e as [sn| |]; try reflexivity.
    destruct (existsb (Z.eqb v) r) eqn:C; [|reflexivity]. apply (in_r_true r v) in C.
    destruct (N eq_refl C).
Qed.

(** general form, any [r]: the key [(v,1)] exists in the physical store iff it is the key of a
    retained node that has not been re-keyed, or [v] is a retained version whose root does not
    sit under [(v,1)] (its root entry does) *)
Theorem has_version_phys (r : list Z) (f : forest_t) v :
  forest_inv f -> NoDup (map fst f) ->
  (has_version (phys_of r f) v = true <->
   (exists u, sub_of f u /\ node_key u = (v, 1) /\ ~ In v r) \/
   (exists ro, In (v, ro) f /\ forall t, ro = Some t -> node_key t <> (v, 1))).
Proof.
  intros FI ND. rewrite has_version_In. unfold phys_of. split.
  - intros [e HI]. apply In_rekey in HI. destruct HI as [HI N].
    apply (expected_In f _ _ FI ND) in HI. apply reach_In in HI.
    destruct HI as [(u & S & K & ->)|(v' & ro & HI & E)].
    + left. exists u. split; [exact S|]. split; [symmetry; exact K|]. apply N. reflexivity.
    + right. destruct (root_entry_Some _ _ _ _ E) as [K D].
      assert (v' = v) by congruence. subst v'. exists ro. split; [exact HI|].
      intros t ->. destruct D as [[C _]|(t' & Q & _ & NK)]; [discriminate|].
      inversion Q; subst. exact NK.
  - intros [(u & S & K & N)|(ro & HI & NK)].
    + exists (ENode (snode_of u)). apply In_rekey. split; [|intros _; exact N].
      apply (expected_In f _ _ FI ND). apply reach_In. left. exists u. auto.
    + destruct (root_entry v ro) as [[k e]|] eqn:E.
      * destruct (root_entry_Some _ _ _ _ E) as [-> D]. exists e. apply In_rekey. split.
        -- apply (expected_In f _ _ FI ND). apply reach_In. right. exists v, ro. auto.
        -- destruct D as [[_ ->]|(t & _ & -> & _)]; discriminate.
      * exfalso. unfold root_entry in E. destruct ro as [t|]; [|discriminate].
        destruct (keqb (node_key t) (v, 1)) eqn:C; [|discriminate].
        apply keqb_true in C. exact (NK t eq_refl C).
Qed.

Lemma has_version_retained (r : list Z) (f : forest_t) v :
  forest_inv f -> NoDup (map fst f) -> In v (map fst f) -> ~ In v r ->
  has_version (phys_of r f) v = true.
Proof.
  intros FI ND Iv N. apply (has_version_phys r f v FI ND).
  destruct (In_map_fst_pair f v Iv) as [ro HI].
  destruct ro as [t|].
  - destruct (keqb (node_key t) (v, 1)) eqn:C.
    + apply keqb_true in C. left. exists t. split; [|auto].
      exists v, t. split; [exact HI|apply sub_refl].
    + apply keqb_false in C. right. exists (Some t). split; [exact HI|].
      intros t' Q. inversion Q; subst. exact C.
  - right. exists None. split; [exact HI|]. intros t' Q. discriminate.
Qed.

Lemma has_version_rekeyed (r : list Z) (f : forest_t) v t :
  forest_inv f -> NoDup (map fst f) -> In (v, Some t) f -> node_key t = (v, 1) -> In v r ->
  has_version (phys_of r f) v = false.
Proof.
  intros FI ND HI K Ir. destruct (has_version (phys_of r f) v) eqn:E; [|reflexivity].
  exfalso. apply (has_version_phys r f v FI ND) in E.
  destruct E as [(u & _ & _ & N)|(ro & HI' & NK)]; [exact (N Ir)|].
  rewrite (NoDup_fst_functional f v ro (Some t) ND HI' HI) in NK. exact (NK t eq_refl K).
Qed.

(** the form used below: [r] only below the first retained version.  Every version of the range
    has its key; below the range only stale root keys remain *)
Theorem has_version_expected (r : list Z) (f : forest_t) iv v :
  forest_inv f -> forest_ok f iv -> f <> [] ->
  (forall x, In x r -> x < first_of_forest f) ->
  (has_version (phys_of r f) v = true <->
   (first_of_forest f <= v <= latest_of_forest f) \/
   (v < first_of_forest f /\ ~ In v r /\ exists u, sub_of f u /\ node_key u = (v, 1))).
Proof.
  intros FI OK NE RB. pose proof (forest_ok_NoDup f iv OK) as ND.
  rewrite first_of_forest_eq in *. rewrite latest_of_forest_eq.
  rewrite (has_version_phys r f v FI ND). split.
  - intros [(u & S & K & N)|(ro & HI & _)].
    + destruct (Z.ltb_spec v (first_of f)) as [L|L].
      * right. split; [exact L|]. split; [exact N|]. exists u. auto.
      * left. split; [exact L|]. destruct S as (w & t & HI & S).
        pose proof (fi_ver f FI w t u HI S) as B.
        assert (Iw : In w (map fst f)) by (apply in_map_iff; exists (w, Some t); auto).
        apply (forest_ok_In f iv w OK) in Iw. unfold node_key in K. inversion K. lia.
    + left. assert (Iv : In v (map fst f)) by (apply in_map_iff; exists (v, ro); auto).
      apply (forest_ok_In f iv v OK) in Iv. tauto.
  - intros [R|(L & N & u & S & K)].
    + apply (has_version_phys r f v FI ND). apply has_version_retained; auto.
      * apply (forest_ok_In f iv v OK). auto.
      * intros Ir. specialize (RB v Ir). lia.
    + left. exists u. auto.
Qed.

(** ** 3. The latest version: the version of the greatest key *)

Definition kver (p : (Z * Z) * entry) : Z := fst (fst p).

Lemma discover_latest_cons p (st : store) :
  discover_latest (p :: st) = fold_left (fun _ q => fst (fst q)) st (kver p).
Proof. reflexivity. Qed.

Lemma fold_last_sorted (st : store) : forall d,
  msorted kcmp st -> st <> [] ->
  (forall p, In p st -> kver p <= fold_left (fun _ q => fst (fst q)) st d) /\
  (exists p, In p st /\ kver p = fold_left (fun _ q => fst (fst q)) st d).
Proof.
  induction st as [|[k e] st IH]; intros d S NE; [congruence|].
  cbn [fold_left]. destruct S as [F S]. destruct st as [|q st].
  - cbn [fold_left]. split.
    + intros p [<-|[]]. unfold kver. cbn [fst]. lia.
    + exists (k, e). split; [left; reflexivity|reflexivity].
  - destruct (IH (fst (fst (k, e))) S ltac:(discriminate)) as (A & p0 & I0 & E0).
    split.
    + intros p [<-|HI]; [|apply A, HI].
      rewrite <- E0. rewrite Forall_forall in F. specialize (F p0 I0).
      apply kcmp_Lt in F. unfold klt in F. unfold kver. cbn [fst] in *. lia.
    + exists p0. split; [right; exact I0|exact E0].
Qed.

Lemma discover_latest_sorted (st : store) :
  msorted kcmp st -> st <> [] ->
  (forall p, In p st -> kver p <= discover_latest st) /\
  (exists p, In p st /\ kver p = discover_latest st).
Proof. intros S NE. exact (fold_last_sorted st 0 S NE). Qed.

(** re-keying changes nonces only *)
Lemma discover_latest_rekey r (st : store) : discover_latest (rekey r st) = discover_latest st.
Proof.
  unfold discover_latest. rewrite rekey_map. generalize 0.
  induction st as [|p st IH]; intros d; cbn [map fold_left]; [reflexivity|].
  rewrite rkk_fst. apply IH.
Qed.

(** on a sorted store with versions from 0 the last key and the greatest version agree:
    [discover_latest] is getLatestVersion *)
Lemma discover_latest_store (st : store) :
  msorted kcmp st -> (forall p, In p st -> 0 <= kver p) -> discover_latest st = store_latest st.
Proof.
  intros S N. destruct (nil_or_not st) as [->|NE]; [reflexivity|].
  destruct (discover_latest_sorted st S NE) as (A & p0 & I0 & E0).
  symmetry. apply store_latest_eq; [rewrite <- E0; apply N, I0|exact A|exists p0; auto].
Qed.

Theorem discover_latest_expected (r : list Z) (f : forest_t) iv :
  forest_inv f -> forest_ok f iv -> f <> [] ->
  discover_latest (phys_of r f) = latest_of_forest f.
Proof.
  intros FI OK NE. unfold phys_of.
  rewrite discover_latest_rekey, latest_of_forest_eq, discover_latest_store.
  - apply (store_latest_expected f iv); try assumption. apply (forest_ok_NoDup f iv OK).
  - apply expected_sorted.
  - intros [k e] HI. apply expected_In_reach in HI.
    pose proof (reach_key_version f iv k e FI OK HI) as B. unfold kver. cbn [fst]. lia.
Qed.

Lemma phys_of_nil r : phys_of r [] = [].
Proof. reflexivity. Qed.

Theorem discover_latest_empty r : discover_latest (phys_of r []) = 0.
Proof. reflexivity. Qed.

(** ** 4. Discovery is exact on a stale-free forest *)

Lemma map_seq_zseq a n : forall s,
  map (fun i => a + Z.of_nat i) (seq s n) = zseq (a + Z.of_nat s) n.
Proof.
  induction n as [|n IH]; intros s; cbn [seq map zseq]; [reflexivity|].
  rewrite IH. do 2 f_equal. lia.
Qed.

Lemma versions_from_to_zrange a b : versions_from_to a b = zrange a b.
Proof.
  unfold versions_from_to, zrange. rewrite map_seq_zseq.
  replace (a + Z.of_nat 0) with a by lia. f_equal. lia.
Qed.

(** The sharp condition, relative to the re-keyed roots: a node under a root key [(w,1)] of a
    version below the range may survive in a retained tree provided that key has been re-keyed
    to [(w,0)] (this is the very purpose of the re-keying: a deleted version whose root node is
    the root of the next version). *)
Definition stale_free_rel (r : list Z) (f : forest_t) : Prop :=
  forall v t u, In (v, Some t) f -> subtree u t -> nonce (nmeta u) = 1 ->
                first_of_forest f <= ver (nmeta u) \/ In (ver (nmeta u)) r.

Lemma stale_free_rel_of r f : stale_free f -> stale_free_rel r f.
Proof. intros SF v t u HI S K. left. exact (SF v t u HI S K). Qed.

Lemma stale_free_rel_nil f : stale_free_rel [] f <-> stale_free f.
Proof.
  split; [|apply stale_free_rel_of]. intros SF v t u HI S K.
  destruct (SF v t u HI S K) as [L|[]]. exact L.
Qed.

Lemma stale_free_no_has (r : list Z) (f : forest_t) iv v :
  forest_inv f -> forest_ok f iv -> f <> [] ->
  (forall x, In x r -> x < first_of_forest f) -> stale_free_rel r f ->
  v < first_of_forest f -> has_version (phys_of r f) v = false.
Proof.
  intros FI OK NE RB SF L. destruct (has_version (phys_of r f) v) eqn:E; [|reflexivity].
  exfalso. apply (has_version_expected r f iv v FI OK NE RB) in E.
  destruct E as [R|(_ & N & u & (w & t & HI & S) & K)]; [lia|].
  unfold node_key in K. inversion K as [[K1 K2]].
  destruct (SF w t u HI S K2) as [X|X]; [lia|]. apply N. rewrite <- K1. exact X.
Qed.

(** a stale root key that has not been re-keyed makes [has_version] answer "yes" for a deleted
    version (whatever the search then returns) *)
Theorem stale_has_version (r : list Z) (f : forest_t) iv v t u :
  forest_inv f -> forest_ok f iv ->
  In (v, Some t) f -> subtree u t -> nonce (nmeta u) = 1 -> ver (nmeta u) < first_of_forest f ->
  ~ In (ver (nmeta u)) r ->
  has_version (phys_of r f) (ver (nmeta u)) = true.
Proof.
  intros FI OK HI S K L N. pose proof (forest_ok_NoDup f iv OK) as ND.
  apply (has_version_phys r f _ FI ND). left. exists u. split; [exists v, t; auto|].
  split; [|exact N]. unfold node_key. rewrite K. reflexivity.
Qed.

Lemma no_has_stale_free (r : list Z) (f : forest_t) iv :
  forest_inv f -> forest_ok f iv ->
  (forall v, v < first_of_forest f -> has_version (phys_of r f) v = false) ->
  stale_free_rel r f.
Proof.
  intros FI OK NH v t u HI S K.
  destruct (Z.leb_spec (first_of_forest f) (ver (nmeta u))) as [L|L]; [left; exact L|]. right.
  destruct (in_dec Z.eq_dec (ver (nmeta u)) r) as [Ir|N]; [exact Ir|]. exfalso.
  specialize (NH _ L). rewrite (stale_has_version r f iv v t u FI OK HI S K L N) in NH.
  discriminate NH.
Qed.

(** whatever the forest (stale or not), the discovered first version is never ABOVE the real
    one, and the version just below it (if any) does not exist *)
Theorem discover_first_lower (r : list Z) (f : forest_t) iv :
  f <> [] -> forest_inv f -> forest_ok f iv -> latest_of_forest f < 2 ^ 63 ->
  (forall x, In x r -> x < first_of_forest f) ->
  exists m, discover_first (phys_of r f) = Some m /\
            0 <= m <= first_of_forest f /\
            has_version (phys_of r f) m = true /\
            (m = 0 \/ has_version (phys_of r f) (m - 1) = false).
Proof.
  intros NE FI OK B RB.
  pose proof (discover_latest_expected r f iv FI OK NE) as DL.
  destruct (forest_ok_range f iv OK NE) as (R1 & _ & _).
  rewrite <- first_of_forest_eq, <- latest_of_forest_eq in R1.
  assert (HR : forall v, first_of_forest f <= v <= latest_of_forest f ->
                         has_version (phys_of r f) v = true).
  { intros v Rv. apply (has_version_expected r f iv _ FI OK NE RB). left. exact Rv. }
  destruct (discover_first_general (phys_of r f)) as (m & E & Rm & A1 & A2).
  { rewrite DL. lia. }
  rewrite DL in Rm, A1. exists m. split; [exact E|].
  assert (Hm : has_version (phys_of r f) m = true).
  { destruct A1 as [A1| ->]; [exact A1|]. apply HR. lia. }
  split; [|split; [exact Hm|exact A2]]. split; [lia|].
  (* m <= first: otherwise m - 1 is in the range and exists *)
  destruct (Z.leb_spec m (first_of_forest f)) as [L|L]; [exact L|]. exfalso.
  destruct A2 as [->|A2]; [lia|]. rewrite (HR (m - 1) ltac:(lia)) in A2. discriminate.
Qed.

Theorem discover_first_exact_rel (r : list Z) (f : forest_t) iv :
  f <> [] -> forest_inv f -> forest_ok f iv -> latest_of_forest f < 2 ^ 63 ->
  stale_free_rel r f -> (forall x, In x r -> x < first_of_forest f) ->
  discover_first (phys_of r f) = Some (first_of_forest f).
Proof.
  intros NE FI OK B SF RB.
  destruct (discover_first_lower r f iv NE FI OK B RB) as (m & E & Rm & Hm & _).
  rewrite E. f_equal. destruct (Z.ltb_spec m (first_of_forest f)) as [L|L]; [|lia].
  rewrite (stale_free_no_has r f iv m FI OK NE RB SF L) in Hm. discriminate.
Qed.

(** the main theorem in its sharp form (re-keyed stale roots allowed) *)
Theorem discover_exact_rel (r : list Z) (f : forest_t) iv :
  f <> [] -> forest_inv f -> forest_ok f iv -> latest_of_forest f < 2 ^ 63 ->
  stale_free_rel r f -> (forall x, In x r -> x < first_of_forest f) ->
  discovered_range (phys_of r f) = Some (first_of_forest f, latest_of_forest f) /\
  discovered_available (phys_of r f) = Some (map fst f).
Proof.
  intros NE FI OK B SF RB.
  assert (DR : discovered_range (phys_of r f) = Some (first_of_forest f, latest_of_forest f)).
  { unfold discovered_range. rewrite (discover_first_exact_rel r f iv NE FI OK B SF RB).
    rewrite (discover_latest_expected r f iv FI OK NE). reflexivity. }
  split; [exact DR|]. unfold discovered_available. rewrite DR.
  destruct (forest_ok_range f iv OK NE) as (R1 & _ & R).
  rewrite first_of_forest_eq, latest_of_forest_eq.
  destruct (latest_of f =? 0) eqn:C; [apply Z.eqb_eq in C; lia|].
  rewrite versions_from_to_zrange, R. reflexivity.
Qed.

Theorem discover_first_exact (r : list Z) (f : forest_t) iv :
  f <> [] -> forest_inv f -> forest_ok f iv -> latest_of_forest f < 2 ^ 63 ->
  stale_free f -> (forall x, In x r -> x < first_of_forest f) ->
  discover_first (phys_of r f) = Some (first_of_forest f).
Proof.
  intros NE FI OK B SF RB. apply (discover_first_exact_rel r f iv); auto.
  apply stale_free_rel_of, SF.
Qed.

(** THE MAIN THEOREM: a freshly opened nodeDB finds exactly the retained range *)
Theorem discover_exact (r : list Z) (f : forest_t) iv :
  f <> [] -> forest_inv f -> forest_ok f iv -> latest_of_forest f < 2 ^ 63 ->
  stale_free f -> (forall x, In x r -> x < first_of_forest f) ->
  discovered_range (phys_of r f) = Some (first_of_forest f, latest_of_forest f) /\
  discovered_available (phys_of r f) = Some (map fst f).
Proof.
  intros NE FI OK B SF RB. apply (discover_exact_rel r f iv); auto.
  apply stale_free_rel_of, SF.
Qed.

Theorem discover_empty :
  discovered_range [] = Some (0, 0) /\ discovered_available [] = Some [].
Proof. split; reflexivity. Qed.

Corollary discover_empty_forest r :
  discovered_range (phys_of r []) = Some (0, 0) /\ discovered_available (phys_of r []) = Some [].
Proof. exact discover_empty. Qed.

(** ** 5. Reachable states *)

Lemma rekey_id r (st : store) :
  (forall w sn, In ((w, 1), ENode sn) st -> ~ In w r) -> rekey r st = st.
Proof.
  unfold rekey. induction st as [|[[w n] e] st IH]; intros A; cbn [map]; [reflexivity|].
  rewrite IH by (intros w' sn' HI; apply (A w' sn'); right; exact HI). f_equal.
  cbn [fst snd]. destruct e as [sn| |]; try reflexivity.
  destruct ((n =? 1) && existsb (Z.eqb w) r) eqn:C; [|reflexivity]. exfalso.
  apply Bool.andb_true_iff in C. destruct C as [C1 C2]. apply Z.eqb_eq in C1. subst n.
  apply (A w sn (or_introl eq_refl)), (in_r_true r w), C2.
Qed.

Lemma rekey_nil (st : store) : rekey [] st = st.
Proof. apply rekey_id. intros w sn _ []. Qed.

Lemma phys_of_nil_r (f : forest_t) : phys_of [] f = expected_store f.
Proof. apply rekey_nil. Qed.

(** state level: the invariants of StoreFacts suffice *)
Theorem discover_state_rel (H : bytes -> bytes) (s : mstate) (r : list Z) :
  store_ok H s -> latest_version s < 2 ^ 63 ->
  stale_free_rel r (forest s) -> (forall x, In x r -> x < first_version s) ->
  discovered_range (phys_of r (forest s)) = Some (first_version s, latest_version s) /\
  discovered_available (phys_of r (forest s)) = Some (available s).
Proof.
  intros SO B SF RB. pose proof SO as [SI HI C FI _].
  pose proof (contig_forest_ok s C) as OK.
  destruct (nil_or_not (forest s)) as [E|NE].
  - unfold first_version, latest_version, available. rewrite E. exact (discover_empty_forest r).
  - change (first_version s) with (first_of (forest s)) in *.
    rewrite <- first_of_forest_eq in *.
    exact (discover_exact_rel r (forest s) (init_ver s) NE FI OK B SF RB).
Qed.

Theorem discover_state (H : bytes -> bytes) (s : mstate) :
  store_ok H s -> latest_version s < 2 ^ 63 -> stale_free (forest s) ->
  discovered_range (expected_store (forest s)) = Some (first_version s, latest_version s) /\
  discovered_available (expected_store (forest s)) = Some (available s).
Proof.
  intros SO B SF. rewrite <- phys_of_nil_r.
  apply (discover_state_rel H s []); auto.
  - apply stale_free_rel_of, SF.
  - intros x [].
Qed.

(** every state reachable by an in-contract history: discovery on the expected store yields
    exactly [(first_version, latest_version)] / [available] when the forest is stale-free *)
Theorem discover_reachable (H : bytes -> bytes) (iv : Z) (b : bool) (ops : list op) :
  init_ok iv b -> run_ok H (init_state iv b) ops ->
  let s := fst (run H (init_state iv b) ops) in
  latest_version s < 2 ^ 63 -> stale_free (forest s) ->
  discovered_range (expected_store (forest s)) = Some (first_version s, latest_version s) /\
  discovered_available (expected_store (forest s)) = Some (available s).
Proof.
  intros IO R s B SF. apply (discover_state H s); auto.
  apply store_ok_reachable; assumption.
Qed.

Theorem discover_reachable_rel (H : bytes -> bytes) (iv : Z) (b : bool) (ops : list op) (r : list Z) :
  init_ok iv b -> run_ok H (init_state iv b) ops ->
  let s := fst (run H (init_state iv b) ops) in
  latest_version s < 2 ^ 63 ->
  stale_free_rel r (forest s) -> (forall x, In x r -> x < first_version s) ->
  discovered_range (phys_of r (forest s)) = Some (first_version s, latest_version s) /\
  discovered_available (phys_of r (forest s)) = Some (available s).
Proof.
  intros IO R s B SF RB. apply (discover_state_rel H s r); auto.
  apply store_ok_reachable; assumption.
Qed.

(** a sufficient condition that needs no inspection of the trees: nothing older than the first
    retained version is retained (in particular: no version has ever been deleted) *)
Lemma stale_free_young (f : forest_t) :
  (forall v t u, In (v, Some t) f -> subtree u t -> first_of_forest f <= ver (nmeta u)) ->
  stale_free f.
Proof. intros A v t u HI S _. exact (A v t u HI S). Qed.

(** ** Deciding the side conditions (for concrete forests) *)

Definition stale_free_relb (r : list Z) (f : forest_t) : bool :=
  forallb (fun p =>
             match snd p with
             | Some t =>
                 forallb (fun q => negb (snd (fst q) =? 1) ||
                                   (first_of_forest f <=? fst (fst q)) ||
                                   existsb (Z.eqb (fst (fst q))) r) (nodes_of t)
             | None => true
             end) f.

Definition stale_freeb (f : forest_t) : bool := stale_free_relb [] f.

Lemma stale_free_relb_iff r f : stale_free_relb r f = true <-> stale_free_rel r f.
Proof.
  unfold stale_free_relb, stale_free_rel. rewrite forallb_forall. split.
  - intros A v t u HI S K. specialize (A _ HI). cbn [snd] in A.
    rewrite forallb_forall in A.
    assert (Iq : In (node_key u, snode_of u) (nodes_of t)) by (apply nodes_of_In; exists u; auto).
    specialize (A _ Iq). unfold node_key in A. cbn [fst snd] in A.
    rewrite K in A. cbn [Z.eqb Pos.eqb negb orb] in A.
    apply Bool.orb_true_iff in A. destruct A as [A|A].
    + left. apply Z.leb_le, A.
    + right. apply (in_r_true r _), A.
  - intros SF [v [t|]] HI; cbn [snd]; [|reflexivity].
    apply forallb_forall. intros [k sn] Iq. cbn [fst snd].
    apply nodes_of_In in Iq. destruct Iq as (u & S & -> & _).
    unfold node_key. cbn [fst snd].
    destruct (nonce (nmeta u) =? 1) eqn:C; [|reflexivity]. apply Z.eqb_eq in C.
    cbn [negb orb]. apply Bool.orb_true_iff.
    destruct (SF v t u HI S C) as [L|Ir].
    + left. apply Z.leb_le, L.
    + right. apply (in_r_true r _), Ir.
Qed.

Lemma stale_freeb_iff f : stale_freeb f = true <-> stale_free f.
Proof. unfold stale_freeb. rewrite stale_free_relb_iff. apply stale_free_rel_nil. Qed.

Lemma stale_freeb_false f : stale_freeb f = false -> ~ stale_free f.
Proof. intros E SF. apply stale_freeb_iff in SF. congruence. Qed.

(** ** Histories in two legs (the examples below evaluate the leg that runs SHA-256 once) *)
Lemma run_okb_app H s a b :
  run_okb H s (a ++ b) = run_okb H s a && run_okb H (fst (run H s a)) b.
Proof.
  revert s. induction a as [|o a IH]; intros s; [reflexivity|].
  cbn [app run_okb]. rewrite IH, run_cons, Bool.andb_assoc. reflexivity.
Qed.

Lemma run_app_fst H s a b : fst (run H s (a ++ b)) = fst (run H (fst (run H s a)) b).
Proof. rewrite run_app. reflexivity. Qed.

(** ** 6. The finding C14-stale-root-key

    Version 1 is a one-leaf tree: its leaf is the root, stored under [(1,1)].  Version 2 adds a
    key: the old leaf becomes a child of the new root.  DeleteVersionsTo(1) finds no orphan and
    no shared root, and leaves [(1,1)] in place.  A freshly opened nodeDB then reports the
    deleted version 1 as the first version and as available. *)
Definition stale_ka : bytes := [97%N].
Definition stale_kb : bytes := [98%N].
Definition stale_hist0 : list op := [OSet stale_ka stale_ka; OSave; OSet stale_kb stale_kb; OSave].
Definition stale_hist : list op := stale_hist0 ++ [OPrune 1].

Definition stale_s0 : mstate :=
  Eval vm_compute in fst (run sha256 (init_state 0 false) stale_hist0).

Lemma stale_s0_eq :
  fst (run sha256 (init_state 0 false) stale_hist0) = stale_s0 /\
  run_okb sha256 (init_state 0 false) stale_hist0 = true.
Proof. split; vm_compute; reflexivity. Qed.

Theorem discover_stale_refuted :
  let s0 := fst (run sha256 (init_state 0 false) stale_hist0) in
  let s := fst (run sha256 (init_state 0 false) stale_hist) in
  init_ok 0 false /\
  run_ok sha256 (init_state 0 false) stale_hist /\
  (* the physical DeleteVersionsTo(1) produces exactly the expected store of the new forest *)
  (exists w fl, prune_forest sha256 false [] (forest s0) [] 1 = POk (expected_store (forest s), w, fl)) /\
  map fst (expected_store (forest s)) = [(1, 1); (2, 1); (2, 2)] /\
  first_version s = 2 /\ latest_version s = 2 /\ available s = [2] /\
  latest_version s < 2 ^ 63 /\
  ~ stale_free (forest s) /\
  has_version (expected_store (forest s)) 1 = true /\
  discovered_range (expected_store (forest s)) = Some (1, 2) /\
  discovered_available (expected_store (forest s)) = Some [1; 2].
Proof.
  unfold stale_hist. rewrite run_app_fst, (proj1 stale_s0_eq).
  cbv zeta. split; [unfold init_ok; lia|].
  split; [apply run_okb_iff; rewrite run_okb_app, (proj2 stale_s0_eq), (proj1 stale_s0_eq);
          vm_compute; reflexivity|].
  split; [eexists; eexists; vm_compute; reflexivity|].
  split; [vm_compute; reflexivity|].
  split; [vm_compute; reflexivity|].
  split; [vm_compute; reflexivity|].
  split; [vm_compute; reflexivity|].
  split; [vm_compute; reflexivity|].
  split; [apply stale_freeb_false; vm_compute; reflexivity|].
  split; [vm_compute; reflexivity|].
  split; vm_compute; reflexivity.
Qed.

(** in particular the conclusion of [discover_reachable] fails without [stale_free] *)
Corollary discover_reachable_needs_stale_free :
  exists (iv : Z) (b : bool) (ops : list op),
    init_ok iv b /\ run_ok sha256 (init_state iv b) ops /\
    let s := fst (run sha256 (init_state iv b) ops) in
    latest_version s < 2 ^ 63 /\
    discovered_range (expected_store (forest s)) <> Some (first_version s, latest_version s) /\
    discovered_available (expected_store (forest s)) <> Some (available s).
Proof.
  exists 0, false, stale_hist.
  pose proof discover_stale_refuted as P. cbv zeta in P.
  destruct P as (A & B & _ & _ & F & L & Av & Bd & _ & _ & DR & DA).
  split; [exact A|]. split; [exact B|]. cbv zeta. split; [exact Bd|].
  rewrite DR, DA, F, L, Av. split; intros Q; discriminate.
Qed.

(** Remark: under the hypotheses of [discover_exact] ([stale_free f], [r] below the range) no
    root is actually re-keyed in [phys_of r f]: a re-keyed root still present in the store IS a
    node of a retained tree under a root key below the range.  Physical stores with re-keyed
    roots are covered by [discover_exact_rel]. *)
Lemma phys_of_stale_free (r : list Z) (f : forest_t) :
  forest_inv f -> NoDup (map fst f) -> stale_free f ->
  (forall x, In x r -> x < first_of_forest f) ->
  phys_of r f = expected_store f.
Proof.
  intros FI ND SF RB. unfold phys_of. apply rekey_id. intros w sn HI Ir.
  apply (expected_In f _ _ FI ND) in HI. apply reach_In in HI.
  destruct HI as [(u & (v & t & HI & S) & K & _)|(v & ro & HI & E)].
  - unfold node_key in K. inversion K as [[K1 K2]]. symmetry in K2.
    pose proof (SF v t u HI S K2). specialize (RB w Ir). lia.
  - destruct (root_entry_Some _ _ _ _ E) as [_ [[_ C]|(t & _ & C & _)]]; discriminate.
Qed.

(** ** 7. Examples (SHA-256)

    Four versions: {a,b}; the same tree again (version 2 refers to the root (1,1)); {a,b,c};
    {b,c} (whose root is the old inner node (3,2): version 4 has a root reference). *)
Definition dx_a : bytes := [97%N].
Definition dx_b : bytes := [98%N].
Definition dx_c : bytes := [99%N].
Definition dx_hist : list op :=
  [OSet dx_a dx_a; OSet dx_b dx_b; OSave; OSave; OSet dx_c dx_c; OSave; ORemove dx_a; OSave].
Definition dx_state (ops : list op) : mstate := fst (run sha256 (init_state 0 false) ops).
Definition dx_keys (f : forest_t) : list (Z * list (Z * Z)) :=
  map (fun p => (fst p, match snd p with Some t => map fst (nodes_of t) | None => [] end)) f.

Definition dx_s4 : mstate := Eval vm_compute in dx_state dx_hist.

Lemma dx_s4_eq :
  fst (run sha256 (init_state 0 false) dx_hist) = dx_s4 /\
  run_okb sha256 (init_state 0 false) dx_hist = true.
Proof. split; vm_compute; reflexivity. Qed.

Lemma dx_run_hist b :
  fst (run sha256 (init_state 0 false) (dx_hist ++ b)) = fst (run sha256 dx_s4 b).
Proof. rewrite run_app_fst, (proj1 dx_s4_eq). reflexivity. Qed.

Lemma dx_okb_hist b :
  run_okb sha256 (init_state 0 false) (dx_hist ++ b) = run_okb sha256 dx_s4 b.
Proof. rewrite run_okb_app, (proj2 dx_s4_eq), (proj1 dx_s4_eq). reflexivity. Qed.

Example dx_forest :
  run_okb sha256 (init_state 0 false) (dx_hist ++ [OPrune 1; OPrune 2]) = true /\
  dx_keys (forest (dx_state dx_hist)) =
    [(1, [(1, 1); (1, 2); (1, 3)]); (2, [(1, 1); (1, 2); (1, 3)]);
     (3, [(3, 1); (1, 2); (3, 2); (1, 3); (3, 3)]); (4, [(3, 2); (1, 3); (3, 3)])].
Proof. unfold dx_state. rewrite dx_okb_hist, (proj1 dx_s4_eq). vm_compute. split; reflexivity. Qed.

(** nothing deleted yet: discovery on the expected store of all four versions ([discover_reachable]) *)
Example dx_discover_all :
  let s := dx_state dx_hist in
  stale_freeb (forest s) = true /\
  discovered_range (expected_store (forest s)) = Some (1, 4) /\
  discovered_available (expected_store (forest s)) = Some [1; 2; 3; 4] /\
  (first_version s, latest_version s, available s) = (1, 4, [1; 2; 3; 4]).
Proof. unfold dx_state. rewrite (proj1 dx_s4_eq). vm_compute. repeat split; reflexivity. Qed.

(** the physical DeleteVersionsTo(1) re-keys the shared root (1,1) to (1,0): the store is
    [phys_of [1]] of the remaining forest; that forest is NOT [stale_free] (the root of version
    2 is the node (1,1)) but it is [stale_free_rel [1]]; discovery is exact on the physical
    store ([discover_exact_rel]) and WRONG on the normalised store, where the root is listed
    under (1,1) *)
Example dx_discover_rekeyed :
  let f0 := forest (dx_state dx_hist) in
  let s := dx_state (dx_hist ++ [OPrune 1]) in
  (exists w fl, prune_forest sha256 false [] f0 [] 1 = POk (phys_of [1] (forest s), w, fl)) /\
  map fst (phys_of [1] (forest s)) = [(1, 0); (1, 2); (1, 3); (2, 1); (3, 1); (3, 2); (3, 3); (4, 1)] /\
  rekeyed (phys_of [1] (forest s)) = [1] /\
  stale_free_relb [1] (forest s) = true /\ stale_freeb (forest s) = false /\
  forallb (fun x => x <? first_version s) [1] = true /\
  discovered_range (phys_of [1] (forest s)) = Some (2, 4) /\
  discovered_available (phys_of [1] (forest s)) = Some [2; 3; 4] /\
  (first_version s, latest_version s, available s) = (2, 4, [2; 3; 4]) /\
  discovered_range (expected_store (forest s)) = Some (1, 4).
Proof.
  unfold dx_state. rewrite dx_run_hist, (proj1 dx_s4_eq).
  cbv zeta. split; [eexists; eexists; vm_compute; reflexivity|].
  vm_compute. repeat split; reflexivity.
Qed.

(** the same conclusion obtained from the theorem: its hypotheses hold on this state *)
Example dx_discover_rekeyed_thm :
  let s := dx_state (dx_hist ++ [OPrune 1]) in
  discovered_range (phys_of [1] (forest s)) = Some (first_version s, latest_version s) /\
  discovered_available (phys_of [1] (forest s)) = Some (available s).
Proof.
  cbv zeta. apply (discover_reachable_rel sha256 0 false (dx_hist ++ [OPrune 1]) [1]);
    rewrite ?dx_run_hist.
  - unfold init_ok. lia.
  - apply run_okb_iff. rewrite dx_okb_hist. vm_compute. reflexivity.
  - vm_compute. reflexivity.
  - apply stale_free_relb_iff. vm_compute. reflexivity.
  - intros x [<-|[]]. vm_compute. reflexivity.
Qed.

(** DeleteVersionsTo(2) from there deletes the re-keyed root: the store is the expected store
    of versions 3, 4, which is stale-free; [discover_exact] (with any [r] below 3) and
    [discover_reachable] apply *)
Example dx_discover_pruned :
  let f1 := forest (dx_state (dx_hist ++ [OPrune 1])) in
  let s := dx_state (dx_hist ++ [OPrune 1; OPrune 2]) in
  (exists w fl, prune_forest sha256 false [1] f1 [] 2 = POk (expected_store (forest s), w, fl)) /\
  phys_of [1; 2] (forest s) = expected_store (forest s) /\
  map fst (expected_store (forest s)) = [(1, 2); (1, 3); (3, 1); (3, 2); (3, 3); (4, 1)] /\
  mfind kcmp (4, 1) (expected_store (forest s)) = Some (ERef (3, 2)) /\
  stale_freeb (forest s) = true /\
  discovered_range (expected_store (forest s)) = Some (3, 4) /\
  discovered_available (expected_store (forest s)) = Some [3; 4] /\
  (first_version s, latest_version s, available s) = (3, 4, [3; 4]).
Proof.
  unfold dx_state. rewrite !dx_run_hist.
  cbv zeta. split; [eexists; eexists; vm_compute; reflexivity|].
  vm_compute. repeat split; reflexivity.
Qed.

Example dx_discover_pruned_thm :
  let s := dx_state (dx_hist ++ [OPrune 1; OPrune 2]) in
  discovered_range (expected_store (forest s)) = Some (first_version s, latest_version s) /\
  discovered_available (expected_store (forest s)) = Some (available s).
Proof.
  cbv zeta. apply (discover_reachable sha256 0 false (dx_hist ++ [OPrune 1; OPrune 2]));
    rewrite ?dx_run_hist.
  - unfold init_ok. lia.
  - apply run_okb_iff. rewrite dx_okb_hist. vm_compute. reflexivity.
  - vm_compute. reflexivity.
  - apply stale_freeb_iff. vm_compute. reflexivity.
Qed.

(** the hypotheses of the forest-level main theorem on the same forest, [r = [1; 2]] *)
Example dx_discover_exact_thm :
  let f := forest (dx_state (dx_hist ++ [OPrune 1; OPrune 2])) in
  discovered_range (phys_of [1; 2] f) = Some (first_of_forest f, latest_of_forest f) /\
  discovered_available (phys_of [1; 2] f) = Some (map fst f).
Proof.
  cbv zeta. unfold dx_state.
  assert (SO : store_ok sha256 (fst (run sha256 (init_state 0 false) (dx_hist ++ [OPrune 1; OPrune 2])))).
  { apply store_ok_reachable; [unfold init_ok; lia|]. apply run_okb_iff. rewrite dx_okb_hist.
    vm_compute. reflexivity. }
  rewrite dx_run_hist in *.
  apply (discover_exact [1; 2] _ 0).
  - vm_compute. discriminate.
  - apply (so_forest _ _ SO).
  - exact (contig_forest_ok _ (so_contig _ _ SO)).
  - vm_compute. reflexivity.
  - apply stale_freeb_iff. vm_compute. reflexivity.
  - intros x [<-|[<-|[]]]; vm_compute; reflexivity.
Qed.

(** the search itself: 64 units of fuel are enough at the top of the int64 range, and the
    result without monotonicity is only a local boundary *)
Example bsearch_big :
  bsearch 64 [((2 ^ 63 - 1, 1), EEmpty)] 0 (2 ^ 63 - 1) = Some (2 ^ 63 - 1) /\
  bsearch 62 [((2 ^ 63 - 1, 1), EEmpty)] 0 (2 ^ 63 - 1) = None.
Proof. vm_compute. split; reflexivity. Qed.

Example bsearch_non_monotone :
  let st : list ((Z * Z) * entry) := [((3, 1), EEmpty); ((5, 1), EEmpty); ((6, 1), EEmpty)] in
  let st' : list ((Z * Z) * entry) := [((1, 1), EEmpty); ((5, 1), EEmpty); ((6, 1), EEmpty)] in
  bsearch 64 st 0 6 = Some 3 /\ has_version st 4 = false /\
  bsearch 64 st' 0 6 = Some 5 /\ has_version st' 1 = true.
Proof. vm_compute. repeat split; reflexivity. Qed.
