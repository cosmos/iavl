(** PruneAlgoFacts1: tree combinatorics behind the double traversal of deleteVersion.

    Two well-formed (BST) trees [A] and [B]; the MAXIMAL COMMON SUBTREES listed in the pre-order
    of [A] and listed in the pre-order of [B] are the same list ([mx_common]).  This is why the
    candidates produced by the iterator over the current tree meet the shared nodes of the
    previous tree in the same order. *)
From Coq Require Import Lia Sorted.
From IAVL Require Import Bytes Varint Tree VMap TreeFacts MTree MTreeFacts HashFacts VersionFacts
  Store StoreFacts.
Local Open Scope Z_scope.

(** ** Decidable equality of nodes, decidable subtree relation *)
Lemma bytes_eq_dec (a b : bytes) : {a = b} + {a <> b}.
Proof. apply list_eq_dec, N.eq_dec. Qed.

Lemma meta_eq_dec (a b : meta) : {a = b} + {a <> b}.
Proof. decide equality; [apply bytes_eq_dec|apply Z.eq_dec|apply Z.eq_dec]. Qed.

Lemma node_eq_dec (a b : node) : {a = b} + {a <> b}.
Proof.
  decide equality; try apply meta_eq_dec; try apply bytes_eq_dec; try apply Z.eq_dec.
Qed.

Lemma subtree_dec u t : {subtree u t} + {~ subtree u t}.
Proof.
  induction t as [k v m|k h s m l IHl r IHr].
  - destruct (node_eq_dec u (Leaf k v m)) as [E|N].
    + left. subst. apply sub_refl.
    + right. intros S. apply sub_leaf in S. contradiction.
  - destruct (node_eq_dec u (Inner k h s m l r)) as [E|N].
    + left. subst. apply sub_refl.
    + destruct IHl as [Sl|Nl]; [left; apply sub_left, Sl|].
      destruct IHr as [Sr|Nr]; [left; apply sub_right, Sr|].
      right. intros S. apply sub_inv in S. destruct S as [E|[S|S]]; contradiction.
Qed.

Definition insub (t : option node) (u : node) : bool :=
  match t with
  | None => false
  | Some t => if subtree_dec u t then true else false
  end.

Lemma insub_true t u : insub t u = true <-> exists t0, t = Some t0 /\ subtree u t0.
Proof.
  unfold insub. destruct t as [t|].
  - destruct (subtree_dec u t) as [S|N]; split; try discriminate; eauto.
    intros (t0 & E & S). inversion E; subst. contradiction.
  - split; [discriminate|]. intros (t0 & E & _). discriminate.
Qed.

(** ** Subtrees of a well-formed tree *)
Lemma wf_subtree u t : subtree u t -> wf t -> wf u.
Proof.
  induction 1 as [t|u k h s m l r _ IH|u k h s m l r _ IH]; intros W; [exact W| |];
    cbn [wf] in W; apply IH; tauto.
Qed.

Lemma keys_all_subtree P u t : subtree u t -> keys_all P t -> keys_all P u.
Proof.
  induction 1 as [t|u k h s m l r _ IH|u k h s m l r _ IH]; intros K; [exact K| |];
    cbn [keys_all] in K; apply IH; tauto.
Qed.

Fixpoint ncount (t : node) : nat :=
  match t with Leaf _ _ _ => 1 | Inner _ _ _ _ l r => S (ncount l + ncount r) end.

Lemma ncount_pos t : (1 <= ncount t)%nat.
Proof. destruct t; cbn [ncount]; lia. Qed.

Lemma subtree_ncount u t : subtree u t -> (ncount u <= ncount t)%nat.
Proof.
  induction 1 as [t|u k h s m l r _ IH|u k h s m l r _ IH]; cbn [ncount]; lia.
Qed.

Lemma subtree_antisym a b : subtree a b -> subtree b a -> a = b.
Proof.
  intros S1 S2. apply sub_inv in S1. destruct S1 as [E|S1]; [exact E|].
  destruct b as [k v m|k h s m l r]; [contradiction|].
  exfalso. pose proof (subtree_ncount _ _ S2) as L. cbn [ncount] in L.
  destruct S1 as [S1|S1]; apply subtree_ncount in S1; lia.
Qed.

Lemma wf_sides_disjoint k h s m l r x :
  wf (Inner k h s m l r) -> subtree x l -> subtree x r -> False.
Proof.
  intros W Sl Sr. cbn [wf] in W. destruct W as (_ & _ & Kl & Kr & _).
  pose proof (min_key_all _ _ (keys_all_subtree _ _ _ Sl Kl)) as A.
  pose proof (min_key_all _ _ (keys_all_subtree _ _ _ Sr Kr)) as B.
  cbv beta in A, B. border.
Qed.

Definition sep (x y : node) : Prop :=
  exists k, keys_all (fun a => a <b k) x /\ keys_all (fun a => k <=b a) y.

Lemma sep_irrefl x : ~ sep x x.
Proof.
  intros (k & A & B). apply min_key_all in A. apply min_key_all in B. cbv beta in A, B. border.
Qed.

Lemma sep_asym x y : sep x y -> sep y x -> False.
Proof.
  intros (k & A & B) (k' & A' & B').
  apply min_key_all in A, B, A', B'. cbv beta in A, B, A', B'. border.
Qed.

(** ** Maximal subtrees satisfying a test, in pre-order *)
Fixpoint mx (P : node -> bool) (t : node) : list node :=
  if P t then [t] else
  match t with
  | Leaf _ _ _ => []
  | Inner _ _ _ _ l r => mx P l ++ mx P r
  end.

Lemma mx_hit P t : P t = true -> mx P t = [t].
Proof. intros E. destruct t; cbn [mx]; rewrite E; reflexivity. Qed.

Lemma mx_miss_leaf P k v m : P (Leaf k v m) = false -> mx P (Leaf k v m) = [].
Proof. intros E. cbn [mx]. rewrite E. reflexivity. Qed.

Lemma mx_miss_inner P k h s m l r :
  P (Inner k h s m l r) = false -> mx P (Inner k h s m l r) = mx P l ++ mx P r.
Proof. intros E. cbn [mx]. rewrite E. reflexivity. Qed.

Lemma mx_sub P t x : In x (mx P t) -> subtree x t /\ P x = true.
Proof.
  induction t as [k v m|k h s m l IHl r IHr]; cbn [mx].
  - destruct (P (Leaf k v m)) eqn:E; [|intros []]. intros [<-|[]]. split; [apply sub_refl|exact E].
  - destruct (P (Inner k h s m l r)) eqn:E.
    + intros [<-|[]]. split; [apply sub_refl|exact E].
    + intros I. apply in_app_or in I. destruct I as [I|I].
      * destruct (IHl I). split; [apply sub_left|]; assumption.
      * destruct (IHr I). split; [apply sub_right|]; assumption.
Qed.

Lemma mx_In P t : wf t -> forall x,
  In x (mx P t) <->
  (subtree x t /\ P x = true /\
   forall y, subtree x y -> subtree y t -> y <> x -> P y = false).
Proof.
  induction t as [k v m|k h s m l IHl r IHr]; intros W x.
  - cbn [mx]. destruct (P (Leaf k v m)) eqn:E.
    + split.
      * intros [<-|[]]. split; [apply sub_refl|]. split; [exact E|].
        intros y S1 S2 N. apply sub_leaf in S2. congruence.
      * intros (S & _). apply sub_leaf in S. left. congruence.
    + split; [intros []|]. intros (S & Px & _). apply sub_leaf in S. congruence.
  - assert (Wl : wf l) by (cbn [wf] in W; tauto). assert (Wr : wf r) by (cbn [wf] in W; tauto).
    cbn [mx]. destruct (P (Inner k h s m l r)) eqn:E.
    + split.
      * intros [<-|[]]. split; [apply sub_refl|]. split; [exact E|].
        intros y S1 S2 N. exfalso. apply N. apply subtree_antisym; assumption.
      * intros (S & Px & Anc). left.
        destruct (node_eq_dec (Inner k h s m l r) x) as [Q|N]; [exact Q|].
        exfalso. specialize (Anc _ S (sub_refl _) N). congruence.
    + rewrite in_app_iff, (IHl Wl), (IHr Wr). split.
      * intros [(S & Px & Anc)|(S & Px & Anc)].
        -- split; [apply sub_left, S|]. split; [exact Px|].
           intros y S1 S2 N. apply sub_inv in S2. destruct S2 as [->|[S2|S2]].
           ++ exact E.
           ++ apply Anc; assumption.
           ++ exfalso. apply (wf_sides_disjoint _ _ _ _ _ _ x W S).
              exact (sub_trans _ _ _ S1 S2).
        -- split; [apply sub_right, S|]. split; [exact Px|].
           intros y S1 S2 N. apply sub_inv in S2. destruct S2 as [->|[S2|S2]].
           ++ exact E.
           ++ exfalso. apply (wf_sides_disjoint _ _ _ _ _ _ x W); [|exact S].
              exact (sub_trans _ _ _ S1 S2).
           ++ apply Anc; assumption.
      * intros (S & Px & Anc). apply sub_inv in S. destruct S as [->|[S|S]].
        -- congruence.
        -- left. split; [exact S|]. split; [exact Px|].
           intros y S1 S2 N. apply Anc; [exact S1|apply sub_left, S2|exact N].
        -- right. split; [exact S|]. split; [exact Px|].
           intros y S1 S2 N. apply Anc; [exact S1|apply sub_right, S2|exact N].
Qed.

Lemma mx_sorted P t : wf t -> StronglySorted sep (mx P t).
Proof.
  induction t as [k v m|k h s m l IHl r IHr]; intros W; cbn [mx].
  - destruct (P (Leaf k v m)); repeat constructor.
  - destruct (P (Inner k h s m l r)); [repeat constructor|].
    cbn [wf] in W. destruct W as (Wl & Wr & Kl & Kr & _).
    apply StronglySorted_app; auto.
    intros x y Ix Iy. apply mx_sub in Ix, Iy. exists k. split.
    + exact (keys_all_subtree _ _ _ (proj1 Ix) Kl).
    + exact (keys_all_subtree _ _ _ (proj1 Iy) Kr).
Qed.

(** THE ORDER LEMMA: the maximal common subtrees of two BSTs, listed along either tree *)
Theorem mx_common (PA PB : node -> bool) A B :
  wf A -> wf B ->
  (forall x, subtree x B -> (PA x = true <-> subtree x A)) ->
  (forall x, subtree x A -> (PB x = true <-> subtree x B)) ->
  mx PB A = mx PA B.
Proof.
  intros WA WB HA HB.
  apply (sorted_same_elements sep sep_irrefl sep_asym); try (apply mx_sorted; assumption).
  intros x. rewrite (mx_In PB A WA), (mx_In PA B WB). split.
  - intros (SA & Px & Anc). apply (HB x SA) in Px. split; [exact Px|]. split; [apply HA; assumption|].
    intros y S1 S2 N. destruct (PA y) eqn:E; [|reflexivity]. exfalso.
    apply (HA y S2) in E. specialize (Anc y S1 E N). apply (HB y E) in S2. congruence.
  - intros (SB & Px & Anc). apply (HA x SB) in Px. split; [exact Px|]. split; [apply HB; assumption|].
    intros y S1 S2 N. destruct (PB y) eqn:E; [|reflexivity]. exfalso.
    apply (HB y S2) in E. specialize (Anc y S1 E N). apply (HA y E) in S2. congruence.
Qed.

Lemma mx_none P t : (forall x, subtree x t -> P x = false) -> mx P t = [].
Proof.
  induction t as [k v m|k h s m l IHl r IHr]; intros F; cbn [mx];
    rewrite (F _ (sub_refl _)); [reflexivity|].
  rewrite IHl, IHr; [reflexivity| |]; intros x S; apply F; [apply sub_right|apply sub_left]; exact S.
Qed.

(** ** Pre-order lists of nodes *)
Fixpoint pre (t : node) : list node :=
  t :: match t with Leaf _ _ _ => [] | Inner _ _ _ _ l r => pre l ++ pre r end.

Lemma pre_In t u : In u (pre t) <-> subtree u t.
Proof.
  induction t as [k v m|k h s m l IHl r IHr]; cbn [pre In].
  - split.
    + intros [<-|[]]. apply sub_refl.
    + intros S. apply sub_leaf in S. left. congruence.
  - rewrite in_app_iff, IHl, IHr. split.
    + intros [<-|[S|S]]; [apply sub_refl|apply sub_left, S|apply sub_right, S].
    + intros S. apply sub_inv in S. destruct S as [->|[S|S]]; auto.
Qed.

Lemma pre_length t : length (pre t) = ncount t.
Proof.
  induction t as [k v m|k h s m l IHl r IHr]; cbn [pre ncount length]; [reflexivity|].
  rewrite app_length, IHl, IHr. reflexivity.
Qed.

Lemma nodes_of_pre t : nodes_of t = map (fun u => (node_key u, snode_of u)) (pre t).
Proof.
  induction t as [k v m|k h s m l IHl r IHr]; cbn [nodes_of pre map]; [reflexivity|].
  rewrite map_app, IHl, IHr. reflexivity.
Qed.

Lemma pre_NoDup t : wf t -> NoDup (pre t).
Proof.
  induction t as [k v m|k h s m l IHl r IHr]; intros W; cbn [pre].
  - constructor; [intros []|constructor].
  - assert (Wl : wf l) by (cbn [wf] in W; tauto). assert (Wr : wf r) by (cbn [wf] in W; tauto).
    constructor.
    + intros I. apply in_app_or in I. destruct I as [I|I]; apply pre_In, subtree_ncount in I;
        cbn [ncount] in I; lia.
    + apply NoDup_app_intro; auto.
      intros x Il Ir. apply pre_In in Il, Ir. exact (wf_sides_disjoint _ _ _ _ _ _ x W Il Ir).
Qed.
