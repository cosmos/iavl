(** iavl/v2 orphan bookkeeping and the tree pruner: facts about the model of V2Orphans.v.

    One Set or Remove is described by a relation [tstep] that couples a count of node keys
    ([keys_ok]) with the provenance of every branch of the result ([oprov]); from it, the orphans
    recorded are exactly the persisted branches that left the tree ([orphans_exact]).  An invariant
    [Inv] of the store along a run of versions, checkpoints and prunes then gives that every
    retained checkpoint loads back node for node after a prune ([prune_keeps_checkpoints]) and
    that an orphan row names no node of a later checkpoint tree
    ([checkpoint_orphans_sound_partial]; the converse and the exactness of the pruner are in
    V2OrphansFacts2.v).  The file ends with computed examples that refute three seeded variants
    of the Go code, and the prune race of the code as it is. *)
From Coq Require Import Permutation Lia ZifyBool ZArith List Bool.
From IAVL Require Import ListFacts Bytes Varint Tree MTree MTreeFacts HashTable V2 V2Facts Sha256.
From IAVL Require Import V2Orphans.
From IAVL Require Ics23Facts.
Import ListNotations.
Local Open Scope Z_scope.

Lemma key_dec : forall a b : nkey2, {a = b} + {a <> b}.
Proof. decide equality; apply Z.eq_dec. Defined.

Notation cnt l x := (count_occ key_dec l x).

Lemma is_nil_true b : is_nil b = true -> b = [].
Proof. destruct b; [reflexivity|discriminate]. Qed.

Lemma mutate_spec wv bs m m1 bs1 :
  mutate wv bs m = (m1, bs1) -> ver m1 = wv /\ hs m1 = [] /\ bs <= bs1.
Proof.
  unfold mutate. destruct (is_nil (hs m) && (ver m =? wv)) eqn:C; intros E; inversion E; subst.
  - apply andb_true_iff in C. destruct C as [C1 C2]. apply is_nil_true in C1. apply Z.eqb_eq in C2.
    repeat split; auto; lia.
  - cbn. repeat split; lia.
Qed.

Lemma height_erase t : height (erase t) = height t.
Proof. destruct t; reflexivity. Qed.
Lemma size_erase t : size (erase t) = size t.
Proof. destruct t; reflexivity. Qed.
Lemma bal_of_erase t : bal_of (erase t) = bal_of t.
Proof. destruct t; cbn [erase bal_of]; [reflexivity|]. now rewrite !height_erase. Qed.

Lemma erase_node_m wv m k l r :
  ver m = wv -> hs m = [] -> erase (node_m m k l r) = v2_node wv k (erase l) (erase r).
Proof.
  intros <- E. unfold node_m, v2_node, v2_meta. cbn [erase]. rewrite E, !height_erase, !size_erase.
  reflexivity.
Qed.

(** * 1. Projection: erasing branch sequences and orphans gives V2.v's functions *)
Definition proj3 (r : option (node * list nkey2 * Z)) : option node :=
  match r with Some (t, _, _) => Some (erase t) | None => None end.

Lemma rotR_o_erase wv ckpt bs t : proj3 (rotR_o wv ckpt bs t) = v2_rotR wv (erase t).
Proof.
  destruct t as [|k h s m l r]; [reflexivity|]. destruct l as [|lk lh ls lm ll lr]; [reflexivity|].
  cbn [rotR_o erase v2_rotR].
  destruct (mutate wv bs m) as [m1 bs1] eqn:E1. destruct (mutate wv bs1 lm) as [m2 bs2] eqn:E2.
  cbn [proj3]. apply mutate_spec in E1. apply mutate_spec in E2.
  destruct E1 as (V1 & H1 & _). destruct E2 as (V2 & H2 & _).
  rewrite (erase_node_m wv) by assumption. rewrite (erase_node_m wv) by assumption. reflexivity.
Qed.

Lemma rotL_o_erase wv ckpt bs t : proj3 (rotL_o wv ckpt bs t) = v2_rotL wv (erase t).
Proof.
  destruct t as [|k h s m l r]; [reflexivity|]. destruct r as [|rk rh rs rm rl rr]; [reflexivity|].
  cbn [rotL_o erase v2_rotL].
  destruct (mutate wv bs m) as [m1 bs1] eqn:E1. destruct (mutate wv bs1 rm) as [m2 bs2] eqn:E2.
  cbn [proj3]. apply mutate_spec in E1. apply mutate_spec in E2.
  destruct E1 as (V1 & H1 & _). destruct E2 as (V2 & H2 & _).
  rewrite (erase_node_m wv) by assumption. rewrite (erase_node_m wv) by assumption. reflexivity.
Qed.

Lemma balance_o_erase wv ckpt bs t : proj3 (balance_o wv ckpt bs t) = v2_balance wv (erase t).
Proof.
  destruct t as [|k h s m l r]; [reflexivity|].
  cbn [balance_o erase v2_balance hs]. destruct (hs m) eqn:Hm; [|reflexivity].
  rewrite !height_erase, !bal_of_erase.
  destruct (1 <? height l - height r) eqn:C1.
  - destruct (0 <=? bal_of l) eqn:C2.
    + rewrite <- Hm. apply (rotR_o_erase wv ckpt bs (Inner k h s m l r)).
    + pose proof (rotL_o_erase wv ckpt bs l) as EL.
      destruct (rotL_o wv ckpt bs l) as [[[l' o1] bs1]|]; cbn [proj3] in EL; rewrite <- EL; [|reflexivity].
      pose proof (rotR_o_erase wv ckpt bs1 (Inner k h s m l' r)) as ER. cbn [erase] in ER. rewrite Hm in ER.
      rewrite <- ER. destruct (rotR_o wv ckpt bs1 (Inner k h s m l' r)) as [[[t' o2] bs2]|]; reflexivity.
  - destruct (height l - height r <? -1) eqn:C3.
    + destruct (bal_of r <=? 0) eqn:C2.
      * rewrite <- Hm. apply (rotL_o_erase wv ckpt bs (Inner k h s m l r)).
      * pose proof (rotR_o_erase wv ckpt bs r) as EL.
        destruct (rotR_o wv ckpt bs r) as [[[r' o1] bs1]|]; cbn [proj3] in EL; rewrite <- EL; [|reflexivity].
        pose proof (rotL_o_erase wv ckpt bs1 (Inner k h s m l r')) as ER. cbn [erase] in ER. rewrite Hm in ER.
        rewrite <- ER. destruct (rotL_o wv ckpt bs1 (Inner k h s m l r')) as [[[t' o2] bs2]|]; reflexivity.
    + cbn [proj3 erase]. rewrite Hm. reflexivity.
Qed.

Definition proj_set (r : option (node * bool * list nkey2 * Z)) : option (node * bool) :=
  match r with Some (t, u, _, _) => Some (erase t, u) | None => None end.

Theorem v2_set_o_erase wv sq ckpt t k v : forall bs,
  proj_set (v2_set_o wv sq ckpt bs t k v) = v2_set wv sq (erase t) k v.
Proof.
  induction t as [lk lv lm|nk h s m l IHl r IHr]; intros bs.
  - cbn [v2_set_o erase v2_set]. destruct (bcmp k lk); reflexivity.
  - cbn [v2_set_o erase v2_set]. destruct (mutate wv bs m) as [m1 bs1] eqn:E1.
    apply mutate_spec in E1. destruct E1 as (V1 & H1 & _).
    destruct (blt k nk).
    + rewrite <- (IHl bs1). destruct (v2_set_o wv sq ckpt bs1 l k v) as [[[[l' upd] o1] bs2]|]; [|reflexivity].
      cbn [proj_set]. destruct upd.
      * cbn [proj_set erase]. unfold v2_meta. rewrite V1, H1. reflexivity.
      * rewrite <- (erase_node_m wv m1) by assumption.
        rewrite <- balance_o_erase with (ckpt := ckpt) (bs := bs2).
        destruct (balance_o wv ckpt bs2 (node_m m1 nk l' r)) as [[[t' o2] bs3]|]; reflexivity.
    + rewrite <- (IHr bs1). destruct (v2_set_o wv sq ckpt bs1 r k v) as [[[[r' upd] o1] bs2]|]; [|reflexivity].
      cbn [proj_set]. destruct upd.
      * cbn [proj_set erase]. unfold v2_meta. rewrite V1, H1. reflexivity.
      * rewrite <- (erase_node_m wv m1) by assumption.
        rewrite <- balance_o_erase with (ckpt := ckpt) (bs := bs2).
        destruct (balance_o wv ckpt bs2 (node_m m1 nk l r')) as [[[t' o2] bs3]|]; reflexivity.
Qed.

Definition proj_rm (r : option (rm_res * list nkey2 * Z)) : option rm_res :=
  match r with Some (res, _, _) => Some (erase_res res) | None => None end.

Theorem remove_gen_erase early wv ckpt t k : forall bs,
  proj_rm (remove_gen early wv ckpt bs t k) = v2_remove wv (erase t) k.
Proof.
  induction t as [lk lv lm|nk h s m l IHl r IHr]; intros bs.
  - cbn [remove_gen erase v2_remove proj_rm]. destruct (beq k lk); reflexivity.
  - cbn [remove_gen erase v2_remove]. destruct (blt k nk).
    + rewrite <- (IHl bs). destruct (remove_gen early wv ckpt bs l k) as [[[res o1] bs1]|]; [|reflexivity].
      cbn [proj_rm]. destruct res as [rs rk rv]. cbn [erase_res rm_val rm_self rm_key].
      destruct rv as [val|]; [|reflexivity].
      destruct rs as [l'|]; cbn [option_map]; [|reflexivity].
      destruct (mutate wv bs1 m) as [m1 bs2] eqn:E1.
      apply mutate_spec in E1. destruct E1 as (V1 & H1 & _).
      rewrite <- (erase_node_m wv m1) by assumption.
      rewrite <- balance_o_erase with (ckpt := ckpt) (bs := bs2).
      destruct (balance_o wv ckpt bs2 (node_m m1 nk l' r)) as [[[t' o2] bs3]|]; reflexivity.
    + rewrite <- (IHr bs). destruct (remove_gen early wv ckpt bs r k) as [[[res o1] bs1]|]; [|reflexivity].
      cbn [proj_rm]. destruct res as [rs rk rv]. cbn [erase_res rm_val rm_self rm_key].
      destruct rv as [val|]; [|reflexivity].
      destruct rs as [r'|]; cbn [option_map]; [|reflexivity].
      destruct (mutate wv bs1 m) as [m1 bs2] eqn:E1.
      apply mutate_spec in E1. destruct E1 as (V1 & H1 & _).
      rewrite <- (erase_node_m wv m1) by assumption.
      rewrite <- balance_o_erase with (ckpt := ckpt) (bs := bs2).
      destruct (balance_o wv ckpt bs2 (node_m m1 _ l r')) as [[[t' o2] bs3]|]; reflexivity.
Qed.

(** * 2. Counting node keys *)
(** [one a x] is [cnt [a] x]: the facts below are linear arithmetic over multiplicities *)
Definition one (a x : nkey2) : nat := if key_dec a x then 1%nat else 0%nat.

Lemma cnt_cons a l x : cnt (a :: l) x = (one a x + cnt l x)%nat.
Proof. unfold one. cbn [count_occ]. destruct (key_dec a x); lia. Qed.

(** [fr] for fresh: 1 if [x] is one of the keys handed out by nextNodeKey while the counter went
    from [lo] to [hi] *)
Definition fr (wv lo hi : Z) (x : nkey2) : nat :=
  Nat.b2n ((fst x =? wv) && (lo <? snd x) && (snd x <=? hi)).

Lemma fr_split wv lo mid hi x : lo <= mid -> mid <= hi ->
  fr wv lo hi x = (fr wv lo mid x + fr wv mid hi x)%nat.
Proof. unfold fr. lia. Qed.

Lemma fr_refl wv lo x : fr wv lo lo x = 0%nat.
Proof. unfold fr. lia. Qed.

Lemma add_orphan_nil ckpt m : hs m = [] -> add_orphan ckpt m = [].
Proof. intros E. unfold add_orphan, persisted. rewrite E. reflexivity. Qed.

Lemma add_orphan_le ckpt m x : (cnt (add_orphan ckpt m) x <= one (key_of m) x)%nat.
Proof.
  unfold add_orphan. destruct (persisted ckpt m).
  - rewrite cnt_cons. cbn [count_occ]. lia.
  - cbn [count_occ]. lia.
Qed.

Lemma one_fresh (wv bs : Z) (x : nkey2) : (one (wv, (bs + 1)%Z) x <= fr wv bs (bs + 1)%Z x)%nat.
Proof. unfold one, fr. destruct (key_dec (wv, bs + 1) x) as [<-|N]; cbn [fst snd]; lia. Qed.

Definition opkeys (ckpt : Z) (root : option node) : list nkey2 :=
  match root with Some t => pkeys ckpt t | None => [] end.

(** what one tree operation does to the node keys: [pk]/[ik] the recordable / all branch keys
    before, [pk']/[ik'] after, [os] the recorded orphans, [bs] to [bs'] the counter *)
Definition keys_ok (wv bs bs' : Z) (ik pk ik' pk' os : list nkey2) : Prop :=
  bs <= bs' /\
  forall x, cnt pk x = (cnt os x + cnt pk' x)%nat /\
            (cnt ik' x + cnt os x <= cnt ik x + fr wv bs bs' x)%nat.

Ltac norm := cbn [ikeys pkeys node_m okeys opkeys]; repeat (rewrite ?cnt_cons, ?count_occ_app); cbn [count_occ].

Lemma keys_ok_refl wv bs ik pk : keys_ok wv bs bs ik pk ik pk [].
Proof. split; [lia|]. intros x. cbn [count_occ]. lia. Qed.

Lemma keys_ok_trans {wv a b c ik pk ik1 pk1 ik2 pk2 o1 o2} :
  keys_ok wv a b ik pk ik1 pk1 o1 -> keys_ok wv b c ik1 pk1 ik2 pk2 o2 ->
  keys_ok wv a c ik pk ik2 pk2 (o1 ++ o2).
Proof.
  intros (L1 & A1) (L2 & A2). split; [lia|]. intros x. specialize (A1 x). specialize (A2 x).
  rewrite (fr_split wv a b c x), count_occ_app by lia. lia.
Qed.

Lemma mutate_ok wv ckpt bs m m1 bs1 :
  mutate wv bs m = (m1, bs1) ->
  ver m1 = wv /\ hs m1 = [] /\
  keys_ok wv bs bs1 [key_of m] (add_orphan ckpt m) [key_of m1] [] (add_orphan ckpt m).
Proof.
  intros E. destruct (mutate_spec _ _ _ _ _ E) as (V & Hn & L).
  split; [exact V|]. split; [exact Hn|]. split; [exact L|]. intros x. norm. split; [lia|]. clear V.
  unfold mutate in E. destruct (is_nil (hs m) && (ver m =? wv)) eqn:C; inversion E; subst m1 bs1.
  - rewrite (add_orphan_nil ckpt m Hn). cbn [count_occ]. lia.
  - pose proof (add_orphan_le ckpt m x) as A. pose proof (one_fresh wv bs x) as B.
    unfold key_of at 1. cbn [ver nonce]. lia.
Qed.

(** * 3. Provenance of subtrees: a branch of the new tree is a branch of the old tree, untouched
      with everything below it, or was (re)keyed in this working version *)
Fixpoint isub (u t : node) : Prop :=
  match t with
  | Leaf _ _ _ => False
  | Inner _ _ _ _ l r => u = t \/ isub u l \/ isub u r
  end.

Definition oisub (u : node) (root : option node) : Prop :=
  match root with Some t => isub u t | None => False end.

Definition fresh_node (wv : Z) (u : node) : Prop :=
  match u with Inner _ _ _ m _ _ => ver m = wv /\ hs m = [] | Leaf _ _ _ => False end.

Definition oprov (wv : Z) (t : node) (r : option node) : Prop :=
  forall u, oisub u r -> isub u t \/ fresh_node wv u.

Lemma isub_key_in u t : isub u t -> In (key_of (nmeta u)) (ikeys t).
Proof.
  induction t as [|k h s m l IHl r IHr]; [intros []|].
  cbn [isub ikeys]. intros [->|[I|I]].
  - left. reflexivity.
  - right. apply in_or_app. left. auto.
  - right. apply in_or_app. right. auto.
Qed.

(** a branch with the distinguished child [c] on the left or on the right (not the constructor
    [Inner]): the two directions of recursiveSet / recursiveRemove share one lemma *)
Definition inner (left : bool) (k : bytes) (h s : Z) (m : meta) (c d : node) : node :=
  if left then Inner k h s m c d else Inner k h s m d c.

Definition node_side (left : bool) (m : meta) (k : bytes) (c d : node) : node :=
  if left then node_m m k c d else node_m m k d c.

Lemma node_side_inner left m k c d : exists h s, node_side left m k c d = inner left k h s m c d.
Proof. destruct left; eexists; eexists; reflexivity. Qed.

Lemma isub_inner_iff left u k h s m c d :
  isub u (inner left k h s m c d) <-> u = inner left k h s m c d \/ isub u c \/ isub u d.
Proof. destruct left; cbn [inner isub]; tauto. Qed.

Lemma fresh_inner left wv k h s m c d : ver m = wv -> hs m = [] -> fresh_node wv (inner left k h s m c d).
Proof. destruct left; split; assumption. Qed.

Lemma oprov_inner left wv k k' h s h' s' m m1 c c' d :
  ver m1 = wv -> hs m1 = [] -> oprov wv c (Some c') ->
  oprov wv (inner left k h s m c d) (Some (inner left k' h' s' m1 c' d)).
Proof.
  intros V Hm P u I. cbn [oisub] in I. rewrite isub_inner_iff in *. destruct I as [->|[J|J]].
  - right. apply fresh_inner; assumption.
  - destruct (P u J) as [J'|F]; auto.
  - auto.
Qed.

(** * 4. One tree operation: from [t] at counter [bs] to the tree [r] (none when the last leaf
      went), recording [os], at counter [bs'] *)
Definition tstep (wv ckpt : Z) (t : node) (bs : Z) (r : option node) (os : list nkey2) (bs' : Z) : Prop :=
  keys_ok wv bs bs' (ikeys t) (pkeys ckpt t) (okeys r) (opkeys ckpt r) os /\ oprov wv t r.

Lemma tstep_refl wv ckpt t bs : tstep wv ckpt t bs (Some t) [] bs.
Proof. split; [apply keys_ok_refl|]. intros u I. left. exact I. Qed.

Lemma tstep_trans {wv ckpt a bs b o1 bs1 r o2 bs2} :
  tstep wv ckpt a bs (Some b) o1 bs1 -> tstep wv ckpt b bs1 r o2 bs2 -> tstep wv ckpt a bs r (o1 ++ o2) bs2.
Proof.
  intros (K1 & P1) (K2 & P2). split; [exact (keys_ok_trans K1 K2)|].
  intros u I. destruct (P2 u I) as [J|J]; [apply P1, J|auto].
Qed.

(** mutateNode on a branch, then a step in one of its children (recursiveSet) ... *)
Lemma tstep_pre left {wv ckpt} k k' h s h' s' {m m1 c c' d o bs bs1 bs2} :
  mutate wv bs m = (m1, bs1) -> tstep wv ckpt c bs1 (Some c') o bs2 ->
  tstep wv ckpt (inner left k h s m c d) bs (Some (inner left k' h' s' m1 c' d)) (add_orphan ckpt m ++ o) bs2.
Proof.
  intros E ((L & A) & P). destruct (mutate_ok wv ckpt _ _ _ _ E) as (V & Hm & L1 & M).
  split; [|apply oprov_inner; assumption].
  split; [lia|]. intros x. specialize (A x). specialize (M x). rewrite (fr_split wv bs bs1 bs2 x) by lia.
  revert A M. destruct left; cbn [inner]; norm; rewrite (add_orphan_nil ckpt m1 Hm); cbn [count_occ]; lia.
Qed.

(** ... or the step in the child first (recursiveRemove) *)
Lemma tstep_post left {wv ckpt} k k' h s h' s' {m m1 c c' d o bs bs1 bs2} :
  tstep wv ckpt c bs (Some c') o bs1 -> mutate wv bs1 m = (m1, bs2) ->
  tstep wv ckpt (inner left k h s m c d) bs (Some (inner left k' h' s' m1 c' d)) (o ++ add_orphan ckpt m) bs2.
Proof.
  intros ((L & A) & P) E. destruct (mutate_ok wv ckpt _ _ _ _ E) as (V & Hm & L1 & M).
  split; [|apply oprov_inner; assumption].
  split; [lia|]. intros x. specialize (A x). specialize (M x). rewrite (fr_split wv bs bs1 bs2 x) by lia.
  revert A M. destruct left; cbn [inner]; norm; rewrite (add_orphan_nil ckpt m1 Hm); cbn [count_occ]; lia.
Qed.

(** a step in a child of a branch that already has its key of this version *)
Lemma tstep_child left {wv ckpt} k k' h s h' s' {m c c'} d {o bs bs'} :
  ver m = wv -> hs m = [] -> tstep wv ckpt c bs (Some c') o bs' ->
  tstep wv ckpt (inner left k h s m c d) bs (Some (inner left k' h' s' m c' d)) o bs'.
Proof.
  intros V Hm T. replace o with (add_orphan ckpt m ++ o) by (rewrite (add_orphan_nil ckpt m Hm); reflexivity).
  apply tstep_pre with (bs1 := bs); [|exact T]. unfold mutate. rewrite Hm, V, Z.eqb_refl. reflexivity.
Qed.

(** the child's last leaf went: the sibling takes the place of the branch *)
Lemma tstep_drop left {wv ckpt} k h s m {c} d {o bs bs'} :
  tstep wv ckpt c bs None o bs' -> tstep wv ckpt (inner left k h s m c d) bs (Some d) (o ++ add_orphan ckpt m) bs'.
Proof.
  intros ((L & A) & _). split.
  - split; [exact L|]. intros x. specialize (A x). pose proof (add_orphan_le ckpt m x) as AO.
    revert A. destruct left; cbn [inner]; norm; lia.
  - intros u I. cbn [oisub] in I. left. apply isub_inner_iff. auto.
Qed.

Definition tspec (wv ckpt : Z) (t : node) (bs : Z) (r : option (node * list nkey2 * Z)) : Prop :=
  match r with Some (t', os, bs') => tstep wv ckpt t bs (Some t') os bs' | None => True end.

Lemma rotR_tstep wv ckpt bs t : tspec wv ckpt t bs (rotR_o wv ckpt bs t).
Proof.
  destruct t as [|k h s m l r]; [exact I|]. destruct l as [|lk lh ls lm ll lr]; [exact I|].
  cbn [rotR_o]. destruct (mutate wv bs m) as [m1 bs1] eqn:E1. destruct (mutate wv bs1 lm) as [m2 bs2] eqn:E2.
  destruct (mutate_ok wv ckpt _ _ _ _ E1) as (V1 & H1 & L1 & M1).
  destruct (mutate_ok wv ckpt _ _ _ _ E2) as (V2 & H2 & L2 & M2).
  split.
  - split; [lia|]. intros x. specialize (M1 x). specialize (M2 x). rewrite (fr_split wv bs bs1 bs2 x) by lia.
    revert M1 M2. norm. rewrite (add_orphan_nil ckpt m1 H1), (add_orphan_nil ckpt m2 H2). cbn [count_occ]. lia.
  - intros u. unfold node_m. cbn [oisub isub]. intros [->|[J|[->|[J|J]]]]; cbn [fresh_node]; auto 6.
Qed.

Lemma rotL_tstep wv ckpt bs t : tspec wv ckpt t bs (rotL_o wv ckpt bs t).
Proof.
  destruct t as [|k h s m l r]; [exact I|]. destruct r as [|rk rh rs rm rl rr]; [exact I|].
  cbn [rotL_o]. destruct (mutate wv bs m) as [m1 bs1] eqn:E1. destruct (mutate wv bs1 rm) as [m2 bs2] eqn:E2.
  destruct (mutate_ok wv ckpt _ _ _ _ E1) as (V1 & H1 & L1 & M1).
  destruct (mutate_ok wv ckpt _ _ _ _ E2) as (V2 & H2 & L2 & M2).
  split.
  - split; [lia|]. intros x. specialize (M1 x). specialize (M2 x). rewrite (fr_split wv bs bs1 bs2 x) by lia.
    revert M1 M2. norm. rewrite (add_orphan_nil ckpt m1 H1), (add_orphan_nil ckpt m2 H2). cbn [count_occ]. lia.
  - intros u. unfold node_m. cbn [oisub isub]. intros [->|[[->|[J|J]]|J]]; cbn [fresh_node]; auto 6.
Qed.

Lemma tstep_balance {wv ckpt t bs t1 o bs1} :
  tstep wv ckpt t bs (Some t1) o bs1 -> fresh_node wv t1 ->
  match balance_o wv ckpt bs1 t1 with
  | Some (t', o2, bs2) => tstep wv ckpt t bs (Some t') (o ++ o2) bs2
  | None => True
  end.
Proof.
  intros T. destruct t1 as [|k h s m l r]; [intros []|]. intros (V & Hm).
  cbn [balance_o]. rewrite Hm.
  destruct (1 <? height l - height r).
  - destruct (0 <=? bal_of l).
    + generalize (rotR_tstep wv ckpt bs1 (Inner k h s m l r)).
      destruct (rotR_o _ _ _ _) as [[[t' o2] bs2]|]; [|exact (fun _ => I)]. apply tstep_trans, T.
    + (* the first rotation is in a child, under the key the branch has already *)
      generalize (rotL_tstep wv ckpt bs1 l). destruct (rotL_o wv ckpt bs1 l) as [[[l' o1] b1]|]; [|exact (fun _ => I)]. intros T1.
      generalize (rotR_tstep wv ckpt b1 (Inner k h s m l' r)). destruct (rotR_o _ _ _ _) as [[[t' o2] b2]|]; [|exact (fun _ => I)].
      intros T2. exact (tstep_trans T (tstep_trans (tstep_child true k k h s h s r V Hm T1) T2)).
  - destruct (height l - height r <? -1).
    + destruct (bal_of r <=? 0).
      * generalize (rotL_tstep wv ckpt bs1 (Inner k h s m l r)).
        destruct (rotL_o _ _ _ _) as [[[t' o2] bs2]|]; [|exact (fun _ => I)]. apply tstep_trans, T.
      * generalize (rotR_tstep wv ckpt bs1 r). destruct (rotR_o wv ckpt bs1 r) as [[[r' o1] b1]|]; [|exact (fun _ => I)]. intros T1.
        generalize (rotL_tstep wv ckpt b1 (Inner k h s m l r')). destruct (rotL_o _ _ _ _) as [[[t' o2] b2]|]; [|exact (fun _ => I)].
        intros T2. exact (tstep_trans T (tstep_trans (tstep_child false k k h s h s l V Hm T1) T2)).
    + rewrite app_nil_r. exact T.
Qed.

(** recursiveSet above the child [c]: mutateNode, the child's result, balance unless updated *)
Lemma set_up left {wv ckpt nk h s m m1 c c' d} {u : bool} {o1 bs bs1 bs2} :
  mutate wv bs m = (m1, bs1) -> tstep wv ckpt c bs1 (Some c') o1 bs2 ->
  match (if u then Some (inner left nk h s m1 c' d, true, add_orphan ckpt m ++ o1, bs2)
         else match balance_o wv ckpt bs2 (node_side left m1 nk c' d) with
              | None => None
              | Some (t', o2, bs3) => Some (t', false, add_orphan ckpt m ++ o1 ++ o2, bs3)
              end)
  with
  | Some (t', _, os, bs') => tstep wv ckpt (inner left nk h s m c d) bs (Some t') os bs'
  | None => True
  end.
Proof.
  intros E T. destruct u; [exact (tstep_pre left nk nk h s h s E T)|].
  destruct (mutate_spec _ _ _ _ _ E) as (V & Hm & _). destruct (node_side_inner left m1 nk c' d) as (h' & s' & ->).
  generalize (tstep_balance (tstep_pre left nk nk h s h' s' E T) (fresh_inner left wv nk h' s' m1 c' d V Hm)).
  destruct (balance_o _ _ _ _) as [[[t' o2] bs3]|]; [|exact (fun _ => I)]. rewrite <- app_assoc. exact (fun B => B).
Qed.

Lemma set_tstep wv sq ckpt t k v : forall bs,
  match v2_set_o wv sq ckpt bs t k v with
  | Some (t', _, os, bs') => tstep wv ckpt t bs (Some t') os bs'
  | None => True
  end.
Proof.
  induction t as [lk lv lm|nk h s m l IHl r IHr]; intros bs.
  - cbn [v2_set_o]. pose proof (one_fresh wv bs) as B.
    destruct (bcmp k lk); (split; [split; [lia|]|]).
    1, 3, 5: intros x; specialize (B x); norm; unfold key_of;
      cbn [ver nonce hs add_orphan persisted is_nil negb andb count_occ]; try rewrite fr_refl; lia.
    + intros u [].
    + intros u [->|[[]|[]]]. right. split; reflexivity.
    + intros u [->|[[]|[]]]. right. split; reflexivity.
  - cbn [v2_set_o]. destruct (mutate wv bs m) as [m1 bs1] eqn:E1. destruct (blt k nk).
    + generalize (IHl bs1). destruct (v2_set_o wv sq ckpt bs1 l k v) as [[[[l' u] o1] bs2]|]; [|exact (fun _ => I)].
      exact (set_up true E1).
    + generalize (IHr bs1). destruct (v2_set_o wv sq ckpt bs1 r k v) as [[[[r' u] o1] bs2]|]; [|exact (fun _ => I)].
      exact (set_up false E1).
Qed.

(** what recursiveRemove satisfies: a [tstep], and a Remove of an absent key records nothing,
    hands out no node key and returns the node itself *)
Definition rspec (wv ckpt : Z) (t : node) (bs : Z) (r : option (rm_res * list nkey2 * Z)) : Prop :=
  match r with
  | Some (res, os, bs') =>
      tstep wv ckpt t bs (rm_self res) os bs' /\
      (rm_val res = None -> os = [] /\ bs' = bs /\ rm_self res = Some t)
  | None => True
  end.

(** above the child [c] out of which the key went: the sibling if nothing is left of [c], else
    mutateNode and balance *)
Lemma remove_up left {wv ckpt nk} nk' {h s m c d c1} rk rk' val {o1 bs bs1} :
  tstep wv ckpt c bs c1 o1 bs1 ->
  rspec wv ckpt (inner left nk h s m c d) bs
    match c1 with
    | None => Some (RmRes (Some d) rk (Some val), o1 ++ add_orphan ckpt m, bs1)
    | Some c' =>
        let (m1, bs2) := mutate wv bs1 m in
        match balance_o wv ckpt bs2 (node_side left m1 nk' c' d) with
        | None => None
        | Some (t', o2, bs3) => Some (RmRes (Some t') rk' (Some val), (o1 ++ add_orphan ckpt m) ++ o2, bs3)
        end
    end.
Proof.
  intros T. destruct c1 as [c'|]; [|split; [exact (tstep_drop left nk h s m d T)|discriminate]].
  destruct (mutate wv bs1 m) as [m1 bs2] eqn:E. destruct (mutate_spec _ _ _ _ _ E) as (V & Hm & _).
  destruct (node_side_inner left m1 nk' c' d) as (h' & s' & ->).
  generalize (tstep_balance (tstep_post left nk nk' h s h' s' T E) (fresh_inner left wv nk' h' s' m1 c' d V Hm)).
  destruct (balance_o _ _ _ _) as [[[t' o2] bs3]|]; [|exact (fun _ => I)]. intros B. split; [exact B|discriminate].
Qed.

Lemma remove_tstep wv ckpt t k : forall bs, rspec wv ckpt t bs (v2_remove_o wv ckpt bs t k).
Proof.
  unfold v2_remove_o. induction t as [lk lv lm|nk h s m l IHl r IHr]; intros bs.
  - cbn [remove_gen]. destruct (beq k lk); (split; [|cbn [rm_val rm_self]; auto; discriminate]).
    + split; [apply keys_ok_refl|intros u []].
    + apply tstep_refl.
  - cbn [remove_gen]. destruct (blt k nk).
    + generalize (IHl bs). destruct (remove_gen false wv ckpt bs l k) as [[[res0 o1] bs1]|]; [|exact (fun _ => I)].
      intros (T & A). destruct (rm_val res0) as [val|].
      * exact (remove_up true nk (Some nk) (rm_key res0) val T).
      * destruct (A eq_refl) as (-> & -> & _). split; [apply tstep_refl|auto].
    + generalize (IHr bs). destruct (remove_gen false wv ckpt bs r k) as [[[res0 o1] bs1]|]; [|exact (fun _ => I)].
      intros (T & A). destruct (rm_val res0) as [val|].
      * exact (remove_up false (match rm_key res0 with Some k' => k' | None => nk end) None None val T).
      * destruct (A eq_refl) as (-> & -> & _). split; [apply tstep_refl|auto].
Qed.

Theorem remove_absent_no_orphans wv ckpt t k : forall bs res os bs',
  v2_remove_o wv ckpt bs t k = Some (res, os, bs') -> rm_val res = None ->
  os = [] /\ bs' = bs /\ rm_self res = Some t.
Proof.
  intros bs res os bs' E. generalize (remove_tstep wv ckpt t k bs). rewrite E. intros (_ & A). exact A.
Qed.

(** * 5. The recorded orphans are exactly the persisted branches that left the tree *)
Definition below (wv bs : Z) (x : nkey2) : Prop := fst x < wv \/ (fst x = wv /\ snd x <= bs).

Lemma pkeys_le ckpt t x : (cnt (pkeys ckpt t) x <= cnt (ikeys t) x)%nat.
Proof.
  induction t as [|k h s m l IHl r IHr]; [cbn; lia|].
  pose proof (add_orphan_le ckpt m x). norm. lia.
Qed.

Lemma pkeys_ver ckpt t x : In x (pkeys ckpt t) -> fst x <= ckpt.
Proof.
  induction t as [|k h s m l IHl r IHr]; [intros []|].
  cbn [pkeys]. rewrite !in_app_iff. intros [I|[I|I]]; auto.
  unfold add_orphan in I. destruct (persisted ckpt m) eqn:P; [|destruct I].
  destruct I as [<-|[]]. unfold persisted in P. apply andb_true_iff in P. cbn [key_of fst]. lia.
Qed.

Lemma opkeys_le ckpt r x : (cnt (opkeys ckpt r) x <= cnt (okeys r) x)%nat.
Proof. destruct r; [apply pkeys_le|cbn; lia]. Qed.

(** the count read as sets, for a tree with distinct branch keys, none of them beyond the counter *)
Lemma tstep_facts {wv ckpt t bs r os bs'} :
  tstep wv ckpt t bs r os bs' -> NoDup (ikeys t) -> Forall (below wv bs) (ikeys t) ->
  Permutation (pkeys ckpt t) (os ++ opkeys ckpt r) /\
  NoDup (okeys r) /\ Forall (below wv bs') (okeys r) /\ NoDup os /\
  (forall x, In x os <-> In x (pkeys ckpt t) /\ ~ In x (okeys r)) /\
  (forall x, In x (okeys r) -> In x (ikeys t) \/ (fst x = wv /\ bs < snd x)).
Proof.
  intros ((L & A) & _). generalize (pkeys_le ckpt t) (opkeys_le ckpt r). revert A.
  generalize (ikeys t) (pkeys ckpt t) (okeys r) (opkeys ckpt r). intros ik pk ik' pk' A Hle Hle' ND BL.
  rewrite (NoDup_count_occ key_dec) in ND. rewrite Forall_forall in BL.
  (* all that is known, per key; each conjunct below is this read through [count_occ_In] and
     [NoDup_count_occ], by linear arithmetic *)
  assert (forall x, ((cnt pk x = cnt os x + cnt pk' x /\ cnt ik' x + cnt os x <= cnt ik x + fr wv bs bs' x) /\
                     cnt pk x <= cnt ik x /\ cnt pk' x <= cnt ik' x /\ cnt ik x <= 1)%nat /\
                    ((0 < cnt ik x)%nat -> below wv bs x)) as P.
  { intros x. repeat split; try apply A; auto. intros I. apply BL, (count_occ_In key_dec), I. }
  clear A Hle Hle' ND BL. unfold below, fr in P.
  split. { apply (Permutation_count_occ key_dec). intros x. rewrite count_occ_app. apply P. }
  split. { apply (NoDup_count_occ key_dec). intros x. specialize (P x). lia. }
  split. { apply Forall_forall. intros x I. apply (count_occ_In key_dec) in I. specialize (P x). unfold below. lia. }
  split. { apply (NoDup_count_occ key_dec). intros x. specialize (P x). lia. }
  split. { intros x. rewrite !(count_occ_In key_dec). specialize (P x). lia. }
  intros x. rewrite !(count_occ_In key_dec). specialize (P x). lia.
Qed.

(** recursiveSet.  For a tree with distinct branch keys, none of them beyond the counter:
    the orphans recorded by recursiveSet are, each once, exactly the recordable branches
    (hashed, version <= last checkpoint) of the old tree that are not nodes of the new tree;
    the new tree again has distinct keys, all old or handed out by this call. *)
Theorem orphans_exact_set wv sq ckpt bs t k v t' upd os bs' :
  v2_set_o wv sq ckpt bs t k v = Some (t', upd, os, bs') ->
  NoDup (ikeys t) -> Forall (below wv bs) (ikeys t) ->
  Permutation (pkeys ckpt t) (os ++ pkeys ckpt t') /\
  NoDup (ikeys t') /\ Forall (below wv bs') (ikeys t') /\ NoDup os /\
  (forall x, In x os <-> In x (pkeys ckpt t) /\ ~ In x (ikeys t')) /\
  (forall x, In x (ikeys t') -> In x (ikeys t) \/ (fst x = wv /\ bs < snd x)).
Proof.
  intros E. generalize (set_tstep wv sq ckpt t k v bs). rewrite E. exact tstep_facts.
Qed.

(** recursiveRemove, likewise. *)
Theorem orphans_exact_remove wv ckpt bs t k res os bs' :
  v2_remove_o wv ckpt bs t k = Some (res, os, bs') ->
  NoDup (ikeys t) -> Forall (below wv bs) (ikeys t) ->
  Permutation (pkeys ckpt t) (os ++ opkeys ckpt (rm_self res)) /\
  NoDup (okeys (rm_self res)) /\ Forall (below wv bs') (okeys (rm_self res)) /\ NoDup os /\
  (forall x, In x os <-> In x (pkeys ckpt t) /\ ~ In x (okeys (rm_self res))) /\
  (forall x, In x (okeys (rm_self res)) -> In x (ikeys t) \/ (fst x = wv /\ bs < snd x)).
Proof.
  intros E. generalize (remove_tstep wv ckpt t k bs). rewrite E. intros (T & _). exact (tstep_facts T).
Qed.

Theorem orphans_exact wv ckpt bs t :
  NoDup (ikeys t) -> Forall (below wv bs) (ikeys t) ->
  (forall sq k v t' upd os bs',
     v2_set_o wv sq ckpt bs t k v = Some (t', upd, os, bs') ->
     Permutation (pkeys ckpt t) (os ++ pkeys ckpt t') /\ NoDup os /\
     (forall x, In x os <-> In x (pkeys ckpt t) /\ ~ In x (ikeys t'))) /\
  (forall k res os bs',
     v2_remove_o wv ckpt bs t k = Some (res, os, bs') ->
     Permutation (pkeys ckpt t) (os ++ opkeys ckpt (rm_self res)) /\ NoDup os /\
     (forall x, In x os <-> In x (pkeys ckpt t) /\ ~ In x (okeys (rm_self res))) /\
     (rm_val res = None -> os = [] /\ bs' = bs /\ rm_self res = Some t)).
Proof.
  intros ND BL. split.
  - intros sq k v t' upd os bs' E.
    destruct (orphans_exact_set _ _ _ _ _ _ _ _ _ _ _ E ND BL) as (A & _ & _ & B & C & _). auto.
  - intros k res os bs' E.
    destruct (orphans_exact_remove _ _ _ _ _ _ _ _ E ND BL) as (A & _ & _ & B & C & _).
    split; [exact A|]. split; [exact B|]. split; [exact C|].
    intros V. apply (remove_absent_no_orphans _ _ _ _ _ _ _ _ E V).
Qed.

(** * 6. deepHash and the store *)
Lemma isub_trans w u t : isub w u -> isub u t -> isub w t.
Proof.
  induction t as [|k h s m l IHl r IHr]; [intros _ []|].
  cbn [isub]. intros W [->|[I|I]]; auto.
Qed.

Lemma isub_inner u t : isub u t -> exists k h s m l r, u = Inner k h s m l r.
Proof.
  induction t as [|k h s m l IHl r IHr]; [intros []|].
  cbn [isub]. intros [->|[I|I]]; eauto 8.
Qed.

Definition allhashed (t : node) : Prop := forall w, isub w t -> hs (nmeta w) <> [].

Section DeepHash.
  Variable H : bytes -> bytes.
  Hypothesis Hnn : forall x, H x <> [].

  Lemma ikeys_deep_hash t : ikeys (v2_deep_hash H t) = ikeys t.
  Proof.
    induction t as [k v m|k h s m l IHl r IHr]; cbn [v2_deep_hash].
    - destruct (hs m); reflexivity.
    - destruct (hs m); [|reflexivity]. cbn [ikeys]. rewrite IHl, IHr. reflexivity.
  Qed.

  Lemma isub_deep_hash u t :
    isub u (v2_deep_hash H t) ->
    isub u t \/ exists u0, isub u0 t /\ hs (nmeta u0) = [] /\ ver (nmeta u) = ver (nmeta u0).
  Proof.
    induction t as [k v m|k h s m l IHl r IHr]; cbn [v2_deep_hash].
    - destruct (hs m); intros [].
    - destruct (hs m) eqn:Hm; [|auto]. cbn [isub]. intros [->|[I|I]].
      + right. eexists. split; [left; reflexivity|]. cbn [nmeta ver]. auto.
      + destruct (IHl I) as [J|(u0 & J & A)]; [auto|]. right. exists u0. auto.
      + destruct (IHr I) as [J|(u0 & J & A)]; [auto|]. right. exists u0. auto.
  Qed.

  Lemma allhashed_deep_hash t :
    (forall u, isub u t -> hs (nmeta u) <> [] -> allhashed u) -> allhashed (v2_deep_hash H t).
  Proof.
    induction t as [k v m|k h s m l IHl r IHr]; intros C; cbn [v2_deep_hash].
    - destruct (hs m); intros w [].
    - destruct (hs m) eqn:Hm.
      + intros w. cbn [isub]. intros [->|[I|I]].
        * cbn [nmeta hs]. apply Hnn.
        * apply IHl; [|exact I]. intros u Iu. apply C. cbn [isub]. auto.
        * apply IHr; [|exact I]. intros u Iu. apply C. cbn [isub]. auto.
      + apply C; [left; reflexivity|]. cbn [nmeta]. rewrite Hm. discriminate.
  Qed.
End DeepHash.

Lemma key_eqb_eq a b : key_eqb a b = true <-> a = b.
Proof.
  destruct a as [a1 a2], b as [b1 b2]. unfold key_eqb. cbn [fst snd]. rewrite andb_true_iff, !Z.eqb_eq.
  split; [intros (-> & ->); reflexivity|intros E; inversion E; auto].
Qed.

Lemma key_eqb_refl a : key_eqb a a = true.
Proof. now apply key_eqb_eq. Qed.

Lemma in_keys_iff k l : in_keys k l = true <-> In k l.
Proof.
  unfold in_keys. rewrite existsb_exists. split.
  - intros (y & I & E). apply key_eqb_eq in E. subst y. exact I.
  - intros I. exists k. split; [exact I|apply key_eqb_refl].
Qed.

Lemma lookup_br_app_some key l l' row :
  lookup_br key l = Some row -> lookup_br key (l ++ l') = Some row.
Proof.
  induction l as [|[k r] l IH]; [discriminate|]. cbn [lookup_br app]. destruct (key_eqb k key); auto.
Qed.

Lemma lookup_br_app_none key l l' :
  lookup_br key l = None -> lookup_br key (l ++ l') = lookup_br key l'.
Proof.
  induction l as [|[k r] l IH]; [reflexivity|]. cbn [lookup_br app]. destruct (key_eqb k key); [discriminate|auto].
Qed.

Lemma lookup_br_none key l : (forall row, ~ In (key, row) l) -> lookup_br key l = None.
Proof.
  induction l as [|[k r] l IH]; [reflexivity|]. intros N. cbn [lookup_br].
  destruct (key_eqb k key) eqn:E.
  - apply key_eqb_eq in E. subst. exfalso. apply (N r). left. reflexivity.
  - apply IH. intros row I. apply (N row). right. exact I.
Qed.

Lemma lookup_br_In key l row : lookup_br key l = Some row -> In (key, row) l.
Proof.
  induction l as [|[k r] l IH]; [discriminate|]. cbn [lookup_br].
  destruct (key_eqb k key) eqn:E.
  - apply key_eqb_eq in E. intros X; inversion X; subst. left. reflexivity.
  - intros X. right. auto.
Qed.

Lemma lookup_br_filter (p : nkey2 -> bool) key l :
  p key = true -> lookup_br key (filter (fun b => p (fst b)) l) = lookup_br key l.
Proof.
  intros P. induction l as [|[k r] l IH]; [reflexivity|]. cbn [filter fst lookup_br].
  destruct (key_eqb k key) eqn:E.
  - apply key_eqb_eq in E. subst k. rewrite P. cbn [lookup_br]. rewrite key_eqb_refl. reflexivity.
  - destruct (p k); [cbn [lookup_br]; rewrite E|]; exact IH.
Qed.

Lemma new_rows_keys last t k row : In (k, row) (new_rows last t) -> In k (ikeys t) /\ last < fst k.
Proof.
  induction t as [|k0 h s m l IHl r IHr]; [intros []|].
  cbn [new_rows ikeys]. rewrite !in_app_iff. intros [I|[I|I]].
  - destruct (last <? ver m) eqn:C; [|destruct I]. destruct I as [E|[]]. inversion E; subst.
    split; [left; reflexivity|]. cbn [key_of fst]. lia.
  - destruct (IHl I). split; [right; apply in_or_app|]; auto.
  - destruct (IHr I). split; [right; apply in_or_app|]; auto.
Qed.

Lemma new_rows_lookup last t k h s m l r :
  NoDup (ikeys t) -> isub (Inner k h s m l r) t -> last < ver m ->
  lookup_br (key_of m) (new_rows last t) = Some (row_of k h s m l r).
Proof.
  induction t as [|k0 h0 s0 m0 l0 IHl r0 IHr]; [intros _ []|].
  cbn [ikeys isub new_rows]. intros ND I L. apply NoDup_cons_iff in ND. destruct ND as (N0 & ND).
  destruct I as [E|I].
  - inversion E; subst. assert (last <? ver m0 = true) as -> by lia.
    cbn [app lookup_br]. rewrite key_eqb_refl. reflexivity.
  - (* below the root, whose own row has another key *)
    assert (In (key_of m) (ikeys l0 ++ ikeys r0)) as Ik
      by (apply in_or_app; destruct I as [I|I]; apply isub_key_in in I; auto).
    rewrite lookup_br_app_none.
    2:{ destruct (last <? ver m0); [|reflexivity]. cbn [lookup_br].
        destruct (key_eqb (key_of m0) (key_of m)) eqn:E; [|reflexivity].
        apply key_eqb_eq in E. exfalso. apply N0. rewrite E. exact Ik. }
    destruct I as [I|I]; [apply lookup_br_app_some, IHl; eauto using NoDup_app_l|].
    rewrite lookup_br_app_none; [apply IHr; eauto using NoDup_app_r|].
    apply lookup_br_none. intros row J. apply new_rows_keys in J. destruct J as (J & _).
    apply (NoDup_app_disj _ _ _ ND J), (isub_key_in _ _ I).
Qed.

Lemma lookup_root_eq v l : lookup_root v l = lookup v (map fst l).
Proof. induction l as [|[[w x] b] l IH]; [reflexivity|]. cbn [lookup_root map fst lookup]. now rewrite IH. Qed.

Lemma lookup_root_app_some v l l' r :
  lookup_root v l = Some r -> lookup_root v (l ++ l') = Some r.
Proof. rewrite !lookup_root_eq, map_app, lookup_app. intros ->. reflexivity. Qed.

Lemma lookup_root_app_new v l r b :
  (forall e, In e l -> fst (fst e) < v) -> lookup_root v (l ++ [(v, r, b)]) = Some r.
Proof.
  intros B. rewrite lookup_root_eq, map_app, lookup_app, (lookup_above _ (v - 1) v).
  - cbn. rewrite Z.eqb_refl. reflexivity.
  - apply Forall_map, Forall_forall. intros e I. specialize (B e I). cbn [fst]. lia.
  - lia.
Qed.

Lemma lookup_root_filter (p : Z -> bool) v l :
  p v = true -> lookup_root v (filter (fun r => p (fst (fst r))) l) = lookup_root v l.
Proof.
  intros P. rewrite !lookup_root_eq, <- (filter_map_comm (fun q => p (fst q)) fst), lookup_filter, P. reflexivity.
Qed.

(** a tree all of whose branches have their row loads back *)
Definition rows_ok (br : list (nkey2 * node_row)) (t : node) : Prop :=
  forall k h s m l r, isub (Inner k h s m l r) t ->
    lookup_br (key_of m) br = Some (row_of k h s m l r).

Lemma rows_ok_inner br k h s m l r : rows_ok br (Inner k h s m l r) -> rows_ok br l /\ rows_ok br r.
Proof. intros R. split; intros k' h' s' m' l' r' I; apply R; cbn [isub]; auto. Qed.

Fixpoint depth (t : node) : nat :=
  match t with Leaf _ _ _ => 0%nat | Inner _ _ _ _ l r => S (Nat.max (depth l) (depth r)) end.

Lemma depth_le t : (depth t <= length (ikeys t))%nat.
Proof.
  induction t as [|k h s m l IHl r IHr]; [cbn; lia|]. cbn [depth ikeys length]. rewrite app_length. lia.
Qed.

Lemma load_ref_ok br t : forall fuel, rows_ok br t -> (depth t <= fuel)%nat ->
  load_ref fuel br (cref_of t) = Some t.
Proof.
  induction t as [k v m|k h s m l IHl r IHr]; intros fuel R D.
  - destruct fuel; reflexivity.
  - cbn [cref_of]. destruct fuel as [|f]; [cbn [depth] in D; lia|]. cbn [load_ref].
    rewrite (R k h s m l r (or_introl eq_refl)). cbn [row_of nr_l nr_r nr_key nr_h nr_s nr_hs].
    cbn [depth] in D. destruct (rows_ok_inner _ _ _ _ _ _ _ R) as (Rl & Rr).
    rewrite IHl, IHr by first [assumption|lia]. destruct m. reflexivity.
Qed.

Lemma rows_ok_length br t : rows_ok br t -> NoDup (ikeys t) -> (length (ikeys t) <= length br)%nat.
Proof.
  intros R ND. rewrite <- (map_length fst br). apply NoDup_incl_length; [assumption|].
  intros x I. assert (exists u, isub u t /\ key_of (nmeta u) = x) as (u & Iu & <-).
  { clear R ND. induction t as [|k h s m l IHl r IHr]; [destruct I|]. cbn [ikeys] in I.
    destruct I as [<-|I]; [eexists; split; [left; reflexivity|reflexivity]|].
    apply in_app_or in I. destruct I as [I|I]; [destruct (IHl I) as (u & A & B)|destruct (IHr I) as (u & A & B)];
      exists u; cbn [isub]; auto. }
  destruct (isub_inner _ _ Iu) as (k & h & s & m & l & r & ->). cbn [nmeta].
  apply R in Iu. apply lookup_br_In in Iu. apply (in_map fst) in Iu. exact Iu.
Qed.

Definition orows_ok (br : list (nkey2 * node_row)) (root : option node) : Prop :=
  match root with Some t => rows_ok br t | None => True end.

Theorem load_checkpoint_ok st v root :
  lookup_root v (roots st) = Some (rootrow_of root) -> orows_ok (branches st) root -> NoDup (okeys root) ->
  load_checkpoint st v = Some root.
Proof.
  intros LR R ND. unfold load_checkpoint. rewrite LR. destruct root as [t|]; [|reflexivity].
  destruct t as [k v' m|k h s m l r]; [reflexivity|]. cbn [rootrow_of row_of nr_l nr_r nr_key nr_h nr_s nr_hs].
  cbn [orows_ok okeys] in R, ND. pose proof (rows_ok_length _ _ R ND) as Len. cbn [ikeys length] in Len.
  rewrite app_length in Len. pose proof (depth_le l). pose proof (depth_le r). unfold load_fuel.
  destruct (rows_ok_inner _ _ _ _ _ _ _ R) as (Rl & Rr).
  rewrite !load_ref_ok by first [assumption|lia]. destruct m. reflexivity.
Qed.

(** * 7. The invariant of a run *)
Definition ck_of (s : ostate) : Z := ckpt_last (ckpts (os_store s)).

Lemma ck_of_mk r v q b p st : ck_of (OState r v q b p st) = ckpt_last (ckpts st).
Proof. reflexivity. Qed.

Lemma pkeys_incl ckpt t x : In x (pkeys ckpt t) -> In x (ikeys t).
Proof.
  intros I. apply (count_occ_In key_dec) in I. apply (count_occ_In key_dec).
  pose proof (pkeys_le ckpt t x). lia.
Qed.

Lemma ikeys_pkeys ckpt t x :
  (forall u, isub u t -> hs (nmeta u) = [] -> ckpt < ver (nmeta u)) ->
  In x (ikeys t) -> fst x <= ckpt -> In x (pkeys ckpt t).
Proof.
  induction t as [|k h s m l IHl r IHr]; intros U; [intros []|].
  cbn [ikeys pkeys]. intros [<-|I] L.
  - apply in_or_app. left. unfold add_orphan, persisted.
    destruct (is_nil (hs m)) eqn:N.
    + apply is_nil_true in N. specialize (U _ (or_introl eq_refl) N). cbn [nmeta key_of fst] in *. lia.
    + cbn [key_of fst] in L. cbn [negb andb]. destruct (ver m <=? ckpt) eqn:C; [left; reflexivity|lia].
  - apply in_or_app. right. apply in_app_or in I. apply in_or_app. destruct I as [I|I]; [left; apply IHl|right; apply IHr]; auto;
      intros u Iu; apply U; cbn [isub]; auto.
Qed.

(** [tr]: the checkpoint trees written so far; [lo]: the greatest prune bound met so far;
    [full]: no checkpoint has lost pending orphans *)
Record Inv (full : bool) (lo : Z) (s : ostate) (tr : list (Z * option node)) : Prop := {
  i_ver : 0 <= os_version s;
  i_sorted : zsorted (ckpts (os_store s));
  i_ckle : Forall (fun c => 0 <= c <= os_version s) (ckpts (os_store s));
  i_lo : (lo = -1 \/ In lo (ckpts (os_store s))) /\ -1 <= lo <= ck_of s;
  i_nodup : NoDup (okeys (os_root s));
  i_below : Forall (below (os_version s + 1) (os_bseq s)) (okeys (os_root s));
  i_closed : forall u, oisub u (os_root s) -> hs (nmeta u) <> [] -> allhashed u;
  i_unh : forall u, oisub u (os_root s) -> hs (nmeta u) = [] -> ck_of s < ver (nmeta u);
  i_stored : forall k h s0 m l r, oisub (Inner k h s0 m l r) (os_root s) -> ver m <= ck_of s ->
               lookup_br (key_of m) (branches (os_store s)) = Some (row_of k h s0 m l r);
  i_rows : forall key row, In (key, row) (branches (os_store s)) -> fst key <= ck_of s;
  (* every branch row is accounted for: only when no checkpoint has lost pending orphans *)
  i_full : full = true -> forall key row, In (key, row) (branches (os_store s)) ->
             In key (okeys (os_root s)) \/ In key (os_pending s) \/ exists a, In (key, a) (borphans (os_store s));
  (* a pending orphan left the tree after the last checkpoint; it is a node of that checkpoint
     tree and of every one since its creation *)
  i_pend : forall x, In x (os_pending s) ->
             ~ In x (okeys (os_root s)) /\ fst x <= ck_of s /\
             (exists T, In (ck_of s, T) tr /\ In x (okeys T)) /\
             forall v T, In (v, T) tr -> fst x <= v -> In x (okeys T);
  (* an orphan row [(x, a)]: no checkpoint tree from [a] on has [x]; the one just before [a]
     has it, and so has every one back to its creation *)
  i_orph : forall x a, In (x, a) (borphans (os_store s)) ->
             (~ In x (okeys (os_root s)) /\ fst x <= ck_of s /\ In a (ckpts (os_store s)) /\
              forall v T, In (v, T) tr -> a <= v -> ~ In x (okeys T)) /\
             (lo < a /\ exists v T, In (v, T) tr /\ v < a /\ In x (okeys T) /\
                                   forall c, In c (ckpts (os_store s)) -> c < a -> c <= v) /\
             forall v T, In (v, T) tr -> fst x <= v -> v < a -> In x (okeys T);
  (* a branch is a node of every checkpoint tree from its creation until it is orphaned *)
  i_live : forall x, In x (okeys (os_root s)) ->
             (fst x <= ck_of s -> exists T, In (ck_of s, T) tr /\ In x (okeys T)) /\
             forall v T, In (v, T) tr -> fst x <= v -> In x (okeys T);
  i_trace : forall v T, In (v, T) tr -> 0 <= v <= os_version s /\ NoDup (okeys T) /\
             (lo <= v -> lookup_root v (roots (os_store s)) = Some (rootrow_of T) /\
                         orows_ok (branches (os_store s)) T);
  i_roots : forall e, In e (roots (os_store s)) -> fst (fst e) <= os_version s
}.
Arguments i_ver {full lo s tr}. Arguments i_sorted {full lo s tr}. Arguments i_ckle {full lo s tr}.
Arguments i_lo {full lo s tr}. Arguments i_nodup {full lo s tr}. Arguments i_below {full lo s tr}.
Arguments i_closed {full lo s tr}. Arguments i_unh {full lo s tr}. Arguments i_stored {full lo s tr}.
Arguments i_rows {full lo s tr}. Arguments i_full {full lo s tr}. Arguments i_pend {full lo s tr}.
Arguments i_orph {full lo s tr}. Arguments i_live {full lo s tr}. Arguments i_trace {full lo s tr}.
Arguments i_roots {full lo s tr}.

Lemma ckpt_last_bound l V : Forall (fun c => 0 <= c <= V) l -> 0 <= V -> -1 <= ckpt_last l <= V.
Proof.
  unfold ckpt_last. induction l as [|a l IH]; intros F L; [cbn; lia|].
  inversion F; subst. destruct l as [|b l']; [cbn; lia|]. change (last (a :: b :: l') (-1)) with (last (b :: l') (-1)).
  apply IH; assumption.
Qed.

Lemma ckpt_last_max l : zsorted l -> forall c, In c l -> c <= ckpt_last l.
Proof.
  unfold ckpt_last. induction l as [|a l IH]; [intros _ c []|]. intros (S1 & S2) c I.
  destruct l as [|b l']; [destruct I as [<-|[]]; cbn; lia|].
  change (last (a :: b :: l') (-1)) with (last (b :: l') (-1)).
  destruct I as [<-|I]; [|apply IH; assumption].
  rewrite Forall_forall in S1. specialize (IH S2 b (or_introl eq_refl)). specialize (S1 b (or_introl eq_refl)). lia.
Qed.

Lemma ckpt_last_snoc l v : ckpt_last (l ++ [v]) = v.
Proof. unfold ckpt_last. apply last_last. Qed.

Lemma ck_bound {full lo s tr} (I : Inv full lo s tr) : -1 <= ck_of s <= os_version s.
Proof. apply ckpt_last_bound; [apply (i_ckle I)|apply (i_ver I)]. Qed.

(** what a Set or Remove does to the state: a new root, orphans appended to the pending ones;
    the orphans are exactly the recordable branches that left the tree *)
Definition tree_step (s s' : ostate) : Prop :=
  exists r' q b os,
    s' = OState r' (os_version s) q b (os_pending s ++ os) (os_store s) /\
    NoDup (okeys r') /\ Forall (below (os_version s + 1) b) (okeys r') /\
    (forall x, In x os <-> In x (opkeys (ck_of s) (os_root s)) /\ ~ In x (okeys r')) /\
    (forall x, In x (okeys r') -> In x (okeys (os_root s)) \/ fst x = os_version s + 1) /\
    (forall u, oisub u r' -> oisub u (os_root s) \/ fresh_node (os_version s + 1) u).

Lemma inv_tree_step full lo s tr s' : Inv full lo s tr -> tree_step s s' -> Inv full lo s' tr.
Proof.
  intros I (r' & q & b & os & -> & ND & BL & OS & KS & PR). pose proof (ck_bound I) as CK.
  assert (forall x, In x (okeys (os_root s)) -> fst x <= ck_of s -> In x (opkeys (ck_of s) (os_root s))) as PK.
  { intros x Ix Lx. destruct (os_root s) as [t|] eqn:ER; [|destruct Ix]. cbn [okeys opkeys] in *.
    apply ikeys_pkeys; auto. intros u Iu. apply (i_unh I). rewrite ER. exact Iu. }
  assert (forall x, In x os -> In x (okeys (os_root s)) /\ fst x <= ck_of s /\ ~ In x (okeys r')) as OS'.
  { intros x Ix. apply OS in Ix. destruct Ix as (A & B). destruct (os_root s) as [t|]; [|destruct A].
    split; [apply (pkeys_incl _ _ _ A)|]. split; [apply (pkeys_ver _ _ _ A)|exact B]. }
  constructor; cbn [os_version os_store os_root os_bseq os_pending]; rewrite ?ck_of_mk; fold (ck_of s);
    try (apply I; fail); try assumption.
  - (* i_closed *) intros u Iu Hu. destruct (PR u Iu) as [J|J]; [apply (i_closed I u J Hu)|].
    destruct u; [destruct J|]. destruct J as (_ & J). cbn [nmeta] in Hu. contradiction.
  - (* i_unh *) intros u Iu Hu. destruct (PR u Iu) as [J|J]; [apply (i_unh I u J Hu)|].
    destruct u; [destruct J|]. destruct J as (J & _). cbn [nmeta]. lia.
  - (* i_stored *) intros k h s0 m l r Iu Vm. destruct (PR _ Iu) as [J|J]; [apply (i_stored I _ _ _ _ _ _ J Vm)|].
    destruct J as (J & _). lia.
  - (* i_full *) intros F key row Ir. destruct (i_full I F key row Ir) as [A|[A|A]]; [|right; left; apply in_or_app; auto|auto].
    destruct (in_dec key_dec key (okeys r')) as [B|B]; [auto|]. right. left. apply in_or_app. right.
    apply OS. split; [|assumption]. apply PK; [assumption|]. apply (i_rows I key row Ir).
  - (* i_pend *) intros x Ix. apply in_app_or in Ix. destruct Ix as [Ix|Ix].
    + destruct (i_pend I x Ix) as (A & B & R). split; [|exact (conj B R)]. intros J. destruct (KS x J); [auto|lia].
    + destruct (OS' x Ix) as (A & B & C). destruct (i_live I x A) as (L1 & L2). auto.
  - (* i_orph *) intros x a Ix. destruct (i_orph I x a Ix) as ((A & B & C) & R). split; [|exact R].
    split; [|exact (conj B C)]. intros J. destruct (KS x J); [auto|lia].
  - (* i_live *) intros x Ix. destruct (KS x Ix) as [A|A]; [apply (i_live I x A)|]. split; [lia|].
    intros v T It Lv. destruct (i_trace I _ _ It) as (B & _). lia.
Qed.

Lemma tree_step_refl s q :
  NoDup (okeys (os_root s)) -> Forall (below (os_version s + 1) (os_bseq s)) (okeys (os_root s)) ->
  tree_step s (OState (os_root s) (os_version s) q (os_bseq s) (os_pending s) (os_store s)).
Proof.
  intros ND BL. exists (os_root s), q, (os_bseq s), []. rewrite app_nil_r.
  split; [reflexivity|]. split; [exact ND|]. split; [exact BL|]. split; [|auto].
  intros x. split; [intros []|]. intros (A & B). destruct (os_root s); [|destruct A]. apply B, (pkeys_incl _ _ _ A).
Qed.

Lemma tstep_tree_step s t r os bs' q :
  os_root s = Some t -> NoDup (ikeys t) -> Forall (below (os_version s + 1) (os_bseq s)) (ikeys t) ->
  tstep (os_version s + 1) (ck_of s) t (os_bseq s) r os bs' ->
  tree_step s (OState r (os_version s) q bs' (os_pending s ++ os) (os_store s)).
Proof.
  intros ER ND BL T. destruct (tstep_facts T ND BL) as (_ & ND' & BL' & _ & OS & KS).
  exists r, q, bs', os. rewrite ER.
  split; [reflexivity|]. split; [exact ND'|]. split; [exact BL'|]. split; [exact OS|]. split; [|exact (proj2 T)].
  intros x Ix. destruct (KS x Ix) as [J|(J & _)]; auto.
Qed.

Lemma os_apply_spec s o s' :
  NoDup (okeys (os_root s)) -> Forall (below (os_version s + 1) (os_bseq s)) (okeys (os_root s)) ->
  os_apply false s o = Some s' -> tree_step s s'.
Proof.
  intros ND BL. unfold os_apply. fold (ck_of s). destruct o as [k v|k].
  - destruct (os_root s) as [t|] eqn:ER.
    + generalize (set_tstep (os_version s + 1) (os_lseq s + 1) (ck_of s) t k v (os_bseq s)).
      destruct (v2_set_o _ _ _ _ t k v) as [[[[t' upd] os] bs']|]; [|discriminate].
      intros T [= <-]. exact (tstep_tree_step s t (Some t') os bs' _ ER ND BL T).
    + intros E; injection E as <-. exists (Some (Leaf k v (v2_meta (os_version s + 1) (os_lseq s + 1)))), (os_lseq s + 1), (os_bseq s), [].
      rewrite app_nil_r. rewrite ER. cbn [okeys ikeys opkeys oisub isub]. split; [reflexivity|]. split; [constructor|]. split; [constructor|].
      split; [cbn; tauto|]. split; [intros x []|intros u []].
  - destruct (os_root s) as [t|] eqn:ER.
    2:{ intros E; injection E as <-. rewrite <- ER in ND, BL. destruct s as [r v l b p st]. apply (tree_step_refl (OState r v l b p st) l ND BL). }
    generalize (remove_tstep (os_version s + 1) (ck_of s) t k (os_bseq s)). unfold v2_remove_o.
    destruct (remove_gen false _ _ _ t k) as [[[res os] bs']|]; [|discriminate].
    intros (T & A). destruct (rm_val res) as [val|].
    + intros [= <-]. exact (tstep_tree_step s t (rm_self res) os bs' _ ER ND BL T).
    + destruct (A eq_refl) as (-> & -> & _).
      intros [= <-]. rewrite app_nil_r, <- ER. rewrite <- ER in ND, BL. apply (tree_step_refl s _ ND BL).
Qed.

Lemma os_apply_all_inv full lo tr ops : forall s s',
  Inv full lo s tr -> os_apply_all false s ops = Some s' -> Inv full lo s' tr.
Proof.
  induction ops as [|o ops IH]; intros s s' I; cbn [os_apply_all].
  - intros E; injection E as <-. exact I.
  - destruct (os_apply false s o) as [s1|] eqn:E1; [|discriminate]. apply IH.
    apply (inv_tree_step _ _ _ _ _ I), (os_apply_spec _ _ _ (i_nodup I) (i_below I) E1).
Qed.

Lemma os_apply_all_store early ops : forall s s',
  os_apply_all early s ops = Some s' -> os_store s' = os_store s /\ os_version s' = os_version s.
Proof.
  induction ops as [|o ops IH]; intros s s'; cbn [os_apply_all].
  - intros E; inversion E; auto.
  - destruct (os_apply early s o) as [s1|] eqn:E1; [|discriminate]. intros E. destruct (IH _ _ E) as (A & B).
    rewrite A, B. clear - E1. unfold os_apply in E1. destruct o.
    + destruct (os_root s); [destruct (v2_set_o _ _ _ _ _ _ _) as [[[[? ?] ?] ?]|]; [|discriminate]|];
        inversion E1; auto.
    + destruct (os_root s); [|inversion E1; auto].
      destruct (remove_gen _ _ _ _ _ _) as [[[? ?] ?]|]; [|discriminate]. destruct (rm_val _); inversion E1; auto.
Qed.

(** a SaveVersion of [s] loses no pending orphan: if it is a checkpoint, nothing is pending or
    the root is a branch ([saveBranches] runs) *)
Definition keeps_pending (interval : Z) (s : ostate) : Prop :=
  v2_should_checkpoint interval false (ckpts (os_store s)) (os_version s + 1) = true ->
  os_pending s = [] \/ root_is_branch (os_root s) = true.

Section Save.
  Variable H : bytes -> bytes.
  Hypothesis Hnn : forall x, H x <> [].

  Lemma okeys_odeep root : okeys (odeep H root) = okeys root.
  Proof. destruct root; [apply ikeys_deep_hash|reflexivity]. Qed.

  Lemma root_is_branch_odeep r : root_is_branch (odeep H r) = root_is_branch r.
  Proof.
    destruct r as [[k v m|k h s m l r]|]; [| |reflexivity];
      cbn [odeep v2_deep_hash root_is_branch]; destruct (hs m); reflexivity.
  Qed.

  (** SaveVersion in two steps.  First version++, resetSequences, computeHash and the root row: *)
  Definition save_root_state (flag : bool) (s : ostate) : ostate :=
    OState (odeep H (os_root s)) (os_version s + 1) 0 0 (os_pending s)
           (OStore (branches (os_store s)) (borphans (os_store s))
                   (roots (os_store s) ++ [(os_version s + 1, rootrow_of (odeep H (os_root s)), flag)])
                   (ckpts (os_store s))).

  (** ... then, at a checkpoint, saveBranches: the new branch rows, the orphan rows, the
      checkpoint range; [tree.branchOrphans] is cleared *)
  Definition save_ckpt_state (s : ostate) : ostate :=
    OState (os_root s) (os_version s) (os_lseq s) (os_bseq s) []
           (OStore (branches (os_store s) ++ match os_root s with Some t => new_rows (ck_of s) t | None => [] end)
                   (borphans (os_store s) ++
                      if root_is_branch (os_root s) then map (fun k => (k, os_version s)) (os_pending s) else [])
                   (roots (os_store s))
                   (ckpts (os_store s) ++ [os_version s])).

  Lemma os_save_eq interval s :
    os_save H false interval s =
    if v2_should_checkpoint interval false (ckpts (os_store s)) (os_version s + 1)
    then save_ckpt_state (save_root_state true s) else save_root_state false s.
  Proof. unfold os_save. destruct (v2_should_checkpoint _ _ _ _); reflexivity. Qed.

  Definition save_trace (interval : Z) (s : ostate) : list (Z * option node) :=
    if v2_should_checkpoint interval false (ckpts (os_store s)) (os_version s + 1)
    then [(os_version s + 1, odeep H (os_root s))] else [].

  Lemma odeep_hashed r :
    (forall u, oisub u r -> hs (nmeta u) <> [] -> allhashed u) ->
    forall u, oisub u (odeep H r) -> hs (nmeta u) <> [].
  Proof.
    intros C. destruct r as [t|]; [|intros u []]. cbn [odeep oisub]. apply (allhashed_deep_hash H Hnn), C.
  Qed.

  Lemma inv_save_root full lo s tr flag : Inv full lo s tr -> Inv full lo (save_root_state flag s) tr.
  Proof.
    intros I. pose proof (ck_bound I) as CK. pose proof (i_ver I) as V0.
    pose proof (odeep_hashed _ (i_closed I)) as R2.
    unfold save_root_state. constructor; cbn [os_version os_store os_root os_bseq os_pending ckpts branches borphans roots];
      rewrite ?ck_of_mk; cbn [ckpts]; fold (ck_of s); rewrite ?okeys_odeep; try (apply I; fail).
    - (* i_ver *) lia.
    - (* i_ckle *) eapply Forall_impl; [|apply (i_ckle I)]. cbn beta. intros; lia.
    - (* i_below *) eapply Forall_impl; [|apply (i_below I)]. intros x. unfold below. lia.
    - (* i_closed *) intros u Iu _ w Iw. apply R2. destruct (odeep H (os_root s)); [|destruct Iu]. cbn [oisub] in *.
      eapply isub_trans; eauto.
    - (* i_unh *) intros u Iu Hu. exfalso. apply (R2 u Iu Hu).
    - (* i_stored: a rehashed branch is above the last checkpoint *)
      intros k h s0 m l r Iu Vm.
      assert (oisub (Inner k h s0 m l r) (os_root s) \/
              exists u0, oisub u0 (os_root s) /\ hs (nmeta u0) = [] /\ ver m = ver (nmeta u0)) as [J|(u0 & J & Hu & Vu)].
      { destruct (os_root s) as [t|]; [|destruct Iu]. apply (isub_deep_hash H _ _ Iu). }
      + apply (i_stored I _ _ _ _ _ _ J Vm).
      + pose proof (i_unh I u0 J Hu). lia.
    - (* i_trace *) intros v' T' J'. destruct (i_trace I _ _ J') as (A' & B' & C'). split; [lia|]. split; [assumption|].
      intros L'. destruct (C' L') as (C1 & C2). split; [apply lookup_root_app_some; assumption|assumption].
    - (* i_roots *) intros e Ie. apply in_snoc in Ie. destruct Ie as [Ie| ->]; [apply (i_roots I) in Ie; lia|cbn; lia].
  Qed.

  (** the state between the two steps: everything hashed, its root row written, its version
      above the checkpoints and the trace *)
  Definition saved (tr : list (Z * option node)) (s : ostate) : Prop :=
    (forall u, oisub u (os_root s) -> hs (nmeta u) <> []) /\
    ck_of s < os_version s /\
    Forall (fun x => fst x <= os_version s) (okeys (os_root s)) /\
    (forall v T, In (v, T) tr -> v < os_version s) /\
    lookup_root (os_version s) (roots (os_store s)) = Some (rootrow_of (os_root s)).

  Lemma save_root_saved full lo s tr flag : Inv full lo s tr -> saved tr (save_root_state flag s).
  Proof.
    intros I. pose proof (ck_bound I) as CK.
    unfold saved, save_root_state. cbn [os_version os_store os_root roots]. rewrite ck_of_mk. cbn [ckpts]. fold (ck_of s).
    split; [apply (odeep_hashed _ (i_closed I))|]. split; [lia|]. split; [|split].
    - rewrite okeys_odeep. eapply Forall_impl; [|apply (i_below I)]. intros x. unfold below. lia.
    - intros v T J. destruct (i_trace I _ _ J) as (A & _). lia.
    - apply lookup_root_app_new. intros e Ie. apply (i_roots I) in Ie. lia.
  Qed.

  Lemma inv_save_ckpt full lo s tr :
    Inv full lo s tr -> saved tr s -> (full = true -> os_pending s = [] \/ root_is_branch (os_root s) = true) ->
    Inv full lo (save_ckpt_state s) (tr ++ [(os_version s, os_root s)]).
  Proof.
    intros I (AH & CV & KV & TV & LR) NL. pose proof (ck_bound I) as CK. pose proof (i_ver I) as V0.
    assert (forall a, In a (ckpts (os_store s)) -> a < os_version s) as CL.
    { intros a Ia. pose proof (ckpt_last_max _ (i_sorted I) a Ia). unfold ck_of in CV. lia. }
    set (v := os_version s) in *. set (T := os_root s) in *.
    set (br' := branches (os_store s) ++ match T with Some t => new_rows (ck_of s) t | None => [] end).
    assert (orows_ok br' T) as RO.
    { subst br'. pose proof (i_nodup I) as ND. fold T in ND.
      destruct T as [t|] eqn:ET; [|exact Logic.I]. cbn [orows_ok okeys] in *.
      intros k h s0 m l r Iu. destruct (Z_le_gt_dec (ver m) (ck_of s)) as [Vm|Vm].
      - apply lookup_br_app_some. apply (i_stored I). fold T. rewrite ET. exact Iu. exact Vm.
      - rewrite lookup_br_app_none.
        + apply new_rows_lookup; [assumption|assumption|lia].
        + apply lookup_br_none. intros row J. apply (i_rows I) in J. cbn [key_of fst] in J. lia. }
    unfold save_ckpt_state. constructor; cbn [os_version os_store os_root os_bseq os_pending ckpts branches borphans roots];
      rewrite ?ck_of_mk; cbn [ckpts]; rewrite ?ckpt_last_snoc; fold v; fold T; fold br'; try (apply I; fail).
    - (* i_sorted *) apply zsorted_app_snoc; [apply I|]. apply Forall_forall. exact CL.
    - (* i_ckle *) apply Forall_app. split; [apply (i_ckle I)|]. constructor; [lia|constructor].
    - (* i_lo *) destruct (i_lo I) as ([A|A] & B); (split; [|lia]); [auto|right; apply in_or_app; auto].
    - (* i_unh *) intros u Iu Hu. exfalso. apply (AH u Iu Hu).
    - (* i_stored *) intros k h s0 m l r Iu _. destruct T as [t|]; [|destruct Iu]. apply RO. exact Iu.
    - (* i_rows *) intros key row J. apply in_app_or in J. destruct J as [J|J].
      + apply (i_rows I) in J. lia.
      + destruct T as [t|]; [|destruct J]. apply new_rows_keys in J. destruct J as (J & _).
        cbn [okeys] in KV. rewrite Forall_forall in KV. apply (KV _ J).
    - (* i_full *) intros F key row Ir. apply in_app_or in Ir. destruct Ir as [Ir|Ir].
      + destruct (i_full I F key row Ir) as [A|[A|(a & A)]].
        * left. exact A.
        * right. right. exists v. apply in_or_app. right. destruct (NL F) as [N | ->]; [rewrite N in A; destruct A|].
          apply in_map_iff. exists key. auto.
        * right. right. exists a. apply in_or_app. auto.
      + left. destruct T as [t|]; [|destruct Ir]. apply new_rows_keys in Ir. apply Ir.
    - (* i_pend *) intros x [].
    - (* i_orph *) intros x a J. apply in_app_or in J. destruct J as [J|J].
      + destruct (i_orph I x a J) as ((A & B & C & D) & (E & v0 & T0 & F1 & F2 & F3 & F4) & G).
        pose proof (CL a C) as La. split; [|split].
        * split; [assumption|]. split; [lia|]. split; [apply in_or_app; auto|].
          intros v' T' J' L'. apply in_snoc in J'. destruct J' as [J'|[= -> ->]]; [eauto|assumption].
        * split; [assumption|]. exists v0, T0. split; [apply in_or_app; auto|]. split; [assumption|]. split; [assumption|].
          intros c Ic Lc. apply in_snoc in Ic. destruct Ic as [Ic| ->]; [auto|lia].
        * intros v' T' It Lv La'. apply in_snoc in It. destruct It as [It|[= -> ->]]; [apply (G v' T' It Lv La')|lia].
      + (* the pending orphans get their rows, tagged with this checkpoint *)
        destruct (root_is_branch T); [|destruct J].
        apply in_map_iff in J. destruct J as (x0 & E & J). injection E as -> <-.
        destruct (i_pend I x J) as (A & B & (T0 & P1 & P2) & P3). destruct (i_lo I) as (_ & Blo). split; [|split].
        * split; [assumption|]. split; [lia|]. split; [apply in_or_app; right; left; reflexivity|].
          intros v' T' J' L'. apply in_snoc in J'. destruct J' as [J'|[= -> ->]]; [apply TV in J'; lia|assumption].
        * split; [lia|]. exists (ck_of s), T0. split; [apply in_or_app; auto|]. split; [lia|]. split; [assumption|].
          intros c Ic Lc. apply in_snoc in Ic. destruct Ic as [Ic| ->]; [|lia].
          apply ckpt_last_max; [apply I|assumption].
        * intros v' T' It Lv La. apply in_snoc in It. destruct It as [It|[= -> ->]]; [apply (P3 v' T' It Lv)|lia].
    - (* i_live *) intros x Ix. split.
      + intros _. exists T. split; [apply in_or_app; right; left; reflexivity|assumption].
      + intros v' T' It Lv. apply in_snoc in It. destruct It as [It|[= -> ->]]; [apply (proj2 (i_live I x Ix) v' T' It Lv)|exact Ix].
    - (* i_trace *) intros v' T' J'. apply in_snoc in J'. destruct J' as [J'|[= -> ->]].
      + destruct (i_trace I _ _ J') as (A' & B' & C'). split; [assumption|]. split; [assumption|].
        intros L'. destruct (C' L') as (C1 & C2). split; [assumption|].
        destruct T' as [t'|]; [|exact Logic.I]. cbn [orows_ok] in *. intros k h s0 m l r Iu.
        apply lookup_br_app_some. apply C2. exact Iu.
      + split; [lia|]. split; [apply I|]. intros _. split; [exact LR|exact RO].
  Qed.

  Lemma os_save_inv full lo s tr interval :
    Inv full lo s tr -> (full = true -> keeps_pending interval s) ->
    Inv full lo (os_save H false interval s) (tr ++ save_trace interval s).
  Proof.
    intros I NL. rewrite os_save_eq. unfold save_trace.
    destruct (v2_should_checkpoint interval false (ckpts (os_store s)) (os_version s + 1)) eqn:SC.
    - apply (inv_save_ckpt _ _ _ _ (inv_save_root _ _ _ _ true I) (save_root_saved _ _ _ _ true I)).
      intros F. cbn [save_root_state os_pending os_root]. rewrite root_is_branch_odeep. apply (NL F SC).
    - rewrite app_nil_r. apply inv_save_root, I.
  Qed.
End Save.

(** * 8. The pruner *)
Lemma fp_cases cks n c :
  zsorted cks -> find_previous cks n = FPVal c ->
  (c = -1 /\ forall a, In a cks -> n < a) \/ is_prev cks n c.
Proof.
  intros S E. destruct (find_previous_iff cks n S) as (c' & E' & D). rewrite E in E'. injection E' as <-. exact D.
Qed.

Lemma fp_bound cks n c :
  zsorted cks -> find_previous cks n = FPVal c -> forall a, In a cks -> a <= n -> a <= c.
Proof.
  intros S E a Ia La. destruct (fp_cases _ _ _ S E) as [(_ & M)|(_ & _ & M)]; [specialize (M a Ia); lia|auto].
Qed.

(** the keys whose branch rows a prune to [n] deletes *)
Definition dead_keys (st : ostore) (n : Z) : list nkey2 := map fst (filter (fun o => snd o <=? n) (borphans st)).

Lemma in_dead_keys x n st : in_keys x (dead_keys st n) = true <-> exists a, In (x, a) (borphans st) /\ a <= n.
Proof.
  unfold dead_keys. rewrite in_keys_iff, in_map_iff. split.
  - intros ([x' a] & E & Io). cbn [fst] in E. subst x'. apply filter_In in Io. cbn [snd] in Io. exists a. split; [apply Io|lia].
  - intros (a & I & L). exists (x, a). split; [reflexivity|]. apply filter_In. cbn [snd]. split; [assumption|lia].
Qed.

Lemma prune_tree_with_some cks st n st' :
  prune_tree_with cks st n = Some st' ->
  exists c, find_previous cks n = FPVal c /\
    st' = OStore (filter (fun b => negb (in_keys (fst b) (dead_keys st n))) (branches st))
                 (filter (fun o => negb (snd o <=? n)) (borphans st))
                 (filter (fun r => negb (fst (fst r) <? c)) (roots st)) (ckpts st).
Proof.
  unfold prune_tree_with. destruct (find_previous cks n) as [c| |]; try discriminate.
  intros E; injection E as <-. exists c. auto.
Qed.

(** a prune to [n] with bound [c], no checkpoint of the store in (c, n]: the current tree and
    the checkpoint trees from [c] on keep all their branch rows *)
Lemma prune_alive full lo s tr n c :
  Inv full lo s tr -> (forall a, In a (ckpts (os_store s)) -> a <= n -> a <= c) ->
  forall key T, In key (okeys T) -> (T = os_root s \/ exists v, In (v, T) tr /\ c <= v) ->
  negb (in_keys key (dead_keys (os_store s) n)) = true.
Proof.
  intros I NB key T Ik W. destruct (in_keys key _) eqn:D; [|reflexivity]. exfalso.
  apply in_dead_keys in D. destruct D as (a & Ia & La).
  destruct (i_orph I key a Ia) as ((A & B & C & D) & _).
  destruct W as [->|(v & Iv & Lv)]; [auto|]. apply (D v T Iv); [|assumption].
  specialize (NB a C La). lia.
Qed.

(** the pruner run with the checkpoint range [cks] of the prune signal on the store as it is
    when the writer gets to it *)
Lemma prune_with_loads full lo s tr cks n c st' v T :
  Inv full lo s tr -> prune_tree_with cks (os_store s) n = Some st' -> find_previous cks n = FPVal c ->
  (forall a, In a (ckpts (os_store s)) -> a <= n -> a <= c) ->
  In (v, T) tr -> lo <= v -> c <= v ->
  lookup_root v (roots st') = Some (rootrow_of T) /\ orows_ok (branches st') T.
Proof.
  intros I P FP NB J L Lc. apply prune_tree_with_some in P. destruct P as (c' & FP' & ->).
  rewrite FP in FP'. injection FP' as <-. cbn [roots branches].
  destruct (i_trace I _ _ J) as (_ & _ & C). destruct (C L) as (C1 & C2). split.
  - rewrite (lookup_root_filter (fun w => negb (w <? c))); [assumption|]. destruct (v <? c) eqn:E; [lia|reflexivity].
  - destruct T as [t|]; [|exact Logic.I]. cbn [orows_ok] in *. intros k h s0 m l r Iu.
    rewrite (lookup_br_filter (fun k => negb (in_keys k (dead_keys (os_store s) n)))); [apply C2; assumption|].
    apply (prune_alive _ _ _ _ _ _ I NB _ (Some t)); [apply (isub_key_in _ _ Iu)|]. right. exists v. auto.
Qed.

Lemma prune_inv full lo s tr n c st' :
  Inv full lo s tr -> prune_tree (os_store s) n = Some st' -> find_previous (ckpts (os_store s)) n = FPVal c ->
  Inv full (Z.max lo c) (OState (os_root s) (os_version s) (os_lseq s) (os_bseq s) (os_pending s) st') tr.
Proof.
  intros I P FP. pose proof (fp_bound _ _ _ (i_sorted I) FP) as NB.
  assert (c = -1 \/ In c (ckpts (os_store s)) /\ c <= n) as FC.
  { destruct (fp_cases _ _ _ (i_sorted I) FP) as [(A & _)|(A & B & _)]; auto. }
  pose proof (fun v T => prune_with_loads _ _ _ _ _ _ _ _ v T I P FP NB) as LD.
  apply prune_tree_with_some in P. destruct P as (c' & _ & ->).
  constructor; cbn [os_version os_store os_root os_bseq os_pending ckpts branches borphans roots] in *;
    rewrite ?ck_of_mk; cbn [ckpts]; fold (ck_of s); try (apply I; fail).
  - (* i_lo *) destruct (i_lo I) as (A & B).
    assert (c <= ck_of s) as Lc.
    { destruct FC as [->|(Ic & _)]; [lia|]. apply ckpt_last_max; [apply I|assumption]. }
    split; [|lia]. destruct (Z.max_spec lo c) as [(_ & ->)|(_ & ->)]; [|assumption].
    destruct FC as [->|(Ic & _)]; auto.
  - (* i_stored *) intros k h s0 m l r Iu Vm.
    rewrite (lookup_br_filter (fun k => negb (in_keys k (dead_keys (os_store s) n)))); [apply (i_stored I _ _ _ _ _ _ Iu Vm)|].
    apply (prune_alive _ _ _ _ _ _ I NB _ (os_root s)); [|auto]. destruct (os_root s); [|destruct Iu]. apply (isub_key_in _ _ Iu).
  - (* i_rows *) intros key row J. apply filter_In in J. apply (i_rows I key row (proj1 J)).
  - (* i_full: a row with a deleted orphan row is itself deleted *)
    intros F key row Ir. apply filter_In in Ir. destruct Ir as (Ir & D).
    destruct (i_full I F key row Ir) as [A|[A|(a & A)]]; auto.
    right. right. exists a. apply filter_In. split; [assumption|]. cbn [snd fst] in *.
    destruct (a <=? n) eqn:C; [|reflexivity]. exfalso.
    rewrite (proj2 (in_dead_keys key n (os_store s))) in D; [discriminate|]. exists a. split; [assumption|lia].
  - (* i_orph: a row that stays has [n < a], and [c <= n] *)
    intros x a Ix. apply filter_In in Ix. destruct Ix as (Ix & D). cbn [snd] in D.
    destruct (i_orph I x a Ix) as (A & (B & R) & C). split; [exact A|]. split; [|exact C]. split; [|exact R].
    destruct A as (_ & _ & Ia & _). pose proof (i_ckle I) as F. rewrite Forall_forall in F. specialize (F a Ia).
    destruct (a <=? n) eqn:E; [discriminate|]. destruct FC as [->|(_ & Lc)]; lia.
  - (* i_trace *) intros v T J. destruct (i_trace I _ _ J) as (A & B & _). split; [assumption|]. split; [assumption|].
    intros L. apply (LD v T J); lia.
  - (* i_roots *) intros e J. apply filter_In in J. apply (i_roots I e (proj1 J)).
Qed.

(** * 9. Runs *)
Definition step_floor (s : ostate) (e : hstep) (lo : Z) : Z :=
  match e with
  | HPrune n => match find_previous (ckpts (os_store s)) n with FPVal c => Z.max lo c | _ => lo end
  | HVersion _ => lo
  end.

Section Runs.
  Variable H : bytes -> bytes.
  Hypothesis Hnn : forall x, H x <> [].
  Variable interval : Z.

  (** the greatest prune bound [c] met along the run (the checkpoints below it are gone) *)
  Fixpoint run_floor (s : ostate) (hist : list hstep) (lo : Z) : Z :=
    match hist with
    | [] => lo
    | e :: rest =>
        match os_step H false false interval s e with
        | Some s' => run_floor s' rest (step_floor s e lo)
        | None => lo
        end
    end.

  Definition step_trace (s' : ostate) (e : hstep) : list (Z * option node) :=
    match e with
    | HVersion _ =>
        if existsb (Z.eqb (os_version s')) (ckpts (os_store s')) then [(os_version s', os_root s')] else []
    | HPrune _ => []
    end.

  (** [os_trace] records the saved tree exactly when this SaveVersion was a checkpoint *)
  Lemma step_trace_save s ops :
    Forall (fun c => c <= os_version s) (ckpts (os_store s)) ->
    step_trace (os_save H false interval s) (HVersion ops) = save_trace H interval s.
  Proof.
    intros F. unfold step_trace, save_trace. rewrite os_save_eq.
    destruct (v2_should_checkpoint interval false (ckpts (os_store s)) (os_version s + 1));
      cbn [save_ckpt_state save_root_state os_version os_store os_root ckpts].
    - rewrite existsb_app. cbn [existsb]. rewrite Z.eqb_refl, orb_true_r. reflexivity.
    - destruct (existsb _ _) eqn:X; [|reflexivity]. apply existsb_exists in X. destruct X as (c & Ic & Ec).
      rewrite Forall_forall in F. specialize (F c Ic). lia.
  Qed.

  Lemma os_step_inv full lo s tr e s' :
    Inv full lo s tr ->
    (full = true -> forall ops s1, e = HVersion ops -> os_apply_all false s ops = Some s1 -> keeps_pending interval s1) ->
    os_step H false false interval s e = Some s' ->
    Inv full (step_floor s e lo) s' (tr ++ step_trace s' e).
  Proof.
    intros I NL. destruct e as [ops|n]; cbn [os_step step_floor].
    - destruct (os_apply_all false s ops) as [s1|] eqn:EA; [|discriminate].
      intros E; injection E as <-.
      pose proof (os_apply_all_inv _ _ _ _ _ _ I EA) as I1.
      rewrite step_trace_save.
      + apply (os_save_inv H Hnn _ _ _ _ _ I1). intros F. apply (NL F ops s1 eq_refl EA).
      + eapply Forall_impl; [|apply (i_ckle I1)]. cbn beta. intros; lia.
    - destruct (prune_tree (os_store s) n) as [st'|] eqn:EP; [|discriminate].
      intros E; injection E as <-. cbn [step_trace]. rewrite app_nil_r.
      destruct (prune_tree_with_some _ _ _ _ EP) as (c & FP & _). rewrite FP. apply (prune_inv _ _ _ _ _ _ _ I EP FP).
  Qed.

  Lemma os_trace_step s e rest tr :
    os_trace H false false interval s (e :: rest) = Some tr ->
    exists s' tr', os_step H false false interval s e = Some s' /\
                   os_trace H false false interval s' rest = Some tr' /\ tr = step_trace s' e ++ tr'.
  Proof.
    cbn [os_trace]. destruct (os_step H false false interval s e) as [s'|] eqn:E1; [|discriminate].
    destruct (os_trace H false false interval s' rest) as [tr'|] eqn:E2; [|discriminate].
    intros E. exists s', tr'. split; [reflexivity|]. split; [exact E2|].
    destruct e; cbn [step_trace].
    - destruct (existsb _ _); inversion E; reflexivity.
    - inversion E; reflexivity.
  Qed.

  (** what every step preserves holds at the end of the run; [P] may depend on the steps
      still to come *)
  Lemma run_ind (P : list hstep -> Z -> ostate -> list (Z * option node) -> Prop) :
    (forall e rest lo s tr s', P (e :: rest) lo s tr -> os_step H false false interval s e = Some s' ->
       P rest (step_floor s e lo) s' (tr ++ step_trace s' e)) ->
    forall hist s lo past s' tr, P hist lo s past ->
      os_run H false false interval s hist = Some s' ->
      os_trace H false false interval s hist = Some tr ->
      P [] (run_floor s hist lo) s' (past ++ tr).
  Proof.
    intros ST. induction hist as [|e rest IH]; intros s lo past s' tr I R T.
    - cbn in R, T. inversion R; inversion T; subst. rewrite app_nil_r. exact I.
    - apply os_trace_step in T. destruct T as (s1 & tr1 & E1 & T1 & ->).
      cbn [os_run run_floor] in *. rewrite E1 in *. rewrite app_assoc.
      apply (IH s1); [|assumption|assumption]. apply ST; assumption.
  Qed.

  Lemma inv_empty full : Inv full (-1) ostate_empty [].
  Proof.
    constructor; cbn; try (intros; contradiction); try constructor; auto; lia.
  Qed.

  Lemma run_inv0 hist s tr :
    os_run H false false interval ostate_empty hist = Some s ->
    os_trace H false false interval ostate_empty hist = Some tr ->
    Inv false (run_floor ostate_empty hist (-1)) s tr.
  Proof.
    intros R Tr. refine (run_ind (fun _ lo s tr => Inv false lo s tr) _ hist _ _ [] _ _ (inv_empty false) R Tr).
    intros e rest lo s0 tr0 s' I. apply (os_step_inv _ _ _ _ _ _ I). discriminate.
  Qed.

  Lemma inv_loads full lo s tr v T :
    Inv full lo s tr -> In (v, T) tr -> lo <= v -> load_checkpoint (os_store s) v = Some T.
  Proof.
    intros I J L. destruct (i_trace I _ _ J) as (_ & ND & C). destruct (C L) as (C1 & C2).
    apply load_checkpoint_ok; assumption.
  Qed.

  (** after any history (versions and prunes), every checkpoint not below the
      greatest prune bound met so far loads back node for node *)
  Theorem checkpoints_load hist s tr v T :
    os_run H false false interval ostate_empty hist = Some s ->
    os_trace H false false interval ostate_empty hist = Some tr ->
    In (v, T) tr -> run_floor ostate_empty hist (-1) <= v ->
    load_checkpoint (os_store s) v = Some T.
  Proof. intros R Tr. apply (inv_loads _ _ _ _ _ _ (run_inv0 _ _ _ R Tr)). Qed.

  (** the same after one more prune, in the form that shows the race: the prune signal carries the checkpoint range [cks] of the moment
      DeleteVersionsTo(n) was called; the writer applies [at <= n] to the rows present when it
      runs.  Safe if no checkpoint of the store lies in (c, n]: with [n] beyond the latest
      version and a checkpoint written in between, the hypothesis fails and so does the
      conclusion (see [prune_race_refuted]). *)
  Theorem prune_keeps_checkpoints_race hist s tr cks n c st' v T :
    os_run H false false interval ostate_empty hist = Some s ->
    os_trace H false false interval ostate_empty hist = Some tr ->
    prune_tree_with cks (os_store s) n = Some st' ->
    find_previous cks n = FPVal c ->
    (forall a, In a (ckpts (os_store s)) -> a <= n -> a <= c) ->
    In (v, T) tr -> run_floor ostate_empty hist (-1) <= v -> c <= v ->
    load_checkpoint st' v = Some T.
  Proof.
    intros R Tr P FP NB J L Lc. pose proof (run_inv0 _ _ _ R Tr) as I.
    destruct (prune_with_loads _ _ _ _ _ _ _ _ _ _ I P FP NB J L Lc) as (C1 & C2).
    apply load_checkpoint_ok; [assumption|assumption|apply (i_trace I _ _ J)].
  Qed.

  (** without a race: after one more [prune_tree st n], with [c = FindPrevious(n)],
      every checkpoint [v >= c] (not already pruned away) still loads node for node: the rule
      [at <= n] deletes nothing a retained checkpoint needs, although [n] may lie beyond [c]. *)
  Theorem prune_keeps_checkpoints hist s tr n c st' v T :
    os_run H false false interval ostate_empty hist = Some s ->
    os_trace H false false interval ostate_empty hist = Some tr ->
    prune_tree (os_store s) n = Some st' ->
    find_previous (ckpts (os_store s)) n = FPVal c ->
    In (v, T) tr -> run_floor ostate_empty hist (-1) <= v -> c <= v ->
    load_checkpoint st' v = Some T.
  Proof.
    intros R Tr P FP. apply (prune_keeps_checkpoints_race hist s tr _ n c st' v T R Tr P FP).
    apply fp_bound; [apply (i_sorted (run_inv0 _ _ _ R Tr))|exact FP].
  Qed.

  (** the half of the soundness of orphan rows that the pruner relies on: an orphan row [((ver,seq), at)] names no node
      of a checkpoint tree of version >= [at]; [at] is a checkpoint and [ver] is below it.
      (The other half is [checkpoint_orphans_sound] in V2OrphansFacts2.v.) *)
  Theorem checkpoint_orphans_sound_partial hist s tr x a :
    os_run H false false interval ostate_empty hist = Some s ->
    os_trace H false false interval ostate_empty hist = Some tr ->
    In (x, a) (borphans (os_store s)) ->
    In a (ckpts (os_store s)) /\ fst x <= ck_of s /\ ~ In x (okeys (os_root s)) /\
    forall v T, In (v, T) tr -> a <= v -> ~ In x (okeys T).
  Proof.
    intros R Tr J. destruct (i_orph (run_inv0 _ _ _ R Tr) x a J) as ((A & B & C & D) & _). auto.
  Qed.
End Runs.

(** * 10. sha256 never returns the empty string (the hypothesis of section Runs) *)
Lemma sha256_nonnil x : Sha256.sha256 x <> [].
Proof. intros E. pose proof (Ics23Facts.sha256_length x) as L. rewrite E in L. discriminate. Qed.

(** * 11. Refutations of the seeded variants, and examples (vm_compute, sha256).  A seeded variant
      is one of the trial changes to the Go code kept as patches under /verif/seeded/, cited by
      directory name (C20, C20c, ...). *)
Definition xK (n : N) : bytes := [n].
Definition xleaf (n : N) (sq : Z) : node := Leaf (xK n) (xK (n + 10)) (Meta 1 sq [7%N]).

(** the tree of four keys written in version 1 and checkpointed there (hashes abbreviated) *)
Definition x_tree : node :=
  Inner (xK 3) 2 4 (Meta 1 2 [7%N])
        (Inner (xK 2) 1 2 (Meta 1 1 [7%N]) (xleaf 1 1) (xleaf 2 2))
        (Inner (xK 4) 1 2 (Meta 1 3 [7%N]) (xleaf 3 3) (xleaf 4 4)).

(** REFUTED (seeded defect: addOrphan before the [!removed] check): removing the absent key 9
    in working version 2 leaves the tree as it is and records two live branches as orphans;
    the code as it is records nothing. *)
Theorem v2_remove_o_early_refuted :
  exists wv ckpt bs t k res os bs',
    v2_remove_o_early wv ckpt bs t k = Some (res, os, bs') /\
    rm_val res = None /\ rm_self res = Some t /\ os = [(1, 3); (1, 2)] /\
    (forall x, In x os -> In x (ikeys t)) /\
    v2_remove_o wv ckpt bs t k = Some (res, [], bs').
Proof.
  exists 2, 1, 0, x_tree, (xK 9), (RmRes (Some x_tree) None None), [(1, 3); (1, 2)], 0.
  split; [vm_compute; reflexivity|]. split; [reflexivity|]. split; [reflexivity|]. split; [reflexivity|].
  split; [|vm_compute; reflexivity].
  intros x [<-|[<-|[]]]; vm_compute; tauto.
Qed.

(** the model of V2Orphans.v depends on the hash function through its values only
    (see HashTable.v; for V2.v see V2Facts.v) *)
Section HashExt.
  Variables H H' : bytes -> bytes.
  Hypothesis HE : forall b, H b = H' b.

  Lemma os_step_hext early prev i s e : os_step H early prev i s e = os_step H' early prev i s e.
  Proof.
    destruct e; [|reflexivity]. cbn [os_step]. destruct (os_apply_all _ _ _); [|reflexivity].
    unfold os_save. destruct (os_root _); rewrite ?(v2_deep_hash_hext H H' HE); reflexivity.
  Qed.

  Lemma os_run_hext early prev i hist : forall s,
    os_run H early prev i s hist = os_run H' early prev i s hist.
  Proof.
    induction hist as [|e rest IH]; intros s; cbn [os_run]; [reflexivity|].
    rewrite os_step_hext. destruct (os_step H' _ _ _ _ _); [apply IH|reflexivity].
  Qed.

  Lemma os_trace_hext early prev i hist : forall s,
    os_trace H early prev i s hist = os_trace H' early prev i s hist.
  Proof.
    induction hist as [|e rest IH]; intros s; cbn [os_trace]; [reflexivity|].
    rewrite os_step_hext. destruct (os_step H' _ _ _ _ _); [rewrite IH|]; reflexivity.
  Qed.

  Lemma run_floor_hext i hist : forall s lo, run_floor H i s hist lo = run_floor H' i s hist lo.
  Proof.
    induction hist as [|e rest IH]; intros s lo; cbn [run_floor]; [reflexivity|].
    rewrite os_step_hext. destruct (os_step H' _ _ _ _ _); [apply IH|reflexivity].
  Qed.
End HashExt.

(** what a history leaves: the prune result on the final store, loads before / after *)
Definition x_outcome (early prev : bool) (hist : list hstep) (n : Z)
  : option (list Z * fpres * bool * bool * bool) :=
  match os_run sha256 early prev 2 ostate_empty hist, os_trace sha256 early prev 2 ostate_empty hist with
  | Some s, Some tr =>
      match find_previous (ckpts (os_store s)) n, prune_tree (os_store s) n with
      | FPVal c, Some st' =>
          Some (ckpts (os_store s), FPVal c,
                retained_load_ok (os_store s) c tr,      (* retained checkpoints load before the prune *)
                retained_load_ok st' c tr,               (* ... and after it *)
                orphans_sound_check (os_store s) tr)     (* no orphan row names a node of a tree >= its [at] *)
      | _, _ => None
      end
  | _, _ => None
  end.

(** history for the recursiveRemove defect: version 1 writes four keys (checkpoint 1), version 2
    removes an absent key, version 3 is empty (checkpoint 3); then DeleteVersionsTo(3). *)
Definition x_hist_early : list hstep :=
  [ HVersion [LSet (xK 1) (xK 11); LSet (xK 2) (xK 12); LSet (xK 3) (xK 13); LSet (xK 4) (xK 14)];
    HVersion [LDel (xK 9)];
    HVersion [] ].

(** history for the execBranchOrphan defect (/verif/seeded/C20): three checkpoints 1, 3, 5, writes in
    versions 4 and 5 replace branches of checkpoint 3; DeleteVersionsTo(4) prunes inside the
    older interval (c = 3). *)
Definition x_hist_prev : list hstep :=
  [ HVersion [LSet (xK 1) (xK 11); LSet (xK 2) (xK 12); LSet (xK 3) (xK 13); LSet (xK 4) (xK 14)];
    HVersion [LSet (xK 5) (xK 15)];
    HVersion [LSet (xK 6) (xK 16)];
    HVersion [LSet (xK 4) (xK 24)];
    HVersion [LSet (xK 7) (xK 17)] ].

(** EXAMPLE: 9 versions over 10 keys, interval 2 (checkpoints 1,3,5,7,9), removals of present
    and absent keys, two prunes inside the history *)
Definition x_hist : list hstep :=
  [ HVersion [LSet (xK 1) (xK 11); LSet (xK 2) (xK 12); LSet (xK 3) (xK 13); LSet (xK 4) (xK 14); LSet (xK 5) (xK 15)];
    HVersion [LSet (xK 6) (xK 16); LDel (xK 2); LDel (xK 20)];
    HVersion [LSet (xK 7) (xK 17); LSet (xK 1) (xK 21); LDel (xK 0)];
    HVersion [LSet (xK 8) (xK 18); LDel (xK 3)];
    HPrune 2;
    HVersion [LSet (xK 9) (xK 19); LSet (xK 10) (xK 20); LDel (xK 30)];
    HVersion [LDel (xK 5); LSet (xK 2) (xK 22)];
    HVersion [LDel (xK 6); LDel (xK 99)];
    HPrune 6;
    HVersion [LSet (xK 3) (xK 23); LDel (xK 7)];
    HVersion [LSet (xK 6) (xK 26)] ].

(** the hashes a run keeps are those of the nodes of its checkpoint trees (what is hashed in
    between and replaced before the next checkpoint is stored nowhere): these are their strings *)
Definition run_strings (interval : Z) (hist : list hstep) : list bytes :=
  match os_trace sha256 false false interval ostate_empty hist with
  | Some tr => flat_map (fun p => match snd p with Some t => hashed_strings sha256 t | None => [] end) tr
  | None => []
  end.

(** SHA-256 on the strings of [x_hist_prev] (its first version hashes all that [x_hist_early]
    does) and of [x_hist]: each is hashed once, in [x_table_ok], and the runs below look the
    hashes up (HashTable.v) *)
Definition x_table := Eval vm_compute in
  table_of sha256 (run_strings 2 x_hist_prev ++ run_strings 2 x_hist).
Lemma x_table_ok b : sha256 b = memo sha256 x_table b.
Proof. revert b. apply memo_sound. vm_compute. reflexivity. Qed.

(** REFUTED at history level: with the defect checkpoint 3 (= c, retained) no longer loads
    after DeleteVersionsTo(3); the code as it is keeps it. *)
Theorem remove_early_history_refuted :
  x_outcome true false x_hist_early 3 = Some ([1; 3], FPVal 3, true, false, false) /\
  x_outcome false false x_hist_early 3 = Some ([1; 3], FPVal 3, true, true, true).
Proof.
  split; unfold x_outcome; rewrite (os_run_hext _ _ x_table_ok), (os_trace_hext _ _ x_table_ok);
    vm_compute; reflexivity.
Qed.

(** REFUTED: orphans tagged with the previous checkpoint: checkpoint 3 no longer loads *)
Theorem checkpoint_write_prev_refuted :
  x_outcome false true x_hist_prev 4 = Some ([1; 3; 5], FPVal 3, true, false, false) /\
  x_outcome false false x_hist_prev 4 = Some ([1; 3; 5], FPVal 3, true, true, true).
Proof.
  split; unfold x_outcome; rewrite (os_run_hext _ _ x_table_ok), (os_trace_hext _ _ x_table_ok);
    vm_compute; reflexivity.
Qed.

(** REFUTED for the code as it is (the race): DeleteVersionsTo(100) is called at version 4
    (checkpoints [1;3], so c = 3), checkpoint 5 is written, then the writer runs the prune with
    [at <= 100] on the rows it now sees: checkpoint 3 keeps its root row (3 >= c) but the
    branches orphaned at 5 are gone - it does not load; only checkpoint 5 does.  The hypothesis
    of [prune_keeps_checkpoints_race] (no checkpoint of the store in (c, n]) fails: 3 < 5 <= 100. *)
Theorem prune_race_refuted :
  match os_run sha256 false false 2 ostate_empty (firstn 4 x_hist_prev),
        os_run sha256 false false 2 ostate_empty x_hist_prev,
        os_trace sha256 false false 2 ostate_empty x_hist_prev with
  | Some s4, Some s5, Some tr =>
      match prune_tree_with (ckpts (os_store s4)) (os_store s5) 100 with
      | Some st' =>
          Some (ckpts (os_store s4), find_previous (ckpts (os_store s4)) 100, ckpts st',
                map (fun r => fst (fst r)) (roots st'),
                retained_load_ok (os_store s5) 3 tr, retained_load_ok st' 3 tr, retained_load_ok st' 5 tr)
      | None => None
      end
  | _, _, _ => None
  end = Some ([1; 3], FPVal 3, [1; 3; 5], [3; 4; 5], true, false, true).
Proof.
  rewrite !(os_run_hext _ _ x_table_ok), (os_trace_hext _ _ x_table_ok). vm_compute. reflexivity.
Qed.

Definition x_hist_st : ostate := Eval vm_compute in
  match os_run sha256 false false 2 ostate_empty x_hist with Some s => s | None => ostate_empty end.
Definition x_hist_tr : list (Z * option node) := Eval vm_compute in
  match os_trace sha256 false false 2 ostate_empty x_hist with Some tr => tr | None => [] end.

Lemma x_hist_run :
  os_run sha256 false false 2 ostate_empty x_hist = Some x_hist_st /\
  os_trace sha256 false false 2 ostate_empty x_hist = Some x_hist_tr.
Proof.
  rewrite (os_run_hext _ _ x_table_ok), (os_trace_hext _ _ x_table_ok). split; vm_compute; reflexivity.
Qed.

Lemma x_hist_floor : run_floor sha256 2 ostate_empty x_hist (-1) = 5.
Proof. rewrite (run_floor_hext _ _ x_table_ok). vm_compute. reflexivity. Qed.

Example x_hist_example :
  match os_run sha256 false false 2 ostate_empty x_hist, os_trace sha256 false false 2 ostate_empty x_hist with
  | Some s, Some tr =>
      Some (ckpts (os_store s), map fst tr, run_floor sha256 2 ostate_empty x_hist (-1),
            map (fun r => fst (fst r)) (roots (os_store s)),
            map (fun p => match load_checkpoint (os_store s) (fst p) with
                          | Some r => onode_eqb r (snd p) | None => false end) tr,
            orphans_sound_check (os_store s) tr,
            rows_reached_check (os_store s) 5 tr,
            length (branches (os_store s)), length (borphans (os_store s)))
  | _, _ => None
  end = Some ([1; 3; 5; 7; 9], [1; 3; 5; 7; 9], 5, [5; 6; 7; 8; 9],
              [false; false; true; true; true], true, true, 16%nat, 9%nat).
Proof. destruct x_hist_run as (-> & ->). rewrite x_hist_floor. vm_compute. reflexivity. Qed.

(** the main theorem instantiated on the example: a third prune, to 8 (c = 7) *)
Example x_hist_prune_example :
  forall s tr st' v T,
    os_run sha256 false false 2 ostate_empty x_hist = Some s ->
    os_trace sha256 false false 2 ostate_empty x_hist = Some tr ->
    prune_tree (os_store s) 8 = Some st' ->
    In (v, T) tr -> 7 <= v -> load_checkpoint st' v = Some T.
Proof.
  intros s tr st' v T R Tr P J L.
  assert (find_previous (ckpts (os_store s)) 8 = FPVal 7) as FP.
  { rewrite (proj1 x_hist_run) in R. injection R as <-. reflexivity. }
  apply (prune_keeps_checkpoints sha256 sha256_nonnil 2 x_hist s tr 8 7 st' v T R Tr P FP J); [|assumption].
  rewrite x_hist_floor. lia.
Qed.

Print Assumptions v2_set_o_erase.
Print Assumptions remove_gen_erase.
Print Assumptions remove_absent_no_orphans.
Print Assumptions orphans_exact_set.
Print Assumptions orphans_exact_remove.
Print Assumptions orphans_exact.
Print Assumptions load_checkpoint_ok.
Print Assumptions checkpoints_load.
Print Assumptions prune_keeps_checkpoints.
Print Assumptions prune_keeps_checkpoints_race.
Print Assumptions checkpoint_orphans_sound_partial.
Print Assumptions sha256_nonnil.
Print Assumptions v2_remove_o_early_refuted.
Print Assumptions remove_early_history_refuted.
Print Assumptions checkpoint_write_prev_refuted.
Print Assumptions prune_race_refuted.
Print Assumptions x_hist_prune_example.
