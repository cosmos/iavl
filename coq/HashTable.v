(** The models take the hash function as a parameter and use it through its values only, so a
    concrete history can be evaluated with the hash function replaced by a table of the values
    it takes on the strings that history hashes: the table is checked against the hash function
    once, entry by entry, and the model then looks hashes up instead of recomputing them at
    every use.  This file has the table ([memo]) and the independence of the tree-level hashing
    functions from anything but the values of [H]; each model adds its own [_hext] lemmas. *)
From Coq Require Import List ZArith Lia.
From IAVL Require Import Bytes Varint Tree VMap VMapFacts.
Import ListNotations.
Local Open Scope Z_scope.

Definition memo (H : bytes -> bytes) (tab : kvs) (b : bytes) : bytes :=
  match assoc b tab with Some h => h | None => H b end.

Definition table_ok (H : bytes -> bytes) (tab : kvs) : bool :=
  forallb (fun p => beq (H (fst p)) (snd p)) tab.

Lemma memo_sound H tab : table_ok H tab = true -> forall b, H b = memo H tab b.
Proof.
  intros T b. unfold memo. destruct (assoc b tab) as [h|] eqn:A; [|reflexivity].
  apply assoc_some_in in A. unfold table_ok in T. rewrite forallb_forall in T.
  specialize (T _ A). cbn [fst snd] in T. apply beq_true in T. exact T.
Qed.

Definition table_of (H : bytes -> bytes) (bs : list bytes) : kvs :=
  map (fun b => (b, H b)) (nodup (list_eq_dec N.eq_dec) bs).

Section HashExt.
  Variables H H' : bytes -> bytes.
  Hypothesis HE : forall b, H b = H' b.

  Lemma leaf_preimage_hext v k x : leaf_preimage H v k x = leaf_preimage H' v k x.
  Proof. unfold leaf_preimage. rewrite HE. reflexivity. Qed.

  Lemma pure_hash_hext wv t : pure_hash H wv t = pure_hash H' wv t.
  Proof.
    induction t as [k v m|k h s m l IHl r IHr]; cbn [pure_hash].
    - rewrite leaf_preimage_hext. apply HE.
    - rewrite IHl, IHr. apply HE.
  Qed.

  Lemma node_hash_hext wv t : node_hash H wv t = node_hash H' wv t.
  Proof.
    induction t as [k v m|k h s m l IHl r IHr]; cbn [node_hash]; destruct (negb _); try reflexivity.
    - rewrite leaf_preimage_hext. apply HE.
    - rewrite IHl, IHr. apply HE.
  Qed.

  Lemma root_hash_hext wv t : root_hash H wv t = root_hash H' wv t.
  Proof. destruct t; cbn [root_hash]; [apply node_hash_hext|apply HE]. Qed.

  Lemma stamp_hext wv t : forall n, stamp H wv n t = stamp H' wv n t.
  Proof.
    induction t as [k v m|k h s m l IHl r IHr]; intros n; cbn [stamp]; destruct (negb _);
      try reflexivity.
    - rewrite leaf_preimage_hext, HE. reflexivity.
    - rewrite IHl. destruct (stamp H' wv (n + 1) l) as [l' n1]. rewrite IHr.
      destruct (stamp H' wv n1 r) as [r' n2]. rewrite HE. reflexivity.
  Qed.
End HashExt.

(** the strings that were hashed when [t] was saved, read off a tree whose nodes carry their
    hashes ([stamp], V2.v's [v2_deep_hash]): the table of a history is that of its trees *)
Fixpoint hashed_strings (H : bytes -> bytes) (t : node) : list bytes :=
  match t with
  | Leaf k v m => [v; leaf_preimage H (ver m) k v]
  | Inner _ h s m l r =>
      inner_preimage h s (ver m) (hs (nmeta l)) (hs (nmeta r)) :: hashed_strings H l ++ hashed_strings H r
  end.

(** For a goal that is a [match] on a closed term: evaluate what it inspects, once, and take the
    branch (a rewrite cannot reach a term that mentions a variable bound by the [match]). *)
Ltac eval_match :=
  lazymatch goal with
  | |- match ?x with _ => _ end =>
      let v := eval vm_compute in x in
      replace x with v by (vm_compute; reflexivity); cbv iota beta
  | |- match ?x with _ => _ end = _ =>
      let v := eval vm_compute in x in
      replace x with v by (vm_compute; reflexivity); cbv iota beta
  end.
