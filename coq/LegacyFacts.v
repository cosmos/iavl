(** Proofs about the legacy-format model (Legacy.v): property C16. *)
From IAVL Require Import Bytes Varint Sha256 Tree VMap TreeFacts MTree MTreeFacts HashFacts
  VarintFacts Codec CodecFacts V2 V2Facts Legacy.
Local Open Scope Z_scope.

Lemma bytes_eqb_refl a : bytes_eqb a a = true.
Proof. unfold bytes_eqb. destruct (list_eq_dec N.eq_dec a a); congruence. Qed.
Lemma bytes_eqb_true a b : bytes_eqb a b = true -> a = b.
Proof. unfold bytes_eqb. destruct (list_eq_dec N.eq_dec a b); congruence. Qed.

Lemma lfind_In {A} k (a : A) st : NoDup (map fst st) -> In (k, a) st -> lfind k st = Some a.
Proof.
  induction st as [|[k' a'] st IH]; intros ND I; [destruct I|]. cbn [map fst] in ND.
  inversion ND as [|? ? NI ND']; subst. cbn [lfind]. destruct I as [E|I].
  - injection E as -> ->. rewrite bytes_eqb_refl. reflexivity.
  - destruct (bytes_eqb k k') eqn:B; [|auto]. apply bytes_eqb_true in B. subst k'.
    exfalso. apply NI. apply in_map_iff. exists (k, a). auto.
Qed.

Lemma lfind_map {A B} (f : A -> B) k st :
  lfind k (map (fun p => (fst p, f (snd p))) st) = option_map f (lfind k st).
Proof.
  induction st as [|[k' a'] st IH]; [reflexivity|]. cbn [map lfind fst snd].
  destruct (bytes_eqb k k'); [reflexivity|exact IH].
Qed.

Section LegacyProofs.
  Variable H : bytes -> bytes.

  (** the tree as the legacy read path shows it: node keys (version, 0), the hash it was
      fetched by in every node *)
  Fixpoint legacy_view (t : node) : node :=
    match t with
    | Leaf k v m => Leaf k v (Meta (ver m) 0 (pure_hash H 0 t))
    | Inner k h s m l r =>
        Inner k h s (Meta (ver m) 0 (pure_hash H 0 t)) (legacy_view l) (legacy_view r)
    end.

  Lemma legacy_view_veq wv t : veq wv (legacy_view t) t.
  Proof. induction t; cbn [legacy_view veq]; unfold eff_ver; cbn [ver]; auto 8. Qed.

  Lemma legacy_view_hash H' wv t : pure_hash H' wv (legacy_view t) = pure_hash H' wv t.
  Proof. apply pure_hash_ext, veq_shape_eq, legacy_view_veq. Qed.

  Lemma legacy_view_persisted t : all_persisted t -> all_persisted (legacy_view t).
  Proof. induction t; cbn [legacy_view all_persisted ver]; tauto. Qed.

  Lemma legacy_view_hash_ok t : all_persisted t -> hash_ok H (legacy_view t).
  Proof.
    induction t as [k v m|k h s m l IHl r IHr]; cbn [all_persisted]; intros P.
    - apply hash_ok_intro_leaf. intros _. cbn [hs]. symmetry.
      apply (legacy_view_hash H 0 (Leaf k v m)).
    - destruct P as (Pm & Pl & Pr). cbn [legacy_view]. apply hash_ok_intro_inner; auto.
      intros _. split.
      + cbn [hs]. symmetry. apply (legacy_view_hash H 0 (Inner k h s m l r)).
      + cbn [all_persisted ver]. auto using legacy_view_persisted.
  Qed.

  Fixpoint legacy_ok (t : node) : Prop :=
    wf_legacy (legacy_raw H t) /\
    match t with
    | Leaf _ _ _ => True
    | Inner _ _ _ _ l r => legacy_ok l /\ legacy_ok r
    end.

  Fixpoint ldepth (t : node) : nat :=
    match t with Leaf _ _ _ => 1%nat | Inner _ _ _ _ l r => S (Nat.max (ldepth l) (ldepth r)) end.

  Lemma ldepth_nodes t : (ldepth t <= length (legacy_nodes H t))%nat.
  Proof.
    induction t as [|k h s m l IHl r IHr]; cbn [ldepth legacy_nodes length]; [lia|].
    rewrite app_length. lia.
  Qed.

  Lemma legacy_nodes_subtree u t : subtree u t -> In (pure_hash H 0 u, legacy_raw H u) (legacy_nodes H t).
  Proof.
    induction 1 as [t|u k h s m l r _ IH|u k h s m l r _ IH].
    - destruct t; cbn [legacy_nodes]; left; reflexivity.
    - cbn [legacy_nodes]. right. apply in_or_app. auto.
    - cbn [legacy_nodes]. right. apply in_or_app. auto.
  Qed.

  Lemma legacy_load_spec t : forall fuel st,
    (ldepth t <= fuel)%nat -> legacy_ok t ->
    (forall u, subtree u t ->
               lfind (pure_hash H 0 u) st = Some (encode_legacy_node (legacy_raw H u))) ->
    legacy_load fuel st (pure_hash H 0 t) = Some (legacy_view t).
  Proof.
    induction t as [k v m|k h s m l IHl r IHr]; intros fuel st F Ok Fd;
      (destruct fuel as [|f]; [cbn [ldepth] in F; lia|]);
      cbn [legacy_load]; rewrite (Fd _ (sub_refl _)); destruct Ok as [W Ok];
      rewrite <- (app_nil_r (encode_legacy_node _)), (decode_legacy_node_roundtrip _ _ [] W).
    - reflexivity.
    - destruct Ok as [Okl Okr].
      cbn [legacy_raw ln_height ln_value ln_left ln_right ln_key ln_size ln_version].
      assert (Hh : (h =? 0) = false).
      { destruct (h =? 0) eqn:E; [|reflexivity]. exfalso.
        unfold wf_legacy in W. cbn [legacy_raw ln_height ln_value] in W. rewrite E in W.
        destruct W as (_ & _ & _ & _ & ((x & Ex & _) & _)). discriminate Ex. }
      rewrite Hh. cbn [ldepth] in F.
      rewrite (IHl f st ltac:(lia) Okl), (IHr f st ltac:(lia) Okr).
      + reflexivity.
      + intros u S. apply Fd, sub_right, S.
      + intros u S. apply Fd, sub_left, S.
  Qed.

  Definition stored (st : lstore) (t : node) : Prop :=
    forall u, subtree u t -> lfind (pure_hash H 0 u) st = Some (legacy_raw H u).

  Lemma stored_left st k h s m l r : stored st (Inner k h s m l r) -> stored st l.
  Proof. intros F u S. apply F, sub_left, S. Qed.
  Lemma stored_right st k h s m l r : stored st (Inner k h s m l r) -> stored st r.
  Proof. intros F u S. apply F, sub_right, S. Qed.

  Lemma stored_bytes st t u :
    stored st t -> subtree u t ->
    lfind (pure_hash H 0 u) (lstore_bytes st) = Some (encode_legacy_node (legacy_raw H u)).
  Proof. intros F S. unfold lstore_bytes. rewrite lfind_map, (F u S). reflexivity. Qed.

  Lemma stored_incl st t : NoDup (map fst st) -> incl (legacy_nodes H t) st -> stored st t.
  Proof. intros ND In u S. apply (lfind_In _ _ _ ND), In, legacy_nodes_subtree, S. Qed.

  Lemma legacy_load_stored t st fuel :
    (ldepth t <= fuel)%nat -> legacy_ok t -> stored st t ->
    legacy_load fuel (lstore_bytes st) (pure_hash H 0 t) = Some (legacy_view t).
  Proof. intros F Ok St. apply legacy_load_spec; [exact F|exact Ok|]. intros u. apply stored_bytes, St. Qed.

  Theorem legacy_roundtrip_store t (st : lstore) :
    legacy_ok t -> NoDup (map fst st) -> incl (legacy_nodes H t) st -> (ldepth t <= length st)%nat ->
    legacy_load (S (length st)) (lstore_bytes st) (pure_hash H 0 t) = Some (legacy_view t).
  Proof. intros Ok ND In Dp. apply legacy_load_stored; [lia|exact Ok|apply stored_incl; assumption]. Qed.

  Theorem legacy_roundtrip t :
    legacy_ok t -> NoDup (map fst (legacy_nodes H t)) ->
    let st := fst (legacy_encode_tree H t) in
    legacy_load (S (length st)) (lstore_bytes st) (snd (legacy_encode_tree H t)) =
      Some (legacy_view t) /\
    veq 0 (legacy_view t) t /\ shape_eq 0 (legacy_view t) t /\
    hs (nmeta (legacy_view t)) = snd (legacy_encode_tree H t).
  Proof.
    intros Ok ND st. split; [|split; [apply legacy_view_veq|split]].
    - apply (legacy_roundtrip_store t (legacy_nodes H t) Ok ND (incl_refl _) (ldepth_nodes t)).
    - apply veq_shape_eq, legacy_view_veq.
    - destruct t; reflexivity.
  Qed.

  Theorem same_hash_rule t :
    (forall H' wv, pure_hash H' wv (legacy_view t) = pure_hash H' wv t) /\
    elems (legacy_view t) = elems t /\ height (legacy_view t) = height t /\
    size (legacy_view t) = size t /\
    (all_persisted t -> hash_ok H (legacy_view t) /\ all_persisted (legacy_view t) /\
                        forall wv, node_hash H wv (legacy_view t) = pure_hash H 0 t).
  Proof.
    split; [intros; apply legacy_view_hash|].
    pose proof (legacy_view_veq 0 t) as V.
    split; [apply (veq_elems _ _ _ V)|]. split; [apply (veq_height _ _ _ V)|].
    split; [apply (veq_size _ _ _ V)|].
    intros P. pose proof (legacy_view_hash_ok t P) as Ok. pose proof (legacy_view_persisted t P) as P'.
    split; [exact Ok|]. split; [exact P'|]. intros wv.
    rewrite (node_hash_saved H _ wv Ok P'). apply legacy_view_hash.
  Qed.

  (** versions committed on top of a loaded legacy tree are the canonical ones *)
  Theorem legacy_then_write wv t' t :
    veq wv t' t ->
    (forall k v, veq wv (fst (set t' k v)) (fst (set t k v)) /\ snd (set t' k v) = snd (set t k v)) /\
    (forall k, rm_rel wv (remove t' k) (remove t k)).
  Proof. intros V. split; intros; [apply set_veq|apply remove_veq]; exact V. Qed.

  Theorem legacy_then_commit wv n n' t' t :
    wv <> 0 -> veq wv t' t ->
    veq wv (fst (stamp H wv n' t')) (fst (stamp H wv n t)) /\
    (hash_ok H t' -> hash_ok H t -> 0 < wv ->
       hs (nmeta (fst (stamp H wv n' t'))) = hs (nmeta (fst (stamp H wv n t)))).
  Proof.
    intros Hwv V. split.
    - eapply veq_trans; [apply veq_sym, stamp_veq, Hwv|].
      eapply veq_trans; [exact V|apply stamp_veq, Hwv].
    - intros O' O Pos.
      destruct (stamp_hash_ok H wv n' t' O' Pos) as (_ & _ & -> & _).
      destruct (stamp_hash_ok H wv n t O Pos) as (_ & _ & -> & _).
      apply pure_hash_ext, veq_shape_eq, V.
  Qed.
End LegacyProofs.

Theorem fetch_any_legacy newst legst nk :
  length nk = 32%nat ->
  fetch_any newst legst nk =
    match lfind nk legst with Some b => FFound true b | None => FMissing end.
Proof. intros L. unfold fetch_any. rewrite L. reflexivity. Qed.

Theorem fetch_any_new newst legst nk b :
  length nk <> 32%nat -> lfind nk newst = Some b -> fetch_any newst legst nk = FFound false b.
Proof.
  intros L F. unfold fetch_any. apply Nat.eqb_neq in L. rewrite L, F. reflexivity.
Qed.

(** ** History rewritten by a node-key collision.
    One legacy version (all its nodes carry version 1): the root and its right leaf are
    different nodes with different hashes, but both are re-saved under the node key (1, 0).
    Re-saving the root (a commit without writes on the legacy version), then the leaf (after a
    removal collapsed the tree to it and nothing else changed) overwrites the entry an older
    version refers to: that version now reads a leaf where it had a two-leaf tree. *)
Definition c16_leaf_a : node := Leaf [97%N] [49%N] (Meta 1 0 []).
Definition c16_leaf_b : node := Leaf [98%N] [50%N] (Meta 1 0 []).
Definition c16_root : node := Inner [98%N] 1 2 (Meta 1 0 []) c16_leaf_a c16_leaf_b.

Theorem legacy_key_collision_refuted :
  exists (t : node) (h1 h2 : bytes) (n1 n2 : raw_legacy_node),
    In (h1, n1) (legacy_nodes sha256 t) /\ In (h2, n2) (legacy_nodes sha256 t) /\
    h1 <> h2 /\ n1 <> n2 /\ ln_version n1 = ln_version n2 /\
    resave_key n1 = resave_key n2 /\
    (* the second re-save replaces what the first one wrote under the shared key *)
    let key := fst (resave_entry h1 n1) in
    let st1 := lput (resave_entry h1 n1) [] in
    let st2 := lput (resave_entry h2 n2) st1 in
    option_map (fun b => dmap rn_height (decode_node key b)) (lfind key st1) = Some (DOk 1) /\
    option_map (fun b => dmap rn_height (decode_node key b)) (lfind key st2) = Some (DOk 0).
Proof.
  exists c16_root, (pure_hash sha256 0 c16_root), (pure_hash sha256 0 c16_leaf_b),
         (legacy_raw sha256 c16_root), (legacy_raw sha256 c16_leaf_b).
  split; [left; reflexivity|]. split; [right; right; left; reflexivity|].
  split; [vm_compute; discriminate|]. split; [vm_compute; discriminate|].
  split; [reflexivity|]. split; [reflexivity|]. split; vm_compute; reflexivity.
Qed.

(** ** Boolean checkers for the hypotheses of [legacy_roundtrip] (used by the examples) *)
Definition in_int8b (z : Z) : bool := (-128 <=? z) && (z <=? 127).
Definition in_int64b (z : Z) : bool := (- 2 ^ 63 <=? z) && (z <? 2 ^ 63).
Definition shortb (b : bytes) : bool := (N.of_nat (length b) <? 2 ^ 63 - 1)%N.

Definition wf_legacyb (n : raw_legacy_node) : bool :=
  in_int8b (ln_height n) && in_int64b (ln_size n) && in_int64b (ln_version n) && shortb (ln_key n) &&
  if ln_height n =? 0 then
    match ln_value n, ln_left n, ln_right n with Some v, [], [] => shortb v | _, _, _ => false end
  else
    match ln_value n with None => true | Some _ => false end &&
    (length (ln_left n) =? 32)%nat && (length (ln_right n) =? 32)%nat.

Lemma wf_legacyb_sound n : wf_legacyb n = true -> wf_legacy n.
Proof.
  unfold wf_legacyb, wf_legacy, in_int8b, in_int64b, shortb, in_int8, in_int64, short.
  rewrite !andb_true_iff. intros ((((A & B) & C) & D) & E).
  repeat split; try lia.
  destruct (ln_height n =? 0).
  - destruct (ln_value n) as [v|], (ln_left n), (ln_right n); try discriminate.
    split; [|auto]. exists v. split; [reflexivity|]. unfold short. lia.
  - rewrite !andb_true_iff, !Nat.eqb_eq in E. destruct (ln_value n); [destruct E as [[E _] _]; discriminate|].
    tauto.
Qed.

Fixpoint legacy_okb (H : bytes -> bytes) (t : node) : bool :=
  wf_legacyb (legacy_raw H t) &&
  match t with
  | Leaf _ _ _ => true
  | Inner _ _ _ _ l r => legacy_okb H l && legacy_okb H r
  end.

Lemma legacy_okb_sound H t : legacy_okb H t = true -> legacy_ok H t.
Proof.
  induction t as [k v m|k h s m l IHl r IHr]; cbn [legacy_okb legacy_ok];
    rewrite !andb_true_iff; intuition auto using wf_legacyb_sound.
Qed.

Fixpoint nodupb (l : list bytes) : bool :=
  match l with
  | [] => true
  | x :: r => negb (existsb (bytes_eqb x) r) && nodupb r
  end.

Lemma nodupb_sound l : nodupb l = true -> NoDup l.
Proof.
  induction l as [|x l IH]; cbn [nodupb]; intros B; [constructor|].
  apply andb_prop in B. destruct B as [B1 B2]. constructor; [|auto].
  intros I. apply negb_true_iff in B1.
  assert (existsb (bytes_eqb x) l = true); [|congruence].
  apply existsb_exists. exists x. split; [exact I|apply bytes_eqb_refl].
Qed.
