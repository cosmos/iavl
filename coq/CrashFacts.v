(** Proofs about crash images and recovery (Crash.v): property C05.

    - Segmentations and prefixes are the same thing ([chunk_image_prefix],
      [prefix_is_chunk_image]); an operation written as one chunk has only the images old / new
      ([single_batch_atomic]).
    - [recover] reads only the node store and the label ([recover_flag]).
    - Commit ([commit_prefix_classification]): a cut before the first node write leaves the old
      node store (the fast index / label may be ahead); a cut after the last write gives the new
      store; EVERY cut in between is unrecoverable (the new nodes make their version the latest,
      its root entry is written last).  [commit_split_refuted]: such a cut exists for every commit
      with at least two new nodes.  [indexahead_refuted]: a cut inside the fast-index writes
      leaves an index that is ahead of the tree and is NOT flagged for rebuild.
    - Rollback ([rollback_prefix_classification]): cut at 0 = old, cut after the last delete =
      new, every cut in between is a store that is neither; the latest version found is still the
      old latest one, and reopening fails as soon as its root key is among the deleted keys --
      always, when a single version is rolled back ([rollback_one_version_split]); otherwise
      reopening can succeed on a mixture ([rollback_split_refuted]).
    - Deleting old versions at specification level: every cut leaves all retained entries in
      place ([StoreFacts.drop_prefix_safe]). *)
From Coq Require Import Lia ZifyBool Sorted.
From IAVL Require Import Bytes Varint Sha256 Tree VMap TreeFacts MTree MTreeFacts HashFacts VersionFacts
  Store StoreFacts Crash.
Local Open Scope Z_scope.

(** ** Segmentations *)
Lemma chunk_prefix {A} (chunks : list (list A)) i :
  exists j, concat (firstn i chunks) = firstn j (concat chunks).
Proof.
  exists (length (concat (firstn i chunks))).
  rewrite <- (firstn_skipn i chunks) at 3. rewrite concat_app, firstn_length_app. reflexivity.
Qed.

Theorem chunk_image_prefix d chunks i :
  exists j, chunk_image d chunks i = image d (concat chunks) j.
Proof. destruct (chunk_prefix chunks i) as [j E]. exists j. unfold chunk_image, image. rewrite E. reflexivity. Qed.

Theorem prefix_is_chunk_image d (ops : list wop) j :
  (0 < j < length ops)%nat ->
  exists chunks, concat chunks = ops /\ Forall (fun c => c <> []) chunks /\
                 chunk_image d chunks 1 = image d ops j.
Proof.
  intros R. exists [firstn j ops; skipn j ops]. split; [|split].
  - cbn [concat]. rewrite app_nil_r. apply firstn_skipn.
  - constructor; [|constructor; [|constructor]].
    + intros E. apply (f_equal (@length wop)) in E. rewrite firstn_length in E. cbn in E. lia.
    + intros E. apply (f_equal (@length wop)) in E. rewrite skipn_length in E. cbn in E. lia.
  - unfold chunk_image, image. cbn [firstn concat]. rewrite app_nil_r. reflexivity.
Qed.

Theorem single_batch_atomic d ops i :
  chunk_image d [ops] i = d \/ chunk_image d [ops] i = apply_ops d ops.
Proof.
  unfold chunk_image. destruct i as [|i]; [left; reflexivity|right].
  cbn [firstn]. destruct i; cbn [firstn concat]; rewrite app_nil_r; reflexivity.
Qed.

(** ** What reopening returns *)

(* the midpoint lies in the interval and halves it; [DiscoverFacts.shiftr1_mid] says the
   same, but that file and what it imports would be loaded here for these alone *)
Lemma search_mid lo hi : lo < hi ->
  lo <= Z.shiftr (hi + lo) 1 < hi /\
  2 * (Z.shiftr (hi + lo) 1 - lo) <= hi - lo /\ 2 * (hi - (Z.shiftr (hi + lo) 1 + 1)) <= hi - lo - 1.
Proof.
  intros L. rewrite Z.shiftr_div_pow2 by lia. change (2 ^ 1) with 2.
  pose proof (Z.div_mod (hi + lo) 2 ltac:(lia)). pose proof (Z.mod_pos_bound (hi + lo) 2 ltac:(lia)). lia.
Qed.

(** the search terminates within the fuel for versions below 2^64 *)
Lemma first_search_ok has fuel : forall lo hi,
  lo <= hi -> hi - lo < 2 ^ Z.of_nat fuel -> exists r, first_search fuel has lo hi = Some r.
Proof.
  induction fuel as [|fuel IH]; intros lo hi R B; cbn [first_search].
  - change (2 ^ Z.of_nat 0) with 1 in B.
    replace (lo <? hi) with false by lia. eauto.
  - destruct (lo <? hi) eqn:C; [|eauto].
    rewrite Nat2Z.inj_succ, Z.pow_succ_r in B by lia.
    pose proof (search_mid lo hi ltac:(lia)).
    destruct (has (Z.shiftr (hi + lo) 1)); apply IH; lia.
Qed.

Lemma first_search_Some has fuel : forall lo hi r,
  lo <= hi -> first_search fuel has lo hi = Some r -> lo <= r <= hi /\ (r = hi \/ has r = true).
Proof.
  induction fuel as [|fuel IH]; intros lo hi r R; cbn [first_search].
  - destruct (lo <? hi); [discriminate|]. intros E. injection E as <-. split; [lia|auto].
  - destruct (lo <? hi) eqn:C; [|intros E; injection E as <-; split; [lia|auto]].
    pose proof (search_mid lo hi ltac:(lia)) as M.
    destruct (has (Z.shiftr (hi + lo) 1)) eqn:Hm; intros E; apply IH in E; try lia.
    destruct E as [Rr [->|Hr]]; split; auto; lia.
Qed.

Theorem recover_flag iv d d' :
  nodes d' = nodes d ->
  recover iv d' = set_rebuild (recover iv d) (needs_rebuild (label d') (store_latest (nodes d))).
Proof.
  intros E. unfold recover. rewrite E. cbv zeta.
  destruct (first_search search_fuel _ 0 (store_latest (nodes d))) as [first|]; [|reflexivity].
  destruct ((0 <? first) && (first <? iv)); [reflexivity|].
  destruct (store_latest (nodes d) <=? 0) eqn:L0.
  - pose proof (store_latest_nonneg (nodes d)).
    replace (store_latest (nodes d)) with 0 by lia. reflexivity.
  - destruct (negb (first <=? store_latest (nodes d))); [reflexivity|].
    destruct (get_root (nodes d) (store_latest (nodes d))) as [| |k]; try reflexivity.
    destruct (get_node (nodes d) k); reflexivity.
Qed.

Corollary recover_same iv d d' :
  nodes d' = nodes d -> label d' = label d -> recover iv d' = recover iv d.
Proof.
  intros E1 E2. unfold recover. rewrite E1, E2. reflexivity.
Qed.

Definition unrecoverable (r : recovered) : Prop :=
  r = RErr ErrFuel \/ r = RErr ErrInitialVersion \/ r = RErr ErrVersionDoesNotExist.

Lemma unrecoverable_is_err r : unrecoverable r -> is_err r = true.
Proof. intros [->|[->| ->]]; reflexivity. Qed.

Lemma recover_root_missing iv d :
  0 < store_latest (nodes d) ->
  mfind kcmp (store_latest (nodes d), 1) (nodes d) = None ->
  unrecoverable (recover iv d).
Proof.
  intros P M. unfold recover, unrecoverable. cbv zeta.
  destruct (first_search search_fuel _ 0 (store_latest (nodes d))) as [first|]; [|auto].
  destruct ((0 <? first) && (first <? iv)); [auto|].
  replace (store_latest (nodes d) <=? 0) with false by lia.
  destruct (negb (first <=? store_latest (nodes d))); [auto|].
  unfold get_root. rewrite M. auto.
Qed.

Lemma recover_no_fuel_error iv d :
  store_latest (nodes d) < 2 ^ 64 -> recover iv d <> RErr ErrFuel.
Proof.
  intros B.
  destruct (first_search_ok (fun v => mhas kcmp (v, 1) (nodes d)) search_fuel 0 (store_latest (nodes d)))
    as (r & E).
  - apply store_latest_nonneg.
  - unfold search_fuel. change (Z.of_nat 64) with 64. lia.
  - unfold recover. cbv zeta. rewrite E. destruct ((0 <? r) && (r <? iv)); [discriminate|].
    destruct (store_latest (nodes d) <=? 0); [discriminate|].
    destruct (negb (r <=? store_latest (nodes d))); [discriminate|].
    destruct (get_root (nodes d) (store_latest (nodes d))) as [| |k]; try discriminate.
    destruct (get_node (nodes d) k); discriminate.
Qed.

Lemma recover_iv_error iv d :
  recover iv d = RErr ErrInitialVersion ->
  exists first,
    first_search search_fuel (fun v => mhas kcmp (v, 1) (nodes d)) 0 (store_latest (nodes d)) = Some first /\
    0 < first < iv.
Proof.
  unfold recover. cbv zeta.
  destruct (first_search search_fuel _ 0 (store_latest (nodes d))) as [first|]; [|discriminate].
  destruct ((0 <? first) && (first <? iv)) eqn:Chk; [intros _; exists first; split; [reflexivity|lia]|].
  destruct (store_latest (nodes d) <=? 0); [discriminate|].
  destruct (negb (first <=? store_latest (nodes d))); [discriminate|].
  destruct (get_root (nodes d) (store_latest (nodes d))) as [| |k]; try discriminate.
  destruct (get_node (nodes d) k); discriminate.
Qed.

(** ** Reopening a consistent store *)
Definition root_key_of (r : option node) : option nodekey :=
  match r with None => None | Some t => Some (node_key t) end.

Lemma expected_get_root f v r :
  forest_inv f -> NoDup (map fst f) -> In (v, r) f ->
  match r with
  | None => get_root (expected_store f) v = RootNil
  | Some t => get_root (expected_store f) v = RootKey (node_key t) /\
              get_node (expected_store f) (node_key t) = Some (snode_of t)
  end.
Proof.
  intros FI ND HI. destruct (expected_has_root f _ r FI ND HI) as (e & Fe & Ce).
  unfold get_root. rewrite Fe. destruct r as [t|]; [|subst e; reflexivity].
  assert (St : sub_of f t) by (exists v, t; split; [exact HI|apply sub_refl]).
  pose proof (expected_has_node f t FI ND St) as Ft.
  destruct (keqb (node_key t) (v, 1)) eqn:K; subst e; unfold get_node, mhas; rewrite Ft; [|auto].
  apply keqb_true in K. rewrite K. auto.
Qed.

Theorem recover_expected iv f ivf d r :
  forest_inv f -> forest_ok f ivf -> NoDup (map fst f) -> In (latest_of f, r) f ->
  nodes d = expected_store f ->
  recover iv d = RErr ErrFuel \/ recover iv d = RErr ErrInitialVersion \/
  exists first, 0 <= first <= latest_of f /\
    recover iv d = ROk (latest_of f) first (root_key_of r) (needs_rebuild (label d) (latest_of f)).
Proof.
  intros FI OK ND HI E.
  assert (NE : f <> []) by (intros C; subst f; contradiction).
  pose proof (store_latest_expected f ivf FI OK ND NE) as SL.
  destruct (forest_ok_range f ivf OK NE) as (R1 & _).
  pose proof (expected_get_root f _ r FI ND HI) as G.
  unfold recover. rewrite E, SL. cbv zeta.
  destruct (first_search search_fuel _ 0 (latest_of f)) as [first|] eqn:FS; [|auto].
  apply first_search_Some in FS; [|lia]. destruct FS as [FS _].
  destruct ((0 <? first) && (first <? iv)); [auto|]. right. right. exists first. split; [exact FS|].
  replace (latest_of f <=? 0) with false by lia.
  replace (first <=? latest_of f) with true by lia. cbn [negb].
  destruct r as [t|]; [destruct G as [-> ->]|rewrite G]; reflexivity.
Qed.

(** With the initial version the store was created with, reopening a consistent store
    succeeds (for versions below 2^64). *)
Theorem recover_expected_ok iv f d r :
  forest_inv f -> forest_ok f iv -> forest_lo iv f -> NoDup (map fst f) ->
  In (latest_of f, r) f -> nodes d = expected_store f -> latest_of f < 2 ^ 64 ->
  exists first, 0 <= first <= latest_of f /\
    recover iv d = ROk (latest_of f) first (root_key_of r) (needs_rebuild (label d) (latest_of f)).
Proof.
  intros FI OK LO ND HI E Bd.
  assert (NE : f <> []) by (intros C; subst f; contradiction).
  pose proof (store_latest_expected f iv FI OK ND NE) as SL.
  destruct (recover_expected iv f iv d r FI OK ND HI E) as [C|[C|C]]; [| |exact C]; exfalso.
  - apply (recover_no_fuel_error iv d); [rewrite E, SL; exact Bd|exact C].
  - (* the initial-version check cannot fail *)
    destruct (recover_iv_error iv d C) as (first & FS & C1 & C2). clear C Bd.
    assert (Lo : iv <= first).
    { destruct (first_search_Some _ _ _ _ _ (store_latest_nonneg _) FS) as [_ [Eh|Hs]].
      - rewrite E, SL in Eh. subst first. apply (forest_ok_version f iv _ r OK HI).
      - cbv beta in Hs. rewrite E in Hs. apply mhas_true in Hs. destruct Hs as [e Fe].
        apply (In_mfind kcmp kcmp_ok), expected_In_reach, reach_In in Fe.
        destruct Fe as [(u & Su & K & _)|(v & r' & HI' & Er)].
        + specialize (LO u Su). unfold node_key in K. inversion K. lia.
        + destruct (root_entry_Some _ _ _ _ Er) as [K _]. inversion K; subst v.
          apply (forest_ok_version f iv _ r' OK HI'). }
    lia.
Qed.

(** ** Commit *)
Section CommitCrash.
  Variable H : bytes -> bytes.

  (** a commit writes one node entry, or its new nodes with the root, under nonce 1, last *)
  Lemma node_writes_shape s :
    length (node_writes H s) = 1%nat \/
    exists W0 last,
      node_writes H s = W0 ++ [last] /\ fst last = (working_version s, 1) /\
      forall p, In p W0 -> fst (fst p) = working_version s /\ 1 < snd (fst p).
  Proof.
    unfold node_writes. cbv zeta. destruct (root s) as [n|]; [|left; reflexivity].
    destruct (is_new n) eqn:En; [right|left; reflexivity].
    destruct (assign_last H (working_version s) 0 n En) as (Kn & W0 & EW & KW). cbv zeta in *.
    rewrite EW, map_app. cbn [map].
    eexists. eexists. split; [reflexivity|]. cbn [fst]. split; [exact Kn|].
    intros p HI. apply in_map_iff in HI. destruct HI as (q & <- & HI). cbn [fst].
    specialize (KW q HI). lia.
  Qed.

  Lemma meta_label fast s d i :
    (i <= length (commit_meta_ops fast s))%nat ->
    label (apply_ops d (firstn i (commit_meta_ops fast s))) =
      if fast && (i =? length (commit_meta_ops fast s))%nat
      then Some (working_version s) else label d.
  Proof.
    unfold commit_meta_ops. destruct fast; cbn [andb].
    2:{ cbn [length]. intros Li. replace i with 0%nat by lia. reflexivity. }
    set (A := map set_fast (fast_adds s) ++ map del_fast (fast_rems s)).
    rewrite app_assoc. fold A. rewrite app_length. cbn [length]. intros Li.
    assert (FA : Forall (fun o => label_op o = false) A).
    { unfold A. apply Forall_app. split; apply Forall_map_const; reflexivity. }
    destruct (i =? length A + 1)%nat eqn:C.
    - apply Nat.eqb_eq in C. rewrite firstn_all2 by (rewrite app_length; cbn [length]; lia).
      rewrite apply_ops_app. reflexivity.
    - apply Nat.eqb_neq in C. rewrite firstn_app_le by lia.
      apply label_other, Forall_firstn, FA.
  Qed.

  (** C05, commit: the exact classification of the cut points *)
  Theorem commit_prefix_classification iv fast s d i :
    store_ok H s -> nodes d = expected_store (forest s) ->
    lookup (working_version s) (forest s) = None ->
    let P := commit_meta_ops fast s in
    let ops := commit_ops H fast s in
    let img := image d ops i in
    (* before the first node write: the old node store; the label is ahead exactly when all
       index writes are done *)
    ((i <= length P)%nat ->
       nodes img = nodes d /\
       label img = (if fast && (i =? length P)%nat then Some (working_version s) else label d) /\
       recover iv img = set_rebuild (recover iv d)
                          (needs_rebuild (label img) (store_latest (nodes d)))) /\
    (* strictly between the first node write and the root write: unrecoverable *)
    ((length P < i < length ops)%nat -> unrecoverable (recover iv img)) /\
    (* everything written: the new store *)
    ((length ops <= i)%nat ->
       img = apply_ops d ops /\
       nodes img = expected_store (forest (fst (do_save H s)))).
  Proof.
    intros SO E L P ops img. unfold img, image, ops. rewrite (commit_ops_new H fast s L). fold P.
    split; [|split].
    - intros Li. rewrite firstn_app_le by exact Li.
      assert (En : nodes (apply_ops d (firstn i P)) = nodes d).
      { apply nodes_other, Forall_firstn, meta_not_node. }
      split; [exact En|]. split; [apply meta_label, Li|]. apply recover_flag, En.
    - rewrite app_length. intros Ri.
      rewrite firstn_app_ge by lia. rewrite apply_ops_app.
      set (d1 := apply_ops d P).
      assert (E1 : nodes d1 = expected_store (forest s)).
      { unfold d1. rewrite (nodes_other _ _ (meta_not_node fast s)). exact E. }
      rewrite commit_node_ops_eq in *. rewrite map_length in Ri.
      set (j := (i - length P)%nat) in *.
      rewrite firstn_map.
      destruct (node_writes_shape s) as [One|(W0 & last & EW & _ & KW)]; [rewrite One in Ri; lia|].
      rewrite EW in *. rewrite app_length in Ri. cbn [length] in Ri.
      rewrite firstn_app_le by lia.
      destruct (save_fresh H s SO L) as (Wpos & _ & _).
      set (wv := working_version s) in *.
      set (X := firstn j W0).
      assert (KX : forall p, In p X -> fst (fst p) = wv /\ 1 < snd (fst p)).
      { intros p HI. apply KW, (In_firstn j W0 p HI). }
      pose proof (expected_keys_lt H s SO L) as KE. fold wv in KE.
      (* the latest version found is the new one *)
      assert (SLv : store_latest (mset_all kcmp X (expected_store (forest s))) = wv).
      { apply store_latest_eq; [lia| |].
        - intros p HI. apply In_mset_all in HI. destruct HI as [HI|HI].
          + destruct (KX p HI). lia.
          + specialize (KE p HI). lia.
        - destruct X as [|p1 X'] eqn:EX.
          { exfalso. apply (f_equal (@length _)) in EX. unfold X in EX.
            rewrite firstn_length in EX. cbn [length] in EX. lia. }
          destruct (mfind_mset_all_in kcmp kcmp_ok (fst p1) (p1 :: X') (expected_store (forest s)))
            as [e1 F1]; [left; reflexivity|].
          exists (fst p1, e1). split; [apply (In_mfind kcmp kcmp_ok), F1|].
          apply (KX p1). left. reflexivity. }
      apply recover_root_missing; rewrite nodes_set_nodes, E1, SLv.
      + lia.
      + rewrite (mfind_mset_all_notin kcmp kcmp_ok).
        * apply (notin_mfind_None kcmp kcmp_ok). intros C. apply in_map_iff in C.
          destruct C as (p & Ep & HI). specialize (KE p HI). rewrite Ep in KE. cbn [fst] in KE. lia.
        * intros C. apply in_map_iff in C. destruct C as (p & Ep & HI).
          destruct (KX p HI) as [_ N1]. rewrite Ep in N1. cbn [snd] in N1. lia.
    - intros Li. rewrite firstn_all2 by exact Li. split; [reflexivity|].
      unfold P. rewrite <- (commit_ops_new H fast s L). apply commit_exact; assumption.
  Qed.

  (** the positive half: a cut before the first node write reopens on the old latest version,
      the complete write list reopens on the new one *)
  Theorem commit_cut_before_nodes_recovers fast s d i r :
    store_ok H s -> lo_ok s -> nodes d = expected_store (forest s) ->
    lookup (working_version s) (forest s) = None ->
    In (latest_version s, r) (forest s) -> latest_version s < 2 ^ 64 ->
    (i <= length (commit_meta_ops fast s))%nat ->
    let img := image d (commit_ops H fast s) i in
    exists first, 0 <= first <= latest_version s /\
      recover (init_ver s) img =
        ROk (latest_version s) first (root_key_of r) (needs_rebuild (label img) (latest_version s)).
  Proof.
    intros SO LO E L HI Bd Li img. pose proof SO as [SI HIv C FI B].
    destruct (commit_prefix_classification (init_ver s) fast s d i SO E L) as (Old & _ & _).
    destruct (Old Li) as (_ & _ & Er). fold img in Er.
    destruct (recover_expected_ok (init_ver s) (forest s) d r FI (contig_forest_ok s C) LO
                (inv_nodup s SI) HI E Bd) as (first & Rf & Rd).
    exists first. split; [exact Rf|]. rewrite Er, Rd. cbn [set_rebuild].
    assert (NE : forest s <> []) by (intros X; rewrite X in HI; contradiction).
    rewrite E, (store_latest_expected _ _ FI (contig_forest_ok s C) (inv_nodup s SI) NE). reflexivity.
  Qed.

  Theorem commit_complete_recovers fast s d :
    store_ok H s -> lo_ok s -> nodes d = expected_store (forest s) ->
    lookup (working_version s) (forest s) = None -> working_version s < 2 ^ 64 ->
    let d' := apply_ops d (commit_ops H fast s) in
    exists first, 0 <= first <= working_version s /\
      recover (init_ver s) d' =
        ROk (working_version s) first (root_key_of (saved_root H s))
            (needs_rebuild (label d') (working_version s)).
  Proof.
    intros SO LO E L Bd d'.
    pose proof (store_ok_step H s OSave SO I) as SO'. pose proof (lo_ok_step H s OSave SO LO) as LO'.
    cbn [step] in SO', LO'. pose proof SO' as [SI' HIv' C' FI' B'].
    destruct (do_save_new_forest H s L) as (Ef & _).
    assert (Ed : nodes d' = expected_store (forest (fst (do_save H s)))) by (apply commit_exact; assumption).
    assert (Lat : latest_of (forest (fst (do_save H s))) = working_version s).
    { rewrite Ef. unfold latest_of. rewrite fold_left_app. reflexivity. }
    assert (Eiv : init_ver (fst (do_save H s)) = init_ver s) by exact (init_ver_step H s OSave).
    unfold lo_ok in LO'. rewrite Eiv in LO'.
    pose proof (contig_forest_ok _ C') as OK'. rewrite Eiv in OK'.
    destruct (recover_expected_ok (init_ver s) (forest (fst (do_save H s))) d' (saved_root H s)
                FI' OK' LO' (inv_nodup _ SI')) as (first & Rf & Rd).
    - rewrite Lat, Ef. apply in_or_app. right. left. reflexivity.
    - exact Ed.
    - rewrite Lat. exact Bd.
    - rewrite Lat in *. exists first. auto.
  Qed.

  (** a commit with at least two new nodes has an unrecoverable cut point *)
  Theorem commit_split_refuted iv fast s d :
    store_ok H s -> nodes d = expected_store (forest s) ->
    lookup (working_version s) (forest s) = None ->
    (2 <= length (node_writes H s))%nat ->
    exists i, (i < length (commit_ops H fast s))%nat /\
              is_err (recover iv (image d (commit_ops H fast s) i)) = true.
  Proof.
    intros SO E L W2.
    exists (S (length (commit_meta_ops fast s))).
    assert (Len : length (commit_ops H fast s) =
                  (length (commit_meta_ops fast s) + length (node_writes H s))%nat).
    { rewrite (commit_ops_new H fast s L), app_length, commit_node_ops_eq, map_length. reflexivity. }
    split; [lia|]. apply unrecoverable_is_err.
    apply (commit_prefix_classification iv fast s d _ SO E L). lia.
  Qed.
End CommitCrash.

(** ** Rollback (DeleteVersionsFrom) *)
Lemma sorted_firstn_nth {A} (R : A -> A -> Prop) l : forall i x d0,
  StronglySorted R l -> (i < length l)%nat -> In x (firstn i l) -> R x (nth i l d0).
Proof.
  induction l as [|a l IH]; intros i x d0 S Li HI; [cbn in Li; lia|].
  apply StronglySorted_inv in S. destruct S as [S F].
  destruct i as [|i]; [contradiction|]. cbn [firstn nth In length] in *. destruct HI as [<-|HI].
  - rewrite Forall_forall in F. apply F, nth_In. lia.
  - apply IH; [exact S|lia|exact HI].
Qed.

Lemma keys_nth_notin l i d0 :
  StronglySorted (fun a b => kcmp a b = Lt) l -> (i < length l)%nat -> ~ In (nth i l d0) (firstn i l).
Proof.
  intros S Li C. pose proof (sorted_firstn_nth _ l i _ d0 S Li C) as E. cbv beta in E.
  rewrite (c_refl kcmp kcmp_ok) in E. discriminate.
Qed.

Theorem rollback_prefix_classification iv f ivf d v i :
  forest_inv f -> forest_ok f ivf -> NoDup (map fst f) -> In v (map fst f) -> v < latest_of f ->
  nodes d = expected_store f ->
  let D := map fst (filter (fun p => v <? fst (fst p)) (nodes d)) in
  let ops := rollback_ops d v in
  let img := image d ops i in
  let new := expected_store (filter (fun p => fst p <=? v) f) in
  ops = map del_node D ++ match label d with None => [] | Some _ => [set_label None] end /\
  (i = 0%nat -> img = d) /\
  ((length D <= i)%nat -> nodes img = new /\ (label img = label d \/ label img = None)) /\
  ((0 < i < length D)%nat ->
     nodes img <> nodes d /\ nodes img <> new /\
     store_latest (nodes img) = latest_of f /\
     (In (latest_of f, 1) (firstn i D) -> unrecoverable (recover iv img))).
Proof.
  intros FI OK ND Iv Lv E D ops img new.
  assert (NE : f <> []) by (intros C; subst f; contradiction).
  pose proof (store_latest_expected f ivf FI OK ND NE) as SL.
  destruct (latest_has_root f ivf FI OK ND NE) as (R1 & r & el & _ & Fl).
  assert (Eops : ops = map del_node D ++ match label d with None => [] | Some _ => [set_label None] end).
  { unfold ops, rollback_ops. rewrite E, SL.
    replace (latest_of f <? v + 1) with false by lia.
    unfold D. rewrite E. reflexivity. }
  set (lab := match label d with None => [] | Some _ => [set_label None] end) in *.
  assert (Flab : Forall (fun o => node_op o = false) lab).
  { unfold lab. destruct (label d); repeat constructor. }
  assert (Fdel : Forall (fun o => label_op o = false) (map del_node D)).
  { apply Forall_map_const. reflexivity. }
  assert (Enew : mdel_all kcmp D (expected_store f) = new).
  { unfold D. rewrite E. apply (rollback_delete_exact f ivf v); assumption. }
  pose proof (expected_sorted f) as Ss.
  assert (SD : StronglySorted (fun a b => kcmp a b = Lt) D)
    by (unfold D; rewrite E; apply msorted_keys, msorted_filter, Ss).
  assert (DFind : forall k, In k D -> exists e, mfind kcmp k (expected_store f) = Some e).
  { intros k HI. unfold D in HI. rewrite E in HI. apply rollback_keys_In in HI.
    destruct HI as [_ [e HI]]. exists e. apply (mfind_In kcmp kcmp_ok); assumption. }
  split; [exact Eops|]. split; [|split].
  - intros ->. reflexivity.
  - intros Li. unfold img, image. rewrite Eops.
    rewrite firstn_app_ge by (rewrite map_length; lia). rewrite apply_ops_app. split.
    + rewrite nodes_other by (apply Forall_firstn, Flab). rewrite nodes_del_nodes, E. exact Enew.
    + set (d1 := apply_ops d (map del_node D)).
      assert (L1 : label d1 = label d) by (apply label_other, Fdel).
      unfold lab. destruct (label d) as [l|] eqn:Ld.
      * destruct (i - length (map del_node D))%nat; cbn [firstn]; [left; exact L1|].
        right. rewrite firstn_nil. reflexivity.
      * left. destruct (i - length (map del_node D))%nat; exact L1.
  - intros Ri. unfold img, image. rewrite Eops.
    rewrite firstn_app_le by (rewrite map_length; lia). rewrite firstn_map, nodes_del_nodes, E.
    set (Di := firstn i D).
    assert (Li : (i < length D)%nat) by lia.
    (* the first key that is not deleted yet *)
    set (ki := nth i D (0, 0)).
    assert (KiIn : In ki D) by (apply nth_In, Li).
    assert (KiOut : ~ In ki Di) by (apply keys_nth_notin; assumption).
    assert (KiFind : mfind kcmp ki (mdel_all kcmp Di (expected_store f)) =
                     mfind kcmp ki (expected_store f))
      by (apply (mfind_mdel_all_notin kcmp kcmp_ok); assumption).
    destruct (DFind ki KiIn) as [ei Fi].
    (* the latest version found is still the old one: its root key is left, or else the
       keys left include [ki], which comes after that root key *)
    assert (SLi : store_latest (mdel_all kcmp Di (expected_store f)) = latest_of f).
    { apply store_latest_eq; [lia| |].
      - intros [k e] HI. apply In_mdel_all, expected_In_reach in HI. cbn [fst].
        apply (reach_key_version f ivf k e FI OK HI).
      - destruct (key_in_dec kcmp kcmp_ok (latest_of f, 1) Di) as [X|X].
        + pose proof (sorted_firstn_nth _ D i _ (0, 0) SD Li X) as Lt. fold ki in Lt.
          apply kcmp_Lt in Lt. unfold klt in Lt. cbn [fst snd] in Lt.
          exists (ki, ei). split.
          * apply (In_mfind kcmp kcmp_ok). rewrite KiFind. exact Fi.
          * cbn [fst]. apply (In_mfind kcmp kcmp_ok), expected_In_reach in Fi.
            pose proof (reach_key_version f ivf ki ei FI OK Fi). lia.
        + exists ((latest_of f, 1), el). split; [|reflexivity].
          apply (In_mfind kcmp kcmp_ok). rewrite (mfind_mdel_all_notin kcmp kcmp_ok); assumption. }
    split; [|split; [|split; [exact SLi|]]].
    + (* something is gone *)
      destruct D as [|k0 D'] eqn:ED; [cbn in Ri; lia|].
      assert (K0 : In k0 Di).
      { unfold Di. destruct i as [|i']; [lia|]. left. reflexivity. }
      intros C. destruct (DFind k0 (or_introl eq_refl)) as [e0 F0].
      rewrite <- C, (mfind_mdel_all_in kcmp kcmp_ok _ _ _ Ss K0) in F0. discriminate.
    + (* something is left *)
      intros C. rewrite <- Enew in C.
      assert (X : mfind kcmp ki (mdel_all kcmp D (expected_store f)) = None)
        by (apply (mfind_mdel_all_in kcmp kcmp_ok); assumption).
      rewrite <- C, KiFind, Fi in X. discriminate.
    + intros Lin. apply recover_root_missing; rewrite nodes_del_nodes, E, SLi; [lia|].
      apply (mfind_mdel_all_in kcmp kcmp_ok); assumption.
Qed.

(** rolling back exactly one version: every cut strictly inside the deletes is unrecoverable *)
Theorem rollback_one_version_split iv f ivf d v i :
  forest_inv f -> forest_ok f ivf -> NoDup (map fst f) -> In v (map fst f) ->
  latest_of f = v + 1 -> nodes d = expected_store f ->
  let D := map fst (filter (fun p => v <? fst (fst p)) (nodes d)) in
  (0 < i < length D)%nat -> unrecoverable (recover iv (image d (rollback_ops d v) i)).
Proof.
  intros FI OK ND Iv Lv E D Ri.
  destruct (rollback_prefix_classification iv f ivf d v i FI OK ND Iv ltac:(lia) E) as (_ & _ & _ & Mid).
  destruct (Mid Ri) as (_ & _ & _ & Err). apply Err. clear Mid Err.
  assert (NE : f <> []) by (intros C; subst f; contradiction).
  destruct (latest_has_root f ivf FI OK ND NE) as (_ & r & el & _ & Fl).
  apply (In_mfind kcmp kcmp_ok) in Fl.
  assert (LD : In (latest_of f, 1) D).
  { unfold D. rewrite E. apply rollback_keys_In. cbn [fst]. split; [lia|eauto]. }
  assert (SD : StronglySorted (fun a b => kcmp a b = Lt) D)
    by (unfold D; rewrite E; apply msorted_keys, msorted_filter, expected_sorted).
  fold D. destruct D as [|k0 D'] eqn:ED; [contradiction|].
  destruct i as [|i']; [lia|]. cbn [firstn]. destruct LD as [->|LD]; [left; reflexivity|].
  exfalso. apply StronglySorted_inv in SD. destruct SD as [_ F]. rewrite Forall_forall in F.
  specialize (F _ LD). apply kcmp_Lt in F. unfold klt in F. cbn [fst snd] in F.
  assert (K0 : In k0 (map fst (filter (fun p => v <? fst (fst p)) (nodes d)))).
  { fold D. rewrite ED. left. reflexivity. }
  rewrite E in K0. apply rollback_keys_In in K0. destruct K0 as [C1 [e0 HI]].
  apply expected_In_reach in HI. pose proof (reach_key_nonce f k0 e0 FI HI). lia.
Qed.

Theorem rollback_complete_recovers iv f d v i r :
  forest_inv f -> forest_ok f iv -> forest_lo iv f -> NoDup (map fst f) ->
  In (v, r) f -> v < latest_of f -> v < 2 ^ 64 -> nodes d = expected_store f ->
  let D := map fst (filter (fun p => v <? fst (fst p)) (nodes d)) in
  let img := image d (rollback_ops d v) i in
  (length D <= i)%nat ->
  exists first, 0 <= first <= v /\
    recover iv img = ROk v first (root_key_of r) (needs_rebuild (label img) v).
Proof.
  intros FI OK LO ND HI Lv Bd E D img Li.
  destruct (rollback_prefix_classification iv f iv d v i FI OK ND (in_map fst _ _ HI) Lv E) as (_ & _ & Fin & _).
  destruct (Fin Li) as [En _]. fold img in En.
  set (pk := fun p : Z * option node => fst p <=? v) in *.
  assert (HIk : In (v, r) (filter pk f)) by (apply filter_In; split; [exact HI|apply Z.leb_refl]).
  pose proof (forest_inv_filter pk f FI) as FIk.
  pose proof (forest_ok_filter_le f iv v OK) as OKk. fold pk in OKk.
  pose proof (NoDup_filter_fst pk f ND) as NDk.
  (* the latest retained version is [v]: it is retained, and nothing above it is *)
  assert (Lat : latest_of (filter pk f) = v).
  { destruct (forest_ok_version _ iv v r OKk HIk) as [[_ U] _].
    destruct (latest_has_root _ iv FIk OKk NDk) as (_ & rl & _ & Hl & _);
      [intros C; rewrite C in HIk; contradiction|].
    apply filter_In in Hl. destruct Hl as [_ Hl]. change (latest_of (filter pk f) <=? v = true) in Hl. lia. }
  destruct (recover_expected_ok iv (filter pk f) img r FIk OKk (forest_lo_filter iv pk f LO) NDk)
    as (first & Rf & Rd); rewrite ?Lat; try assumption.
  rewrite Lat in *. exists first. auto.
Qed.

(** ** Concrete witnesses (SHA-256, computed) *)
Definition state_after (ops : list op) : mstate := fst (run sha256 (init_state 0 false) ops).

Lemma state_after_ok ops :
  run_okb sha256 (init_state 0 false) ops = true -> store_ok sha256 (state_after ops).
Proof.
  intros R. apply store_ok_reachable; [cbn; lia|]. apply run_okb_iff, R.
Qed.

Definition b1 : bytes := [97%N].   (* "a" *)
Definition b2 : bytes := [98%N].
Definition b3 : bytes := [99%N].
Definition b4 : bytes := [100%N].

(** a first commit of two keys (three new nodes), cut after the first node write: reopening
    fails.  (Recorded finding C05-split-commit.) *)
Theorem commit_split_witness :
  exists s d i,
    store_ok sha256 s /\ d = expected_db (forest s) /\
    (i < length (commit_ops sha256 true s))%nat /\
    recover 0 (image d (commit_ops sha256 true s) i) = RErr ErrVersionDoesNotExist /\
    recover 0 d = REmpty false /\
    recover 0 (apply_ops d (commit_ops sha256 true s)) = ROk 1 1 (Some (1, 1)) false.
Proof.
  exists (state_after [OSet b1 b2; OSet b2 b3]), (expected_db []), 4%nat.
  split; [apply state_after_ok; vm_compute; reflexivity|].
  vm_compute. repeat split; lia.
Qed.

(** fast-index writes flushed, label not yet written, old label = unchanged latest version:
    the index is ahead of the tree and reopening does not rebuild it.
    (Recorded finding kind "indexahead".) *)
Definition indexahead_st : mstate :=
  Eval vm_compute in state_after [OSet b1 b1; OSet b2 b2; OSet b3 b3; OSave; OSet b2 b4; ORemove b1].

(* the state is evaluated once here; the conjuncts below start from its value *)
Lemma indexahead_st_eq :
  state_after [OSet b1 b1; OSet b2 b2; OSet b3 b3; OSave; OSet b2 b4; ORemove b1] = indexahead_st.
Proof. vm_compute. reflexivity. Qed.

Theorem indexahead_refuted :
  exists s d i,
    store_ok sha256 s /\ d = expected_db (forest s) /\
    (i < length (commit_meta_ops true s))%nat /\
    let img := image d (commit_ops sha256 true s) i in
    nodes img = nodes d /\
    recover 0 img = ROk 1 1 (Some (1, 1)) false /\
    fastidx img <> expected_fast (forest s).
Proof.
  exists indexahead_st. eexists. exists 1%nat.
  split; [rewrite <- indexahead_st_eq; apply state_after_ok; vm_compute; reflexivity|].
  split; [reflexivity|].
  split; [vm_compute; lia|]. cbv zeta. split; [vm_compute; reflexivity|].
  split; [vm_compute; reflexivity|]. vm_compute. discriminate.
Qed.

(** rolling back two versions, cut after the first delete: reopening succeeds and reports the
    old latest version although version 2 has lost its root: neither the state before nor the
    state after. *)
Definition rollback_split_st : mstate :=
  Eval vm_compute in
    state_after [OSet b1 b1; OSet b2 b2; OSet b3 b3; OSave; OSet b2 b4; OSave; OSet b4 b4; OSave].

Lemma rollback_split_st_eq :
  state_after [OSet b1 b1; OSet b2 b2; OSet b3 b3; OSave; OSet b2 b4; OSave; OSet b4 b4; OSave]
  = rollback_split_st.
Proof. vm_compute. reflexivity. Qed.

Theorem rollback_split_refuted :
  exists s d i,
    store_ok sha256 s /\ d = expected_db (forest s) /\
    (0 < i < length (rollback_ops d 1))%nat /\
    let img := image d (rollback_ops d 1) i in
    recover 0 img = ROk 3 1 (Some (3, 1)) false /\
    mfind kcmp (2, 1) (nodes img) = None /\
    nodes img <> nodes d /\
    nodes img <> expected_store (filter (fun p => fst p <=? 1) (forest s)).
Proof.
  exists rollback_split_st. eexists. exists 1%nat.
  split; [rewrite <- rollback_split_st_eq; apply state_after_ok; vm_compute; reflexivity|].
  split; [reflexivity|].
  split; [vm_compute; lia|]. cbv zeta. split; [vm_compute; reflexivity|].
  split; [vm_compute; reflexivity|]. split; vm_compute; discriminate.
Qed.

(** rolling back one version, cut after the first delete: reopening fails *)
Theorem rollback_split_witness :
  exists s d i,
    store_ok sha256 s /\ d = expected_db (forest s) /\
    (0 < i < length (rollback_ops d 1))%nat /\
    recover 0 (image d (rollback_ops d 1) i) = RErr ErrVersionDoesNotExist.
Proof.
  exists (state_after [OSet b1 b1; OSet b2 b2; OSave; OSet b2 b4; OSet b3 b3; OSave]).
  eexists. exists 1%nat.
  split; [apply state_after_ok; vm_compute; reflexivity|]. split; [reflexivity|].
  split; [vm_compute; lia|]. vm_compute. reflexivity.
Qed.
