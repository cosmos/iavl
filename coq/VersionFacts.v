(** Version bookkeeping of the MutableTree state machine (MTree.v) under the usage
    contract: commits are numbered consecutively, the retained versions form a contiguous
    range (C14); rollback / LoadVersionForOverwriting forget exactly the later history (C09);
    pruning removes exactly a prefix of the range and leaves every later version untouched
    (C04). *)
From IAVL Require Import Bytes Varint Tree VMap TreeFacts MTree MTreeFacts HashFacts.
Local Open Scope Z_scope.

Fixpoint zseq (a : Z) (n : nat) : list Z :=
  match n with O => [] | S n => a :: zseq (a + 1) n end.

Definition zrange (lo hi : Z) : list Z := zseq lo (Z.to_nat (hi - lo + 1)).

Definition consecutive (l : list Z) : Prop := l = zseq (hd 0 l) (length l).

Definition consecutiveb (l : list Z) : bool :=
  if list_eq_dec Z.eq_dec l (zseq (hd 0 l) (length l)) then true else false.

Lemma consecutiveb_sound l : consecutiveb l = true -> consecutive l.
Proof. unfold consecutiveb, consecutive. destruct (list_eq_dec _ _ _); [auto|discriminate]. Qed.

Lemma zseq_length a n : length (zseq a n) = n.
Proof. revert a. induction n as [|n IH]; intros a; cbn [zseq length]; [reflexivity|]. rewrite IH. reflexivity. Qed.

Lemma consecutive_zseq a n : consecutive (zseq a n).
Proof.
  unfold consecutive. rewrite zseq_length. destruct n as [|n]; cbn [zseq hd]; reflexivity.
Qed.

Lemma consecutive_iff l : consecutive l <-> exists a n, l = zseq a n.
Proof.
  split.
  - intros C. exists (hd 0 l), (length l). exact C.
  - intros (a & n & ->). apply consecutive_zseq.
Qed.

Lemma In_zseq v a n : In v (zseq a n) <-> a <= v < a + Z.of_nat n.
Proof.
  revert a. induction n as [|n IH]; intros a; cbn [zseq In].
  - lia.
  - rewrite IH. lia.
Qed.

Lemma In_zrange v lo hi : In v (zrange lo hi) <-> lo <= v <= hi.
Proof. unfold zrange. rewrite In_zseq. lia. Qed.

Lemma zseq_snoc a n : zseq a (S n) = zseq a n ++ [a + Z.of_nat n].
Proof.
  revert a. induction n as [|n IH]; intros a.
  - cbn [zseq app]. f_equal. lia.
  - change (zseq a (S (S n))) with (a :: zseq (a + 1) (S n)). rewrite IH.
    cbn [zseq app]. do 2 f_equal. f_equal. lia.
Qed.

Lemma zseq_last a n d : last (zseq a (S n)) d = a + Z.of_nat n.
Proof. rewrite zseq_snoc. apply last_last. Qed.

Lemma filter_gt_zseq n a k :
  filter (fun x => n <? x) (zseq a k) =
  zseq (Z.max a (n + 1)) (Z.to_nat (a + Z.of_nat k - Z.max a (n + 1))).
Proof.
  revert a. induction k as [|k IH]; intros a.
  - cbn [zseq filter]. replace (Z.to_nat _) with O by lia. reflexivity.
  - cbn [zseq filter]. rewrite IH. destruct (n <? a) eqn:E.
    + apply Z.ltb_lt in E.
      replace (Z.max a (n + 1)) with a by lia.
      replace (Z.max (a + 1) (n + 1)) with (a + 1) by lia.
      replace (Z.to_nat (a + Z.of_nat (S k) - a)) with (S k) by lia.
      replace (Z.to_nat (a + 1 + Z.of_nat k - (a + 1))) with k by lia.
      reflexivity.
    + apply Z.ltb_ge in E.
      replace (Z.max (a + 1) (n + 1)) with (n + 1) by lia.
      replace (Z.max a (n + 1)) with (n + 1) by lia.
      f_equal. lia.
Qed.

Lemma filter_le_zseq v a k :
  filter (fun x => x <=? v) (zseq a k) =
  zseq a (Z.to_nat (Z.min (a + Z.of_nat k) (v + 1) - a)).
Proof.
  revert a. induction k as [|k IH]; intros a.
  - cbn [zseq filter]. replace (Z.to_nat _) with O by lia. reflexivity.
  - cbn [zseq filter]. rewrite IH. destruct (a <=? v) eqn:E.
    + apply Z.leb_le in E.
      replace (Z.to_nat (Z.min (a + Z.of_nat (S k)) (v + 1) - a))
        with (S (Z.to_nat (Z.min (a + 1 + Z.of_nat k) (v + 1) - (a + 1)))) by lia.
      reflexivity.
    + apply Z.leb_gt in E.
      replace (Z.to_nat (Z.min (a + 1 + Z.of_nat k) (v + 1) - (a + 1))) with O by lia.
      replace (Z.to_nat (Z.min (a + Z.of_nat (S k)) (v + 1) - a)) with O by lia.
      reflexivity.
Qed.

Lemma map_fst_filter {A} (f : Z -> bool) (l : list (Z * A)) :
  map fst (filter (fun p => f (fst p)) l) = filter f (map fst l).
Proof. symmetry. apply filter_map_comm. Qed.

Lemma filter_gt_gt {A} n1 n2 (f : list (Z * A)) :
  filter (fun p => n2 <? fst p) (filter (fun p => n1 <? fst p) f) =
  filter (fun p => Z.max n1 n2 <? fst p) f.
Proof.
  rewrite filter_filter. apply filter_ext. intros [w a]. cbn [fst]. lia.
Qed.

Lemma filter_le_le {A} v w (f : list (Z * A)) :
  v <= w ->
  filter (fun p => fst p <=? v) (filter (fun p => fst p <=? w) f) =
  filter (fun p => fst p <=? v) f.
Proof.
  intros L. apply filter_filter_imp. intros [x a] _. cbn [fst]. lia.
Qed.

Definition latest_of {A} (f : list (Z * A)) : Z := fold_left (fun _ p => fst p) f 0.

Lemma fold_latest_last {A} (f : list (Z * A)) d :
  fold_left (fun _ p => fst p) f d = last (map fst f) d.
Proof.
  destruct f as [|p f] using rev_ind; [reflexivity|].
  rewrite fold_left_app, map_app. cbn [fold_left map]. rewrite last_last. reflexivity.
Qed.

Lemma latest_version_last s : latest_version s = last (available s) 0.
Proof. unfold latest_version, available. apply fold_latest_last. Qed.

Lemma latest_snoc {A} (f : list (Z * A)) w a d :
  fold_left (fun _ p => fst p) (f ++ [(w, a)]) d = w.
Proof. rewrite fold_left_app. reflexivity. Qed.

Lemma lookup_Some_iff_In {A} v (f : list (Z * A)) :
  (exists t, lookup v f = Some t) <-> In v (map fst f).
Proof.
  destruct (lookup v f) as [t|] eqn:L.
  - split; [intros _|intros _; eauto]. apply lookup_In in L.
    apply in_map_iff. exists (v, t). split; [reflexivity|exact L].
  - split; [intros [t E]; discriminate|]. intros I. exfalso. exact (lookup_None _ _ L I).
Qed.

Lemma version_exists_In s v : version_exists s v = true <-> In v (available s).
Proof.
  unfold version_exists, available. rewrite <- lookup_Some_iff_In.
  destruct (lookup v (forest s)) as [t|]; split; eauto; [discriminate|]. intros [t E]. discriminate.
Qed.

Lemma lookup_None_iff {A} v (f : list (Z * A)) : lookup v f = None <-> ~ In v (map fst f).
Proof.
  split; [apply lookup_None|]. intros NI. destruct (lookup v f) as [t|] eqn:L; [|reflexivity].
  exfalso. apply NI. apply lookup_Some_iff_In. eauto.
Qed.

(** Never prune the version the working tree is based on (or a later one); never roll back to
    "version 0" (LoadVersionForOverwriting(0) would load the latest version and then delete
    every version).  Everything else is unrestricted. *)
Definition in_contract (s : mstate) (o : op) : Prop :=
  match o with
  | OPrune n => n < version s
  | OLvfo v => 1 <= v
  | _ => True
  end.

Definition in_contractb (s : mstate) (o : op) : bool :=
  match o with
  | OPrune n => n <? version s
  | OLvfo v => 1 <=? v
  | _ => true
  end.

Lemma in_contractb_iff s o : in_contractb s o = true <-> in_contract s o.
Proof.
  destruct o; cbn [in_contractb in_contract]; lia.
Qed.

(** Side condition on the initial state: an explicitly set initial version is positive; without
    the option the configured value is the default 0 (or 1, which means the same). *)
Definition init_ok (iv : Z) (ivset : bool) : Prop :=
  if ivset then 0 < iv else 0 <= iv <= 1.

Definition first_of {A} (f : list (Z * A)) : Z := match f with [] => 0 | (v, _) :: _ => v end.

Lemma first_version_of s : first_version s = first_of (forest s).
Proof. reflexivity. Qed.
Lemma latest_version_of s : latest_version s = latest_of (forest s).
Proof. reflexivity. Qed.

Definition forest_ok {A} (f : list (Z * A)) (iv : Z) : Prop :=
  consecutive (map fst f) /\ Forall (fun v => 1 <= v /\ iv <= v) (map fst f).

Definition contig (s : mstate) : Prop :=
  forest_ok (forest s) (init_ver s) /\
  ((version s = 0 /\ forest s = [] /\ last_saved s = None /\ init_set s = init_opt s) \/
   lookup (version s) (forest s) = Some (last_saved s)) /\
  0 <= init_ver s /\
  (if init_opt s then 0 < init_ver s else init_ver s <= 1).

Lemma contig_intro r ver ls f iv (a b : bool) :
  forest_ok f iv ->
  ((ver = 0 /\ f = [] /\ ls = None /\ a = b) \/ lookup ver f = Some ls) ->
  0 <= iv -> (if b then 0 < iv else iv <= 1) ->
  contig (MState r ver ls f iv a b).
Proof. intros. unfold contig. cbn [forest init_ver version last_saved init_set init_opt]. auto. Qed.

Lemma forest_ok_nil {A} iv : forest_ok (@nil (Z * A)) iv.
Proof. split; [reflexivity|constructor]. Qed.

Lemma contig_init iv b : init_ok iv b -> contig (init_state iv b).
Proof.
  intros I. unfold init_state. apply contig_intro.
  - apply forest_ok_nil.
  - left. auto.
  - unfold init_ok in I. destruct b; lia.
  - unfold init_ok in I. destruct b; lia.
Qed.

Lemma forest_ok_range {A} (f : list (Z * A)) iv :
  forest_ok f iv -> f <> [] ->
  1 <= first_of f <= latest_of f /\ iv <= first_of f /\
  map fst f = zrange (first_of f) (latest_of f).
Proof.
  intros [C F] NE. destruct f as [|[w a] f]; [congruence|]. clear NE.
  unfold latest_of. rewrite fold_latest_last. cbn [first_of map fst].
  unfold consecutive in C. cbn [map fst hd length] in C.
  inversion F as [|x xs [P1 P2] _]; subst. cbn [fst] in *.
  rewrite C. rewrite zseq_last. unfold zrange.
  replace (Z.to_nat (w + Z.of_nat (length (map fst f)) - w + 1)) with (S (length (map fst f))) by lia.
  repeat split; try lia.
Qed.

Lemma contig_range s :
  forest_ok (forest s) (init_ver s) -> forest s <> [] ->
  1 <= first_version s <= latest_version s /\ init_ver s <= first_version s /\
  available s = zrange (first_version s) (latest_version s).
Proof. apply forest_ok_range. Qed.

Lemma nil_or_not {A} (l : list A) : l = [] \/ l <> [].
Proof. destruct l; [left; reflexivity|right; discriminate]. Qed.

Lemma forest_ok_In {A} (f : list (Z * A)) iv v :
  forest_ok f iv -> (In v (map fst f) <-> f <> [] /\ first_of f <= v <= latest_of f).
Proof.
  intros OK. destruct (nil_or_not f) as [E|NE].
  - subst f. cbn [map In]. split; [tauto|]. intros [C _]. congruence.
  - destruct (forest_ok_range f iv OK NE) as (_ & _ & R). rewrite R, In_zrange. tauto.
Qed.

Lemma forest_ok_lookup {A} (f : list (Z * A)) iv v :
  forest_ok f iv ->
  ((exists t, lookup v f = Some t) <-> f <> [] /\ first_of f <= v <= latest_of f).
Proof. intros OK. rewrite lookup_Some_iff_In. exact (forest_ok_In f iv v OK). Qed.

Lemma forest_ok_filter {A} (p : Z -> bool) (f : list (Z * A)) iv :
  forest_ok f iv -> (forall a n, consecutive (filter p (zseq a n))) ->
  forest_ok (filter (fun q => p (fst q)) f) iv.
Proof.
  intros [C F] Cp. unfold forest_ok. rewrite map_fst_filter.
  split; [rewrite C; apply Cp|apply Forall_filter, F].
Qed.

Lemma forest_ok_filter_gt {A} (f : list (Z * A)) iv n :
  forest_ok f iv -> forest_ok (filter (fun p => n <? fst p) f) iv.
Proof.
  intros OK. apply (forest_ok_filter (fun x => n <? x) f iv OK).
  intros a k. rewrite filter_gt_zseq. apply consecutive_zseq.
Qed.

Lemma forest_ok_filter_le {A} (f : list (Z * A)) iv n :
  forest_ok f iv -> forest_ok (filter (fun p => fst p <=? n) f) iv.
Proof.
  intros OK. apply (forest_ok_filter (fun x => x <=? n) f iv OK).
  intros a k. rewrite filter_le_zseq. apply consecutive_zseq.
Qed.

Lemma forest_ok_snoc {A} (f : list (Z * A)) iv w (a : A) :
  forest_ok f iv -> 1 <= w -> iv <= w -> (f <> [] -> w = latest_of f + 1) ->
  forest_ok (f ++ [(w, a)]) iv.
Proof.
  intros OK W1 W2 WL. split.
  - rewrite map_app. cbn [map fst]. destruct (nil_or_not f) as [E|NE]; [subst f; reflexivity|].
    destruct (forest_ok_range f iv OK NE) as (R1 & _ & R). rewrite R. unfold zrange.
    apply consecutive_iff. exists (first_of f), (S (Z.to_nat (latest_of f - first_of f + 1))).
    rewrite zseq_snoc. f_equal. f_equal. specialize (WL NE). lia.
  - rewrite map_app. apply Forall_app. split; [apply OK|]. cbn [map fst]. constructor; [lia|constructor].
Qed.

Definition in_range (s : mstate) (v : Z) : Prop :=
  forest s <> [] /\ first_version s <= v <= latest_version s.

Lemma forest_ok_in_range s v :
  forest_ok (forest s) (init_ver s) -> ((exists t, lookup v (forest s) = Some t) <-> in_range s v).
Proof. exact (forest_ok_lookup (forest s) (init_ver s) v). Qed.

Lemma forest_ok_out_of_range s v :
  forest_ok (forest s) (init_ver s) -> (lookup v (forest s) = None <-> ~ in_range s v).
Proof.
  intros OK. rewrite lookup_None_iff, (forest_ok_In _ _ v OK). reflexivity.
Qed.

Lemma lookup_latest s :
  forest_ok (forest s) (init_ver s) -> forest s <> [] ->
  exists r, lookup (latest_version s) (forest s) = Some r.
Proof.
  intros OK NE. destruct (contig_range s OK NE) as (R & _).
  apply (forest_ok_in_range s _ OK). split; [exact NE|lia].
Qed.

Lemma working_version_succ s : version s <> 0 -> working_version s = version s + 1.
Proof. intros V. unfold working_version. replace (version s + 1 =? 1) with false by lia. reflexivity. Qed.

Lemma do_load_empty s v :
  forest s = [] -> do_load s v = (s, if v <=? 0 then XInt 0 else XErr).
Proof.
  intros E. unfold do_load, first_version, latest_version. cbv zeta. rewrite E.
  cbn [fold_left]. change (0 <? 0) with false. cbn [andb].
  destruct (0 <? v) eqn:C1; destruct (v <=? 0) eqn:C2; try reflexivity; lia.
Qed.

(** on a good non-empty forest both guards of [do_load] are idle: the lookup decides *)
Lemma do_load_nonempty s v tv :
  forest_ok (forest s) (init_ver s) -> forest s <> [] ->
  (v <= 0 -> tv = latest_version s) -> (0 < v -> tv = v) ->
  do_load s v =
    match lookup tv (forest s) with
    | Some r => (MState r tv r (forest s) (init_ver s) (init_set s) (init_opt s),
                 XInt (latest_version s))
    | None => (s, XErr)
    end.
Proof.
  intros OK NE T0 T1. destruct (contig_range s OK NE) as (R1 & R2 & _).
  unfold do_load. cbv zeta.
  replace (first_version s <? init_ver s) with false by lia. rewrite andb_false_r.
  replace (if v <=? 0 then latest_version s else v) with tv by (destruct (v <=? 0) eqn:D; lia).
  destruct (latest_version s <? v) eqn:C.
  - rewrite (proj2 (forest_ok_out_of_range s tv OK)); [reflexivity|]. intros [_ R]. lia.
  - destruct (forest s) eqn:F; [congruence|]. reflexivity.
Qed.

Lemma do_load_pos s v :
  0 < v ->
  do_load s v = (s, XErr) \/
  exists r, lookup v (forest s) = Some r /\
    do_load s v = (MState r v r (forest s) (init_ver s) (init_set s) (init_opt s),
                   XInt (latest_version s)).
Proof.
  intros P. unfold do_load. cbv zeta.
  destruct ((0 <? first_version s) && (first_version s <? init_ver s)); [left; reflexivity|].
  destruct (latest_version s <? v); [left; reflexivity|].
  replace (v <=? 0) with false by lia.
  destruct (forest s) as [|p f] eqn:F; [left; reflexivity|]. rewrite <- F.
  destruct (lookup v (forest s)) as [r|]; [|left; reflexivity].
  right. exists r. split; reflexivity.
Qed.

Lemma do_lvfo_pos s v :
  0 < v ->
  do_lvfo s v = (s, XErr) \/
  exists r, lookup v (forest s) = Some r /\
    do_lvfo s v = (MState r v r (filter (fun p => fst p <=? v) (forest s))
                          (init_ver s) (init_set s) (init_opt s), XOk).
Proof.
  intros P. unfold do_lvfo.
  destruct (do_load_pos s v P) as [E|(r & L & E)]; rewrite E; [left; reflexivity|right; eauto].
Qed.

Lemma do_reopen_spec s :
  forest_ok (forest s) (init_ver s) ->
  (forest s = [] /\
   do_reopen s = (MState None 0 None [] (init_ver s) (init_opt s) (init_opt s), XOk)) \/
  (forest s <> [] /\ exists r,
   lookup (latest_version s) (forest s) = Some r /\
   do_reopen s = (MState r (latest_version s) r (forest s) (init_ver s) (init_opt s) (init_opt s),
                  XOk)).
Proof.
  intros OK. unfold do_reopen. cbv zeta.
  set (fresh := MState None 0 None (forest s) (init_ver s) (init_opt s) (init_opt s)).
  destruct (nil_or_not (forest s)) as [E|NE].
  - left. split; [exact E|]. rewrite (do_load_empty fresh 0 E). cbn. unfold fresh. rewrite E. reflexivity.
  - right. split; [exact NE|].
    destruct (lookup_latest s OK NE) as [r L]. exists r. split; [exact L|].
    rewrite (do_load_nonempty fresh 0 (latest_version s) OK NE) by (reflexivity || lia).
    change (forest fresh) with (forest s). rewrite L. reflexivity.
Qed.

(** ** The two shapes of a contiguous state *)
Lemma contig_cases s :
  contig s ->
  (version s = 0 /\ forest s = [] /\ last_saved s = None /\ init_set s = init_opt s /\
   working_version s = (if init_opt s then init_ver s else 1) /\
   1 <= working_version s /\ init_ver s <= working_version s) \/
  (forest s <> [] /\ lookup (version s) (forest s) = Some (last_saved s) /\
   first_version s <= version s <= latest_version s /\ 1 <= first_version s /\
   working_version s = version s + 1).
Proof.
  intros (OK & [(V & F & L & I)|L] & IV0 & IV).
  - left. unfold working_version. rewrite V, I. cbn [Z.add Z.eqb Pos.eqb andb].
    repeat split; try assumption; destruct (init_opt s); lia.
  - right. assert (NE : forest s <> []).
    { intros E. rewrite E in L. discriminate. }
    destruct (proj1 (forest_ok_in_range s (version s) OK)) as [_ R]; [eauto|].
    destruct (contig_range s OK NE) as (R1 & _).
    repeat split; try assumption; try lia.
    apply working_version_succ. lia.
Qed.

Lemma contig_forest_ok s : contig s -> forest_ok (forest s) (init_ver s).
Proof. intros C. apply C. Qed.

Lemma contig_same_but_root s s' : same_but_root s s' -> contig s -> contig s'.
Proof.
  intros (E1 & E2 & E3 & E4 & E5 & E6). unfold contig. rewrite E1, E2, E3, E4, E5, E6. tauto.
Qed.

Section WithHash.
  Variable H : bytes -> bytes.

  Lemma do_save_numbering s :
    contig s -> lookup (working_version s) (forest s) = None ->
    (forest s = [] /\ version s = 0 /\ working_version s = (if init_opt s then init_ver s else 1)) \/
    (forest s <> [] /\ version s = latest_version s /\ working_version s = latest_version s + 1).
  Proof.
    intros C N. destruct (contig_cases s C) as [(V & F & _ & _ & W & _)|(NE & L & R & P & W)].
    - left. auto.
    - right. split; [exact NE|].
      apply (forest_ok_out_of_range s _ (contig_forest_ok s C)) in N.
      assert (~ first_version s <= working_version s <= latest_version s)
        by (intros X; apply N; split; assumption).
      lia.
  Qed.

  Lemma do_save_contig s : contig s -> contig (fst (do_save H s)).
  Proof.
    intros C. pose proof C as (OK & VL & IV0 & IV).
    destruct (lookup (working_version s) (forest s)) as [e|] eqn:L.
    - destruct (do_save_existing H s e L) as [E|E]; rewrite E; cbn [fst]; apply contig_intro; auto.
      right. destruct (contig_cases s C) as [(_ & F & _)|(_ & L' & _)]; [|exact L'].
      rewrite F in L. discriminate.
    - destruct (do_save_new H s L) as (r' & _ & E). rewrite E. cbn [fst].
      apply contig_intro; auto.
      + destruct (do_save_numbering s C L) as [(F & V & W)|(NE & V & W)].
        * destruct (contig_cases s C) as [(_ & _ & _ & _ & _ & W1 & W2)|(NE & _)]; [|congruence].
          apply forest_ok_snoc; auto. intros NE. congruence.
        * destruct (contig_range s OK NE) as (R1 & R2 & _).
          apply forest_ok_snoc; auto; try lia.
      + right. rewrite (lookup_snoc _ _ _ _ L), Z.eqb_refl. reflexivity.
  Qed.

  Theorem step_contig s o : contig s -> in_contract s o -> contig (fst (step H s o)).
  Proof.
    intros C IC. pose proof C as (OK & VL & IV0 & IV).
    destruct o; rewrite ?step_read, ?step_get_versioned; cbn [step in_contract fst] in *; auto.
    - eapply contig_same_but_root; [apply do_set_same|exact C].
    - eapply contig_same_but_root; [apply do_remove_same|exact C].
    - apply do_save_contig, C.
    - destruct (do_reopen_spec s OK) as [(F & E)|(NE & r & L & E)]; rewrite E; cbn [fst].
      + apply contig_intro; [apply forest_ok_nil|left; repeat split; reflexivity|exact IV0|exact IV].
      + apply contig_intro; [exact OK|right; exact L|exact IV0|exact IV].
    - destruct (do_load_cases s v) as [E|[(_ & _ & E)|(tv & r & L & E)]]; rewrite E; cbn [fst]; auto.
      apply contig_intro; auto.
    - destruct (do_prune_cases s n) as [[_ E]|[_ E]]; rewrite E; cbn [fst]; auto.
      apply contig_intro; auto.
      + apply forest_ok_filter_gt, OK.
      + destruct VL as [(V & F & LS & I)|L].
        * left. rewrite F. cbn [filter]. auto.
        * right. rewrite (lookup_filter_gt_keep n _ _ IC). exact L.
    - destruct (do_lvfo_pos s v) as [E|(r & L & E)]; [lia| |]; rewrite E; cbn [fst]; auto.
      apply contig_intro; auto.
      + apply forest_ok_filter_le, OK.
      + right. rewrite lookup_filter_le, Z.leb_refl. exact L.
  Qed.

  Fixpoint run_ok (s : mstate) (ops : list op) : Prop :=
    match ops with
    | [] => True
    | o :: rest => in_contract s o /\ run_ok (fst (step H s o)) rest
    end.

  Fixpoint run_okb (s : mstate) (ops : list op) : bool :=
    match ops with
    | [] => true
    | o :: rest => in_contractb s o && run_okb (fst (step H s o)) rest
    end.

  Lemma run_okb_iff ops : forall s, run_okb s ops = true <-> run_ok s ops.
  Proof.
    induction ops as [|o ops IH]; intros s; cbn [run_okb run_ok]; [tauto|].
    rewrite andb_true_iff, in_contractb_iff, IH. tauto.
  Qed.

  Lemma run_ok_all ops : forall s, run_ok s ops <-> run_all H in_contract s ops.
  Proof.
    induction ops as [|o ops IH]; intros s; cbn [run_ok run_all]; [tauto|]. rewrite IH. tauto.
  Qed.

  Theorem run_contig ops : forall s, contig s -> run_ok s ops -> contig (fst (run H s ops)).
  Proof.
    intros s C R.
    exact (run_invariant H contig _ step_contig ops s C (proj1 (run_ok_all ops s) R)).
  Qed.

  Theorem reachable_contig iv b ops :
    init_ok iv b -> run_ok (init_state iv b) ops -> contig (fst (run H (init_state iv b) ops)).
  Proof. intros I R. apply run_contig; [apply contig_init, I|exact R]. Qed.
End WithHash.

(** ** C14: the available versions are one contiguous range and every query agrees with it *)

Theorem available_range s :
  contig s ->
  (forest s = [] /\ available s = [] /\ first_version s = 0 /\ latest_version s = 0 /\
   version s = 0) \/
  (forest s <> [] /\ 1 <= first_version s <= latest_version s /\
   init_ver s <= first_version s /\
   first_version s <= version s <= latest_version s /\
   available s = zrange (first_version s) (latest_version s)).
Proof.
  intros C. destruct (contig_cases s C) as [(V & F & _)|(NE & _ & R & _)].
  - left. unfold available, first_version, latest_version. rewrite F. auto.
  - right. destruct (contig_range s (contig_forest_ok s C) NE) as (R1 & R2 & R3). auto.
Qed.

Theorem in_range_available s v : contig s -> (In v (available s) <-> in_range s v).
Proof. intros C. exact (forest_ok_In (forest s) (init_ver s) v (contig_forest_ok s C)). Qed.

Theorem in_range_version_exists s v : contig s -> (version_exists s v = true <-> in_range s v).
Proof. intros C. rewrite version_exists_In. apply in_range_available, C. Qed.

Theorem in_range_lookup s v :
  contig s -> ((exists t, lookup v (forest s) = Some t) <-> in_range s v).
Proof. intros C. apply forest_ok_in_range, C. Qed.

Theorem out_of_range_lookup s v : contig s -> (lookup v (forest s) = None <-> ~ in_range s v).
Proof. intros C. apply forest_ok_out_of_range, C. Qed.

Lemma in_range_pos s v : contig s -> in_range s v -> 1 <= v.
Proof.
  intros C [NE R]. destruct (contig_range s (contig_forest_ok s C) NE) as (R1 & _). lia.
Qed.

Section C14.
  Variable H : bytes -> bytes.

  (** GetImmutable / the reads on a committed version *)
  Theorem read_version_in_range s v :
    contig s -> in_range s v ->
    exists t, lookup v (forest s) = Some t /\
      (forall r, step H s (ORead (TVersion v) r) = (s, tree_read H (v + 1) t r)) /\
      (forall k, step H s (OGetVersioned k v) =
                 (s, XBytes (match t with Some n => snd (get n k) | None => None end))).
  Proof.
    intros C R. destruct (proj2 (in_range_lookup s v C) R) as [t L]. exists t.
    split; [exact L|]. split; intros x; cbn [step]; rewrite L; [reflexivity|].
    destruct t; reflexivity.
  Qed.

  Theorem read_version_out_of_range s v :
    contig s -> ~ in_range s v ->
    (forall r, step H s (ORead (TVersion v) r) = (s, XErr)) /\
    (forall k, step H s (OGetVersioned k v) = (s, XBytes None)).
  Proof.
    intros C R. apply (out_of_range_lookup s v C) in R.
    split; intros x; cbn [step]; rewrite R; reflexivity.
  Qed.

  Theorem version_exists_step s v :
    contig s ->
    exists b, step H s (OVersionExists v) = (s, XBool b) /\ (b = true <-> in_range s v).
  Proof.
    intros C. exists (version_exists s v). split; [reflexivity|]. apply in_range_version_exists, C.
  Qed.

  Theorem latest_available_step s :
    contig s ->
    step H s OLatest = (s, XInt (latest_version s)) /\
    step H s OAvailable =
      (s, XInts (if list_eq_dec Z.eq_dec (available s) [] then []
                 else zrange (first_version s) (latest_version s))).
  Proof.
    intros C. split; [reflexivity|]. cbn [step].
    destruct (available_range s C) as [(_ & A & _)|(NE & _ & _ & _ & A)].
    - rewrite A. reflexivity.
    - destruct (list_eq_dec Z.eq_dec (available s) []) as [E|_]; [|rewrite A; reflexivity].
      exfalso. apply NE. unfold available in E. destruct (forest s); [reflexivity|discriminate].
  Qed.

  Theorem load_in_range s v :
    contig s -> in_range s v ->
    exists t, lookup v (forest s) = Some t /\
      step H s (OLoad v) =
        (MState t v t (forest s) (init_ver s) (init_set s) (init_opt s), XInt (latest_version s)).
  Proof.
    intros C R. pose proof (in_range_pos s v C R) as P. cbn [step].
    rewrite (do_load_nonempty s v v (contig_forest_ok s C) (proj1 R)) by lia.
    destruct (proj2 (in_range_lookup s v C) R) as [t L]. rewrite L. eauto.
  Qed.

  Theorem load_latest s v :
    contig s -> v <= 0 ->
    (forest s = [] /\ step H s (OLoad v) = (s, XInt 0)) \/
    (forest s <> [] /\ exists t, lookup (latest_version s) (forest s) = Some t /\
      step H s (OLoad v) =
        (MState t (latest_version s) t (forest s) (init_ver s) (init_set s) (init_opt s),
         XInt (latest_version s))).
  Proof.
    intros C P. cbn [step]. destruct (nil_or_not (forest s)) as [E|NE].
    - left. split; [exact E|]. rewrite (do_load_empty s v E).
      replace (v <=? 0) with true by lia. reflexivity.
    - right. split; [exact NE|].
      rewrite (do_load_nonempty s v (latest_version s) (contig_forest_ok s C) NE) by (reflexivity || lia).
      destruct (lookup_latest s (contig_forest_ok s C) NE) as [t L]. rewrite L. eauto.
  Qed.

  Theorem load_out_of_range s v :
    contig s -> 0 < v -> ~ in_range s v -> step H s (OLoad v) = (s, XErr).
  Proof.
    intros C P R. cbn [step]. destruct (nil_or_not (forest s)) as [E|NE].
    - rewrite (do_load_empty s v E). replace (v <=? 0) with false by lia. reflexivity.
    - rewrite (do_load_nonempty s v v (contig_forest_ok s C) NE) by lia.
      rewrite (proj2 (out_of_range_lookup s v C) R). reflexivity.
  Qed.

  (** a failed load / query leaves the tree usable: the state is literally unchanged, so in
      particular it still satisfies [contig] and every later step behaves as before *)
  Corollary failed_queries_harmless s v :
    contig s -> 0 < v -> ~ in_range s v ->
    fst (step H s (OLoad v)) = s /\
    (forall r, fst (step H s (ORead (TVersion v) r)) = s) /\
    (forall k, fst (step H s (OGetVersioned k v)) = s) /\
    fst (step H s (OVersionExists v)) = s.
  Proof.
    intros C P R. rewrite (load_out_of_range s v C P R).
    destruct (read_version_out_of_range s v C R) as [A B].
    repeat split; intros; rewrite ?A, ?B; reflexivity.
  Qed.

  (** Commit numbering: a commit that creates a version creates the successor of the latest one,
      or the initial version / 1 on an empty store; the range is extended at the end. *)
  Theorem save_new_version s :
    contig s -> lookup (working_version s) (forest s) = None ->
    let wv := working_version s in
    exists r',
      oelems r' = oelems (root s) /\
      do_save H s =
        (MState r' wv r' (forest s ++ [(wv, r')]) (init_ver s) false (init_opt s),
         XPair (XBytes (Some (root_hash H wv r'))) (XInt wv)) /\
      ((forest s = [] /\ wv = (if init_opt s then init_ver s else 1)) \/
       (forest s <> [] /\ version s = latest_version s /\ wv = latest_version s + 1)) /\
      available (fst (do_save H s)) = available s ++ [wv] /\
      latest_version (fst (do_save H s)) = wv /\
      contig (fst (do_save H s)).
  Proof.
    intros C L wv. destruct (do_save_new H s L) as (r' & El & E). exists r'.
    split; [exact El|]. split; [exact E|]. split.
    - destruct (do_save_numbering s C L) as [(F & V & W)|(NE & V & W)]; [left|right]; auto.
    - split; [|split].
      + rewrite E. unfold available. cbn [fst forest]. rewrite map_app. reflexivity.
      + rewrite E. unfold latest_version. cbn [fst forest]. apply latest_snoc.
      + apply do_save_contig, C.
  Qed.

  (** SaveVersion creates a version exactly when the working version is outside the range;
      inside it the commit is an overwrite, settled by [MTreeFacts.save_existing_sharp]. *)
  Theorem save_cases s :
    contig s ->
    let wv := working_version s in
    (~ in_range s wv /\ lookup wv (forest s) = None) \/
    (in_range s wv /\ exists e, lookup wv (forest s) = Some e).
  Proof.
    intros C wv. destruct (lookup wv (forest s)) as [e|] eqn:L.
    - right. split; [|eauto]. apply (in_range_lookup s wv C). eauto.
    - left. split; [|reflexivity]. apply (out_of_range_lookup s wv C). exact L.
  Qed.

  (** Reopening: the retained range is unchanged and the latest version is loaded. *)
  Theorem reopen_spec s :
    contig s ->
    let s' := fst (do_reopen s) in
    step H s OReopen = (s', XOk) /\
    forest s' = forest s /\ available s' = available s /\
    first_version s' = first_version s /\ latest_version s' = latest_version s /\
    init_ver s' = init_ver s /\ init_opt s' = init_opt s /\ init_set s' = init_opt s /\
    version s' = latest_version s /\ root s' = last_saved s' /\
    (forest s = [] -> root s' = None) /\
    (forest s <> [] -> lookup (latest_version s) (forest s) = Some (root s')) /\
    contig s'.
  Proof.
    intros C s'. assert (C' : contig s') by exact (step_contig H s OReopen C I).
    cbn [step]. unfold s' in *. clear s'.
    destruct (do_reopen_spec s (contig_forest_ok s C)) as [(F & E)|(NE & r & L & E)]; rewrite E in *;
      cbn [fst]; unfold available, first_version, latest_version;
      cbn [root version last_saved forest init_ver init_set init_opt].
    - rewrite F. cbn [fold_left].
      repeat match goal with |- _ /\ _ => split end; auto. intros N. congruence.
    - repeat match goal with |- _ /\ _ => split end; auto. intros N. congruence.
  Qed.
End C14.

(** ** C09: rollback and LoadVersionForOverwriting *)

Lemma first_of_hd {A} (f : list (Z * A)) : first_of f = hd 0 (map fst f).
Proof. destruct f as [|[w a] f]; reflexivity. Qed.

Lemma range_of_keys {A} (f : list (Z * A)) lo hi :
  lo <= hi -> map fst f = zrange lo hi -> first_of f = lo /\ latest_of f = hi.
Proof.
  intros L E. unfold latest_of. rewrite fold_latest_last, first_of_hd, E. unfold zrange.
  replace (Z.to_nat (hi - lo + 1)) with (S (Z.to_nat (hi - lo))) by lia.
  split; [reflexivity|]. rewrite zseq_last. lia.
Qed.

Definition root_only (o : op) : bool :=
  match o with
  | OSet _ _ | OSetNil _ | ORemove _ | ORead _ _ | OGetVersioned _ _ | OVersionExists _
  | OLatest | OAvailable | OWorkingHash | OWorkingVersion | OHash => true
  | _ => false
  end.

(** operations allowed after the base state of [lvfo_equals_history_ended_at_v]: no pruning,
    no rollback below [v] *)
Definition no_prune_above (v : Z) (o : op) : bool :=
  match o with
  | OPrune _ => false
  | OLvfo w => v <=? w
  | _ => true
  end.

Definition set_init_set (s : mstate) (b : bool) : mstate :=
  MState (root s) (version s) (last_saved s) (forest s) (init_ver s) b (init_opt s).

(** the state right after committing (or loading for overwriting) the latest version [v] *)
Definition base_state (s : mstate) (v : Z) : Prop :=
  contig s /\ 1 <= v /\ version s = v /\ latest_version s = v /\ root s = last_saved s.

Section C09.
  Variable H : bytes -> bytes.

  (** Rollback: the working tree becomes the last committed tree and nothing else moves; under
      [contig] that tree is the retained tree of [version s] (the empty tree on an empty
      store), the state equals the one LoadVersion(version s) produces, and every read of the
      working tree coincides with the same read of the committed version. *)
  Theorem rollback_is_last_saved s :
    contig s ->
    let s' := fst (step H s ORollback) in
    snd (step H s ORollback) = XOk /\
    root s' = last_saved s /\ same_but_root s s' /\ contig s' /\
    (version s = 0 -> root s' = None /\ forest s' = []) /\
    (version s <> 0 ->
       lookup (version s) (forest s') = Some (root s') /\
       s' = fst (step H s (OLoad (version s))) /\
       working_version s' = version s + 1 /\
       forall r, step H s' (ORead TWorking r) = step H s' (ORead (TVersion (version s)) r)).
  Proof.
    intros C s'.
    assert (SB : same_but_root s s') by (unfold same_but_root, s'; cbn; tauto).
    pose proof (contig_same_but_root _ _ SB C) as C'.
    split; [reflexivity|].
    destruct (contig_cases s C) as [(V & F & LS & _)|(NE & L & R & P & W)].
    - assert (Rt : root s' = None) by (unfold s'; cbn [step fst root]; rewrite V; reflexivity).
      split; [rewrite LS; exact Rt|]. split; [exact SB|]. split; [exact C'|].
      split; [intros _; split; [exact Rt|exact F]|]. intros N. congruence.
    - assert (Pz : (0 <? version s) = true) by lia.
      assert (Rt : root s' = last_saved s) by (unfold s'; cbn [step fst root]; rewrite Pz; reflexivity).
      assert (W' : working_version s' = version s + 1).
      { apply (working_version_succ s'). change (version s <> 0). lia. }
      split; [exact Rt|]. split; [exact SB|]. split; [exact C'|]. split; [lia|]. intros _.
      split; [rewrite Rt; exact L|]. split; [|split; [exact W'|]].
      + destruct (load_in_range H s (version s) C (conj NE R)) as (t & L' & E).
        rewrite E. unfold s'. cbn [step fst]. rewrite Pz. congruence.
      + intros r. cbn [step]. change (forest s') with (forest s). rewrite L, W', Rt. reflexivity.
  Qed.

  (** Discarding uncommitted changes returns exactly to the last committed state: whatever
      writes and reads happened since, rollback restores the state bit for bit. *)
  Theorem rollback_restores s0 ops :
    contig s0 -> root s0 = last_saved s0 -> forallb root_only ops = true ->
    step H (fst (run H s0 ops)) ORollback = (s0, XOk).
  Proof.
    intros C R RO.
    assert (Cl : clean s0).
    { unfold clean. rewrite R.
      destruct (contig_cases s0 C) as [(V & _ & LS & _)|(_ & _ & Rg & P & _)].
      - rewrite V, LS. reflexivity.
      - replace (0 <? version s0) with true by lia. reflexivity. }
    assert (RO' : forallb HashFacts.root_only ops = true).
    { rewrite forallb_forall in *. intros o Io. rewrite <- (RO o Io). destruct o; reflexivity. }
    change (step H ?s ORollback) with (fst (step H s ORollback), XOk). f_equal.
    apply (rollback_same_but_root H s0 _ Cl), run_root_only, RO'.
  Qed.

  (** LoadVersionForOverwriting(v) removes every version greater than [v] and nothing else. *)
  Theorem lvfo_removes_exactly s v :
    contig s -> in_range s v ->
    let s' := fst (step H s (OLvfo v)) in
    exists t,
      lookup v (forest s) = Some t /\
      step H s (OLvfo v) =
        (MState t v t (filter (fun p => fst p <=? v) (forest s))
                (init_ver s) (init_set s) (init_opt s), XOk) /\
      (forall w, w <= v -> lookup w (forest s') = lookup w (forest s)) /\
      (forall w, v < w -> lookup w (forest s') = None) /\
      first_version s' = first_version s /\ latest_version s' = v /\
      available s' = zrange (first_version s) v /\
      contig s'.
  Proof.
    intros C IR s'. pose proof (in_range_pos s v C IR) as P.
    assert (C' : contig s') by (apply step_contig; assumption).
    destruct (load_in_range H s v C IR) as (t & L & E). exists t.
    unfold s' in *. clear s'. cbn [step] in *. unfold do_lvfo in *. rewrite E in C' |- *.
    cbn [fst forest] in *.
    split; [exact L|]. split; [reflexivity|]. split; [|split].
    - intros w. apply lookup_filter_le_keep.
    - intros w. apply lookup_filter_le_drop.
    - destruct IR as [NE R].
      destruct (contig_range s (contig_forest_ok s C) NE) as (_ & _ & A).
      assert (A' : map fst (filter (fun p => fst p <=? v) (forest s)) = zrange (first_version s) v).
      { rewrite (map_fst_filter (fun x => x <=? v)). fold (available s). rewrite A.
        unfold zrange. rewrite filter_le_zseq. f_equal. lia. }
      destruct (range_of_keys _ _ _ (proj1 R) A') as [F' L']. auto.
  Qed.

  Theorem lvfo_out_of_range s v :
    contig s -> 0 < v -> ~ in_range s v -> step H s (OLvfo v) = (s, XErr).
  Proof.
    intros C P R. pose proof (load_out_of_range H s v C P R) as E. cbn [step] in *.
    unfold do_lvfo. rewrite E. reflexivity.
  Qed.

  (** invariant of the histories that start in the base state: the retained versions up to [v]
      are exactly those of the base state *)
  Definition extends (s1 : mstate) (v : Z) (s : mstate) : Prop :=
    contig s /\ filter (fun p => fst p <=? v) (forest s) = forest s1 /\
    init_ver s = init_ver s1 /\ init_opt s = init_opt s1.

  Lemma base_lookup s1 v :
    base_state s1 v -> lookup v (forest s1) = Some (last_saved s1) /\ forest s1 <> [].
  Proof.
    intros (C & P & V & L & R).
    destruct (contig_cases s1 C) as [(V0 & _)|(NE & L' & _)]; [lia|].
    rewrite V in L'. auto.
  Qed.

  Lemma extends_base s1 v : base_state s1 v -> extends s1 v s1.
  Proof.
    intros B. pose proof B as (C & P & V & L & R). split; [exact C|]. split; [|auto].
    apply filter_all. intros [w t] I. cbn [fst]. apply Z.leb_le.
    assert (Iw : In w (available s1)).
    { apply in_map_iff. exists (w, t). auto. }
    apply (in_range_available s1 w C) in Iw. destruct Iw as [_ Rg]. lia.
  Qed.

  Lemma extends_lookup s1 v s :
    base_state s1 v -> extends s1 v s ->
    lookup v (forest s) = Some (last_saved s1) /\ in_range s v.
  Proof.
    intros B (C & F & _). destruct (base_lookup s1 v B) as [L _].
    assert (L' : lookup v (forest s) = Some (last_saved s1)).
    { rewrite <- F, lookup_filter_le, Z.leb_refl in L. exact L. }
    split; [exact L'|]. apply (in_range_lookup s v C). eauto.
  Qed.

  Lemma extends_step s1 v s o :
    base_state s1 v -> extends s1 v s -> in_contract s o -> no_prune_above v o = true ->
    extends s1 v (fst (step H s o)).
  Proof.
    intros B E IC NP. pose proof (extends_lookup s1 v s B E) as [Lv IR].
    destruct E as (C & F & I1 & I2). destruct (step_bookkeeping H s o) as (B1 & B2 & _).
    split; [exact (step_contig H s o C IC)|]. rewrite B1, B2. split; [|auto].
    destruct (step_forest H s o) as [E|[(_ & N & E)|[(n & -> & _)|(w & -> & E)]]];
      try discriminate NP; rewrite E.
    - exact F.
    - (* a new version is above the latest one, hence above [v] *)
      rewrite filter_app. cbn [filter fst].
      destruct (do_save_numbering s C N) as [(F0 & _)|(_ & _ & W)]; [destruct IR; congruence|].
      destruct IR as [_ R].
      replace (working_version s <=? v) with false by lia.
      rewrite app_nil_r. exact F.
    - apply Z.leb_le in NP. rewrite (filter_le_le v w _ NP). exact F.
  Qed.

  Lemma extends_run s1 v ops : forall s,
    base_state s1 v -> extends s1 v s -> run_ok H s ops ->
    forallb (no_prune_above v) ops = true ->
    extends s1 v (fst (run H s ops)).
  Proof.
    intros s B E R NP.
    exact (run_invariant H (extends s1 v) _
             (fun s o E IN => extends_step s1 v s o B E (proj1 IN) (proj2 IN)) ops s E
             (run_all_and H _ _ ops s (proj1 (run_ok_all H ops s) R) (run_all_forallb H _ ops s NP))).
  Qed.

  (** THE theorem: whatever happened after the base state (commits, overwrites, loads, reopens,
      rollbacks to later versions), LoadVersionForOverwriting(v) restores the base state in
      every field except the [initialVersionSet] flag, which keeps its current value. *)
  Theorem lvfo_equals_history_ended_at_v s1 v ops :
    base_state s1 v -> run_ok H s1 ops -> forallb (no_prune_above v) ops = true ->
    let s2 := fst (run H s1 ops) in
    step H s2 (OLvfo v) = (set_init_set s1 (init_set s2), XOk).
  Proof.
    intros B R NP s2.
    pose proof (extends_run s1 v ops s1 B (extends_base s1 v B) R NP) as E. fold s2 in E.
    destruct (extends_lookup s1 v s2 B E) as [L IR]. destruct E as (C & F & I1 & I2).
    destruct (lvfo_removes_exactly s2 v C IR) as (t & L' & E' & _).
    rewrite E'. rewrite L in L'. inversion L'; subst t. rewrite F, I1, I2.
    destruct B as (_ & _ & V & _ & Rt). unfold set_init_set. rewrite Rt, V. reflexivity.
  Qed.

  (** hence every future of the rolled-back tree is the future of the tree whose history
      ended at [v] (outputs and states), for all continuations *)
  Corollary lvfo_same_future s1 v ops ops' :
    base_state s1 v -> run_ok H s1 ops -> forallb (no_prune_above v) ops = true ->
    let s2 := fst (run H s1 ops) in
    run H (fst (step H s2 (OLvfo v))) ops' = run H (set_init_set s1 (init_set s2)) ops'.
  Proof.
    intros B R NP s2. unfold s2. rewrite (lvfo_equals_history_ended_at_v s1 v ops B R NP).
    reflexivity.
  Qed.
End C09.

(** ** C04: pruning *)
Lemma latest_filter_gt {A} n (f : list (Z * A)) :
  n < latest_of f -> latest_of (filter (fun p => n <? fst p) f) = latest_of f.
Proof.
  unfold latest_of. destruct f as [|p f] using rev_ind; [reflexivity|].
  rewrite fold_left_app. cbn [fold_left]. intros L.
  rewrite filter_app. cbn [filter].
  replace (n <? fst p) with true by lia.
  rewrite fold_left_app. reflexivity.
Qed.

Section C04.
  Variable H : bytes -> bytes.

  (** A request that would delete the latest version is rejected and has no effect. *)
  Theorem prune_rejects_latest s n :
    latest_version s <= n -> step H s (OPrune n) = (s, XErr).
  Proof.
    intros L. cbn [step]. destruct (do_prune_cases s n) as [[_ E]|[C _]]; [exact E|lia].
  Qed.

  (** Otherwise exactly the versions <= n disappear; every later version keeps the very same
      tree value; the working tree and the bookkeeping fields are untouched. *)
  Theorem prune_keeps_later_versions s n :
    n < latest_version s ->
    let s' := fst (step H s (OPrune n)) in
    step H s (OPrune n) =
      (MState (root s) (version s) (last_saved s) (filter (fun p => n <? fst p) (forest s))
              (init_ver s) (init_set s) (init_opt s), XOk) /\
    (forall v, n < v -> lookup v (forest s') = lookup v (forest s)) /\
    (forall v, v <= n -> lookup v (forest s') = None) /\
    root s' = root s /\ version s' = version s /\ last_saved s' = last_saved s /\
    init_ver s' = init_ver s /\ init_set s' = init_set s /\ init_opt s' = init_opt s /\
    working_version s' = working_version s /\
    latest_version s' = latest_version s.
  Proof.
    intros L s'. unfold s'. clear s'. cbn [step].
    destruct (do_prune_cases s n) as [[C _]|[_ E]]; [lia|]. rewrite E. cbn [fst].
    split; [reflexivity|]. split; [|split].
    - intros v. apply lookup_filter_gt_keep.
    - intros v. apply lookup_filter_gt_drop.
    - repeat split. unfold latest_version. cbn [forest]. apply (latest_filter_gt n (forest s)), L.
  Qed.

  (** consequently every read of a later version gives the same answer (contents, root hash,
      every query), and every read of a deleted version fails *)
  Theorem prune_reads_unchanged s n v :
    n < latest_version s -> n < v ->
    let s' := fst (step H s (OPrune n)) in
    (forall r, snd (step H s' (ORead (TVersion v) r)) = snd (step H s (ORead (TVersion v) r))) /\
    (forall k, snd (step H s' (OGetVersioned k v)) = snd (step H s (OGetVersioned k v))) /\
    snd (step H s' (OVersionExists v)) = snd (step H s (OVersionExists v)).
  Proof.
    intros L Hv s'. destruct (prune_keeps_later_versions s n L) as (_ & K & _). fold s' in K.
    specialize (K v Hv). split; [|split].
    - intros r. cbn [step]. rewrite K. destruct (lookup v (forest s)); reflexivity.
    - intros k. cbn [step]. rewrite K. destruct (lookup v (forest s)) as [[t|]|]; reflexivity.
    - cbn [step snd]. unfold version_exists. rewrite K. reflexivity.
  Qed.

  Theorem prune_deleted_unavailable s n v :
    n < latest_version s -> v <= n ->
    let s' := fst (step H s (OPrune n)) in
    (forall r, step H s' (ORead (TVersion v) r) = (s', XErr)) /\
    (forall k, step H s' (OGetVersioned k v) = (s', XBytes None)) /\
    step H s' (OVersionExists v) = (s', XBool false) /\
    ~ In v (available s').
  Proof.
    intros L Hv s'. destruct (prune_keeps_later_versions s n L) as (_ & _ & K & _). fold s' in K.
    specialize (K v Hv). split; [|split; [|split]].
    - intros r. cbn [step]. rewrite K. reflexivity.
    - intros k. cbn [step]. rewrite K. reflexivity.
    - cbn [step]. unfold version_exists. rewrite K. reflexivity.
    - apply lookup_None, K.
  Qed.

  Theorem prune_working_unchanged s n :
    n < latest_version s ->
    let s' := fst (step H s (OPrune n)) in
    (forall r, snd (step H s' (ORead TWorking r)) = snd (step H s (ORead TWorking r))) /\
    snd (step H s' OWorkingHash) = snd (step H s OWorkingHash) /\
    snd (step H s' OHash) = snd (step H s OHash) /\
    snd (step H s' OLatest) = snd (step H s OLatest).
  Proof.
    intros L s'.
    destruct (prune_keeps_later_versions s n L) as (_ & _ & _ & E1 & E2 & E3 & _ & _ & _ & E4 & E5).
    fold s' in E1, E2, E3, E4, E5. cbn [step snd]. rewrite E1, E2, E3, E4, E5. auto.
  Qed.

  (** versions that share their whole tree with a deleted version (commits without writes) and
      empty versions survive unchanged: the retained value is the identical [option node] *)
  Corollary prune_keeps_shared_and_empty s n v1 v2 t :
    n < latest_version s -> v1 <= n < v2 ->
    lookup v1 (forest s) = Some t -> lookup v2 (forest s) = Some t ->
    let s' := fst (step H s (OPrune n)) in
    lookup v1 (forest s') = None /\ lookup v2 (forest s') = Some t /\
    forall r, step H s' (ORead (TVersion v2) r) = (s', tree_read H (v2 + 1) t r).
  Proof.
    intros L [V1 V2] L1 L2 s'.
    destruct (prune_keeps_later_versions s n L) as (_ & K1 & K2 & _). fold s' in K1, K2.
    split; [apply K2, V1|]. split; [rewrite (K1 v2 V2); exact L2|].
    intros r. cbn [step]. rewrite (K1 v2 V2), L2. reflexivity.
  Qed.

  Theorem prune_range s n :
    contig s -> forest s <> [] -> n < version s ->
    let s' := fst (step H s (OPrune n)) in
    snd (step H s (OPrune n)) = XOk /\
    first_version s' = Z.max (first_version s) (n + 1) /\
    latest_version s' = latest_version s /\
    available s' = zrange (Z.max (first_version s) (n + 1)) (latest_version s) /\
    version s' = version s /\ in_range s' (version s') /\
    contig s'.
  Proof.
    intros C NE Hn s'. assert (C' : contig s') by (apply step_contig; assumption).
    destruct (contig_cases s C) as [(_ & F & _)|(_ & _ & R & P & _)]; [congruence|].
    assert (L : n < latest_version s) by lia.
    destruct (prune_keeps_later_versions s n L) as (E & _ & _ & _ & EV & _). fold s' in EV.
    destruct (contig_range s (contig_forest_ok s C) NE) as (_ & _ & A).
    assert (A' : available s' = zrange (Z.max (first_version s) (n + 1)) (latest_version s)).
    { unfold s'. rewrite E. unfold available. cbn [fst forest].
      rewrite (map_fst_filter (fun x => n <? x)). fold (available s). rewrite A.
      unfold zrange. rewrite filter_gt_zseq. f_equal. lia. }
    assert (LE : Z.max (first_version s) (n + 1) <= latest_version s) by lia.
    destruct (range_of_keys (forest s') _ _ LE A') as [F' L'].
    refine (conj _ (conj F' (conj L' (conj A' (conj EV (conj _ C')))))).
    - rewrite E. reflexivity.
    - apply (in_range_available s' _ C'). rewrite A', In_zrange, EV. lia.
  Qed.

  (** after a restart the pruned store still has exactly the surviving versions *)
  Theorem prune_then_reopen s n :
    contig s -> forest s <> [] -> n < version s ->
    let s' := fst (step H s (OPrune n)) in
    let s'' := fst (step H s' OReopen) in
    snd (step H s' OReopen) = XOk /\
    forest s'' = forest s' /\
    version s'' = latest_version s /\
    (forall v, n < v -> lookup v (forest s'') = lookup v (forest s)) /\
    (forall v, v <= n -> lookup v (forest s'') = None) /\
    contig s''.
  Proof.
    intros C NE Hn s' s''.
    destruct (prune_range s n C NE Hn) as (_ & _ & L' & _ & _ & _ & C'). fold s' in L', C'.
    destruct (reopen_spec H s' C') as (E & F & _ & _ & _ & _ & _ & _ & V & _ & _ & _ & C'').
    destruct (contig_cases s C) as [(_ & F0 & _)|(_ & _ & R & P & _)]; [congruence|].
    assert (L : n < latest_version s) by lia.
    destruct (prune_keeps_later_versions s n L) as (_ & K1 & K2 & _). fold s' in K1, K2.
    unfold s''. rewrite E. cbn [fst snd]. rewrite F.
    repeat match goal with |- _ /\ _ => split end; auto. congruence.
  Qed.

  Theorem prune_compose s n1 n2 :
    n1 < latest_version s -> n2 < latest_version s ->
    step H (fst (step H s (OPrune n1))) (OPrune n2) = step H s (OPrune (Z.max n1 n2)).
  Proof.
    intros L1 L2.
    destruct (prune_keeps_later_versions s n1 L1) as (E1 & _ & _ & _ & _ & _ & _ & _ & _ & _ & LL).
    assert (L2' : n2 < latest_version (fst (step H s (OPrune n1)))) by (rewrite LL; exact L2).
    destruct (prune_keeps_later_versions _ n2 L2') as (E2 & _).
    assert (L3 : Z.max n1 n2 < latest_version s) by lia.
    destruct (prune_keeps_later_versions s _ L3) as (E3 & _).
    rewrite E2, E3, E1. cbn [fst root version last_saved forest init_ver init_set init_opt].
    rewrite filter_gt_gt. reflexivity.
  Qed.
End C04.

(** ** The [initialVersionSet] flag is unobservable once a version exists *)
Lemma set_init_set_same s : set_init_set s (init_set s) = s.
Proof. destruct s; reflexivity. Qed.

Lemma do_load_upto s b v :
  do_load (set_init_set s b) v = (set_init_set (fst (do_load s v)) b, snd (do_load s v)).
Proof.
  destruct s as [r ver ls f iv a io]. unfold set_init_set, do_load, first_version, latest_version.
  cbv zeta. cbn [root version last_saved forest init_ver init_set init_opt].
  destruct ((0 <? match f with [] => 0 | (v0, _) :: _ => v0 end) &&
            (match f with [] => 0 | (v0, _) :: _ => v0 end <? iv)); [reflexivity|].
  destruct (fold_left (fun _ p => fst p) f 0 <? v); [reflexivity|].
  destruct f as [|p f]; [destruct (v <=? 0); reflexivity|].
  destruct (lookup _ (p :: f)); reflexivity.
Qed.

Section UpToInitSet.
  Variable H : bytes -> bytes.

  Lemma working_version_upto s b :
    version s <> 0 -> working_version (set_init_set s b) = working_version s.
  Proof. intros V. rewrite !working_version_succ by exact V. reflexivity. Qed.

  (** The flag is read by [working_version] only, and only at version 0; SaveVersion clears it
      and reopening resets it from the option. *)
  Lemma step_upto_init_set s b o :
    version s <> 0 ->
    exists b', step H (set_init_set s b) o = (set_init_set (fst (step H s o)) b', snd (step H s o)).
  Proof.
    intros V. pose proof (working_version_upto s b V) as W.
    destruct o as [k x|k|k| | | |w|n|w|t q|k w|w| | | | | ]; cbn [step]; rewrite ?W;
      try (exists b; reflexivity).
    - unfold do_set. change (root (set_init_set s b)) with (root s).
      destruct (root s) as [n|]; [destruct (set n k x)|]; exists b; reflexivity.
    - unfold do_remove. cbv zeta. change (root (set_init_set s b)) with (root s).
      destruct (root s) as [n|]; [destruct (rm_val (remove n k))|]; exists b; reflexivity.
    - unfold do_save, version_exists. cbv zeta. rewrite W.
      change (forest (set_init_set s b)) with (forest s). change (root (set_init_set s b)) with (root s).
      destruct (lookup (working_version s) (forest s)) as [e|]; [|exists false; reflexivity].
      match goal with |- context [if ?c then _ else _] => destruct c end; exists false; reflexivity.
    - unfold do_reopen. cbv zeta. unfold set_init_set at 1 2 3.
      cbn [root version last_saved forest init_ver init_set init_opt].
      destruct (do_load _ 0) as [s' x]. exists (init_set s').
      destruct x; cbn [fst snd]; rewrite set_init_set_same; reflexivity.
    - exists b. apply do_load_upto.
    - unfold do_prune. change (latest_version (set_init_set s b)) with (latest_version s).
      destruct (_ <=? n); exists b; reflexivity.
    - unfold do_lvfo. rewrite do_load_upto. destruct (do_load s w) as [s' x]. cbn [fst snd].
      exists b. destruct x; reflexivity.
    - exists b. destruct t as [|w]; [reflexivity|].
      change (forest (set_init_set s b)) with (forest s). destruct (lookup w (forest s)); reflexivity.
    - exists b. change (forest (set_init_set s b)) with (forest s).
      destruct (lookup w (forest s)) as [[n|]|]; reflexivity.
  Qed.

  (** under the contract a non-empty store never becomes empty again *)
  Lemma step_nonempty s o :
    contig s -> in_contract s o -> forest s <> [] -> forest (fst (step H s o)) <> [].
  Proof.
    intros C IC NE.
    destruct (contig_cases s C) as [(_ & F & _)|(_ & L & R & P & _)]; [congruence|].
    destruct (step_forest H s o) as [E|[(_ & _ & E)|[(n & -> & E)|(w & -> & _)]]];
      cbn [in_contract] in IC.
    - rewrite E. exact NE.
    - rewrite E. intros A. apply app_eq_nil in A. destruct A as [_ A]. discriminate A.
    - (* the version the working tree is based on survives *)
      intros A. pose proof (lookup_filter_gt_keep n (version s) (forest s) IC) as K.
      rewrite <- E, A, L in K. discriminate K.
    - cbn [step]. destruct (do_lvfo_pos s w) as [E|(r & Lw & E)]; [lia| |]; rewrite E; [exact NE|].
      cbn [fst forest]. intros A.
      pose proof (lookup_filter_le w w (forest s)) as K. rewrite A, Z.leb_refl, Lw in K.
      discriminate K.
  Qed.

  Theorem run_upto_init_set ops : forall s b,
    contig s -> forest s <> [] -> run_ok H s ops ->
    snd (run H (set_init_set s b) ops) = snd (run H s ops) /\
    exists b', fst (run H (set_init_set s b) ops) = set_init_set (fst (run H s ops)) b'.
  Proof.
    induction ops as [|o ops IH]; intros s b C NE R.
    - cbn [run fst snd]. split; [reflexivity|]. exists b. reflexivity.
    - destruct R as [IC R]. rewrite !run_cons. cbn [fst snd].
      assert (V : version s <> 0).
      { destruct (contig_cases s C) as [(_ & F & _)|(_ & _ & Rg & P & _)]; [congruence|lia]. }
      destruct (step_upto_init_set s b o V) as [b1 E]. rewrite E. cbn [fst snd].
      destruct (IH (fst (step H s o)) b1 (step_contig H s o C IC) (step_nonempty s o C IC NE) R)
        as [O [b' S]].
      rewrite O, S. split; [reflexivity|]. exists b'. reflexivity.
  Qed.

  (** C09, observational form: after LoadVersionForOverwriting(v) every in-contract future
      produces exactly the outputs it produces from the base state. *)
  Theorem lvfo_indistinguishable s1 v ops ops' :
    base_state s1 v -> run_ok H s1 ops -> forallb (no_prune_above v) ops = true ->
    run_ok H s1 ops' ->
    let s2 := fst (run H s1 ops) in
    snd (step H s2 (OLvfo v)) = XOk /\
    snd (run H (fst (step H s2 (OLvfo v))) ops') = snd (run H s1 ops') /\
    exists b', fst (run H (fst (step H s2 (OLvfo v))) ops') = set_init_set (fst (run H s1 ops')) b'.
  Proof.
    intros B R NP R' s2. unfold s2. rewrite (lvfo_equals_history_ended_at_v H s1 v ops B R NP).
    cbn [fst snd]. split; [reflexivity|].
    destruct (base_lookup s1 v B) as [_ NE]. destruct B as (C & _).
    apply run_upto_init_set; assumption.
  Qed.

  Corollary lvfo_restores_exactly s1 v ops :
    base_state s1 v -> run_ok H s1 ops -> forallb (no_prune_above v) ops = true ->
    init_set (fst (run H s1 ops)) = init_set s1 ->
    step H (fst (run H s1 ops)) (OLvfo v) = (s1, XOk).
  Proof.
    intros B R NP I. rewrite (lvfo_equals_history_ended_at_v H s1 v ops B R NP), I, set_init_set_same.
    reflexivity.
  Qed.
End UpToInitSet.

(** ** The degenerate "initial version 0" is outside the contract: the first commit is
    version 0; after reopening, the working version is 0 again instead of 1, and the next
    commit (with different contents) is rejected as a conflicting overwrite of version 0. *)
Example initial_version_zero_refuted :
  exists ops,
    run_okb (fun b => b) (init_state 0 true) ops = true /\
    snd (run (fun b => b) (init_state 0 true) ops) =
      [XBool false; XPair (XBytes (Some [0; 2; 0; 1; 1; 32; 1]%N)) (XInt 0);   (* commit: version 0 *)
       XOk; XInt 0;                                                           (* reopen; working version 0 *)
       XBool false; XErr;                                                     (* second commit fails *)
       XInts [0]; XInt 0] /\
    ~ contig (fst (run (fun b => b) (init_state 0 true) ops)).
Proof.
  exists [OSet [1%N] [1%N]; OSave; OReopen; OWorkingVersion; OSet [2%N] [2%N]; OSave;
          OAvailable; OLatest].
  split; [vm_compute; reflexivity|]. split; [vm_compute; reflexivity|].
  intros ((_ & F) & _). vm_compute in F. inversion F as [|x l [P _] _]. apply P. reflexivity.
Qed.

(** ** History level: every in-contract history keeps one contiguous range *)
Theorem reachable_range (H : bytes -> bytes) iv b ops :
  init_ok iv b -> run_ok H (init_state iv b) ops ->
  let s := fst (run H (init_state iv b) ops) in
  contig s /\
  ((forest s = [] /\ available s = [] /\ first_version s = 0 /\ latest_version s = 0 /\
    version s = 0) \/
   (forest s <> [] /\ 1 <= first_version s <= latest_version s /\
    init_ver s <= first_version s /\
    first_version s <= version s <= latest_version s /\
    available s = zrange (first_version s) (latest_version s))).
Proof.
  intros I R s. pose proof (reachable_contig H iv b ops I R) as C. fold s in C.
  split; [exact C|apply available_range, C].
Qed.

(** ** Why the contract says [1 <= v] for LoadVersionForOverwriting: target 0 means "load the
    latest version" to LoadVersion, and then every version > 0 is deleted: the store is left
    with no version at all while the working tree is still based on version 2.  (Pruning the
    version the working tree is based on breaks the order of the retained versions, see
    [MTreeFacts.versions_not_ascending].) *)
Example lvfo_zero_refuted :
  let ops := [OSet [1%N] [1%N]; OSave; OSet [2%N] [2%N]; OSave; OLvfo 0; OAvailable; OWorkingVersion] in
  let r := run (fun b => b) (init_state 0 false) ops in
  skipn 4 (snd r) = [XOk; XInts []; XInt 3] /\ version (fst r) = 2 /\ forest (fst r) = [] /\
  ~ contig (fst r).
Proof.
  cbv zeta. split; [vm_compute; reflexivity|]. split; [vm_compute; reflexivity|].
  split; [vm_compute; reflexivity|].
  intros (_ & [(V & _)|L] & _); [vm_compute in V|vm_compute in L]; discriminate.
Qed.
