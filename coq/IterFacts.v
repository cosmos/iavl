(** The iterators of Iter.v deliver the range selection [range_spec] of the sorted contents, in
    order, and stop where the callback says: (a) the stack traversal of node.go, (b) the Iterator
    wrapper, (c) the FastIterator over the persisted index, (d) the UnsavedFastIterator, which
    merges the index with the uncommitted additions and removals.  The specification-side
    functions [upto] (stop callbacks), [apply_overlay] (the state (d) must present) and [merge]
    are defined here, next to their proofs. *)
From Coq Require Import Sorted.
From IAVL Require Import Bytes Tree VMap ListFacts VMapFacts TreeFacts Iter.
Local Open Scope Z_scope.

(** * Sequences sorted by key in a direction *)
Definition kbefore (asc : bool) (a b : bytes) : Prop := if asc then a <b b else b <b a.

Fixpoint dsorted (asc : bool) (l : kvs) : Prop :=
  match l with
  | [] => True
  | (k, _) :: rest => Forall (fun p => kbefore asc k (fst p)) rest /\ dsorted asc rest
  end.

Lemma dsorted_true l : dsorted true l <-> sorted l.
Proof. induction l as [|[k v] l IH]; cbn [dsorted sorted]; [tauto|]. rewrite IH. reflexivity. Qed.

Lemma kbefore_irrefl asc a : ~ kbefore asc a a.
Proof. destruct asc; cbn; intro; border. Qed.
Lemma kbefore_trans asc a b c : kbefore asc a b -> kbefore asc b c -> kbefore asc a c.
Proof. destruct asc; cbn; intros; border. Qed.
Lemma kbefore_total asc a b : kbefore asc a b \/ a = b \/ kbefore asc b a.
Proof.
  destruct asc; cbn; bcases a b; auto.
Qed.

(** [dsorted] is [StronglySorted] by key in the direction; what holds of every list sorted by a
    relation is taken from there *)
Lemma dsorted_StronglySorted asc l :
  dsorted asc l <-> StronglySorted (fun p q => kbefore asc (fst p) (fst q)) l.
Proof.
  induction l as [|[k v] l IH]; cbn [dsorted].
  - split; [constructor|trivial].
  - rewrite IH. split.
    + intros [F S]. constructor; assumption.
    + intros S. apply StronglySorted_inv in S. tauto.
Qed.

Lemma dsorted_ext asc l1 l2 :
  dsorted asc l1 -> dsorted asc l2 -> (forall p, In p l1 <-> In p l2) -> l1 = l2.
Proof.
  intros S1 S2.
  apply (sorted_same_elements (fun p q => kbefore asc (fst p) (fst q)));
    try (apply dsorted_StronglySorted; assumption).
  - intros x. apply kbefore_irrefl.
  - intros x y A B. exact (kbefore_irrefl _ _ (kbefore_trans _ _ _ _ A B)).
Qed.

Lemma dsorted_rev asc l : dsorted asc l -> dsorted (negb asc) (rev l).
Proof.
  intros S. apply dsorted_StronglySorted in S. apply dsorted_StronglySorted.
  destruct asc; exact (StronglySorted_rev _ _ S).
Qed.

Lemma dsorted_filter asc f l : dsorted asc l -> dsorted asc (filter f l).
Proof. intros S. apply dsorted_StronglySorted, StronglySorted_filter, dsorted_StronglySorted, S. Qed.

Lemma dsorted_NoDup asc l : dsorted asc l -> NoDup (map fst l).
Proof.
  induction l as [|[k v] l IH]; intros S; cbn [map]; [constructor|].
  cbn [dsorted] in S. destruct S as [F S]. constructor; auto.
  intros I. apply in_map_iff in I. destruct I as ([k' v'] & E & I). cbn in E. subst k'.
  rewrite Forall_forall in F. apply F in I. eapply kbefore_irrefl; eauto.
Qed.

Lemma range_spec_dsorted l start stop incl asc :
  sorted l -> dsorted asc (range_spec l start stop incl asc).
Proof.
  intros S. unfold range_spec. apply dsorted_true in S.
  destruct asc.
  - apply dsorted_filter, S.
  - change false with (negb true). apply dsorted_rev, dsorted_filter, S.
Qed.

Lemma range_spec_In l start stop incl asc p :
  In p (range_spec l start stop incl asc) <-> In p l /\ in_range start stop incl (fst p) = true.
Proof.
  unfold range_spec. destruct asc; [|rewrite <- in_rev]; apply filter_In.
Qed.

Lemma range_spec_length l start stop incl asc : (length (range_spec l start stop incl asc) <= length l)%nat.
Proof. unfold range_spec. destruct asc; rewrite ?rev_length; apply filter_length_le. Qed.

Fixpoint upto {A} (f : A -> bool) (l : list A) : list A * bool :=
  match l with
  | [] => ([], false)
  | x :: r => if f x then ([x], true) else let (p, s) := upto f r in (x :: p, s)
  end.

(** * (a) the traversal *)
Section Walk.
  Variables (start stop : option bytes) (asc incl post : bool).

  (** the sequence of nodes a delayed entry stands for *)
  Fixpoint walk (n : node) : list node :=
    let k := nkey n in
    let vis := start_or_after start k && before_end stop incl k in
    match n with
    | Leaf _ _ _ => if vis then [n] else []
    | Inner _ h _ _ l r =>
        if h =? 0 then (if vis then [n] else []) else
        let cl := if after_start start k then walk l else [] in
        let cr := if before_end stop incl k then walk r else [] in
        let ch := if asc then cl ++ cr else cr ++ cl in
        if post then ch ++ [n] else n :: ch
    end.

  Definition out (e : node * bool) : list node := if snd e then walk (fst e) else [fst e].
  Definition outs (st : list (node * bool)) : list node := flat_map out st.

  (* the measure: in post-order a node is popped twice, once delayed, to be expanded, and once
     as the entry pushed back for delivery, hence [2 * nodes]; the fuel has to exceed the measure
     ([next_spec]), and [tree_fuel] exceeds that of the initial stack [[(t, true)]] *)
  Definition mu_e (e : node * bool) : nat := if snd e then (2 * nodes (fst e))%nat else 1%nat.
  Definition mu (st : list (node * bool)) : nat := list_sum (map mu_e st).
  Lemma mu_cons e st : mu (e :: st) = (mu_e e + mu st)%nat.
  Proof. reflexivity. Qed.

  Definition mk_tv (st : list (node * bool)) : trav := Trav start stop asc incl post st.

  Lemma nodes_pos n : (1 <= nodes n)%nat.
  Proof. destruct n; cbn; lia. Qed.

  Lemma outs_app a b : outs (a ++ b) = outs a ++ outs b.
  Proof. unfold outs. apply flat_map_app. Qed.
  Lemma mu_app a b : mu (a ++ b) = (mu a + mu b)%nat.
  Proof. unfold mu. rewrite map_app, list_sum_app. reflexivity. Qed.

  Lemma outs_child (b : bool) n : outs (if b then [(n, true)] else []) = if b then walk n else [].
  Proof. destruct b; cbn; rewrite ?app_nil_r; reflexivity. Qed.
  Lemma mu_child (b : bool) n : (mu (if b then [(n, true)] else []) <= 2 * nodes n)%nat.
  Proof. destruct b; unfold mu, mu_e; cbn [map list_sum fold_right snd fst]; lia. Qed.

  Lemma walk_unfold n :
    walk n =
    (let k := nkey n in
     let vis := start_or_after start k && before_end stop incl k in
     if isleaf n then (if vis then [n] else []) else
     match n with
     | Leaf _ _ _ => []
     | Inner _ _ _ _ l r =>
        let cl := if after_start start k then walk l else [] in
        let cr := if before_end stop incl k then walk r else [] in
        let ch := if asc then cl ++ cr else cr ++ cl in
        if post then ch ++ [n] else n :: ch
     end).
  Proof. destruct n as [k v m|k h s m l r]; unfold isleaf; cbn [walk height nkey]; [reflexivity|]. destruct (h =? 0); reflexivity. Qed.

  (** one activation of next(): what it emits plus what the new stack stands for is what the old
      stack stood for, and the measure strictly decreases *)
  Lemma step_spec st :
    match step (mk_tv st) with
    | SEmpty => st = []
    | SEmit n tv' => exists st', tv' = mk_tv st' /\ outs st = n :: outs st' /\ (mu st' < mu st)%nat
    | SCont tv' => exists st', tv' = mk_tv st' /\ outs st = outs st' /\ (mu st' < mu st)%nat
    end.
  Proof.
    destruct st as [|[n d] rest]; [reflexivity|].
    unfold mk_tv. unfold step. cbn [tv_stack tv_start tv_stop tv_asc tv_incl tv_post].
    destruct d; cbn [negb].
    2:{ exists rest. split; [reflexivity|]. split; [reflexivity|]. rewrite mu_cons. cbn [mu_e snd]. lia. }
    unfold with_stack. cbn [tv_stack tv_start tv_stop tv_asc tv_incl tv_post].
    change (outs ((n, true) :: rest)) with (walk n ++ outs rest).
    change (mu ((n, true) :: rest)) with (2 * nodes n + mu rest)%nat.
    rewrite (walk_unfold n). cbv zeta.
    pose proof (nodes_pos n) as NP.
    destruct (isleaf n) eqn:L; cbn [negb orb].
    -
      destruct (start_or_after start (nkey n) && before_end stop incl (nkey n)) eqn:V;
        destruct post; cbn [andb negb];
        (eexists; split; [reflexivity|]; split; [reflexivity|rewrite ?mu_cons; cbn [mu_e snd]; lia]).
    - destruct n as [k v m|k h s m l r]; [unfold isleaf in L; cbn in L; discriminate|].
      cbn [nkey nodes] in *.
      generalize (after_start start k) as aS. generalize (before_end stop incl k) as bE. intros bE aS.
      pose proof (mu_child aS l) as ML. pose proof (mu_child bE r) as MR.
      destruct post; cbn [andb negb]; destruct asc;
        (eexists; split; [reflexivity|]; split;
         [ rewrite !outs_app, !outs_child; cbn [outs flat_map out snd fst app];
           rewrite <- ?app_assoc; reflexivity
         | rewrite !mu_app, ?mu_cons; cbn [mu_e snd]; lia ]).
  Qed.

  Lemma next_spec fuel : forall st,
    (mu st < fuel)%nat ->
    match next fuel (mk_tv st) with
    | (NFuel, _) => False
    | (NEnd, tv') => outs st = [] /\ tv' = mk_tv []
    | (NNode n, tv') => exists st', tv' = mk_tv st' /\ outs st = n :: outs st' /\ (mu st' < mu st)%nat
    end.
  Proof.
    induction fuel as [|f IH]; intros st Hf; [lia|].
    cbn [next]. pose proof (step_spec st) as SS.
    destruct (step (mk_tv st)) as [|n tv'|tv'].
    - subst st. split; reflexivity.
    - exact SS.
    - destruct SS as (st' & -> & EO & LT).
      specialize (IH st'). assert (Hf' : (mu st' < f)%nat) by lia. specialize (IH Hf').
      destruct (next f (mk_tv st')) as [[n| |] tv'']; auto.
      + destruct IH as (st'' & E1 & E2 & E3). exists st''. split; auto. split; [congruence|lia].
      + rewrite EO. exact IH.
  Qed.

  Lemma trav_loop_spec cb fuel n : forall st,
    (mu st < fuel)%nat -> (mu st < n)%nat ->
    trav_loop n fuel cb (mk_tv st) = Some (upto cb (outs st)).
  Proof.
    induction n as [|n IH]; intros st Hf Hn; [lia|].
    cbn [trav_loop]. pose proof (next_spec fuel st Hf) as NS.
    destruct (next fuel (mk_tv st)) as [[x| |] tv']; [| |contradiction].
    - destruct NS as (st' & -> & EO & LT). rewrite EO. cbn [upto].
      destruct (cb x); [reflexivity|].
      rewrite IH by lia. destruct (upto cb (outs st')); reflexivity.
    - destruct NS as [EO _]. rewrite EO. reflexivity.
  Qed.
End Walk.

Lemma upto_false {A} (l : list A) : upto (fun _ => false) l = (l, false).
Proof. induction l as [|x l IH]; cbn; [reflexivity|]. rewrite IH. reflexivity. Qed.

Lemma upto_prefix {A} (f : A -> bool) l : exists rest, l = fst (upto f l) ++ rest.
Proof.
  induction l as [|x l [rest IH]]; cbn [upto]; [exists []; reflexivity|].
  destruct (f x); [exists l; reflexivity|].
  destruct (upto f l) as [p s]. cbn [fst] in *. exists rest. cbn. congruence.
Qed.

Lemma upto_stopped {A} (f : A -> bool) l :
  snd (upto f l) = existsb f l /\
  (snd (upto f l) = true ->
     exists p x, fst (upto f l) = p ++ [x] /\ f x = true /\ forallb (fun y => negb (f y)) p = true) /\
  (snd (upto f l) = false -> fst (upto f l) = l /\ forallb (fun y => negb (f y)) l = true).
Proof.
  induction l as [|x l (IH1 & IH2 & IH3)]; cbn [upto existsb].
  - cbn. repeat split; auto; discriminate.
  - destruct (f x) eqn:Fx; cbn [orb].
    + cbn [fst snd]. split; [reflexivity|]. split; [|discriminate].
      intros _. exists [], x. cbn. auto.
    + destruct (upto f l) as [p s]. cbn [fst snd] in *. split; [exact IH1|]. split.
      * intros Hs. destruct (IH2 Hs) as (p' & y & -> & Fy & Fa).
        exists (x :: p'), y. cbn [app forallb]. rewrite Fx. cbn. auto.
      * intros Hs. destruct (IH3 Hs) as [-> Fa]. cbn [forallb]. rewrite Fx. cbn. auto.
Qed.

Lemma upto_map {A B} (g : A -> B) (f : B -> bool) l :
  upto f (map g l) = (map g (fst (upto (fun x => f (g x)) l)), snd (upto (fun x => f (g x)) l)).
Proof.
  induction l as [|x l IH]; cbn [map upto]; [reflexivity|].
  destruct (f (g x)); [reflexivity|]. rewrite IH.
  destruct (upto (fun x => f (g x)) l); reflexivity.
Qed.

Lemma upto_filter {A} (keep f : A -> bool) l :
  let (p, s) := upto (fun x => if keep x then f x else false) l in
  upto f (filter keep l) = (filter keep p, s).
Proof.
  induction l as [|x l IH]; cbn [upto filter]; [reflexivity|].
  destruct (keep x) eqn:K.
  - destruct (f x) eqn:Fx; cbn [upto]; rewrite Fx.
    + cbn [filter]. rewrite K. reflexivity.
    + destruct (upto (fun x => if keep x then f x else false) l) as [p s].
      rewrite IH. cbn [filter]. rewrite K. reflexivity.
  - destruct (upto (fun x => if keep x then f x else false) l) as [p s].
    cbn [filter]. rewrite K. exact IH.
Qed.

(** ** the leaves of a walk are the range selection *)
Definition sel (start stop : option bytes) (incl : bool) (l : kvs) : kvs :=
  filter (fun p => in_range start stop incl (fst p)) l.

Lemma vis_in_range start stop incl k :
  start_or_after start k && before_end stop incl k = in_range start stop incl k.
Proof.
  unfold start_or_after, after_start, before_end, in_range. f_equal.
  - destruct start as [s|]; [|reflexivity]. cbn [ob]. unfold blt, beq, ble. destruct (bcmp s k); reflexivity.
  - destruct stop as [e|]; [|destruct incl; reflexivity]. cbn [ob]. unfold blt, beq, ble.
    destruct incl; destruct (bcmp k e); reflexivity.
Qed.

Lemma sel_none_lt start stop incl l k :
  keys_lt l k -> after_start start k = false -> sel start stop incl l = [].
Proof.
  intros KL A. apply filter_none. intros [k' v'] I0. apply (proj1 (Forall_forall _ _) KL) in I0.
  unfold in_range. unfold after_start in A. destruct start as [s|]; [|discriminate]. cbn [fst] in *.
  btests. rewrite (proj2 (ble_false s k')) by border. reflexivity.
Qed.

Lemma sel_none_ge start stop incl l k :
  keys_ge l k -> before_end stop incl k = false -> sel start stop incl l = [].
Proof.
  intros KG B. apply filter_none. intros [k' v'] I0. apply (proj1 (Forall_forall _ _) KG) in I0.
  unfold in_range. unfold before_end in B. destruct stop as [e|]; [|destruct incl; discriminate].
  cbn [ob fst] in *.
  rewrite andb_false_iff. right. destruct incl.
  - apply orb_false_iff in B. destruct B as [B1 B2]. btests. apply ble_false. border.
  - btests. apply blt_false. border.
Qed.

Lemma leaves_of_app a b : leaves_of (a ++ b) = leaves_of a ++ leaves_of b.
Proof. unfold leaves_of. rewrite filter_app, map_app. reflexivity. Qed.

Lemma leaves_of_cons n l :
  leaves_of (n :: l) = if height n =? 0 then (nkey n, nval n) :: leaves_of l else leaves_of l.
Proof. unfold leaves_of. cbn [filter]. unfold isleaf. destruct (height n =? 0); reflexivity. Qed.

Lemma range_spec_app l1 l2 start stop incl asc :
  range_spec (l1 ++ l2) start stop incl asc =
  if asc then range_spec l1 start stop incl asc ++ range_spec l2 start stop incl asc
  else range_spec l2 start stop incl asc ++ range_spec l1 start stop incl asc.
Proof. unfold range_spec. rewrite filter_app. destruct asc; [reflexivity|apply rev_app_distr]. Qed.

Lemma range_spec_sel_nil l start stop incl asc :
  sel start stop incl l = [] -> range_spec l start stop incl asc = [].
Proof. unfold range_spec, sel. intros ->. destruct asc; reflexivity. Qed.

(** a subtree is skipped exactly when the bound at its root excludes all of its keys *)
Lemma walk_leaves start stop asc incl post t :
  wf t ->
  leaves_of (walk start stop asc incl post t) = range_spec (elems t) start stop incl asc.
Proof.
  intros W. induction t as [k v m|k h s m l IHl r IHr].
  - cbn [walk nkey elems]. unfold range_spec. cbn [filter fst]. rewrite vis_in_range.
    destruct (in_range start stop incl k); destruct asc; reflexivity.
  - pose proof (wf_keys_lt _ _ _ _ _ _ W) as KL. pose proof (wf_keys_ge _ _ _ _ _ _ W) as KG.
    cbn [wf] in W. destruct W as (Wl & Wr & _ & _ & _ & Hh & _).
    pose proof (height_nonneg _ Wl). pose proof (height_nonneg _ Wr).
    assert (NL : (h =? 0) = false) by (apply Z.eqb_neq; lia).
    cbn [walk nkey elems]. rewrite NL, range_spec_app.
    set (cl := if after_start start k then walk start stop asc incl post l else []).
    set (cr := if before_end stop incl k then walk start stop asc incl post r else []).
    assert (CL : leaves_of cl = range_spec (elems l) start stop incl asc).
    { unfold cl. destruct (after_start start k) eqn:A; [exact (IHl Wl)|].
      symmetry. apply range_spec_sel_nil, (sel_none_lt start stop incl _ k KL A). }
    assert (CR : leaves_of cr = range_spec (elems r) start stop incl asc).
    { unfold cr. destruct (before_end stop incl k) eqn:B; [exact (IHr Wr)|].
      symmetry. apply range_spec_sel_nil, (sel_none_ge start stop incl _ k KG B). }
    destruct post; rewrite ?leaves_of_app, ?leaves_of_cons; cbn [height leaves_of filter map];
      rewrite NL, ?app_nil_r; destruct asc; rewrite leaves_of_app, CL, CR; reflexivity.
Qed.

(** ** the tree walk delivers the range selection *)
Lemma tv_new_mk t start stop asc incl post :
  tv_new (Some t) start stop asc incl post = mk_tv start stop asc incl post [(t, true)].
Proof. reflexivity. Qed.

Lemma mu_root t : (mu [(t, true)] < tree_fuel t)%nat.
Proof. unfold tree_fuel. cbn. lia. Qed.

Theorem traverse_in_range_spec t start stop asc incl post cb :
  traverse_in_range t start stop asc incl post cb =
  Some (upto cb (walk start stop asc incl post t)).
Proof.
  unfold traverse_in_range. rewrite tv_new_mk.
  rewrite trav_loop_spec by apply mu_root. cbn [outs flat_map out snd fst]. rewrite app_nil_r. reflexivity.
Qed.

Lemma traverse_all_spec t start stop asc incl post :
  traverse_all (tree_fuel t) (tv_new (Some t) start stop asc incl post) =
  Some (walk start stop asc incl post t).
Proof.
  change (traverse_all _ _)
    with (option_map fst (traverse_in_range t start stop asc incl post (fun _ => false))).
  rewrite traverse_in_range_spec, upto_false. reflexivity.
Qed.

Lemma traverse_all_leaves t start stop incl asc post :
  wf t ->
  option_map leaves_of (traverse_all (tree_fuel t) (tv_new (Some t) start stop asc incl post))
  = Some (range_spec (elems t) start stop incl asc).
Proof.
  intros W. rewrite traverse_all_spec. cbn [option_map]. rewrite walk_leaves by exact W. reflexivity.
Qed.

Theorem iter_tree_spec t start stop incl asc :
  wf t -> iter_tree t start stop incl asc = Some (range_spec (elems t) start stop incl asc).
Proof. exact (traverse_all_leaves t start stop incl asc false). Qed.

Theorem traverse_post_leaves t start stop incl asc :
  wf t ->
  option_map leaves_of (traverse_all (tree_fuel t) (tv_new (Some t) start stop asc incl true))
  = Some (range_spec (elems t) start stop incl asc).
Proof. exact (traverse_all_leaves t start stop incl asc true). Qed.

(** ** stop callbacks: IterateRange / IterateRangeInclusive *)
Theorem iterate_range_spec t start stop asc incl fn :
  wf t ->
  iterate_range (Some t) start stop asc incl fn =
  Some (upto fn (range_spec (elems t) start stop incl asc)).
Proof.
  intros W. unfold iterate_range. rewrite traverse_in_range_spec.
  rewrite <- (walk_leaves start stop asc incl false t W).
  unfold leaves_of. rewrite upto_map.
  pose proof (upto_filter isleaf (fun n => fn (nodes_kv n)) (walk start stop asc incl false t)) as UF.
  destruct (upto (fun x => if isleaf x then fn (nodes_kv x) else false) (walk start stop asc incl false t)) as [p s].
  rewrite UF. reflexivity.
Qed.

(** * (b) the Iterator wrapper *)
Section Wrapper.
  Variables (start stop : option bytes) (asc incl post : bool).
  Notation mk := (mk_tv start stop asc incl post).
  Notation outs' := (outs start stop asc incl post).

  (** position of the Iterator: its traversal still stands for the leaves [l]; [m] bounds the
      work left (and so the fuel that is enough) *)
  Definition it_pos (it : iter) (l : kvs) (m : nat) : Prop :=
    exists st, it_t it = Some (mk st) /\ leaves_of (outs' st) = l /\ (mu st < m)%nat.

  Lemma it_pos_le it l m m' : it_pos it l m -> (m <= m')%nat -> it_pos it l m'.
  Proof. intros (st & T & L & M) Hm. exists st. repeat split; auto. lia. Qed.

  Lemma it_pos_pos it l m : it_pos it l m -> (0 < m)%nat.
  Proof. intros (st & _ & _ & M). lia. Qed.

  Lemma it_next_spec fuel : forall m it l,
    it_pos it l m -> (m <= fuel)%nat ->
    exists it', it_next fuel it = Some it' /\
      it_start it' = it_start it /\ it_stop it' = it_stop it /\ it_err it' = it_err it /\
      match l with
      | [] => it_valid it' = false /\ it_t it' = None /\
              it_key it' = it_key it /\ it_value it' = it_value it
      | (k, v) :: rest =>
          it_valid it' = it_valid it /\ it_key it' = Some k /\ it_value it' = Some v /\
          it_pos it' rest (pred m)
      end.
  Proof.
    induction fuel as [|f IH]; intros m it l (st & Ht & <- & Hm) Hf; [lia|].
    cbn [it_next]. rewrite Ht.
    pose proof (next_spec start stop asc incl post (S f) st ltac:(lia)) as NS.
    destruct (next (S f) (mk st)) as [[n| |] tv']; [| |contradiction].
    - destruct NS as (st' & -> & EO & LT). rewrite EO, leaves_of_cons.
      assert (P' : it_pos (Iter (it_start it) (it_stop it) (it_key it) (it_value it) (it_valid it)
                             (it_err it) (Some (mk st'))) (leaves_of (outs' st')) (pred m))
        by (exists st'; repeat split; lia).
      destruct (height n =? 0).
      + eexists. split; [reflexivity|]. cbn [it_start it_stop it_err it_valid it_key it_value].
        repeat split. destruct P' as (st'' & T & L & M). exists st''. auto.
      + destruct (IH _ _ _ P' ltac:(lia)) as (it' & E & A1 & A2 & A3 & M).
        exists it'. split; [exact E|]. repeat split; auto.
        destruct (leaves_of (outs' st')) as [|[k v] rest]; [exact M|].
        destruct M as (B1 & B2 & B3 & P''). repeat split; auto. apply (it_pos_le _ _ _ _ P''). lia.
    - destruct NS as [EO _]. rewrite EO. eexists. split; [reflexivity|].
      cbn [leaves_of filter map it_start it_stop it_err it_valid it_key it_value it_t]. auto 10.
  Qed.

  Lemma it_loop_spec fuel fn n : forall m it l k v,
    it_pos it l m -> (m <= fuel)%nat -> (m < n)%nat ->
    it_valid it = true -> it_key it = Some k -> it_value it = Some v ->
    it_loop n fuel fn it = Some (upto fn ((k, v) :: l)).
  Proof.
    induction n as [|n IH]; intros m it l k v P Hf Hn V K Vl; [lia|].
    cbn [it_loop]. rewrite V, K, Vl. cbn [ob upto].
    destruct (fn (k, v)); [reflexivity|]. pose proof (it_pos_pos _ _ _ P) as Hm.
    destruct (it_next_spec fuel m it l P Hf) as (it' & E & _ & _ & _ & M). rewrite E.
    destruct l as [|[k' v'] rest].
    - destruct M as (V' & _). destruct n as [|n]; [lia|]. cbn [it_loop]. rewrite V'. reflexivity.
    - destruct M as (V' & K' & Vl' & P').
      rewrite (IH _ it' rest k' v' P'); try lia; try congruence.
      destruct (upto fn ((k', v') :: rest)); reflexivity.
  Qed.

  Lemma it_loop_invalid fuel fn n it :
    (0 < n)%nat -> it_valid it = false -> it_loop n fuel fn it = Some ([], false).
  Proof. intros Hn V. destruct n as [|n]; [lia|]. cbn [it_loop]. rewrite V. reflexivity. Qed.
End Wrapper.
Arguments it_next_spec {start stop asc incl post}.
Arguments it_loop_spec {start stop asc incl post}.

Definition it_ok (it : iter) : Prop := it_valid it = false -> it_t it = None.

Lemma it_next_dead fuel it : (0 < fuel)%nat -> it_t it = None -> it_next fuel it = Some it.
Proof. intros Hf T. destruct fuel as [|f]; [lia|]. cbn [it_next]. rewrite T. reflexivity. Qed.

Lemma tree_fuel_pos t : (0 < tree_fuel t)%nat.
Proof. unfold tree_fuel. lia. Qed.

(** once invalid, an iterator stays invalid (and frozen) under further Next() calls *)
Fixpoint it_steps (m fuel : nat) (it : iter) : option iter :=
  match m with
  | O => Some it
  | S m' => match it_next fuel it with None => None | Some it' => it_steps m' fuel it' end
  end.

Lemma it_invalid_stable m fuel it :
  (0 < fuel)%nat -> it_ok it -> it_valid it = false -> it_steps m fuel it = Some it.
Proof.
  intros Hf OK V. induction m as [|m IH]; [reflexivity|].
  cbn [it_steps]. rewrite it_next_dead; [exact IH|exact Hf|apply OK, V].
Qed.

Lemma it_new_shape t start stop asc :
  wf t ->
  exists it, it_new (tree_fuel t) start stop asc (Some (Some t)) = Some it /\ it_ok it /\
    match range_spec (elems t) start stop false asc with
    | [] => it_valid it = false
    | (k, v) :: rest =>
        it_valid it = true /\ it_key it = Some k /\ it_value it = Some v /\
        it_pos start stop asc false false it rest (2 * nodes t)
    end.
Proof.
  intros W. unfold it_new. rewrite tv_new_mk.
  set (it0 := Iter start stop None None true false (Some (mk_tv start stop asc false false [(t, true)]))).
  assert (P0 : it_pos start stop asc false false it0 (range_spec (elems t) start stop false asc)
                 (S (2 * nodes t))).
  { exists [(t, true)]. split; [reflexivity|]. split; [|cbn; lia].
    cbn [outs flat_map out snd fst]. rewrite app_nil_r. apply walk_leaves, W. }
  destruct (it_next_spec (tree_fuel t) _ it0 _ P0) as (it & E & _ & _ & _ & M);
    [unfold tree_fuel; lia|].
  exists it. split; [exact E|].
  destruct (range_spec (elems t) start stop false asc) as [|[k v] rest].
  - destruct M as (V & T & _). split; [intros _; exact T|exact V].
  - destruct M as (V & K & Vl & P). cbn [it_valid it0] in V.
    split; [intros V'; congruence|]. auto.
Qed.

Lemma it_new_loop t start stop asc fn :
  wf t ->
  exists it, it_new (tree_fuel t) start stop asc (Some (Some t)) = Some it /\
    it_loop (tree_fuel t) (tree_fuel t) fn it =
    Some (upto fn (range_spec (elems t) start stop false asc)).
Proof.
  intros W. destruct (it_new_shape t start stop asc W) as (it & E & OK & M).
  exists it. split; [exact E|].
  destruct (range_spec (elems t) start stop false asc) as [|[k v] rest].
  - apply it_loop_invalid; [apply tree_fuel_pos|exact M].
  - destruct M as (V & K & Vl & P).
    apply (it_loop_spec _ fn _ _ it rest k v P);
      auto; unfold tree_fuel; lia.
Qed.

(** ** the Iterator delivers the range selection *)
Theorem it_collect_spec t start stop asc :
  wf t ->
  it_collect_tree t start stop asc = Some (range_spec (elems t) start stop false asc).
Proof.
  intros W. unfold it_collect_tree, it_collect.
  destruct (it_new_loop t start stop asc (fun _ => false) W) as (it & -> & ->).
  rewrite upto_false. reflexivity.
Qed.

Lemma it_steps_exhaust start stop asc fuel : forall l m it,
  it_pos start stop asc false false it l m -> (m <= fuel)%nat ->
  exists it', it_steps (S (length l)) fuel it = Some it' /\ it_valid it' = false /\ it_t it' = None.
Proof.
  induction l as [|[k v] rest IH]; intros m it P Hf;
    destruct (it_next_spec fuel m it _ P Hf) as (it' & E & _ & _ & _ & M).
  - exists it'. cbn [it_steps length]. rewrite E. tauto.
  - destruct M as (_ & _ & _ & P'). destruct (IH _ it' P') as (it'' & E' & V'' & T''); [lia|].
    exists it''. split; auto. change (it_steps (S (length ((k, v) :: rest))) fuel it) with
      (match it_next fuel it with None => None | Some it' => it_steps (S (length rest)) fuel it' end).
    rewrite E. exact E'.
Qed.

Theorem it_exhausted_stays_invalid t start stop asc :
  wf t ->
  let n := length (range_spec (elems t) start stop false asc) in
  exists it0 it1,
    it_new (tree_fuel t) start stop asc (Some (Some t)) = Some it0 /\
    it_steps n (tree_fuel t) it0 = Some it1 /\ it_valid it1 = false /\
    forall m, it_steps m (tree_fuel t) it1 = Some it1.
Proof.
  intros W n. destruct (it_new_shape t start stop asc W) as (it & E & OK & M).
  exists it. subst n.
  destruct (range_spec (elems t) start stop false asc) as [|[k v] rest].
  - exists it. repeat split; auto. intros m. apply it_invalid_stable; auto using tree_fuel_pos.
  - destruct M as (V & K & Vl & P).
    destruct (it_steps_exhaust start stop asc (tree_fuel t) rest _ it P) as (it1 & E1 & V1 & T1);
      [unfold tree_fuel; lia|].
    exists it1. repeat split; auto. intros m. apply it_invalid_stable; auto using tree_fuel_pos.
    intros _. exact T1.
Qed.

(** a nil tree gives an invalid iterator carrying the error; a nil root an invalid one *)
Lemma it_new_nil_tree fuel start stop asc :
  it_new fuel start stop asc None = Some (Iter start stop None None false true None).
Proof. reflexivity. Qed.
Lemma it_new_nil_root fuel start stop asc :
  it_new (S fuel) start stop asc (Some None) = Some (Iter start stop None None false false None).
Proof. reflexivity. Qed.

Lemma range_spec_all l : range_spec l None None false true = l.
Proof. unfold range_spec. apply filter_all. reflexivity. Qed.

(** ** stop callbacks: ImmutableTree.Iterate *)
Theorem imm_iterate_spec t fn :
  wf t -> imm_iterate (Some t) fn = Some (upto fn (elems t)).
Proof.
  intros W. unfold imm_iterate.
  destruct (it_new_loop t None None true fn W) as (it & -> & ->). rewrite range_spec_all. reflexivity.
Qed.

(** * (c) the fast-index iterator *)
Lemma take_below_sel start stop (l : kvs) :
  sorted l -> Forall (fun p => match start with None => True | Some s => s <=b fst p end) l ->
  take_below stop l = sel start stop false l.
Proof.
  induction l as [|[k v] l IH]; intros S F; [reflexivity|].
  cbn [sorted] in S. destruct S as [Fk S]. inversion F as [|? ? Hk F']; subst. cbn [fst] in Hk.
  cbn [take_below]. unfold sel. cbn [filter fst].
  assert (IS : (match start with None => true | Some s => ble s k end) = true).
  { destruct start as [s|]; auto. apply ble_true. exact Hk. }
  unfold in_range at 1. rewrite IS. cbn [andb].
  destruct stop as [e|].
  - destruct (blt k e) eqn:B.
    + f_equal. apply IH; auto.
    + btests. symmetry. apply (sel_none_ge start (Some e) false l e); [|apply blt_false; border].
      eapply Forall_impl; [|exact Fk]. cbn. intros p Hp. border.
  - f_equal. apply IH; auto.
Qed.

Lemma kv_scan_asc_spec (idx : kvs) start stop :
  sorted idx -> take_below stop (drop_below start idx) = sel start stop false idx.
Proof.
  induction idx as [|[k v] l IH]; intros S; [reflexivity|].
  pose proof S as S0. cbn [sorted] in S. destruct S as [Fk S].
  cbn [drop_below].
  destruct start as [s|].
  - destruct (blt k s) eqn:B.
    + rewrite IH by auto. unfold sel. cbn [filter fst]. unfold in_range at 2.
      btests. rewrite (proj2 (ble_false s k) B). reflexivity.
    + btests. apply take_below_sel; auto. constructor; [exact B|].
      eapply Forall_impl; [|exact Fk]. cbn. intros p Hp. border.
  - apply take_below_sel; auto. apply Forall_forall. auto.
Qed.

Lemma kv_scan_spec idx start stop asc :
  sorted idx -> kv_scan idx start stop asc = range_spec idx start stop false asc.
Proof.
  intros S. unfold kv_scan, range_spec. rewrite kv_scan_asc_spec by exact S. reflexivity.
Qed.

Definition fi_pos (it : fiter) (kv : kvit) : Prop :=
  fi_it it = Some kv /\ fi_valid it = kv_valid kv /\ fi_ndb it <> None /\
  match kv with [] => True | x :: _ => fi_node it = Some x end.

Lemma fi_new_pos start stop asc idx :
  fi_pos (fi_new start stop asc (Some idx)) (kv_scan idx start stop asc).
Proof.
  unfold fi_new, fi_next. cbn [fi_ndb fi_it fi_start fi_stop fi_asc fi_valid fi_err fi_node].
  destruct (kv_scan idx start stop asc) as [|x kv]; cbn; unfold fi_pos; cbn; repeat split; congruence.
Qed.

Lemma fi_next_pos it x kv :
  fi_pos it (x :: kv) -> exists it', fi_next it = FOk it' /\ fi_pos it' kv.
Proof.
  intros (I & V & N & Nd). unfold fi_next. destruct (fi_ndb it) as [idx|] eqn:E; [|congruence].
  rewrite I. cbn [kv_next]. eexists. split; [reflexivity|].
  unfold fi_pos. cbn [fi_it fi_valid fi_ndb fi_node]. rewrite V. cbn [kv_valid andb].
  destruct kv as [|y kv]; cbn; repeat split; congruence.
Qed.

Lemma fi_pos_valid it kv : fi_pos it kv -> fi_is_valid it = kv_valid kv.
Proof.
  intros (I & V & _). unfold fi_is_valid. rewrite I, V. destruct (kv_valid kv); reflexivity.
Qed.
Lemma fi_pos_key it k v kv : fi_pos it ((k, v) :: kv) -> fi_key it = Some k /\ fi_value it = Some v.
Proof.
  intros (I & V & _ & N). unfold fi_key, fi_value. rewrite V, N. split; reflexivity.
Qed.

Lemma fi_loop_spec fn n : forall it kv,
  fi_pos it kv -> (length kv < n)%nat -> fi_loop n fn it = Some (upto fn kv).
Proof.
  induction n as [|n IH]; intros it kv P Hn; [lia|].
  cbn [fi_loop]. rewrite (fi_pos_valid it kv P).
  destruct kv as [|[k v] kv]; [reflexivity|]. cbn [kv_valid].
  destruct (fi_pos_key it k v kv P) as [K V]. rewrite K, V. cbn [ob upto].
  destruct (fn (k, v)); [reflexivity|].
  destruct (fi_next_pos it (k, v) kv P) as (it' & E & P'). rewrite E.
  rewrite (IH it' kv P') by (cbn in Hn; lia). destruct (upto fn kv); reflexivity.
Qed.

(** ** the FastIterator delivers the range selection of the index *)
Theorem fast_iter_spec idx start stop asc :
  sorted idx -> fast_collect idx start stop asc = Some (range_spec idx start stop false asc).
Proof.
  intros S. unfold fast_collect.
  rewrite (fi_loop_spec _ _ _ _ (fi_new_pos start stop asc idx)).
  - rewrite upto_false, kv_scan_spec by exact S. reflexivity.
  - rewrite kv_scan_spec by exact S. pose proof (range_spec_length idx start stop false asc). lia.
Qed.

(** Next() on an exhausted FastIterator panics in the backing store iterator *)
Lemma fi_next_past_end it : fi_pos it [] -> fi_next it = FPanic.
Proof.
  intros (I & _ & N & _). unfold fi_next. destruct (fi_ndb it); [|congruence]. rewrite I. reflexivity.
Qed.

(** * (d) the unsaved fast iterator *)

(** the state the index-plus-uncommitted-changes iterator must present *)
Definition apply_overlay (idx adds : kvs) (rms : list bytes) : kvs :=
  fold_left (fun l p => ins (fst p) (snd p) l) adds (fold_left (fun l k => del k l) rms idx).

Lemma fold_del_spec rms : forall l : kvs,
  sorted l ->
  sorted (fold_left (fun l k => del k l) rms l) /\
  forall a b, In (a, b) (fold_left (fun l k => del k l) rms l) <-> In (a, b) l /\ ~ In a rms.
Proof.
  induction rms as [|k rms IH]; intros l S; cbn [fold_left].
  - split; auto. cbn. tauto.
  - destruct (IH (del k l) (sorted_del k l S)) as [S' I']. split; auto.
    intros a b. rewrite I', del_In by exact S. cbn [In]. intuition congruence.
Qed.

Lemma fold_ins_spec adds : forall l : kvs,
  sorted l -> NoDup (map fst adds) ->
  sorted (fold_left (fun l p => ins (fst p) (snd p) l) adds l) /\
  forall a b, In (a, b) (fold_left (fun l p => ins (fst p) (snd p) l) adds l) <->
              In (a, b) adds \/ (~ In a (map fst adds) /\ In (a, b) l).
Proof.
  induction adds as [|[k v] adds IH]; intros l S ND; cbn [fold_left fst snd].
  - split; auto. cbn. tauto.
  - cbn [map fst] in ND. inversion ND as [|? ? NI ND']; subst.
    destruct (IH (ins k v l) (sorted_ins k v l S) ND') as [S' I']. split; auto.
    intros a b. rewrite I', ins_In by exact S. cbn [In map fst]. intuition congruence.
Qed.

Lemma apply_overlay_spec idx adds rms :
  sorted idx -> NoDup (map fst adds) ->
  sorted (apply_overlay idx adds rms) /\
  forall a b, In (a, b) (apply_overlay idx adds rms) <->
     In (a, b) adds \/ (~ In a (map fst adds) /\ In (a, b) idx /\ ~ In a rms).
Proof.
  intros S ND. unfold apply_overlay.
  destruct (fold_del_spec rms idx S) as [S1 I1].
  destruct (fold_ins_spec adds _ S1 ND) as [S2 I2]. split; auto.
  intros a b. rewrite I2, I1. tauto.
Qed.

(* Next() ignores the [ok] of unsavedFastNodeAdditions.Load; the default is never met, the
   unsaved keys being the keys of [adds] (see [known]) *)
Definition aval (adds : kvs) (k : bytes) : bytes :=
  match assoc k adds with Some v => v | None => [] end.

Lemma aval_In adds k v :
  NoDup (map fst adds) -> (In k (map fst adds) /\ v = aval adds k <-> In (k, v) adds).
Proof.
  intros ND. unfold aval. split.
  - intros [I0 ->]. destruct (assoc k adds) as [v0|] eqn:A.
    + apply assoc_In_NoDup; auto.
    + exfalso. eapply assoc_In_keys; eauto.
  - intros I0. split; [apply in_map_iff; exists (k, v); auto|].
    apply (assoc_In_NoDup adds k v ND) in I0. rewrite I0. reflexivity.
Qed.

(** ** sorting the unsaved keys *)
Fixpoint ksorted (asc : bool) (l : list bytes) : Prop :=
  match l with
  | [] => True
  | k :: r => Forall (kbefore asc k) r /\ ksorted asc r
  end.

Lemma key_before_true asc a b : key_before asc a b = true <-> kbefore asc a b.
Proof. destruct asc; cbn; apply blt_true. Qed.

Lemma sort_ins_In asc k l x : In x (sort_ins asc k l) <-> x = k \/ In x l.
Proof.
  induction l as [|y l IH]; cbn [sort_ins In]; [intuition|].
  destruct (key_before asc k y); cbn [In]; [intuition|]. rewrite IH. intuition.
Qed.

Lemma sort_ins_sorted asc k l : ksorted asc l -> ~ In k l -> ksorted asc (sort_ins asc k l).
Proof.
  induction l as [|y l IH]; intros S NI; cbn [sort_ins].
  - cbn. auto.
  - cbn [ksorted] in S. destruct S as [F S]. destruct (key_before asc k y) eqn:B.
    + apply key_before_true in B. cbn [ksorted]. split; [|split; auto].
      constructor; auto. eapply Forall_impl; [|exact F]. intros z Hz. eapply kbefore_trans; eauto.
    + cbn [ksorted]. split; [|apply IH; auto; intro; apply NI; right; auto].
      assert (Hy : kbefore asc y k).
      { destruct (kbefore_total asc k y) as [H|[H|H]]; auto.
        - apply key_before_true in H. congruence.
        - subst. exfalso. apply NI. left; reflexivity. }
      apply Forall_forall. intros z Iz. apply sort_ins_In in Iz. destruct Iz as [->|Iz]; auto.
      rewrite Forall_forall in F. auto.
Qed.

Lemma sort_keys_In asc l x : In x (sort_keys asc l) <-> In x l.
Proof.
  induction l as [|y l IH]; cbn [sort_keys fold_right In]; [tauto|].
  fold (sort_keys asc l). rewrite sort_ins_In, IH. intuition.
Qed.

Lemma sort_keys_sorted asc l : NoDup l -> ksorted asc (sort_keys asc l).
Proof.
  induction l as [|y l IH]; intros ND; cbn [sort_keys fold_right]; [exact I|].
  fold (sort_keys asc l). inversion ND; subst. apply sort_ins_sorted; auto.
  rewrite sort_keys_In. auto.
Qed.

Lemma sort_ins_length asc k l : length (sort_ins asc k l) = S (length l).
Proof. induction l as [|y l IH]; cbn [sort_ins length]; [reflexivity|]. destruct (key_before asc k y); cbn [length]; lia. Qed.
Lemma sort_keys_length asc l : length (sort_keys asc l) = length l.
Proof. induction l as [|y l IH]; cbn [sort_keys fold_right length]; [reflexivity|]. fold (sort_keys asc l). rewrite sort_ins_length, IH. reflexivity. Qed.

Lemma in_rms_In k rms : in_rms k rms = true <-> In k rms.
Proof.
  unfold in_rms. rewrite existsb_exists. split.
  - intros (x & I0 & B). btests. subst. exact I0.
  - intros I0. exists k. split; auto. apply beq_true. reflexivity.
Qed.
Lemma in_rms_false k rms : in_rms k rms = false <-> ~ In k rms.
Proof. rewrite <- in_rms_In. destruct (in_rms k rms); split; congruence. Qed.

Lemma uf_keep_in_range start stop k : uf_keep start stop k = in_range start stop false k.
Proof.
  unfold uf_keep, in_range. f_equal.
  - destruct start as [s|]; [|reflexivity]. unfold blt, ble. rewrite (bcmp_antisym k s).
    destruct (bcmp k s); reflexivity.
  - destruct stop as [e|]; [|reflexivity]. destruct (blt k e); reflexivity.
Qed.

(** ** the merge performed by UnsavedFastIterator.Next(), as a function on the two sorted
    sequences: [D] the remaining disk entries, [U] the remaining unsaved keys *)
Section Merge.
  Variables (asc : bool) (adds : kvs) (rms : list bytes).

  Definition ubefore (uk dk : bytes) : bool := if asc then ble uk dk else ble dk uk.

  Fixpoint merge (D : kvs) : list bytes -> kvs :=
    match D with
    | [] => fun U => map (fun uk => (uk, aval adds uk)) U
    | (dk, dv) :: D' =>
        fix mU (U : list bytes) : kvs :=
          if in_rms dk rms then merge D' U else
          match U with
          | [] => (dk, dv) :: merge D' []
          | uk :: U' =>
              if ubefore uk dk then
                (uk, aval adds uk) :: (if beq dk uk then merge D' U' else mU U')
              else (dk, dv) :: merge D' U
          end
    end.

  Lemma merge_cons dk dv D' U :
    merge ((dk, dv) :: D') U =
      if in_rms dk rms then merge D' U else
      match U with
      | [] => (dk, dv) :: merge D' []
      | uk :: U' =>
          if ubefore uk dk then
            (uk, aval adds uk) :: (if beq dk uk then merge D' U' else merge ((dk, dv) :: D') U')
          else (dk, dv) :: merge D' U
      end.
  Proof. destruct U; reflexivity. Qed.

  Lemma merge_nil U : merge [] U = map (fun uk => (uk, aval adds uk)) U.
  Proof. reflexivity. Qed.

  Lemma ubefore_true uk dk : ubefore uk dk = true <-> kbefore asc uk dk \/ uk = dk.
  Proof.
    unfold ubefore, kbefore. destruct asc; rewrite ble_true, BytesO.le_lteq; unfold BytesO.eq.
    - reflexivity.
    - intuition congruence.
  Qed.
  Lemma ubefore_false uk dk : ubefore uk dk = false <-> kbefore asc dk uk.
  Proof. unfold ubefore, kbefore. destruct asc; apply ble_false. Qed.

  Lemma merge_In : forall D, dsorted asc D -> forall U, ksorted asc U ->
    forall k v, In (k, v) (merge D U) <->
      (In k U /\ v = aval adds k) \/ (In (k, v) D /\ ~ In k rms /\ ~ In k U).
  Proof.
    induction D as [|[dk dv] D' IHD]; intros SD.
    - intros U SU k v. rewrite merge_nil, in_map_iff. split.
      + intros (uk & E & I0). inversion E; subst. auto.
      + intros [[I0 ->]|[[] _]]. exists k. auto.
    - pose proof SD as SD0. cbn [dsorted] in SD. destruct SD as [FD SD'].
      rewrite Forall_forall in FD. specialize (IHD SD').
      (* the disk keys after [dk] differ from every key that is not after [dk] *)
      assert (ND : forall k v x, In (k, v) D' -> kbefore asc x dk \/ x = dk -> k <> x).
      { intros k v x I0 B ->. apply FD in I0. cbn [fst] in I0.
        destruct B as [B| ->]; [apply (kbefore_trans _ _ _ _ B) in I0|]; exact (kbefore_irrefl _ _ I0). }
      induction U as [|uk U' IHU]; intros SU k v; rewrite merge_cons;
        destruct (in_rms dk rms) eqn:R.
      + apply in_rms_In in R. rewrite (IHD [] SU). cbn [In]. intuition congruence.
      + apply in_rms_false in R. cbn [In]. rewrite (IHD [] SU). cbn [In]. intuition congruence.
      + apply in_rms_In in R. rewrite (IHD _ SU). cbn [In]. intuition congruence.
      + apply in_rms_false in R.
        pose proof SU as SU0. cbn [ksorted] in SU. destruct SU as [FU SU'].
        rewrite Forall_forall in FU.
        specialize (IHU SU').
        destruct (ubefore uk dk) eqn:B.
        * apply ubefore_true in B. pose proof (fun I0 => ND k v uk I0 B) as N.
          destruct (beq dk uk) eqn:Q; btests.
          -- subst uk. cbn [In]. rewrite (IHD U' SU'). intuition congruence.
          -- cbn [In]. rewrite IHU. cbn [In]. intuition congruence.
        * apply ubefore_false in B. cbn [In]. rewrite (IHD _ SU0). cbn [In].
          assert (N : In k U' -> k <> dk).
          { intros I1 ->. apply FU in I1. exact (kbefore_irrefl _ _ (kbefore_trans _ _ _ _ B I1)). }
          assert (N' : uk <> dk) by (intros ->; exact (kbefore_irrefl _ _ B)).
          intuition congruence.
  Qed.

  Lemma merge_Forall x D U :
    dsorted asc D -> ksorted asc U ->
    Forall (fun p => kbefore asc x (fst p)) D -> Forall (kbefore asc x) U ->
    Forall (fun p => kbefore asc x (fst p)) (merge D U).
  Proof.
    intros SD SU FD FU. apply Forall_forall. intros [k v] I0.
    apply (merge_In D SD U SU) in I0. rewrite Forall_forall in FD, FU.
    destruct I0 as [[I0 _]|(I0 & _)]; [apply FU, I0|apply (FD _ I0)].
  Qed.

  Lemma merge_dsorted : forall D, dsorted asc D -> forall U, ksorted asc U ->
    dsorted asc (merge D U).
  Proof.
    induction D as [|[dk dv] D' IHD]; intros SD.
    - intros U SU. rewrite merge_nil. induction U as [|uk U IH]; [exact I|].
      cbn [ksorted] in SU. destruct SU as [FU SU]. cbn [map dsorted]. split; [|auto].
      apply Forall_map. exact FU.
    - pose proof SD as SD0. cbn [dsorted] in SD. destruct SD as [FD SD'].
      specialize (IHD SD').
      induction U as [|uk U' IHU]; intros SU; rewrite merge_cons;
        destruct (in_rms dk rms) eqn:R; auto.
      + cbn [dsorted]. split; auto. apply merge_Forall; auto.
      + pose proof SU as SU0. cbn [ksorted] in SU. destruct SU as [FU SU'].
        specialize (IHU SU').
        destruct (ubefore uk dk) eqn:B.
        * apply ubefore_true in B. destruct (beq dk uk) eqn:Q; btests.
          -- subst uk. cbn [dsorted]. split; auto. apply merge_Forall; auto.
          -- destruct B as [B|B]; [|congruence]. cbn [dsorted]. split; auto.
             apply merge_Forall; auto. constructor; [exact B|].
             eapply Forall_impl; [|exact FD]. cbn. intros p Hp. eapply kbefore_trans; eauto.
        * apply ubefore_false in B. cbn [dsorted]. split; auto.
          apply merge_Forall; auto. constructor; [exact B|].
          eapply Forall_impl; [|exact FU]. intros p Hp. eapply kbefore_trans; eauto.
  Qed.
End Merge.

(** ** the state machine follows [merge] *)
Definition bounds_ok (start stop : option bytes) : bool :=
  match start, stop with
  | Some s, Some e => match bcmp e s with Gt => true | _ => false end
  | _, _ => true
  end.

Lemma bounds_bad_range start stop k : bounds_ok start stop = false -> in_range start stop false k = false.
Proof.
  unfold bounds_ok, in_range. destruct start as [s|]; [|discriminate]. destruct stop as [e|]; [|discriminate].
  intros B. destruct (ble s k) eqn:L; [|reflexivity]. cbn [andb]. btests.
  apply blt_false. bcases e s; try discriminate; border.
Qed.

Lemma unsaved_key_false k : unsaved_key false k = Some k.
Proof. destruct k; reflexivity. Qed.

Section UF.
  Variables (start stop : option bytes) (asc : bool) (adds : kvs) (rms : list bytes).
  Notation mrg := (merge asc adds rms).

  Definition uf_at (it : ufiter) (D : kvit) (U : list bytes) : Prop :=
    fi_pos (uf_fast it) D /\ uf_todo it = U /\ uf_ndb_nil it = false /\ uf_adds it = adds /\
    uf_rms it = rms /\ uf_asc it = asc /\ uf_nilk it = false /\
    uf_start it = start /\ uf_stop it = stop.

  Lemma uf_at_set it D U k v fast' D' U' :
    uf_at it D U -> fi_pos fast' D' -> uf_at (uf_set it k v fast' U') D' U'.
  Proof.
    intros (_ & _ & A & B & C & E & F & G & H) P. unfold uf_at, uf_set.
    cbn [uf_fast uf_todo uf_ndb_nil uf_adds uf_rms uf_asc uf_nilk uf_start uf_stop]. auto 10.
  Qed.

  (* unsavedFastNodesToSort is filled from the keys of unsavedFastNodeAdditions in
     NewUnsavedFastIterator, and neither changes afterwards *)
  Definition known (U : list bytes) : Prop := forall uk, In uk U -> assoc uk adds <> None.

  Lemma aval_assoc uk uv : assoc uk adds = Some uv -> aval adds uk = uv.
  Proof. unfold aval. intros ->. reflexivity. Qed.

  Lemma uf_set_emits it D U k v fast' D' U' :
    uf_at it D U -> fi_pos fast' D' -> known U' ->
    (length D' + length U' < length D + length U)%nat -> (length D' <= length D)%nat ->
    let it' := uf_set it (Some k) (Some v) fast' U' in
    uf_next_key it' = Some k /\ uf_next_val it' = Some v /\
    exists D'' U'', uf_at it' D'' U'' /\ mrg D'' U'' = mrg D' U' /\ known U'' /\
      (length D'' + length U'' < length D + length U)%nat /\ (length D'' <= length D)%nat.
  Proof.
    intros AT P KN L1 L2. split; [reflexivity|]. split; [reflexivity|]. exists D', U'.
    split; [eapply uf_at_set; eauto|]. auto.
  Qed.

  Lemma uf_next_spec fuel : forall D U it,
    (length D < fuel)%nat -> uf_at it D U -> known U ->
    exists it', uf_next fuel it = UOk it' /\
      match mrg D U with
      | [] => uf_next_key it' = None /\ uf_next_val it' = None /\ uf_at it' [] []
      | (k, v) :: rest =>
          uf_next_key it' = Some k /\ uf_next_val it' = Some v /\
          exists D' U', uf_at it' D' U' /\ mrg D' U' = rest /\ known U' /\
            (length D' + length U' < length D + length U)%nat /\ (length D' <= length D)%nat
      end.
  Proof.
    induction fuel as [|f IH]; intros D U it Hf AT KN; [lia|].
    pose proof AT as (P & T & NN & AD & RM & AS & NK & ST & SP).
    cbn [uf_next]. rewrite NN, T, AD, RM, AS, NK. rewrite (fi_pos_valid _ _ P).
    destruct D as [|[dk dv] D'].
    - (* disk exhausted *)
      cbn [kv_valid]. destruct U as [|uk U'].
      + eexists. split; [reflexivity|]. rewrite merge_nil. cbn [map].
        cbn [uf_set uf_next_key uf_next_val]. split; auto. split; auto.
        eapply uf_at_set; eauto.
      + destruct (assoc uk adds) as [uv|] eqn:A; [|exfalso; apply (KN uk); [left; reflexivity|exact A]].
        eexists. split; [reflexivity|]. rewrite merge_nil. cbn [map].
        rewrite (aval_assoc uk uv A), unsaved_key_false.
        apply (uf_set_emits it [] (uk :: U') uk uv _ [] U' AT P); cbn [length]; try lia.
        intros x Ix. apply KN. right. exact Ix.
    - cbn [kv_valid]. destruct (fi_pos_key _ dk dv D' P) as [FK FV]. rewrite FK, FV. cbn [ob].
      destruct (fi_next_pos _ (dk, dv) D' P) as (fast' & FN & P').
      rewrite merge_cons.
      destruct (in_rms dk rms) eqn:R.
      + (* removed disk entry: skip and recurse *)
        assert (Hf' : (length D' < f)%nat) by (cbn [length] in Hf; lia).
        assert (AT' : uf_at (uf_set it (uf_next_key it) (uf_next_val it) fast' U) D' U)
          by (eapply uf_at_set; eauto).
        destruct (IH D' U _ Hf' AT' KN) as (it' & E & M).
        exists it'. split.
        { destruct U as [|uk U']; rewrite FN; exact E. }
        destruct (mrg D' U) as [|[k v] rest]; [exact M|].
        destruct M as (K & V & D'' & U'' & A1 & A2 & A3 & A4 & A5).
        split; auto. split; auto. exists D'', U''.
        split; [exact A1|]. split; [exact A2|]. split; [exact A3|]. cbn [length]. lia.
      + destruct U as [|uk U'].
        * rewrite FN. eexists. split; [reflexivity|].
          apply (uf_set_emits it _ [] dk dv fast' D' [] AT P' KN); cbn [length]; lia.
        * destruct (assoc uk adds) as [uv|] eqn:A; [|exfalso; apply (KN uk); [left; reflexivity|exact A]].
          assert (KN' : known U') by (intros x Ix; apply KN; right; exact Ix).
          change (if asc then ble uk dk else ble dk uk) with (ubefore asc uk dk).
          destruct (ubefore asc uk dk) eqn:B.
          -- rewrite (aval_assoc uk uv A), unsaved_key_false. destruct (beq dk uk) eqn:Q.
             ++ rewrite FN. eexists. split; [reflexivity|].
                apply (uf_set_emits it _ _ uk uv fast' D' U' AT P' KN'); cbn [length]; lia.
             ++ eexists. split; [reflexivity|].
                apply (uf_set_emits it _ _ uk uv _ ((dk, dv) :: D') U' AT P KN'); cbn [length]; lia.
          -- rewrite FN. eexists. split; [reflexivity|].
             apply (uf_set_emits it _ _ dk dv fast' D' (uk :: U') AT P' KN); cbn [length]; lia.
  Qed.

  Lemma uf_valid_current it D U k v :
    bounds_ok start stop = true -> uf_at it D U ->
    uf_next_key it = Some k -> uf_next_val it = Some v -> uf_valid it = true.
  Proof.
    intros B (_ & _ & _ & _ & _ & _ & _ & ST & SP) K V. unfold uf_valid.
    change (match uf_start it, uf_stop it with
            | Some s, Some e => match bcmp e s with Gt => true | _ => false end
            | _, _ => true end) with (bounds_ok (uf_start it) (uf_stop it)).
    rewrite ST, SP, B, K, V. cbn [andb]. apply orb_true_r.
  Qed.

  Lemma uf_valid_end it :
    uf_at it [] [] -> uf_next_key it = None -> uf_valid it = false.
  Proof.
    intros (P & T & _) K. unfold uf_valid. rewrite (fi_pos_valid _ _ P), T, K. cbn. apply andb_false_r.
  Qed.

  Lemma uf_loop_spec fuel fn n : forall D U it k v,
    bounds_ok start stop = true -> uf_at it D U -> known U ->
    uf_next_key it = Some k -> uf_next_val it = Some v ->
    (length D < fuel)%nat -> (length D + length U + 1 < n)%nat ->
    uf_loop n fuel fn it = Some (upto fn ((k, v) :: mrg D U)).
  Proof.
    induction n as [|n IH]; intros D U it k v B AT KN K V Hf Hn; [lia|].
    cbn [uf_loop]. rewrite (uf_valid_current it D U k v B AT K V), K, V. cbn [ob upto].
    destruct (fn (k, v)); [reflexivity|].
    destruct (uf_next_spec fuel D U it Hf AT KN) as (it' & E & M). rewrite E.
    destruct (mrg D U) as [|[k' v'] rest].
    - destruct M as (K' & _ & AT'). destruct n as [|n]; [lia|]. cbn [uf_loop].
      rewrite (uf_valid_end it' AT' K'). reflexivity.
    - destruct M as (K' & V' & D' & U' & AT' & MR & KN' & L1 & L2).
      rewrite (IH D' U' it' k' v'); auto; try lia.
      rewrite MR. destruct (upto fn ((k', v') :: rest)); reflexivity.
  Qed.
End UF.
Arguments uf_next_spec {start stop asc adds rms}.
Arguments uf_valid_end {start stop asc adds rms}.
Arguments uf_loop_spec {start stop asc adds rms}.

Definition uf_D0 (idx : kvs) (start stop : option bytes) (asc : bool) : kvit := kv_scan idx start stop asc.
Definition uf_U0 (adds : kvs) (start stop : option bytes) (asc : bool) : list bytes :=
  sort_keys asc (filter (uf_keep start stop) (map fst adds)).

Lemma uf_U0_In adds start stop asc k :
  In k (uf_U0 adds start stop asc) <-> In k (map fst adds) /\ in_range start stop false k = true.
Proof. unfold uf_U0. rewrite sort_keys_In, filter_In, uf_keep_in_range. reflexivity. Qed.

Lemma uf_iterate_merge idx adds rms start stop asc fn :
  sorted idx ->
  uf_iterate idx adds rms start stop asc false fn =
  Some (upto fn (merge asc adds rms (uf_D0 idx start stop asc) (uf_U0 adds start stop asc))).
Proof.
  intros S. unfold uf_iterate, uf_new. cbv zeta.
  set (fast := fi_new start stop asc (Some idx)).
  set (U0 := uf_U0 adds start stop asc). set (D0 := uf_D0 idx start stop asc).
  change (sort_keys asc (filter (uf_keep start stop) (map fst adds))) with U0.
  match goal with |- context [uf_next _ ?i] => set (it0 := i) end.
  assert (AT : uf_at start stop asc adds rms it0 D0 U0).
  { unfold uf_at, it0, uf_set. cbn [uf_fast uf_todo uf_ndb_nil uf_adds uf_rms uf_asc uf_nilk uf_start uf_stop].
    split; [apply fi_new_pos|]. repeat split; reflexivity. }
  assert (KN : known adds U0).
  { intros uk Iu. apply uf_U0_In in Iu. apply assoc_In_keys. tauto. }
  assert (LD : (length D0 <= length idx)%nat).
  { unfold D0, uf_D0. rewrite kv_scan_spec by exact S. apply range_spec_length. }
  assert (LU : (length U0 <= length adds)%nat).
  { unfold U0, uf_U0. rewrite sort_keys_length. etransitivity; [apply filter_length_le|]. rewrite map_length. lia. }
  assert (Hf : (length D0 < uf_fuel idx adds)%nat) by (unfold uf_fuel; lia).
  destruct (uf_next_spec _ D0 U0 it0 Hf AT KN) as (it' & E & M). rewrite E.
  destruct (merge asc adds rms D0 U0) as [|[k v] rest] eqn:MG.
  - destruct M as (K & _ & AT'). unfold uf_fuel at 1. rewrite Nat.add_comm. cbn [Nat.add uf_loop].
    rewrite (uf_valid_end it' AT' K). reflexivity.
  - destruct M as (K & V & D' & U' & AT' & MR & KN' & L1 & L2).
    destruct (bounds_ok start stop) eqn:B.
    + rewrite (uf_loop_spec _ fn _ D' U' it' k v B AT' KN' K V); try (unfold uf_fuel; lia).
      rewrite MR. reflexivity.
    + exfalso.
      assert (ED : D0 = []).
      { unfold D0, uf_D0. rewrite kv_scan_spec by exact S. unfold range_spec.
        rewrite filter_none; [destruct asc; reflexivity|]. intros x _. apply bounds_bad_range, B. }
      assert (EU : U0 = []).
      { unfold U0, uf_U0. rewrite filter_none; [reflexivity|]. intros x _. rewrite uf_keep_in_range.
        apply bounds_bad_range, B. }
      rewrite ED, EU in MG. discriminate.
Qed.

(** ** the merge is the range selection of the overlaid state *)
Lemma merge_overlay idx adds rms start stop asc :
  sorted idx -> NoDup (map fst adds) ->
  merge asc adds rms (uf_D0 idx start stop asc) (uf_U0 adds start stop asc) =
  range_spec (apply_overlay idx adds rms) start stop false asc.
Proof.
  intros S ND.
  destruct (apply_overlay_spec idx adds rms S ND) as [SO IO].
  assert (SD : dsorted asc (uf_D0 idx start stop asc)).
  { unfold uf_D0. rewrite kv_scan_spec by exact S. apply range_spec_dsorted, S. }
  assert (SU : ksorted asc (uf_U0 adds start stop asc)).
  { unfold uf_U0. apply sort_keys_sorted. apply NoDup_filter, ND. }
  apply (dsorted_ext asc).
  - apply merge_dsorted; auto.
  - apply range_spec_dsorted, SO.
  - intros [k v]. rewrite (merge_In asc adds rms _ SD _ SU), range_spec_In, IO.
    unfold uf_D0. rewrite kv_scan_spec by exact S. rewrite range_spec_In, uf_U0_In. cbn [fst].
    rewrite <- (aval_In adds k v ND). tauto.
Qed.

Theorem uf_iterate_spec idx adds rms start stop asc fn :
  sorted idx -> NoDup (map fst adds) -> (forall k, In k rms -> ~ In k (map fst adds)) ->
  uf_iterate idx adds rms start stop asc false fn =
  Some (upto fn (range_spec (apply_overlay idx adds rms) start stop false asc)).
Proof.
  (* the third hypothesis (kept by addUnsavedAddition / addUnsavedRemoval of mutable_tree.go) is not
     used: [apply_overlay] adds after removing, and [merge] lets the unsaved key win *)
  intros S ND _. rewrite uf_iterate_merge by exact S. rewrite merge_overlay by assumption. reflexivity.
Qed.

Theorem unsaved_iter_spec idx adds rms start stop asc :
  sorted idx -> NoDup (map fst adds) -> (forall k, In k rms -> ~ In k (map fst adds)) ->
  uf_collect idx adds rms start stop asc false =
  Some (range_spec (apply_overlay idx adds rms) start stop false asc).
Proof.
  intros S ND DJ. unfold uf_collect. rewrite uf_iterate_spec by assumption.
  rewrite upto_false. reflexivity.
Qed.

(** The same statement FAILS when the unsaved addition under the empty key holds a nil key slice
    (MutableTree.Set(nil, v)): Valid() tests [nextKey != nil], so that entry ends the iteration
    when it is the last one delivered (always in descending order). *)
Theorem unsaved_iter_nil_key_refuted :
  exists idx adds rms start stop asc,
    sorted idx /\ NoDup (map fst adds) /\ (forall k, In k rms -> ~ In k (map fst adds)) /\
    uf_collect idx adds rms start stop asc true <>
    Some (range_spec (apply_overlay idx adds rms) start stop false asc).
Proof.
  exists [([1%N], [1%N])], [([], [7%N])], [], None, None, false.
  split; [cbn; auto|]. split; [repeat constructor; cbn; tauto|]. split; [intros k []|].
  vm_compute. discriminate.
Qed.

(** ** stop callbacks: MutableTree.Iterate with the fast index *)
Theorem mut_iterate_spec t idx adds rms fn :
  sorted idx -> NoDup (map fst adds) -> (forall k, In k rms -> ~ In k (map fst adds)) ->
  mut_iterate (Some t) idx adds rms false fn = Some (upto fn (apply_overlay idx adds rms)).
Proof.
  intros S ND DJ. unfold mut_iterate. rewrite uf_iterate_spec by assumption.
  rewrite range_spec_all. reflexivity.
Qed.

Theorem three_iterators_agree tc tw adds rms start stop asc :
  wf tc -> wf tw -> NoDup (map fst adds) -> (forall k, In k rms -> ~ In k (map fst adds)) ->
  elems tw = apply_overlay (elems tc) adds rms ->
  iter_tree tw start stop false asc = uf_collect (elems tc) adds rms start stop asc false /\
  it_collect_tree tw start stop asc = uf_collect (elems tc) adds rms start stop asc false /\
  fast_collect (elems tc) start stop asc = iter_tree tc start stop false asc.
Proof.
  intros Wc Ww ND DJ E. pose proof (wf_sorted tc Wc) as S.
  rewrite (iter_tree_spec tw), (iter_tree_spec tc), it_collect_spec, unsaved_iter_spec, fast_iter_spec by assumption.
  rewrite E. auto.
Qed.

Lemma range_spec_monotone l start stop incl asc :
  sorted l ->
  dsorted asc (range_spec l start stop incl asc) /\ NoDup (map fst (range_spec l start stop incl asc)).
Proof.
  intros S. pose proof (range_spec_dsorted l start stop incl asc S) as D.
  split; [exact D|eapply dsorted_NoDup; exact D].
Qed.

Theorem iter_tree_monotone t start stop incl asc l :
  wf t -> iter_tree t start stop incl asc = Some l -> dsorted asc l /\ NoDup (map fst l).
Proof.
  intros W E. rewrite iter_tree_spec in E by exact W. injection E as <-.
  apply range_spec_monotone, wf_sorted, W.
Qed.

Theorem uf_collect_monotone idx adds rms start stop asc l :
  sorted idx -> NoDup (map fst adds) -> (forall k, In k rms -> ~ In k (map fst adds)) ->
  uf_collect idx adds rms start stop asc false = Some l -> dsorted asc l /\ NoDup (map fst l).
Proof.
  intros S ND DJ E. rewrite unsaved_iter_spec in E by assumption. injection E as <-.
  apply range_spec_monotone, apply_overlay_spec; assumption.
Qed.

Theorem fast_collect_monotone idx start stop asc l :
  sorted idx -> fast_collect idx start stop asc = Some l -> dsorted asc l /\ NoDup (map fst l).
Proof.
  intros S E. rewrite fast_iter_spec in E by assumption. injection E as <-.
  apply range_spec_monotone, S.
Qed.

(** an exhausted unsaved iterator stays invalid under further Next() calls (no panic: the
    backing iterator is only advanced while it is valid) *)
Theorem uf_invalid_stable start stop asc adds rms fuel it :
  uf_at start stop asc adds rms it [] [] ->
  exists it', uf_next (S fuel) it = UOk it' /\ uf_at start stop asc adds rms it' [] [] /\
              uf_next_key it' = None /\ uf_valid it' = false.
Proof.
  intros AT.
  destruct (uf_next_spec (S fuel) [] [] it (Nat.lt_0_succ fuel) AT) as (it' & E & M); [intros x []|].
  rewrite merge_nil in M. cbn [map] in M. destruct M as (K & _ & AT').
  exists it'. split; [exact E|]. split; [exact AT'|]. split; [exact K|]. eapply uf_valid_end; eauto.
Qed.

Lemma iterate_range_nil start stop asc incl fn : iterate_range None start stop asc incl fn = Some ([], false).
Proof. reflexivity. Qed.
Lemma imm_iterate_nil fn : imm_iterate None fn = Some ([], false).
Proof. reflexivity. Qed.
Lemma mut_iterate_nil idx adds rms nilk fn : mut_iterate None idx adds rms nilk fn = Some ([], false).
Proof. reflexivity. Qed.
