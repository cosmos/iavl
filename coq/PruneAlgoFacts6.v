(** PruneAlgoFacts6: the whole loop of deleteVersionsTo.
    [delete_range_ok]: the invariant after versions first..to and the writes made ([range_writes]);
    [ST_init]: it holds at the start of the call; [rekey_ok]: what the list of re-keyed versions
    has to satisfy. *)
From Coq Require Import Lia Sorted.
From IAVL Require Import Bytes Varint Tree VMap TreeFacts MTree MTreeFacts HashFacts VersionFacts
  Store StoreFacts PruneAlgo PruneAlgoFacts1 PruneAlgoFacts2 PruneAlgoFacts3 PruneAlgoFacts4
  PruneAlgoFacts5.
Local Open Scope Z_scope.

(** ** Versions and forests *)
Lemma versions_from_to_zseq first to :
  versions_from_to first to = zseq first (Z.to_nat (to + 1 - first)).
Proof.
  unfold versions_from_to. generalize (Z.to_nat (to + 1 - first)) as n. intros n.
  assert (G : forall k, map (fun i => first + Z.of_nat i) (seq k n) = zseq (first + Z.of_nat k) n).
  { induction n as [|n IH]; intros k; cbn [seq map zseq]; [reflexivity|].
    rewrite IH. do 2 f_equal. lia. }
  rewrite G. f_equal. lia.
Qed.

Lemma filter_gt_skipn (f : forest_t) : forall a n,
  map fst f = zseq a (length f) ->
  filter (fun p => n <? fst p) f = skipn (Z.to_nat (n + 1 - a)) f.
Proof.
  induction f as [|[w x] f IH]; intros a n Hz.
  - rewrite skipn_nil. reflexivity.
  - cbn [map fst length zseq] in Hz. injection Hz as Ew Hz'. subst w.
    destruct (n <? a) eqn:C.
    + apply Z.ltb_lt in C. replace (Z.to_nat (n + 1 - a)) with 0%nat by lia. cbn [skipn].
      apply filter_all. intros [w y] I. cbn [fst]. apply Z.ltb_lt.
      destruct I as [Q|I]; [inversion Q; lia|].
      assert (Iw : In w (map fst f)) by (apply in_map_iff; exists (w, y); auto).
      rewrite Hz' in Iw. apply In_zseq in Iw. lia.
    + cbn [filter fst]. rewrite C. apply Z.ltb_ge in C.
      replace (Z.to_nat (n + 1 - a)) with (S (Z.to_nat (n + 1 - (a + 1)))) by lia. cbn [skipn].
      apply IH. exact Hz'.
Qed.

Lemma forest_ok_zseq {A} (f : list (Z * A)) iv :
  forest_ok f iv -> map fst f = zseq (first_of f) (length f).
Proof.
  intros [C _]. unfold consecutive in C. rewrite map_length in C.
  destruct f as [|[v a] f]; [reflexivity|]. exact C.
Qed.

Lemma forest_inv_tail (f : forest_t) iv v rv f' :
  forest_inv f -> forest_ok f iv -> f = (v, rv) :: f' -> forest_inv f'.
Proof.
  intros FI OK Ef. replace f' with (filter (fun q => v <? fst q) f); [apply forest_inv_filter, FI|].
  pose proof (forest_ok_zseq f iv OK) as Hz. rewrite Ef in Hz at 2. cbn [first_of] in Hz.
  rewrite (filter_gt_skipn f v v Hz), Ef. replace (Z.to_nat (v + 1 - v)) with 1%nat by lia.
  reflexivity.
Qed.

(** ** The re-keyed versions of a sorted store are ascending *)
Lemma rekeyed_cons k e st :
  rekeyed ((k, e) :: st) = if snd k =? 0 then fst k :: rekeyed st else rekeyed st.
Proof. unfold rekeyed. cbn [filter fst snd]. destruct (snd k =? 0); reflexivity. Qed.

Lemma rekeyed_In st w : In w (rekeyed st) <-> exists e, In ((w, 0), e) st.
Proof.
  unfold rekeyed. rewrite in_map_iff. split.
  - intros ([[a b] e] & <- & I). apply filter_In in I. destruct I as [I Q]. cbn [fst snd] in *.
    apply Z.eqb_eq in Q. subst b. eauto.
  - intros (e & I). exists ((w, 0), e). split; [reflexivity|]. apply filter_In. auto.
Qed.

Lemma rekeyed_sorted st : msorted kcmp st -> StronglySorted Z.lt (rekeyed st).
Proof.
  induction st as [|[k e] st IH]; intros S; [constructor|].
  cbn [msorted] in S. destruct S as [F S]. rewrite rekeyed_cons.
  destruct (snd k =? 0) eqn:Q; [|auto]. apply Z.eqb_eq in Q. constructor; [auto|].
  apply Forall_forall. intros w Iw. apply rekeyed_In in Iw. destruct Iw as (e' & I').
  rewrite Forall_forall in F. specialize (F _ I'). cbn [fst] in F. apply kcmp_Lt in F.
  unfold klt in F. cbn [fst snd] in F. lia.
Qed.

(** ** The relation between a forest and the list of re-keyed versions

    deleteVersion(w) re-keys the root of tree [w+1] from (w,1) to (w,0) when that root is the root
    node of tree [w] carried over (a version saved without changes): so a re-keyed version is a
    deleted one ([w < first]), and its node, whose own key is still (w,1), is in use by a tree that
    stays.  Once no tree uses it, it is deleted as an orphan and [w] leaves the list ([rk_next]). *)
Definition rekey_ok (r : list Z) (f : forest_t) : Prop :=
  StronglySorted Z.lt r /\
  forall w, In w r -> w < first_of_forest f /\ exists u, sub_of f u /\ node_key u = (w, 1).

(** the re-keyed versions after [n] deleteVersion calls *)
Fixpoint rk_run (n : nat) (fc : forest_t) (r : list Z) : list Z :=
  match n with
  | O => r
  | S n =>
      match fc with
      | (v, _) :: (((_, rn) :: _) as f') => rk_run n f' (rk_next v rn r)
      | _ => r
      end
  end.

(** the effective writes of these calls *)
Fixpoint range_writes (n : nat) (fc : forest_t) (r : list Z) : list wop :=
  match n with
  | O => []
  | S n =>
      match fc with
      | (v, rv) :: (((_, rn) :: _) as f') => dv_writes r v rv rn ++ range_writes n f' (rk_next v rn r)
      | _ => []
      end
  end.

Section Range.
  Variable H : bytes -> bytes.
  Variable f0 : forest_t.
  Variable iv : Z.
  Hypothesis FI : forest_inv f0.
  Hypothesis ND : NoDup (map fst f0).
  Hypothesis OK0 : forest_ok f0 iv.
  Hypothesis WF0 : forall w t, In (w, Some t) f0 -> wf t.
  Hypothesis NC0 : forall w t u c, In (w, Some t) f0 -> subtree u t -> subtree c t ->
                                   fhash H u = fhash H c -> u = c.
  Variable fuel : nat.
  Hypothesis Hfuel : forall w t, In (w, Some t) f0 -> (2 * ncount t + 1 <= fuel)%nat.

  Theorem delete_range_ok : forall (n : nat) fc done v p c r,
    f0 = done ++ fc -> map fst fc = zseq v (length fc) -> (n < length fc)%nat ->
    ST f0 p c fc r v ->
    exists p' c', delete_range H fuel (zseq v n) p c = POk p' /\
                  ST f0 p' c' (skipn n fc) (rk_run n fc r) (v + Z.of_nat n) /\
                  logs_ext p p' (range_writes n fc r).
  Proof.
    induction n as [|n IH]; intros fc done v p c r Suf Hz Ln HS.
    - exists p, c. cbn [zseq delete_range skipn rk_run range_writes]. split; [reflexivity|].
      split; [|apply logs_ext_refl]. replace (v + Z.of_nat 0) with v by lia. exact HS.
    - destruct fc as [|[v0 rv] [|[v1 rn] f'']]; cbn [length] in Ln; try lia.
      assert (E0 : v0 = v /\ v1 = v + 1).
      { cbn [map fst length zseq] in Hz. injection Hz as A B _. auto. }
      destruct E0 as [-> ->].
      destruct (delete_version_ok FI ND OK0 WF0 NC0 Hfuel Suf Hz p c r HS)
        as (p1 & c1 & E1 & HS1 & LG1).
      cbn [zseq delete_range]. rewrite E1.
      destruct (IH ((v + 1, rn) :: f'') (done ++ [(v, rv)]) (v + 1) p1 c1 (rk_next v rn r))
        as (p' & c' & E' & HS' & LG').
      + rewrite Suf, <- app_assoc. reflexivity.
      + cbn [map fst length zseq] in Hz |- *. injection Hz as Hz'. rewrite Hz'. reflexivity.
      + cbn [length]. lia.
      + exact HS1.
      + exists p', c'. split; [exact E'|]. cbn [skipn rk_run range_writes].
        split; [|exact (logs_ext_trans _ _ _ _ _ LG1 LG')].
        replace (v + Z.of_nat (S n)) with (v + 1 + Z.of_nat n) by lia. exact HS'.
  Qed.

  Lemma ST_init r sched eff :
    f0 <> [] -> (forall w, In w r -> w < first_of f0) ->
    ST f0 (Pdb (phys_of r f0) [] sched [] [] eff [] [phys_of r f0]) rkc_new f0 r (first_of f0).
  Proof.
    intros NE Hr.
    destruct (forest_ok_range f0 iv OK0 NE) as (R1 & _ & R).
    assert (Cx : ctx f0 (sub_of f0) f0 f0 r (first_of f0)).
    { constructor.
      - constructor; [auto|apply incl_refl|].
        intros w Iw w' rt I. specialize (Hr w Iw).
        assert (Iw' : In w' (map fst f0)) by (apply in_map_iff; exists (w', rt); auto).
        apply (forest_ok_In f0 iv w' OK0) in Iw'. lia.
      - apply incl_refl.
      - intros w t I. exists w, t. split; [exact I|apply sub_refl].
      - exact Hr. }
    pose proof (phys_pst f0 FI ND r) as PV.
    pose proof (vgood_of_pst f0 FI _ f0 f0 r (first_of f0) _ Cx PV) as (S & K & R0').
    split; [split; [exact Cx|]|apply cache_ok_new; lia].
    constructor; unfold Vof; cbn [disk pend dhist sapply_all fold_left]; auto.
    split; auto.
  Qed.
End Range.
