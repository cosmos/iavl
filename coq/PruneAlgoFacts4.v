(** PruneAlgoFacts4: the node iterator and the root key cache on a safe disk, and the double
    traversal [orphans_loop]: it deletes exactly the nodes of the previous tree that the current
    tree does not contain ([loop_ok]), whatever the flush schedule. *)
From Coq Require Import Lia Sorted.
From IAVL Require Import Bytes Varint Tree VMap TreeFacts MTree MTreeFacts HashFacts VersionFacts
  Store StoreFacts PruneAlgo PruneAlgoFacts1 PruneAlgoFacts2 PruneAlgoFacts3.
Local Open Scope Z_scope.

(** ** Children, pre-order, measure *)
Definition kids (u : node) : list node :=
  match u with Leaf _ _ _ => [] | Inner _ _ _ _ l r => [l; r] end.

Lemma pre_kids u : pre u = u :: flat_map pre (kids u).
Proof. destruct u; cbn [pre kids flat_map]; [reflexivity|]. rewrite app_nil_r. reflexivity. Qed.

Lemma mx_kids P u : P u = false -> mx P u = flat_map (mx P) (kids u).
Proof.
  intros E. destruct u as [k v m|k h s m l r]; cbn [kids flat_map].
  - apply mx_miss_leaf, E.
  - rewrite (mx_miss_inner _ _ _ _ _ _ _ E), app_nil_r. reflexivity.
Qed.

Lemma kids_sub u c : In c (kids u) -> subtree c u.
Proof.
  destruct u as [k v m|k h s m l r]; cbn [kids In]; [tauto|].
  intros [<-|[<-|[]]]; [apply sub_left|apply sub_right]; apply sub_refl.
Qed.

Definition msum (us : list node) : nat := fold_right (fun u a => (ncount u + a)%nat) 0%nat us.

Lemma msum_app a b : msum (a ++ b) = (msum a + msum b)%nat.
Proof. induction a as [|x a IH]; cbn [msum fold_right app]; [reflexivity|]. fold (msum (a ++ b)). fold (msum a). lia. Qed.

Lemma msum_kids u : ncount u = S (msum (kids u)).
Proof. destruct u; cbn [ncount kids msum fold_right]; lia. Qed.

Lemma msum_cons u us : msum (u :: us) = (ncount u + msum us)%nat.
Proof. reflexivity. Qed.

(** ** The iterator on a safe disk *)
Definition sk (d : store) (ks : nodekey * snode) (u : node) : Prop :=
  snd ks = snode_of u /\ keyok d (fst ks) u.

Definition stk (d : store) (it : nit) (us : list node) : Prop :=
  nerr it = false /\ Forall2 (sk d) (nstack it) us.

Lemma stk_valid d it us :
  stk d it us -> nit_valid it = match us with [] => false | _ => true end.
Proof.
  intros [E F]. unfold nit_valid. rewrite E. cbn [negb andb].
  inversion F; reflexivity.
Qed.

Lemma stk_cons_inv d it u us :
  stk d it (u :: us) ->
  exists k rest, nstack it = (k, snode_of u) :: rest /\ keyok d k u /\ Forall2 (sk d) rest us /\
                 nerr it = false.
Proof.
  intros [E F]. inversion F as [|[k sn] x rest y [A B] F']; subst. cbn [fst snd] in *. subst sn.
  exists k, rest. auto.
Qed.

Lemma stk_nil_inv d it : stk d it [] -> nstack it = [].
Proof. intros [_ F]. inversion F. reflexivity. Qed.

Lemma Forall2_sk_transport d d' l us :
  Forall2 (sk d) l us -> (forall x k, In x us -> keyok d k x -> keyok d' k x) ->
  Forall2 (sk d') l us.
Proof.
  induction 1 as [|[k sn] u l us [A B] F IH]; intros T; constructor.
  - split; [exact A|]. apply T; [left; reflexivity|exact B].
  - apply IH. intros x k' I. apply T. right. exact I.
Qed.

Lemma stk_transport d d' it us :
  stk d it us -> (forall x k, In x us -> keyok d k x -> keyok d' k x) -> stk d' it us.
Proof. intros [E F] T. split; [exact E|]. exact (Forall2_sk_transport _ _ _ _ F T). Qed.

Lemma nit_next_skip d it k sn rest :
  nstack it = (k, sn) :: rest -> nerr it = false -> nit_next d it true = Nit rest false.
Proof. intros E N. unfold nit_next, nit_valid. rewrite E, N. reflexivity. Qed.

Lemma stk_next_skip d it u us : stk d it (u :: us) -> stk d (nit_next d it true) us.
Proof.
  intros S. destruct (stk_cons_inv _ _ _ _ S) as (k & rest & E & _ & F & N).
  rewrite (nit_next_skip d it k _ rest E N). split; [reflexivity|exact F].
Qed.

Lemma nit_next_noskip (L : node -> Prop) sro b d it k u rest us :
  nstack it = (k, snode_of u) :: rest -> nerr it = false ->
  safe L sro b d -> (forall c, In c (kids u) -> L c) -> Forall2 (sk d) rest us ->
  stk d (nit_next d it false) (kids u ++ us).
Proof.
  intros E N (_ & A & _) HL F. unfold nit_next, nit_valid. rewrite E, N. cbn [negb andb].
  destruct u as [key val m|key h s m l r]; cbn [snode_of kids app].
  - split; [reflexivity|exact F].
  - rewrite (A r (HL r (or_intror (or_introl eq_refl)))).
    rewrite (A l (HL l (or_introl eq_refl))).
    split; [reflexivity|]. cbn [nstack].
    constructor; [split; [reflexivity|left; reflexivity]|].
    constructor; [split; [reflexivity|left; reflexivity]|exact F].
Qed.

Lemma nit_new_none d : nit_new d None = Some (Nit [] false) /\ stk d (Nit [] false) [].
Proof. split; [reflexivity|]. split; [reflexivity|constructor]. Qed.

Lemma nit_new_some (L : node -> Prop) sro b d k t :
  safe L sro b d -> L t -> keyok d k t ->
  exists it, nit_new d (Some k) = Some it /\ stk d it [t].
Proof.
  intros S Lt K. unfold nit_new. rewrite (get_node_keyok L sro b d k t S Lt K).
  eexists. split; [reflexivity|]. split; [reflexivity|].
  constructor; [split; [reflexivity|exact K]|constructor].
Qed.

(** ** The root key cache *)
Definition rval (d : store) (rt : option node) (ko : option nodekey) : Prop :=
  match rt, ko with
  | None, None => True
  | Some t, Some k => keyok d k t
  | _, _ => False
  end.

Definition cval (d : store) (fm : forest_t) (w : Z) (ko : option nodekey) : Prop :=
  exists rt, In (w, rt) fm /\ rval d rt ko.

Definition cache_ok (c : rkc) (d : store) (fm : forest_t) (lo : Z) : Prop :=
  (rv0 c < lo \/ cval d fm (rv0 c) (rk0 c)) /\ (rv1 c < lo \/ cval d fm (rv1 c) (rk1 c)).

Lemma cache_ok_new d fm lo : 0 <= lo -> cache_ok rkc_new d fm lo.
Proof. intros P. split; left; cbn; lia. Qed.

Lemma rkc_get_ok (L : node -> Prop) sro b d c lo w rt :
  safe L sro b d -> (forall w t, In (w, Some t) sro -> L t) -> NoDup (map fst sro) ->
  cache_ok c d sro lo -> lo <= w -> In (w, rt) sro ->
  exists ko c', rkc_get c d w = (POk ko, c') /\ rval d rt ko /\ cache_ok c' d sro lo.
Proof.
  intros S HR NDs [C0 C1] Lw I. unfold rkc_get.
  assert (Hit : forall w' ko, w' < lo \/ cval d sro w' ko -> (w' =? w) = true -> rval d rt ko).
  { intros w' ko [C|(rt' & I' & R)] E; apply Z.eqb_eq in E; [lia|]. rewrite E in I'.
    rewrite (NoDup_fst_functional sro w rt rt' NDs I I'). exact R. }
  destruct (rv0 c =? w) eqn:E0.
  { exists (rk0 c), c. split; [reflexivity|]. split; [exact (Hit _ _ C0 E0)|split; assumption]. }
  destruct (rv1 c =? w) eqn:E1.
  { exists (rk1 c), c. split; [reflexivity|]. split; [exact (Hit _ _ C1 E1)|split; assumption]. }
  pose proof (get_root_safe L sro b d w rt S I) as G.
  assert (HL : forall t, rt = Some t -> L t) by (intros t ->; exact (HR _ _ I)).
  specialize (G HL).
  assert (New : forall ko, rval d rt ko ->
            cache_ok (if rnext c then Rkc (rv0 c) (rk0 c) w ko false else Rkc w ko (rv1 c) (rk1 c) true)
                     d sro lo).
  { intros ko R. assert (CV : cval d sro w ko) by (exists rt; auto).
    destruct (rnext c); split; cbn [rv0 rk0 rv1 rk1]; auto. }
  destruct rt as [t|].
  - destruct G as (k & G & K). rewrite G. exists (Some k). eexists. split; [reflexivity|].
    split; [exact K|]. apply New. exact K.
  - rewrite G. exists None. eexists. split; [reflexivity|].
    split; [exact Logic.I|]. apply New. exact Logic.I.
Qed.

Lemma cache_ok_transport c d d' fm lo :
  cache_ok c d fm lo ->
  (forall w t k, In (w, Some t) fm -> keyok d k t -> keyok d' k t) ->
  cache_ok c d' fm lo.
Proof.
  intros [C0 C1] T.
  assert (G : forall w ko, cval d fm w ko -> cval d' fm w ko).
  { intros w ko (rt & I & R). exists rt. split; [exact I|].
    destruct rt as [t|], ko as [k|]; cbn [rval] in *; auto. exact (T w t k I R). }
  split; [destruct C0 as [C0|C0]|destruct C1 as [C1|C1]]; auto.
Qed.

Lemma cache_ok_shift c d v rv f' lo lo' :
  cache_ok c d ((v, rv) :: f') lo -> lo <= lo' -> v < lo' -> cache_ok c d f' lo'.
Proof.
  intros [C0 C1] Ll Lv.
  assert (G : forall w ko, cval d ((v, rv) :: f') w ko -> w < lo' \/ cval d f' w ko).
  { intros w ko (rt & [Q|I] & R); [inversion Q; subst; left; exact Lv|].
    right. exists rt. auto. }
  split; [destruct C0 as [C0|C0]|destruct C1 as [C1|C1]]; auto; left; lia.
Qed.

(** ** The double traversal

    Which way a step goes depends on the two iterators and the candidate only, never on the
    storage: [ldec] decides, and the two loops ([PruneAlgo.orphans_loop] and the loop of
    PruneFault.v with storage errors, which also takes the [fixed] flag: whether an error of the
    current tree's iterator ends the traversal) differ in what they do with the decision. *)
Inductive lstep :=
| LDone (ok : bool)                                  (* the traversal ends *)
| LCur (skip : bool) (org : option (nodekey * snode)) (* the current tree's iterator advances *)
| LShared                                            (* the previous tree's head is shared: skipped *)
| LOrphan (pk : nodekey).                            (* the previous tree's head is an orphan *)

(** the head of the previous tree's iterator against the candidate *)
Definition lprev (H : bytes -> bytes) (prev : nit) (org : option (nodekey * snode)) : lstep :=
  match nstack prev with
  | (pk, pn) :: _ =>
      if match org with
         | Some (ok, on) => beq (fetched_hash H pk pn) (fetched_hash H ok on)
         | None => false
         end
      then LShared else LOrphan pk
  | [] => LDone false
  end.

Definition ldec (H : bytes -> bytes) (fixed : bool) (v : Z) (cur prev : nit)
           (org : option (nodekey * snode)) : lstep :=
  if negb (nit_valid prev) then LDone (negb (nerr cur) && negb (nerr prev))
  else if fixed && nerr cur then LDone false
  else
    match org, nit_valid cur with
    | None, true =>
        match nstack cur with
        | (k, n) :: _ => if fst k <=? v then LCur true (Some (k, n)) else LCur false None
        | [] => LDone false
        end
    | _, _ => lprev H prev org
    end.

Lemma orphans_loop_S H fuel v p cur prev org :
  orphans_loop H (S fuel) v p cur prev org =
  match ldec H true v cur prev org with
  | LDone ok => if ok then POk p else PErr
  | LCur skip o => orphans_loop H fuel v p (nit_next (disk p) cur skip) prev o
  | LShared => orphans_loop H fuel v p cur (nit_next (disk p) prev true) None
  | LOrphan pk => orphans_loop H fuel v (on_orphan v p pk) cur
                    (nit_next (disk (on_orphan v p pk)) prev false) org
  end.
Proof.
  cbn [orphans_loop]. unfold ldec, lprev. cbn [andb].
  destruct (negb (nit_valid prev)). { destruct (nerr cur), (nerr prev); reflexivity. }
  destruct (nerr cur); [reflexivity|].
  destruct org as [[ok on]|], (nit_valid cur), (nstack cur) as [|[k n] ?], (nstack prev) as [|[pk pn] ?];
    try reflexivity;
    try (destruct (fst k <=? v); reflexivity);
    try (destruct (beq (fetched_hash H pk pn) (fetched_hash H ok on)); reflexivity).
Qed.

Section Loop.
  Variable H : bytes -> bytes.
  Variable f0 : forest_t.
  Hypothesis FI : forest_inv f0.

  (** the hash the iterator computes for a fetched node *)
  Definition fhash (u : node) : bytes :=
    match u with
    | Leaf k v m => H (leaf_preimage H (ver m) k v)
    | Inner _ _ _ m _ _ => hs m
    end.

  Lemma fetched_fhash k u : fst k = ver (nmeta u) -> fetched_hash H k (snode_of u) = fhash u.
  Proof. intros E. destruct u; cbn [fetched_hash snode_of fhash nmeta] in *; [rewrite E|]; reflexivity. Qed.

  Variables (v : Z) (f' : forest_t) (tv : node) (otn : option node) (ro : forest_t) (r : list Z).

  Definition inn (c : node) : Prop := exists tn, otn = Some tn /\ subtree c tn.

  (* [tv]: tree [v], being deleted; [otn]: tree [v+1]; [f']: the forest that stays.  A node of tree
     [v+1] has a version [<= v] exactly when tree [v] has it (HA); a node of tree [v] that tree
     [v+1] lacks is in no tree that stays (HN); the nodes of tree [v+1] stay (HS); the iterator
     hash tells the nodes of tree [v] apart (NC).  [PruneAlgoFacts5] derives them from
     [forest_inv] and [no_confusion]. *)
  Hypothesis HA : forall c, inn c -> (ver (nmeta c) <= v <-> subtree c tv).
  Hypothesis HN : forall u, subtree u tv -> ~ inn u -> ~ sub_of f' u.
  Hypothesis HS : forall u, inn u -> sub_of f' u.
  Hypothesis NC : forall u c, subtree u tv -> subtree c tv -> fhash u = fhash c -> u = c.

  (* the two tests of [PruneAlgoFacts1.mx_common]: [PA], on the nodes of tree [v+1]: tree [v] has it
     (the code's test by the version, right by HA); [PB], on the nodes of tree [v]: tree [v+1] has it *)
  Definition PA (c : node) : bool := ver (nmeta c) <=? v.
  Definition PB (u : node) : bool := insub otn u.
  Definition Lof (ps : list node) (x : node) : Prop := sub_of f' x \/ In x (flat_map pre ps).

  Lemma PB_true u : PB u = true <-> inn u.
  Proof. apply insub_true. Qed.

  Lemma inn_sub c x : inn c -> subtree x c -> inn x.
  Proof. intros (tn & E & S) Sx. exists tn. split; [exact E|exact (sub_trans _ _ _ Sx S)]. Qed.

  Definition olist {A} (o : option A) : list A := match o with Some a => [a] | None => [] end.

  (* The invariant of [orphans_loop].  [cs], [ps]: the subtrees the iterators [cur] (over tree [v+1])
     and [prev] (over tree [v]) have yet to visit; [oc]: the candidate [org] as a node.  [li_eq]: the
     shared subtrees to come are the same list along both trees; [li_pi]: the batch invariant,
     the live nodes being those that stay and what [prev] has yet to visit. *)
  Record LI (p : pdb) (cur prev : nit) (org : option (nodekey * snode))
            (cs ps : list node) (oc : option node) : Prop := MkLI {
    li_cur : stk (disk p) cur cs;
    li_prev : stk (disk p) prev ps;
    li_org : match org, oc with
             | Some ks, Some c => sk (disk p) ks c
             | None, None => True
             | _, _ => False
             end;
    li_cs : forall c, In c cs -> inn c;
    li_oc : forall c, oc = Some c -> inn c /\ ver (nmeta c) <= v;
    li_nd : NoDup (flat_map pre ps);
    li_ps : forall x, In x ps -> subtree x tv;
    li_eq : flat_map (mx PB) ps = olist oc ++ flat_map (mx PA) cs;
    li_pi : PIx f0 p (Lof ps) ro f' r v
  }.

  (** the effective writes of the traversal: the nodes below [ps] that the current tree does not
      contain, in pre-order, each deleted under the key it is stored under *)
  Definition orph_dels (ps : list node) : list wop :=
    map (fun u => del_node (pkey r u)) (filter (fun u => negb (PB u)) (flat_map pre ps)).

  Lemma orph_dels_shared c us : inn c -> orph_dels (c :: us) = orph_dels us.
  Proof.
    intros Ic. unfold orph_dels. cbn [flat_map]. rewrite filter_app, (filter_none _ (pre c)); [reflexivity|].
    intros x Ix. apply pre_In in Ix. apply Bool.negb_false_iff, PB_true. exact (inn_sub c x Ic Ix).
  Qed.

  Lemma orph_dels_orphan u us :
    PB u = false -> orph_dels (u :: us) = [del_node (pkey r u)] ++ orph_dels (kids u ++ us).
  Proof.
    intros E. unfold orph_dels. cbn [flat_map]. rewrite pre_kids. cbn [app filter].
    rewrite E, flat_map_app. reflexivity.
  Qed.

  Lemma Lof_sub ps x u : In u ps -> subtree x u -> Lof ps x.
  Proof.
    intros I S. right. apply in_flat_map. exists u. split; [exact I|]. apply pre_In, S.
  Qed.

  Lemma flat_pre_sub ps x : (forall u, In u ps -> subtree u tv) -> In x (flat_map pre ps) -> subtree x tv.
  Proof.
    intros Hp I. apply in_flat_map in I. destruct I as (u & Iu & Ix). apply pre_In in Ix.
    exact (sub_trans _ _ _ Ix (Hp u Iu)).
  Qed.

  (** what the invariant gives for each way a step can go: the invariant of the next state, and for
      an orphan what the callback's writes do to the keys of the nodes that stay and to the logs *)
  Definition LI_next p cur prev org cs ps oc (d : lstep) : Prop :=
    match d with
    | LDone ok => ok = true /\ ps = []
    | LCur skip o =>
        exists cs' oc', LI p (nit_next (disk p) cur skip) prev o cs' ps oc' /\
                        (msum cs' < msum cs)%nat
    | LShared =>
        exists c us, ps = c :: us /\ inn c /\
                     LI p cur (nit_next (disk p) prev true) None cs us None
    | LOrphan pk =>
        exists u us, ps = u :: us /\ PB u = false /\
          LI (on_orphan v p pk) cur (nit_next (disk (on_orphan v p pk)) prev false) org cs (kids u ++ us) oc /\
          (forall x k, sub_of f' x -> keyok (disk p) k x -> keyok (disk (on_orphan v p pk)) k x) /\
          logs_ext p (on_orphan v p pk) [del_node (pkey r u)] /\
          (* where a failing second deletion leaves the run *)
          exists L1, PIx f0 (pwrite p (del_node pk)) L1 ro f' r v /\ forall x, sub_of f' x -> L1 x
    end.

  Lemma LI_dec p cur prev org cs ps oc :
    LI p cur prev org cs ps oc ->
    LI_next p cur prev org cs ps oc (ldec H true v cur prev org).
  Proof.
    intros [Scur Sprev Sorg Ccs Coc Nd Cps Ieq PX]. unfold ldec.
    rewrite (stk_valid _ _ _ Sprev).
    destruct ps as [|u us].
    { cbn [negb]. rewrite (proj1 Scur), (proj1 Sprev). split; reflexivity. }
    cbn [negb andb]. rewrite (proj1 Scur). rewrite (stk_valid _ _ _ Scur).
    destruct (stk_cons_inv _ _ _ _ Sprev) as (pk & prest & Ep & Kp & Fp & Np).
    assert (Su : subtree u tv) by (apply Cps; left; reflexivity).
    assert (PrevStep :
      match org with
      | Some ks => exists c, oc = Some c /\ sk (disk p) ks c
      | None => oc = None /\ cs = []
      end ->
      LI_next p cur prev org cs (u :: us) oc (lprev H prev org)).
    { intros Horg. unfold lprev. rewrite Ep.
      set (same := match org with
                   | Some (ok, on) => beq (fetched_hash H pk (snode_of u)) (fetched_hash H ok on)
                   | None => false
                   end) in *.
      assert (Fu' : fetched_hash H pk (snode_of u) = fhash u)
        by (apply fetched_fhash, (keyok_ver _ _ _ Kp)).
      destruct same eqn:Same; cbn [LI_next].
      - (* equal hashes: the head of the previous tree is the candidate *)
        destruct org as [[ok on]|]; [|discriminate]. destruct Horg as (c & Eoc & [Ec Kc]).
        cbn [fst snd] in Ec, Kc. subst on. unfold same in Same. apply beq_true in Same.
        rewrite Fu', (fetched_fhash ok c (keyok_ver _ _ _ Kc)) in Same.
        destruct (Coc c Eoc) as [Ic Vc].
        assert (Sc : subtree c tv) by (apply HA; assumption).
        pose proof (NC u c Su Sc Same) as ->.
        assert (Pc : PB c = true) by (apply PB_true, Ic).
        exists c, us. split; [reflexivity|]. split; [exact Ic|]. constructor; auto.
        + apply (stk_next_skip _ _ c us Sprev).
        + intros c0 Q0. discriminate.
        + cbn [flat_map] in Nd. exact (NoDup_app_r _ _ Nd).
        + intros x Ix. apply Cps. right. exact Ix.
        + subst oc. cbn [flat_map olist app] in Ieq. rewrite (mx_hit _ _ Pc) in Ieq.
          cbn [app] in Ieq. inversion Ieq. reflexivity.
        + apply (PIx_ext f0 p (Lof (c :: us))); [|exact PX]. intros x. unfold Lof.
          cbn [flat_map]. rewrite in_app_iff. split; [|tauto].
          intros [A|[A|A]]; auto. left. apply HS. apply pre_In in A. exact (inn_sub c x Ic A).
      - (* an orphan: it is in no retained version *)
        assert (NPB : PB u = false).
        { destruct (PB u) eqn:Pu; [|reflexivity]. exfalso.
          cbn [flat_map] in Ieq. rewrite (mx_hit _ _ Pu) in Ieq. cbn [app] in Ieq.
          destruct org as [[ok on]|].
          - destruct Horg as (c & Eoc & [Ec Kc]). cbn [fst snd] in Ec, Kc. subst on oc.
            cbn [olist app] in Ieq. injection Ieq as Q0 _. subst c.
            unfold same in Same. rewrite Fu', (fetched_fhash ok u (keyok_ver _ _ _ Kc)) in Same.
            apply beq_false in Same. congruence.
          - destruct Horg as [-> ->]. cbn [olist flat_map app] in Ieq. discriminate. }
        assert (Nu : ~ inn u) by (intros C; apply PB_true in C; congruence).
        assert (Nf : ~ sub_of f' u) by (apply HN; assumption).
        assert (Lu : Lof (u :: us) u) by (apply (Lof_sub _ _ u); [left; reflexivity|apply sub_refl]).
        assert (NR : forall w t, In (w, Some t) f' -> t <> u).
        { intros w t It ->. apply Nf. exists w, u. split; [exact It|apply sub_refl]. }
        destruct (PIx_orphan f0 FI v p (Lof (u :: us)) ro f' r pk u PX Lu Kp NR)
          as (PX' & Tr & LG & L1 & PXm & HL1).
        assert (Eq1 : forall x, minus (Lof (u :: us)) u x <-> Lof (kids u ++ us) x).
        { intros x. unfold minus, Lof. cbn [flat_map]. rewrite flat_map_app.
          rewrite pre_kids. cbn [app In]. rewrite !in_app_iff.
          cbn [flat_map] in Nd. rewrite pre_kids in Nd. cbn [app] in Nd.
          inversion Nd as [|? ? Nin Nd']; subst. rewrite in_app_iff in Nin. split.
          - intros [[A|[A|[A|A]]] Ne]; auto. congruence.
          - intros [A|[A|A]]; (split; [auto|intros ->; tauto]). }
        set (p1 := on_orphan v p pk) in *.
        pose proof (PIx_ext f0 p1 _ _ ro f' r v Eq1 PX') as PX1.
        assert (Tr' : forall x k, Lof (kids u ++ us) x -> keyok (disk p) k x -> keyok (disk p1) k x).
        { intros x k Lx. apply Tr, Eq1, Lx. }
        exists u, us. split; [reflexivity|]. split; [exact NPB|].
        split; [|split; [intros x k Sx; apply Tr'; left; exact Sx|split; [exact LG|]]].
        2:{ exists L1. split; [exact PXm|]. intros x Sx. apply HL1, Eq1. left. exact Sx. }
        constructor; auto.
        + apply (stk_transport _ _ _ _ Scur). intros x k Ix. apply Tr'. left. apply HS, Ccs, Ix.
        + destruct PX1 as [_ P1].
          apply (nit_next_noskip (Lof (kids u ++ us)) f' v (disk p1) prev pk u prest us Ep Np
                   (pi_disk _ _ _ _ _ _ P1)).
          * intros c Ic. apply (Lof_sub _ _ c); [apply in_or_app; left; exact Ic|apply sub_refl].
          * apply (Forall2_sk_transport _ _ _ _ Fp). intros x k Ix. apply Tr'.
            apply (Lof_sub _ _ x); [apply in_or_app; right; exact Ix|apply sub_refl].
        + destruct org as [ks|], oc as [c|]; try exact Sorg. destruct Sorg as [A B].
          split; [exact A|]. apply Tr'; [|exact B]. left. apply HS. apply (Coc c eq_refl).
        + cbn [flat_map] in Nd. rewrite pre_kids in Nd. cbn [app] in Nd.
          inversion Nd; subst. rewrite flat_map_app. assumption.
        + intros x Ix. apply in_app_or in Ix. destruct Ix as [Ix|Ix].
          * exact (sub_trans _ _ _ (kids_sub u x Ix) Su).
          * apply Cps. right. exact Ix.
        + rewrite flat_map_app, <- (mx_kids _ _ NPB). exact Ieq. }
    destruct org as [[ok on]|].
    - destruct oc as [c|]; [|contradiction]. apply PrevStep. exists c. auto.
    - destruct oc as [c|]; [contradiction|].
      destruct cs as [|c cs']; [apply PrevStep; auto|].
      destruct (stk_cons_inv _ _ _ _ Scur) as (ck & crest & Ec & Kc & Fc & Nc).
      rewrite Ec, (keyok_ver _ _ _ Kc).
      assert (Ic : inn c) by (apply Ccs; left; reflexivity).
      destruct (ver (nmeta c) <=? v) eqn:Tc; cbn [LI_next].
      + (* a node of an older version: the new candidate *)
        exists cs', (Some c). split; [|rewrite msum_cons; pose proof (ncount_pos c); lia].
        constructor; auto.
        * apply (stk_next_skip _ _ c cs' Scur).
        * split; [reflexivity|exact Kc].
        * intros x Ix. apply Ccs. right. exact Ix.
        * intros c0 Q0. inversion Q0; subst c0. split; [exact Ic|]. apply Z.leb_le, Tc.
        * rewrite Ieq. cbn [olist flat_map app]. unfold PA at 1. rewrite (mx_hit _ _ Tc). reflexivity.
      + exists (kids c ++ cs'), None.
        split; [|rewrite msum_app, msum_cons, (msum_kids c); lia].
        constructor; auto.
        * destruct PX as [_ P0].
          apply (nit_next_noskip (Lof (u :: us)) f' v (disk p) cur ck c crest cs' Ec Nc
                   (pi_disk _ _ _ _ _ _ P0)); [|exact Fc].
          intros x Ix. left. apply HS. exact (inn_sub c x Ic (kids_sub c x Ix)).
        * intros x Ix. apply in_app_or in Ix. destruct Ix as [Ix|Ix].
          -- exact (inn_sub c x Ic (kids_sub c x Ix)).
          -- apply Ccs. right. exact Ix.
        * rewrite Ieq. cbn [olist flat_map app]. rewrite flat_map_app.
          rewrite <- (mx_kids PA c Tc). reflexivity.
  Qed.

End Loop.

(** The walk itself needs of the two trees only what one step gives ([Step], an instance of
    [LI_dec]); PruneFaultFacts3.loop_f_ok walks the loop with a failing call from the same. *)
Section Walk.
  Variables (H : bytes -> bytes) (f0 : forest_t) (v : Z) (f' : forest_t) (tv : node)
            (otn : option node) (ro : forest_t) (r : list Z).
  Hypothesis Step : forall p cur prev org cs ps oc,
    LI f0 v f' tv otn ro r p cur prev org cs ps oc ->
    LI_next f0 v f' tv otn ro r p cur prev org cs ps oc (ldec H true v cur prev org).

  Theorem loop_ok : forall fuel p cur prev org cs ps oc,
    LI f0 v f' tv otn ro r p cur prev org cs ps oc -> (msum cs + msum ps + 1 <= fuel)%nat ->
    exists p', orphans_loop H fuel v p cur prev org = POk p' /\
               PIx f0 p' (sub_of f') ro f' r v /\
               (forall x k, sub_of f' x -> keyok (disk p) k x -> keyok (disk p') k x) /\
               logs_ext p p' (orph_dels otn r ps).
  Proof.
    induction fuel as [|fuel IH]; intros p cur prev org cs ps oc I Fu; [lia|].
    rewrite orphans_loop_S. pose proof (Step _ _ _ _ _ _ _ I) as D.
    destruct (ldec H true v cur prev org) as [ok|skip o| |pk]; cbn [LI_next] in D.
    - (* the previous tree is exhausted *)
      destruct D as [-> ->]. exists p. split; [reflexivity|].
      split; [|split; [auto|apply logs_ext_refl]].
      apply (PIx_ext f0 p (Lof f' [])); [|exact (li_pi _ _ _ _ _ _ _ _ _ _ _ _ _ _ I)].
      intros x. unfold Lof. cbn [flat_map In]. tauto.
    - destruct D as (cs' & oc' & I' & M). apply (IH _ _ _ _ _ _ _ I'). lia.
    - destruct D as (c & us & -> & Ic & I'). rewrite (orph_dels_shared otn r c us Ic).
      apply (IH _ _ _ _ _ _ _ I'). rewrite msum_cons in Fu. pose proof (ncount_pos c). lia.
    - destruct D as (u & us & -> & NPB & I' & Tr & LG & _). rewrite (orph_dels_orphan otn r u us NPB).
      destruct (IH _ _ _ _ _ _ _ I') as (p' & E' & PX2 & Tr2 & LG').
      + rewrite msum_app. rewrite msum_cons, (msum_kids u) in Fu. lia.
      + exists p'. split; [exact E'|]. split; [exact PX2|]. split; [|exact (logs_ext_trans _ _ _ _ _ LG LG')].
        intros x k Sx Kx. exact (Tr2 x k Sx (Tr x k Sx Kx)).
  Qed.
End Walk.
