(** PruneFaultFacts3: the double traversal with a failing storage call ([loop_f_ok]): either no
    call failed and the result is PruneAlgo's, or the loop stops with an error, having written
    nothing that PruneAlgo's loop would not have written, and what it leaves behind is safe for the
    versions that are not being deleted. *)
From Coq Require Import Lia.
From IAVL Require Import Bytes Varint Tree VMap TreeFacts MTree MTreeFacts HashFacts VersionFacts
  Store StoreFacts PruneAlgo PruneAlgoFacts1 PruneAlgoFacts2 PruneAlgoFacts3 PruneAlgoFacts4
  PruneAlgoFacts5 PruneFault PruneFaultFacts1 PruneFaultFacts2.
Local Open Scope Z_scope.

Section Outcome.
  Variable fK : forest_t.
  Variable bK : Z.

  (** [r]: what PruneAlgo's function returns from [fp s] *)
  Definition outcome (r : pres pdb) (st : pres unit) (s s' : fdb) : Prop :=
    wadv s s' /\
    ((live s' /\ rel r st s') \/
     (~ live s' /\ st = PErr /\ ERR fK bK (fp s') /\ wpre (fp s) (fp s') /\
      forall pfin, r = POk pfin -> wpre (fp s') pfin)).

  Lemma outcome_shift r st s0 s s' :
    outcome r st s s' -> wadv s0 s -> wpre (fp s0) (fp s) -> outcome r st s0 s'.
  Proof.
    intros (A & B) A0 W0. split; [exact (wadv_trans _ _ _ A0 A)|].
    destruct B as [B|(D & E & Er & W & F)]; [left; exact B|right].
    split; [exact D|]. split; [exact E|]. split; [exact Er|]. split; [exact (wpre_trans _ _ _ W0 W)|exact F].
  Qed.

  Lemma outcome_dead r s0 s :
    wadv s0 s -> ~ live s -> ERR fK bK (fp s) -> wpre (fp s0) (fp s) ->
    (forall pfin, r = POk pfin -> wpre (fp s) pfin) -> outcome r PErr s0 s.
  Proof. intros A D E W F. split; [exact A|]. right. auto. Qed.

  (** a failing WRITE leaves the [pdb] as it stood before it ([pm]), or that with its batch
      written out *)
  Lemma outcome_dead_write r s0 s pm :
    wadv s0 s -> ~ live s -> fp s = pm \/ fp s = pflushed pm -> ERR fK bK pm ->
    wpre (fp s0) pm -> (forall pfin, r = POk pfin -> wpre pm pfin) -> outcome r PErr s0 s.
  Proof.
    intros A D E Er W F. apply outcome_dead; auto.
    - exact (ERR_failed fK bK pm _ Er E).
    - destruct E as [->| ->]; [|apply wpre_pflushed_r]; exact W.
    - intros pfin Ef. destruct E as [->| ->]; [|apply wpre_pflushed_l]; exact (F pfin Ef).
  Qed.
End Outcome.

Lemma loop_g_dead H fuel v s cur prev org :
  nerr cur = true \/ nerr prev = true -> orphans_loop_g H true (S fuel) v s cur prev org = (PErr, s).
Proof.
  intros E. rewrite orphans_loop_g_S. unfold ldec, nit_valid.
  destruct E as [E|E]; rewrite E; cbn [negb andb].
  - destruct (negb (nerr prev) && _); reflexivity.
  - rewrite andb_false_r. reflexivity.
Qed.

Lemma wpre_orphan_mid v p k : wpre (pwrite p (del_node k)) (on_orphan v p k).
Proof.
  unfold on_orphan. destruct ((snd k =? 1) && (fst k <? v)); [apply wpre_pwrite|apply wpre_refl].
Qed.

Section LoopF.
  Variable H : bytes -> bytes.
  Variable f0 : forest_t.
  Variables (v : Z) (f' : forest_t) (tv : node) (otn : option node) (ro : forest_t) (r : list Z).
  Hypothesis Step : forall p cur prev org cs ps oc,
    LI f0 v f' tv otn ro r p cur prev org cs ps oc ->
    LI_next f0 v f' tv otn ro r p cur prev org cs ps oc (ldec H true v cur prev org).
  (** the versions that are not being deleted *)
  Variables (fK : forest_t) (bK : Z).
  Hypothesis HK2 : incl fK f'.
  Hypothesis HKb : v <= bK.

  Lemma ERR_of_PIx p (L : node -> Prop) sro b :
    PIx f0 p L ro sro r b -> (forall x, sub_of f' x -> L x) -> incl f' sro -> b <= bK -> ERR fK bK p.
  Proof.
    intros [_ P] HL HS' Hb. apply (ERR_of_PI fK bK p L sro r b _ P); [|exact (incl_tran HK2 HS')|exact Hb].
    intros x Sx. exact (HL x (sub_of_incl fK f' x HK2 Sx)).
  Qed.

  Theorem loop_f_ok : forall fuel s cur prev org cs ps oc st s',
    LI f0 v f' tv otn ro r (fp s) cur prev org cs ps oc -> (msum cs + msum ps + 1 <= fuel)%nat ->
    live s ->
    orphans_loop_g H true fuel v s cur prev org = (st, s') ->
    outcome fK bK (orphans_loop H fuel v (fp s) cur prev org) st s s'.
  Proof.
    induction fuel as [|fuel IH]; intros s cur prev org cs ps oc st s' I Fu Lv Q; [lia|].
    rewrite orphans_loop_g_S in Q. rewrite orphans_loop_S.
    assert (ERRp : ERR fK bK (fp s)).
    { apply (ERR_of_PIx (fp s) (Lof f' ps) f' v (li_pi _ _ _ _ _ _ _ _ _ _ _ _ _ _ I));
        [intros x Sx; left; exact Sx|apply incl_refl|exact HKb]. }
    pose proof (Step _ _ _ _ _ _ _ I) as D.
    destruct (ldec H true v cur prev org) as [ok|skip o| |pk]; cbn [LI_next] in D.
    - destruct D as [-> ->]. inversion Q; subst.
      split; [apply wadv_refl|]. left. split; [exact Lv|reflexivity].
    - (* the iterator of the current tree advances *)
      destruct D as (cs' & oc' & I' & M).
      destruct (nit_next_f s cur skip) as [cur' s1] eqn:X.
      destruct (nit_next_f_spec s cur skip cur' s1 X Lv) as (A1 & B1). pose proof A1 as (E1 & _).
      destruct B1 as [[L1 ->]|[D1 Ne1]].
      + rewrite <- E1 in I', Q |- *.
        apply (outcome_shift fK bK _ st s s1 s'); [|exact (adv_wadv _ _ A1)|rewrite E1; apply wpre_refl].
        exact (IH s1 _ prev o cs' ps oc' st s' I' ltac:(lia) L1 Q).
      + (* a read of the CURRENT tree failed: the fixed loop stops here *)
        destruct fuel as [|fuel']; [lia|].
        rewrite (loop_g_dead H fuel' v s1 cur' prev o (or_introl Ne1)) in Q. inversion Q; subst.
        apply outcome_dead; auto.
        * exact (adv_wadv _ _ A1).
        * rewrite E1. exact ERRp.
        * rewrite E1. apply wpre_refl.
        * intros pfin Ef. rewrite E1. exact (loop_wpre H _ _ _ _ _ _ _ Ef).
    - (* equal hashes: skip the shared subtree *)
      destruct D as (c & us & -> & _ & I'). rewrite nit_next_f_skip in Q.
      apply (IH s cur _ None cs us None st s' I'); auto.
      rewrite msum_cons in Fu. pose proof (ncount_pos c). lia.
    - (* an orphan *)
      destruct D as (u & us & -> & _ & I' & _ & _ & Lm & PXm & HLm).
      set (p1 := on_orphan v (fp s) pk) in *.
      assert (ERR1 : ERR fK bK p1).
      { apply (ERR_of_PIx p1 (Lof f' (kids u ++ us)) f' v (li_pi _ _ _ _ _ _ _ _ _ _ _ _ _ _ I'));
          [intros x Sx; left; exact Sx|apply incl_refl|exact HKb]. }
      destruct (on_orphan_f v s pk) as [ok s1] eqn:O.
      destruct (on_orphan_f_spec v s pk ok s1 O Lv) as (A1 & B1).
      destruct B1 as [(-> & L1 & E1)|(-> & D1 & pm & Epm & Es1)].
      + (* the orphan is deleted; fetch its children *)
        fold p1 in E1.
        destruct (nit_next_f s1 prev false) as [prev' s2] eqn:X.
        destruct (nit_next_f_spec s1 prev false prev' s2 X L1) as (A2 & B2).
        pose proof A2 as (E2 & _). rewrite E1 in E2.
        assert (W12 : wadv s s2) by exact (wadv_trans _ _ _ A1 (adv_wadv _ _ A2)).
        assert (Wp : wpre (fp s) (fp s2)) by (rewrite E2; apply wpre_on_orphan).
        destruct B2 as [[L2 ->]|[D2 Ne2]].
        * rewrite E1 in Q. rewrite <- E2 in I', Q |- *.
          apply (outcome_shift fK bK _ st s s2 s'); [|exact W12|exact Wp].
          refine (IH s2 cur _ org cs (kids u ++ us) oc st s' I' _ L2 Q).
          rewrite msum_app. rewrite msum_cons, (msum_kids u) in Fu. lia.
        * (* the read failed: the iterator of the previous tree carries the error *)
          assert (F1 : (1 <= fuel)%nat) by (rewrite msum_cons in Fu; pose proof (ncount_pos u); lia).
          destruct fuel as [|fuel']; [lia|].
          rewrite (loop_g_dead H fuel' v s2 cur prev' org (or_intror Ne2)) in Q. inversion Q; subst.
          apply outcome_dead; auto.
          -- rewrite E2. exact ERR1.
          -- intros pfin Ef. rewrite E2. exact (loop_wpre H _ _ _ _ _ _ _ Ef).
      + (* a write of the callback failed *)
        inversion Q; subst.
        assert (Wm : wpre (fp s) pm /\ wpre pm p1).
        { destruct Epm as [->| ->]; split; try apply wpre_refl; try apply wpre_pwrite;
            [apply wpre_on_orphan|apply wpre_orphan_mid]. }
        apply (outcome_dead_write fK bK _ s s' pm); auto.
        * destruct Epm as [->| ->]; [exact ERRp|].
          exact (ERR_of_PIx _ Lm f' v PXm HLm (incl_refl _) HKb).
        * apply Wm.
        * intros pfin Ef. exact (wpre_trans _ _ _ (proj2 Wm) (loop_wpre H _ _ _ _ _ _ _ Ef)).
  Qed.
End LoopF.
