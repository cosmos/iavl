(** Hash facts (property C02).

    [pure_hash] is the independent specification of the IAVL+ hash: it recomputes the hash
    of every node from scratch, trusting nothing that is stored in the tree.  The code
    ([node_hash], Go's [_hash] / [hashWithCount]) trusts the hash stored in every persisted
    node, and [stamp] (Go's [saveNewNodes]) stores a hash in every node it persists.  This
    file proves that on every reachable state the two agree, that the hash returned by a
    commit is the working hash computed just before it, that it is the hash read back from
    the saved version afterwards (after reopening, loading, pruning other versions, rollback
    and redo), that the hash ignores nonces, stored hashes and routing keys, and that
    read-only operations can be erased from a history without changing any state or any
    remaining output. *)
From IAVL Require Import Bytes Varint Tree VMap TreeFacts MTree MTreeFacts.
Local Open Scope Z_scope.

(** ** Persisted subtrees *)

(** every node of [t] is persisted (Go: nodeKey <> nil) *)
Fixpoint all_persisted (t : node) : Prop :=
  match t with
  | Leaf _ _ m => ver m <> 0
  | Inner _ _ _ m l r => ver m <> 0 /\ all_persisted l /\ all_persisted r
  end.

Lemma all_persisted_root t : all_persisted t -> ver (nmeta t) <> 0.
Proof. destruct t; cbn [all_persisted nmeta]; tauto. Qed.

Inductive subtree : node -> node -> Prop :=
| sub_refl t : subtree t t
| sub_left u k h s m l r : subtree u l -> subtree u (Inner k h s m l r)
| sub_right u k h s m l r : subtree u r -> subtree u (Inner k h s m l r).

Lemma all_persisted_subtree u t : subtree u t -> all_persisted t -> all_persisted u.
Proof.
  induction 1 as [t|u k h s m l r _ IH|u k h s m l r _ IH]; intros P; [exact P| |];
    cbn [all_persisted] in P; apply IH; tauto.
Qed.

Definition persisted_closed (t : node) : Prop :=
  forall u, subtree u t -> ver (nmeta u) <> 0 -> all_persisted u.

Lemma eff_ver_new wv m : ver m = 0 -> eff_ver wv m = wv.
Proof. intros E. unfold eff_ver. rewrite E. reflexivity. Qed.

Lemma eff_ver_old wv m : ver m <> 0 -> eff_ver wv m = ver m.
Proof. intros E. unfold eff_ver. apply Z.eqb_neq in E. rewrite E. reflexivity. Qed.

(** ** Shape: what the hash may depend on.
    Same constructors, same key/value in the leaves, same height/size in the inner nodes,
    same effective version everywhere.  Nonces, stored hashes and routing keys are free. *)
Fixpoint shape_eq (wv : Z) (t1 t2 : node) : Prop :=
  match t1, t2 with
  | Leaf k1 v1 m1, Leaf k2 v2 m2 => k1 = k2 /\ v1 = v2 /\ eff_ver wv m1 = eff_ver wv m2
  | Inner _ h1 s1 m1 l1 r1, Inner _ h2 s2 m2 l2 r2 =>
      h1 = h2 /\ s1 = s2 /\ eff_ver wv m1 = eff_ver wv m2 /\
      shape_eq wv l1 l2 /\ shape_eq wv r1 r2
  | _, _ => False
  end.

Lemma shape_eq_refl wv t : shape_eq wv t t.
Proof. induction t; cbn [shape_eq]; auto. Qed.

Lemma shape_eq_sym wv t1 : forall t2, shape_eq wv t1 t2 -> shape_eq wv t2 t1.
Proof.
  induction t1 as [k v m|k h s m l IHl r IHr]; intros [k2 v2 m2|k2 h2 s2 m2 l2 r2];
    cbn [shape_eq]; try tauto.
  - intros (A & B & C). auto.
  - intros (A & B & C & D & E). auto 6.
Qed.

Lemma shape_eq_trans wv t1 : forall t2 t3,
  shape_eq wv t1 t2 -> shape_eq wv t2 t3 -> shape_eq wv t1 t3.
Proof.
  induction t1 as [k v m|k h s m l IHl r IHr]; intros [k2 v2 m2|k2 h2 s2 m2 l2 r2]
    [k3 v3 m3|k3 h3 s3 m3 l3 r3]; cbn [shape_eq]; try tauto.
  - intros (A & B & C) (A' & B' & C'). repeat split; congruence.
  - intros (A & B & C & D & E) (A' & B' & C' & D' & E').
    split; [congruence|]. split; [congruence|]. split; [congruence|]. split; eauto.
Qed.

Lemma shape_eq_elems wv t1 : forall t2, shape_eq wv t1 t2 -> elems t1 = elems t2.
Proof.
  induction t1 as [k v m|k h s m l IHl r IHr]; intros [k2 v2 m2|k2 h2 s2 m2 l2 r2];
    cbn [shape_eq elems]; try tauto.
  - intros (A & B & _). subst. reflexivity.
  - intros (_ & _ & _ & D & E). rewrite (IHl _ D), (IHr _ E). reflexivity.
Qed.

Lemma shape_eq_height_size wv t1 t2 :
  shape_eq wv t1 t2 -> height t1 = height t2 /\ size t1 = size t2.
Proof.
  destruct t1, t2; cbn [shape_eq height size]; tauto.
Qed.

Section WithHash.
  Variable H : bytes -> bytes.

  Theorem pure_hash_ext wv t1 : forall t2,
    shape_eq wv t1 t2 -> pure_hash H wv t1 = pure_hash H wv t2.
  Proof.
    induction t1 as [k v m|k h s m l IHl r IHr]; intros [k2 v2 m2|k2 h2 s2 m2 l2 r2];
      cbn [shape_eq pure_hash]; try tauto.
    - intros (A & B & C). subst. rewrite C. reflexivity.
    - intros (A & B & C & D & E). subst. rewrite C, (IHl _ D), (IHr _ E). reflexivity.
  Qed.

  Lemma pure_hash_persisted t : all_persisted t ->
    forall wv wv', pure_hash H wv t = pure_hash H wv' t.
  Proof.
    induction t as [k v m|k h s m l IHl r IHr]; cbn [all_persisted pure_hash]; intros P wv wv'.
    - rewrite (eff_ver_old wv m P), (eff_ver_old wv' m P). reflexivity.
    - destruct P as (Pm & Pl & Pr).
      rewrite (eff_ver_old wv m Pm), (eff_ver_old wv' m Pm), (IHl Pl wv wv'), (IHr Pr wv wv').
      reflexivity.
  Qed.

  (** ** Hash consistency of a tree *)
  Fixpoint hash_ok (t : node) : Prop :=
    (ver (nmeta t) <> 0 -> hs (nmeta t) = pure_hash H 0 t /\ all_persisted t) /\
    match t with
    | Leaf _ _ _ => True
    | Inner _ _ _ _ l r => hash_ok l /\ hash_ok r
    end.

  Lemma hash_ok_root t :
    hash_ok t -> ver (nmeta t) <> 0 -> hs (nmeta t) = pure_hash H 0 t /\ all_persisted t.
  Proof. destruct t; intros [A _]; exact A. Qed.

  Lemma hash_ok_children k h s m l r : hash_ok (Inner k h s m l r) -> hash_ok l /\ hash_ok r.
  Proof. intros [_ A]. exact A. Qed.

  Lemma hash_ok_intro_leaf k v m :
    (ver m <> 0 -> hs m = pure_hash H 0 (Leaf k v m)) -> hash_ok (Leaf k v m).
  Proof.
    intros A. split; [|exact I]. cbn [nmeta all_persisted]. intros N. split; [exact (A N)|exact N].
  Qed.

  Lemma hash_ok_intro_inner k h s m l r :
    (ver m <> 0 -> hs m = pure_hash H 0 (Inner k h s m l r) /\ all_persisted (Inner k h s m l r)) ->
    hash_ok l -> hash_ok r -> hash_ok (Inner k h s m l r).
  Proof. intros A B C. split; [exact A|split; assumption]. Qed.

  Lemma hash_ok_new_leaf k v : hash_ok (Leaf k v new_meta).
  Proof. apply hash_ok_intro_leaf. cbn [new_meta ver]. intros C. contradiction C. reflexivity. Qed.

  Lemma hash_ok_new_inner k h s l r :
    hash_ok l -> hash_ok r -> hash_ok (Inner k h s new_meta l r).
  Proof.
    intros A B. apply hash_ok_intro_inner; try assumption.
    cbn [new_meta ver]. intros C. contradiction C. reflexivity.
  Qed.

  (** the formulation by subtrees: every persisted subtree stores its structural hash and
      is persisted all the way down *)
  Lemma hash_ok_subtrees t :
    hash_ok t <->
    (forall u, subtree u t -> ver (nmeta u) <> 0 ->
               hs (nmeta u) = pure_hash H 0 u /\ all_persisted u).
  Proof.
    split.
    - intros Hok u Hsub. revert Hok.
      induction Hsub as [t|u k h s m l r _ IH|u k h s m l r _ IH]; intros Hok.
      + apply hash_ok_root, Hok.
      + apply IH. apply (hash_ok_children _ _ _ _ _ _ Hok).
      + apply IH. apply (hash_ok_children _ _ _ _ _ _ Hok).
    - induction t as [k v m|k h s m l IHl r IHr]; intros A.
      + apply hash_ok_intro_leaf. intros N. apply (A _ (sub_refl _) N).
      + apply hash_ok_intro_inner.
        * apply (A _ (sub_refl _)).
        * apply IHl. intros u S. apply A. apply sub_left, S.
        * apply IHr. intros u S. apply A. apply sub_right, S.
  Qed.

  Lemma hash_ok_persisted_closed t : hash_ok t -> persisted_closed t.
  Proof. intros Hok u S N. apply (proj1 (hash_ok_subtrees t) Hok u S N). Qed.

  Lemma hash_ok_subtree u t : subtree u t -> hash_ok t -> hash_ok u.
  Proof.
    induction 1 as [t|u k h s m l r _ IH|u k h s m l r _ IH]; intros Hok; [exact Hok| |];
      apply IH; apply (hash_ok_children _ _ _ _ _ _ Hok).
  Qed.

  (** ** The code's hash is the structural hash *)
  Lemma node_hash_leaf wv k v m :
    node_hash H wv (Leaf k v m) =
      if negb (is_new (Leaf k v m)) then hs m else H (leaf_preimage H wv k v).
  Proof. reflexivity. Qed.

  Lemma node_hash_inner wv k h s m l r :
    node_hash H wv (Inner k h s m l r) =
      if negb (is_new (Inner k h s m l r)) then hs m
      else H (inner_preimage h s wv (node_hash H wv l) (node_hash H wv r)).
  Proof. reflexivity. Qed.

  Lemma node_hash_stored wv t : ver (nmeta t) <> 0 -> node_hash H wv t = hs (nmeta t).
  Proof.
    intros N. apply Z.eqb_neq in N.
    destruct t; [rewrite node_hash_leaf|rewrite node_hash_inner]; unfold is_new; rewrite N;
      reflexivity.
  Qed.

  (** a persisted node: the stored hash is trusted, and it is the hash at any working version *)
  Lemma node_hash_old wv t :
    hash_ok t -> ver (nmeta t) <> 0 -> node_hash H wv t = pure_hash H wv t.
  Proof.
    intros Hok N. rewrite (node_hash_stored wv t N).
    destruct (hash_ok_root _ Hok N) as [Hh Pa]. rewrite Hh. apply pure_hash_persisted, Pa.
  Qed.

  Theorem node_hash_pure wv t : hash_ok t -> node_hash H wv t = pure_hash H wv t.
  Proof.
    induction t as [k v m|k h s m l IHl r IHr]; intros Hok;
      (destruct (Z.eq_dec (ver m) 0) as [E|N]; [|apply node_hash_old; assumption]).
    - rewrite node_hash_leaf. unfold is_new. cbn [nmeta]. rewrite E. cbn [Z.eqb negb pure_hash].
      rewrite (eff_ver_new wv m E). reflexivity.
    - destruct (hash_ok_children _ _ _ _ _ _ Hok) as [Hl Hr].
      rewrite node_hash_inner. unfold is_new. cbn [nmeta]. rewrite E. cbn [Z.eqb negb pure_hash].
      rewrite (eff_ver_new wv m E), (IHl Hl), (IHr Hr). reflexivity.
  Qed.

  Lemma node_hash_saved t wv :
    hash_ok t -> all_persisted t -> node_hash H wv t = pure_hash H 0 t.
  Proof.
    intros Hok P. rewrite (node_hash_pure wv t Hok). apply pure_hash_persisted, P.
  Qed.

  (** ** Stamping (saveNewNodes) *)
  Lemma stamp_spec wv t : wv <> 0 -> hash_ok t -> forall n,
    hash_ok (fst (stamp H wv n t)) /\
    all_persisted (fst (stamp H wv n t)) /\
    hs (nmeta (fst (stamp H wv n t))) = pure_hash H wv t /\
    pure_hash H 0 (fst (stamp H wv n t)) = pure_hash H wv t.
  Proof.
    intros Hwv.
    assert (EV : forall a b, eff_ver 0 (Meta wv a b) = wv).
    { intros a b. apply eff_ver_old. exact Hwv. }
    induction t as [k v m|k h s m l IHl r IHr]; intros Hok n;
      destruct (Z.eq_dec (ver m) 0) as [E|N].
    2, 4: (* an old node is left alone *)
      rewrite stamp_old by exact N; destruct (hash_ok_root _ Hok N) as [Hh Pa];
      cbn [fst nmeta] in *; rewrite Hh;
      (split; [exact Hok|split; [exact Pa|split; apply pure_hash_persisted, Pa]]).
    - rewrite (stamp_new_leaf H wv n k v m E). cbn [fst].
      assert (P0 : pure_hash H 0 (Leaf k v (Meta wv (n + 1) (H (leaf_preimage H wv k v)))) =
                   pure_hash H wv (Leaf k v m)).
      { cbn [pure_hash]. rewrite EV, (eff_ver_new wv m E). reflexivity. }
      split; [|split; [|split]].
      + apply hash_ok_intro_leaf. intros _. cbn [hs]. rewrite P0. cbn [pure_hash].
        rewrite (eff_ver_new wv m E). reflexivity.
      + cbn [all_persisted ver]. exact Hwv.
      + cbn [nmeta hs pure_hash]. rewrite (eff_ver_new wv m E). reflexivity.
      + exact P0.
    - rewrite (stamp_new_inner H wv n k h s m l r E).
      destruct (hash_ok_children _ _ _ _ _ _ Hok) as [Hl Hr].
      specialize (IHl Hl (n + 1)). destruct (stamp H wv (n + 1) l) as [l' n1].
      specialize (IHr Hr n1). destruct (stamp H wv n1 r) as [r' n2].
      cbn [fst] in *.
      destruct IHl as (Ol & Pl & Sl & Ql). destruct IHr as (Or & Pr & Sr & Qr).
      rewrite Sl, Sr.
      assert (P0 : pure_hash H 0
                     (Inner k h s (Meta wv (n + 1)
                        (H (inner_preimage h s wv (pure_hash H wv l) (pure_hash H wv r)))) l' r') =
                   pure_hash H wv (Inner k h s m l r)).
      { cbn [pure_hash]. rewrite EV, Ql, Qr, (eff_ver_new wv m E). reflexivity. }
      assert (PA : all_persisted
                     (Inner k h s (Meta wv (n + 1)
                        (H (inner_preimage h s wv (pure_hash H wv l) (pure_hash H wv r)))) l' r')).
      { cbn [all_persisted ver]. auto. }
      split; [|split; [|split]].
      + apply hash_ok_intro_inner; try assumption. intros _. split; [|exact PA].
        cbn [hs]. rewrite P0. cbn [pure_hash]. rewrite (eff_ver_new wv m E). reflexivity.
      + exact PA.
      + cbn [nmeta hs pure_hash]. rewrite (eff_ver_new wv m E). reflexivity.
      + exact P0.
  Qed.

  (** The hash stored in the root by the commit is the working hash computed just before
      it, and both are the structural hash of the working tree. *)
  Theorem stamp_hash_ok wv n t : hash_ok t -> 0 < wv ->
    hash_ok (fst (stamp H wv n t)) /\
    all_persisted (fst (stamp H wv n t)) /\
    hs (nmeta (fst (stamp H wv n t))) = pure_hash H wv t /\
    hs (nmeta (fst (stamp H wv n t))) = node_hash H wv t.
  Proof.
    intros Hok Hwv. assert (Hne : wv <> 0) by lia.
    destruct (stamp_spec wv t Hne Hok n) as (A & B & C & _).
    rewrite (node_hash_pure wv t Hok). auto.
  Qed.

  Lemma stamp_shape_eq wv t : wv <> 0 -> forall n, shape_eq wv t (fst (stamp H wv n t)).
  Proof.
    intros Hwv. induction t as [k v m|k h s m l IHl r IHr]; intros n;
      (destruct (Z.eq_dec (ver m) 0) as [E|N];
       [|rewrite stamp_old by exact N; apply shape_eq_refl]).
    - rewrite (stamp_new_leaf H wv n k v m E). cbn [fst shape_eq].
      rewrite (eff_ver_new wv m E), eff_ver_old by exact Hwv. auto.
    - rewrite (stamp_new_inner H wv n k h s m l r E).
      specialize (IHl (n + 1)). destruct (stamp H wv (n + 1) l) as [l' n1].
      specialize (IHr n1). destruct (stamp H wv n1 r) as [r' n2].
      cbn [fst] in *. cbn [shape_eq].
      rewrite (eff_ver_new wv m E), eff_ver_old by exact Hwv. auto 6.
  Qed.

  Lemma stamp_pure_hash wv n t :
    wv <> 0 -> pure_hash H wv (fst (stamp H wv n t)) = pure_hash H wv t.
  Proof. intros Hwv. symmetry. apply pure_hash_ext, stamp_shape_eq, Hwv. Qed.

  (** ** The writes preserve hash consistency: they only put fresh nodes over old subtrees *)
  Theorem balance_hash_ok t : hash_ok t -> hash_ok (balance t).
  Proof. exact (balance_preserves hash_ok hash_ok_new_inner hash_ok_children t). Qed.

  Theorem set_hash_ok t k v : hash_ok t -> hash_ok (fst (set t k v)).
  Proof. exact (set_preserves hash_ok hash_ok_new_leaf hash_ok_new_inner hash_ok_children t k v). Qed.

  Theorem remove_hash_ok t k :
    hash_ok t -> forall t', rm_self (remove t k) = Some t' -> hash_ok t'.
  Proof. exact (remove_preserves hash_ok hash_ok_new_inner hash_ok_children t k). Qed.

  (** Two persisted consistent trees of the same shape store the same root hash, whatever
      their nonces and routing keys (re-keying by export/import or pruning keeps the hash). *)
  Theorem saved_hash_ext t1 t2 :
    hash_ok t1 -> hash_ok t2 -> all_persisted t1 -> all_persisted t2 ->
    shape_eq 0 t1 t2 -> hs (nmeta t1) = hs (nmeta t2).
  Proof.
    intros O1 O2 P1 P2 S.
    destruct (hash_ok_root t1 O1 (all_persisted_root t1 P1)) as [E1 _].
    destruct (hash_ok_root t2 O2 (all_persisted_root t2 P2)) as [E2 _].
    rewrite E1, E2. apply pure_hash_ext, S.
  Qed.
End WithHash.

Definition onode_ok (H : bytes -> bytes) (t : option node) : Prop :=
  match t with None => True | Some n => hash_ok H n end.

Definition osaved (H : bytes -> bytes) (t : option node) : Prop :=
  match t with None => True | Some n => hash_ok H n /\ all_persisted n end.

(** The independent specification of the root hash: recompute everything. *)
Definition opure_hash (H : bytes -> bytes) (wv : Z) (t : option node) : bytes :=
  match t with None => H [] | Some n => pure_hash H wv n end.

Record hash_inv (H : bytes -> bytes) (s : mstate) : Prop := HashInv {
  hi_root : onode_ok H (root s);
  hi_saved : osaved H (last_saved s);
  hi_forest : Forall (fun p => osaved H (snd p)) (forest s);
  (* the initial version, whenever it can be used, is not 0 (version 0 is "new" in the model) *)
  hi_init : init_set s = true \/ init_opt s = true -> init_ver s <> 0
}.

(** ** Read-only operations *)
Definition read_only (o : op) : bool :=
  match o with
  | ORead _ _ | OGetVersioned _ _ | OVersionExists _ | OLatest | OAvailable
  | OWorkingHash | OWorkingVersion | OHash => true
  | _ => false
  end.

Definition erase (ops : list op) : list op := filter (fun o => negb (read_only o)) ops.

Fixpoint erase_outs (ops : list op) (xs : list out) : list out :=
  match ops, xs with
  | o :: ops', x :: xs' =>
      if read_only o then erase_outs ops' xs' else x :: erase_outs ops' xs'
  | _, _ => []
  end.

Definition root_only (o : op) : bool :=
  match o with
  | OSet _ _ | OSetNil _ | ORemove _ => true
  | _ => read_only o
  end.

Definition keeps (v : Z) (o : op) : bool :=
  match o with
  | OPrune n => n <? v
  | OLvfo w => v <=? w
  | _ => true
  end.

(** the working tree carries no uncommitted change *)
Definition clean (s : mstate) : Prop :=
  root s = (if 0 <? version s then last_saved s else None).

Section StateHash.
  Variable H : bytes -> bytes.

  Lemma hash_inv_intro r ver ls f iv a b :
    onode_ok H r -> osaved H ls -> Forall (fun p => osaved H (snd p)) f ->
    (a = true \/ b = true -> iv <> 0) -> hash_inv H (MState r ver ls f iv a b).
  Proof. intros. constructor; assumption. Qed.

  Lemma osaved_onode t : osaved H t -> onode_ok H t.
  Proof. destruct t; cbn [osaved onode_ok]; tauto. Qed.

  Lemma hash_inv_init iv b : iv <> 0 \/ b = false -> hash_inv H (init_state iv b).
  Proof.
    intros C. unfold init_state. apply hash_inv_intro; cbn [onode_ok osaved]; auto.
    intros [E|E]; destruct C as [C|C]; congruence.
  Qed.

  Lemma hash_inv_lookup s v t : hash_inv H s -> lookup v (forest s) = Some t -> osaved H t.
  Proof.
    intros HI L. apply lookup_In in L. pose proof (hi_forest H s HI) as F.
    rewrite Forall_forall in F. exact (F _ L).
  Qed.

  Lemma working_version_pos s : state_inv s -> hash_inv H s -> 0 < working_version s.
  Proof.
    intros SI HI. pose proof (inv_version s SI) as V. pose proof (inv_init s SI) as IV.
    unfold working_version. destruct ((version s + 1 =? 1) && init_set s) eqn:E; [|lia].
    apply andb_prop in E. destruct E as [_ E].
    pose proof (hi_init H s HI (or_introl E)). lia.
  Qed.

  Lemma root_hash_pure wv t : onode_ok H t -> root_hash H wv t = opure_hash H wv t.
  Proof. destruct t as [n|]; cbn [onode_ok root_hash opure_hash]; [apply node_hash_pure|reflexivity]. Qed.

  Lemma root_hash_saved wv t : osaved H t -> root_hash H wv t = opure_hash H 0 t.
  Proof.
    destruct t as [n|]; cbn [osaved root_hash opure_hash]; [|reflexivity].
    intros [A B]. apply node_hash_saved; assumption.
  Qed.

  Lemma root_hash_saved_any wv wv' t : osaved H t -> root_hash H wv t = root_hash H wv' t.
  Proof. intros S. rewrite (root_hash_saved wv t S), (root_hash_saved wv' t S). reflexivity. Qed.

  Lemma root_hash_stored wv n : all_persisted n -> root_hash H wv (Some n) = hs (nmeta n).
  Proof. intros P. cbn [root_hash]. apply node_hash_stored, all_persisted_root, P. Qed.

  Theorem step_read_only s o : read_only o = true -> fst (step H s o) = s.
  Proof.
    destruct o; cbn [read_only]; intros E; try discriminate E;
      auto using step_read, step_get_versioned.
  Qed.

  Lemma stamped_osaved wv t : 0 < wv -> onode_ok H t -> osaved H (ostamp H wv t).
  Proof.
    intros Hwv Hr. destruct t as [n|]; cbn [ostamp osaved onode_ok] in *; [|exact I].
    destruct (stamp_hash_ok H wv 0 n Hr Hwv) as (A & B & _). auto.
  Qed.

  Lemma remove_onode_ok n k : hash_ok H n -> onode_ok H (rm_self (remove n k)).
  Proof.
    intros O. pose proof (remove_hash_ok H n k O) as R.
    destruct (rm_self (remove n k)); [exact (R _ eq_refl)|exact I].
  Qed.

  Theorem step_hash_inv s o :
    state_inv s -> hash_inv H s -> hash_inv H (fst (step H s o)).
  Proof.
    intros SI HI.
    destruct (step_trees H (onode_ok H) (osaved H) s o I osaved_onode (hash_ok_new_leaf H)
                (set_hash_ok H)
                (fun n k O _ => remove_onode_ok n k O)
                (stamped_osaved _ _ (working_version_pos s SI HI))
                (hi_root H s HI) (hi_saved H s HI) (hi_forest H s HI)) as (A1 & A2 & A3).
    destruct (step_bookkeeping H s o) as (B1 & B2 & B3 & _).
    constructor; auto.
    rewrite B1, B2. intros C. apply (hi_init H s HI).
    destruct B3 as [E|[E|E]]; rewrite E in C; destruct C as [C|C]; auto; discriminate C.
  Qed.

  Theorem run_hash_inv ops : forall s,
    state_inv s -> hash_inv H s ->
    state_inv (fst (run H s ops)) /\ hash_inv H (fst (run H s ops)).
  Proof.
    intros s SI HI.
    apply (run_invariant H (fun s => state_inv s /\ hash_inv H s) _
             (fun s o P _ => conj (step_inv H s o (proj1 P)) (step_hash_inv s o (proj1 P) (proj2 P)))
             ops s (conj SI HI) (run_all_true H ops s)).
  Qed.

  (** Every reachable state is hash-consistent.  ([init_state 0 true] is excluded: its first
      commit is version 0, which the model cannot tell from "new".) *)
  Theorem hash_inv_reachable iv ivset ops :
    0 <= iv -> iv <> 0 \/ ivset = false ->
    state_inv (fst (run H (init_state iv ivset) ops)) /\
    hash_inv H (fst (run H (init_state iv ivset) ops)).
  Proof.
    intros Hiv C. apply run_hash_inv; [apply state_inv_init, Hiv | apply hash_inv_init, C].
  Qed.

  (** hence: on every reachable state the working hash the code computes (trusting stored
      hashes) is the from-scratch structural hash of the working tree, and the hash of every
      retained version is the from-scratch hash of that version's tree. *)
  Theorem reachable_hashes_pure iv ivset ops :
    0 <= iv -> iv <> 0 \/ ivset = false ->
    let s := fst (run H (init_state iv ivset) ops) in
    snd (step H s OWorkingHash) =
      XBytes (Some (opure_hash H (working_version s) (root s))) /\
    snd (step H s OHash) = XBytes (Some (opure_hash H 0 (last_saved s))) /\
    (forall v t, lookup v (forest s) = Some t ->
       snd (step H s (ORead (TVersion v) RHash)) = XBytes (Some (opure_hash H 0 t))).
  Proof.
    intros Hiv C s. destruct (hash_inv_reachable iv ivset ops Hiv C) as [SI HI]. fold s in SI, HI.
    split; [|split].
    - cbn [step snd]. rewrite (root_hash_pure _ _ (hi_root H s HI)). reflexivity.
    - cbn [step snd]. rewrite (root_hash_saved _ _ (hi_saved H s HI)). reflexivity.
    - intros v t L. cbn [step]. rewrite L. cbn [snd tree_read].
      rewrite (root_hash_saved _ _ (hash_inv_lookup s v t HI L)). reflexivity.
  Qed.

  Theorem run_erase ops : forall s,
    run H s (erase ops) = (fst (run H s ops), erase_outs ops (snd (run H s ops))).
  Proof.
    induction ops as [|o ops IH]; intros s; cbn [erase filter run erase_outs fst snd]; [reflexivity|].
    fold (erase ops).
    destruct (read_only o) eqn:RO; cbn [negb].
    - pose proof (step_read_only s o RO) as E.
      destruct (step H s o) as [s1 x]. cbn [fst] in E. subst s1.
      rewrite IH. destruct (run H s ops) as [s2 xs]. cbn [fst snd erase_outs]. rewrite ?RO.
      reflexivity.
    - cbn [run]. destruct (step H s o) as [s1 x]. rewrite IH.
      destruct (run H s1 ops) as [s2 xs]. cbn [fst snd erase_outs]. rewrite ?RO. reflexivity.
  Qed.

  Corollary run_erase_state s ops : fst (run H s ops) = fst (run H s (erase ops)).
  Proof. rewrite run_erase. reflexivity. Qed.

  Corollary run_erase_outs s ops :
    snd (run H s (erase ops)) = erase_outs ops (snd (run H s ops)).
  Proof. rewrite run_erase. reflexivity. Qed.

  (** two histories that differ only by read-only calls, interleaved anywhere, reach the
      same state and give the same outputs (hence the same hashes) for all other calls *)
  Corollary same_writes_same_hashes s ops1 ops2 :
    erase ops1 = erase ops2 ->
    fst (run H s ops1) = fst (run H s ops2) /\
    erase_outs ops1 (snd (run H s ops1)) = erase_outs ops2 (snd (run H s ops2)).
  Proof.
    intros E. split.
    - rewrite (run_erase_state s ops1), (run_erase_state s ops2), E. reflexivity.
    - rewrite <- (run_erase_outs s ops1), <- (run_erase_outs s ops2), E. reflexivity.
  Qed.

  (** *** the commit *)

  (** the stored root hash of the stamped working tree is the working hash, whatever working
      version it is read at afterwards *)
  Lemma ostamp_root_hash wv w t :
    0 < wv -> onode_ok H t -> root_hash H w (ostamp H wv t) = root_hash H wv t.
  Proof.
    intros Hwv Hr. destruct t as [n|]; [|reflexivity]. cbn [ostamp].
    destruct (stamp_hash_ok H wv 0 n Hr Hwv) as (_ & B & _ & D).
    rewrite (root_hash_stored _ _ B), D. reflexivity.
  Qed.

  (** The commit either fails (only when the version already exists with another hash) or
      returns exactly the working hash computed just before it. *)
  Theorem save_returns_working_hash s :
    state_inv s -> hash_inv H s ->
    (version_exists s (working_version s) = false ->
       snd (step H s OSave) = XPair (snd (step H s OWorkingHash)) (XInt (working_version s))) /\
    (snd (step H s OSave) = XErr \/
     snd (step H s OSave) = XPair (snd (step H s OWorkingHash)) (XInt (working_version s))).
  Proof.
    intros SI HI. pose proof (working_version_pos s SI HI) as Hwv.
    unfold version_exists. cbn [step snd].
    destruct (lookup (working_version s) (forest s)) as [e|] eqn:L.
    - split; [discriminate|].
      destruct (do_save_existing H s e L) as [E|E]; rewrite E; cbn [snd]; auto.
    - rewrite (do_save_fresh H s L). cbn [snd].
      rewrite (ostamp_root_hash _ _ _ Hwv (hi_root H s HI)). auto.
  Qed.

  (** After a successful commit, [Hash()], [WorkingHash()] and the hash read from the saved
      version all return the hash the commit returned; the saved version is retained and the
      state is clean. *)
  Theorem save_then_hashes s h v :
    state_inv s -> hash_inv H s ->
    snd (step H s OSave) = XPair (XBytes (Some h)) (XInt v) ->
    let s' := fst (step H s OSave) in
    v = working_version s /\
    snd (step H s OWorkingHash) = XBytes (Some h) /\
    h = opure_hash H v (root s) /\
    snd (step H s' OHash) = XBytes (Some h) /\
    snd (step H s' OWorkingHash) = XBytes (Some h) /\
    snd (step H s' (ORead (TVersion v) RHash)) = XBytes (Some h) /\
    lookup v (forest s') = Some (root s') /\ last_saved s' = root s' /\ version s' = v /\
    clean s'.
  Proof.
    intros SI HI E s'. pose proof (working_version_pos s SI HI) as Hwv.
    (* the new state: the committed tree is the working tree, the last saved tree and the
       retained tree of [v], and stores [h] *)
    assert (S : v = working_version s /\ h = root_hash H v (root s) /\
                lookup v (forest s') = Some (root s') /\ last_saved s' = root s' /\
                version s' = v /\ forall w, root_hash H w (root s') = h).
    { unfold s'. cbn [step] in *.
      destruct (lookup (working_version s) (forest s)) as [e|] eqn:L.
      - pose proof (hash_inv_lookup s _ e HI L) as Oe.
        destruct (save_existing_sharp H s e L) as [[Same E']|[_ E']]; rewrite E' in *; cbn [snd] in E;
          [|discriminate E].
        injection E as <- <-. cbn [fst root last_saved version forest]. repeat split; auto.
        intros w. unfold same_root_hash in Same. destruct e as [e|].
        + rewrite (root_hash_stored w e (proj2 Oe)). exact Same.
        + destruct (root s); [contradiction|reflexivity].
      - rewrite (do_save_fresh H s L) in *. cbn [snd] in E.
        rewrite (ostamp_root_hash _ _ _ Hwv (hi_root H s HI)) in E. injection E as <- <-.
        cbn [fst root last_saved version forest].
        rewrite (lookup_snoc _ _ _ _ L), Z.eqb_refl.
        repeat split; auto using ostamp_root_hash, (hi_root H s HI). }
    destruct S as (-> & Ehh & S1 & S2 & S3 & S4).
    split; [reflexivity|]. split; [cbn [step snd]; congruence|].
    split; [rewrite Ehh; apply root_hash_pure, HI|].
    split; [cbn [step snd]; rewrite S2, S4; reflexivity|].
    split; [cbn [step snd]; rewrite S4; reflexivity|].
    split; [cbn [step]; rewrite S1; cbn [snd tree_read]; rewrite S4; reflexivity|].
    split; [exact S1|]. split; [exact S2|]. split; [exact S3|].
    unfold clean. rewrite S3, S2. replace (0 <? working_version s) with true by lia. reflexivity.
  Qed.

  (** *** retained versions never change *)

  Theorem reopen_load_keep_versions s v :
    lookup v (forest (fst (step H s OReopen))) = lookup v (forest s) /\
    forall w, lookup v (forest (fst (step H s (OLoad w)))) = lookup v (forest s).
  Proof.
    cbn [step]. rewrite do_reopen_forest. split; [reflexivity|].
    intros w. rewrite do_load_forest. reflexivity.
  Qed.

  Theorem step_keeps v o s t :
    keeps v o = true -> lookup v (forest s) = Some t ->
    lookup v (forest (fst (step H s o))) = Some t.
  Proof.
    intros K L.
    destruct (step_forest H s o) as [E|[(_ & _ & E)|[(n & -> & E)|(w & -> & E)]]]; rewrite E;
      cbn [keeps] in K.
    - exact L.
    - rewrite lookup_app, L. reflexivity.
    - rewrite lookup_filter_gt, K. exact L.
    - rewrite lookup_filter_le, K. exact L.
  Qed.

  Theorem run_keeps v ops : forall s t,
    forallb (keeps v) ops = true -> lookup v (forest s) = Some t ->
    lookup v (forest (fst (run H s ops))) = Some t.
  Proof.
    intros s t K L.
    exact (run_invariant H (fun s => lookup v (forest s) = Some t) _
             (fun s o L K => step_keeps v o s t K L) ops s L (run_all_forallb H _ ops s K)).
  Qed.

  (** The hash of a retained version is the same whenever it is read: after any history
      that does not delete that version (reopening, loading other versions, more commits,
      rollbacks, pruning of other versions). *)
  Theorem version_hash_stable v ops s t :
    forallb (keeps v) ops = true -> lookup v (forest s) = Some t ->
    snd (step H (fst (run H s ops)) (ORead (TVersion v) RHash)) =
    snd (step H s (ORead (TVersion v) RHash)).
  Proof.
    intros K L. pose proof (run_keeps v ops s t K L) as L'.
    cbn [step]. rewrite L, L'. reflexivity.
  Qed.

  Theorem commit_hash_read_back s h v ops :
    state_inv s -> hash_inv H s ->
    snd (step H s OSave) = XPair (XBytes (Some h)) (XInt v) ->
    forallb (keeps v) ops = true ->
    snd (step H (fst (run H (fst (step H s OSave)) ops)) (ORead (TVersion v) RHash)) =
      XBytes (Some h).
  Proof.
    intros SI HI E K.
    destruct (save_then_hashes s h v SI HI E) as (_ & _ & _ & _ & _ & R & L & _).
    rewrite (version_hash_stable v ops _ _ K L). exact R.
  Qed.

  (** *** rollback and redo *)
  Lemma step_root_only s o : root_only o = true -> same_but_root s (fst (step H s o)).
  Proof.
    destruct o; cbn [root_only read_only]; intros E; try discriminate E;
      rewrite ?step_read, ?step_get_versioned; cbn [step fst];
      auto using same_but_root_refl, do_set_same, do_remove_same.
  Qed.

  Lemma run_root_only ops : forall s,
    forallb root_only ops = true -> same_but_root s (fst (run H s ops)).
  Proof.
    intros s K.
    exact (run_invariant H (same_but_root s) _
             (fun s1 o S R => same_but_root_trans _ _ _ S (step_root_only s1 o R))
             ops s (same_but_root_refl s) (run_all_forallb H _ ops s K)).
  Qed.

  Lemma rollback_same_but_root s s1 :
    clean s -> same_but_root s s1 -> fst (step H s1 ORollback) = s.
  Proof.
    intros C (A1 & A2 & A3 & A4 & A5 & A6). cbn [step fst].
    rewrite A1, A2, A3, A4, A5, A6. unfold clean in C. rewrite <- C. destruct s; reflexivity.
  Qed.

  Theorem rollback_undoes_writes s ws :
    clean s -> forallb root_only ws = true -> fst (run H s (ws ++ [ORollback])) = s.
  Proof.
    intros C K. rewrite run_app, run_cons. cbn [fst run].
    apply (rollback_same_but_root s _ C), run_root_only, K.
  Qed.

  (** ... so whatever is done afterwards (the redo) gives the same states and outputs,
      in particular the same hashes, as if the rolled-back writes had never happened *)
  Theorem rollback_redo s ws ops :
    clean s -> forallb root_only ws = true ->
    fst (run H s (ws ++ [ORollback] ++ ops)) = fst (run H s ops) /\
    snd (run H s (ws ++ [ORollback] ++ ops)) =
      snd (run H s (ws ++ [ORollback])) ++ snd (run H s ops).
  Proof.
    intros C K. rewrite app_assoc, run_app. cbn [fst snd].
    rewrite (rollback_undoes_writes s ws C K). auto.
  Qed.
End StateHash.
