(** PruneAlgoFacts12: the two ways of indexing the flush schedule.

    Every run with [effmode = true] (one boolean per EFFECTIVE write, an ineffective deletion never
    flushes) is the run with [effmode = false] of a schedule obtained by inserting [false] at the
    ineffective writes (and padding with [false]): same disk, same batch, same writes issued, same
    effective writes, same disk history ([tw]).  The schedule is built write by write
    ([simp_pwrite]); the rest is a simulation through the code. *)
From Coq Require Import Lia.
From IAVL Require Import Bytes Varint Tree MTree Store PruneAlgo PruneAlgoFacts2 PruneAlgoFacts5.
Local Open Scope Z_scope.

Definition tw (p q : pdb) : Prop :=
  disk p = disk q /\ pend p = pend q /\ wlog p = wlog q /\ elog p = elog q /\ dhist p = dhist q /\
  effmode p = true /\ effmode q = false.

Definition twr (a b : pres pdb) : Prop :=
  match a, b with
  | POk p, POk q => tw p q
  | PNoVersion, PNoVersion | PErr, PErr | PFuel, PFuel => True
  | _, _ => False
  end.

(** [F] run in effective mode from [p] is matched by [F] run in plain mode on [sg ++ tau] *)
Definition sim {X} (F : pdb -> pres pdb * X) : Prop :=
  forall p, effmode p = true ->
  exists sg,
    (forall p', fst (F p) = POk p' -> effmode p' = true) /\
    forall q tau, tw p q -> sched q = sg ++ tau ->
      twr (fst (F p)) (fst (F q)) /\ snd (F p) = snd (F q) /\
      (forall q', fst (F q) = POk q' -> sched q' = tau).

Definition simp (F : pdb -> pdb) : Prop := sim (fun p => (POk (F p), tt)).

Lemma sim_ext {X} (F G : pdb -> pres pdb * X) : (forall p, F p = G p) -> sim F -> sim G.
Proof.
  intros E S p Ep. destruct (S p Ep) as (sg & A & B). exists sg. rewrite <- E. split; [exact A|].
  intros q tau T Sq. rewrite <- E. exact (B q tau T Sq).
Qed.

Lemma sim_ret {X} (x : X) : sim (fun p => (POk p, x)).
Proof.
  intros p Ep. exists []. cbn [fst snd]. split; [intros p' Q; inversion Q; subst; exact Ep|].
  intros q tau T Sq. split; [exact T|]. split; [reflexivity|]. intros q' Q. inversion Q; subst. exact Sq.
Qed.

Lemma sim_err {X} (e : pres pdb) (x : X) :
  match e with POk _ => False | _ => True end -> sim (fun _ => (e, x)).
Proof.
  intros Ne p Ep. exists []. cbn [fst snd]. split; [intros p' Q; rewrite Q in Ne; contradiction|].
  intros q tau T Sq. split; [destruct e; try exact I; contradiction|]. split; [reflexivity|].
  intros q' Q. rewrite Q in Ne. contradiction.
Qed.

Lemma sim_bind {X Y} (F : pdb -> pres pdb * X) (G : X -> pdb -> pres pdb * Y) (h : pres pdb -> X -> Y) :
  sim F -> (forall x, sim (G x)) ->
  sim (fun p => match F p with
                | (POk p', x) => G x p'
                | (e, x) => (e, h e x)
                end).
Proof.
  intros SF SG p Ep. destruct (SF p Ep) as (s1 & A1 & B1).
  destruct (F p) as [[p'| | |] x] eqn:EF; cbn [fst snd] in *.
  1:{ destruct (SG x p' (A1 p' eq_refl)) as (s2 & A2 & B2). exists (s1 ++ s2). split; [exact A2|].
      intros q tau T Sq. rewrite <- app_assoc in Sq. destruct (B1 q (s2 ++ tau) T Sq) as (R & Ex & Sc).
      destruct (F q) as [[q'| | |] x'] eqn:EQ; cbn [fst snd twr] in *; try contradiction. subst x'.
      exact (B2 q' tau R (Sc q' eq_refl)). }
  (* an error of [F] is the result *)
  all: exists s1; split; [discriminate|]; intros q tau T Sq; destruct (B1 q tau T Sq) as (R & Ex & _);
    destruct (F q) as [[q'| | |] x'] eqn:EQ; cbn [fst snd twr] in *; try contradiction; subst x';
    (split; [exact I|]); split; [reflexivity|discriminate].
Qed.

(** reads go to the disk, which the two runs share *)
Lemma sim_read {X} (K : store -> pdb -> pres pdb * X) :
  (forall d, sim (K d)) -> sim (fun p => K (disk p) p).
Proof.
  intros S p Ep. destruct (S (disk p) p Ep) as (sg & A & B). exists sg. split; [exact A|].
  intros q tau T Sq. pose proof T as (Ed & _). rewrite <- Ed. exact (B q tau T Sq).
Qed.

Lemma sim_pre {X} (x0 : X) (F : pdb -> pdb) (G : pdb -> pres pdb * X) :
  simp F -> sim G -> sim (fun p => G (F p)).
Proof.
  intros SF SG.
  apply (sim_ext (fun p => match (POk (F p), tt) with
                           | (POk p', x) => G p'
                           | (e, x) => (e, x0)
                           end)); [reflexivity|].
  exact (sim_bind (fun p => (POk (F p), tt)) (fun _ => G) (fun _ _ => x0) SF (fun _ => SG)).
Qed.

Lemma simp_comp (F G : pdb -> pdb) : simp F -> simp G -> simp (fun p => G (F p)).
Proof. intros SF SG. exact (sim_pre tt F (fun p => (POk (G p), tt)) SF SG). Qed.

Lemma sim_snd {X Y} (F : pdb -> pres pdb * X) (y : Y) : sim F -> sim (fun p => (fst (F p), y)).
Proof.
  intros S p Ep. destruct (S p Ep) as (sg & A & B). exists sg. cbn [fst snd]. split; [exact A|].
  intros q tau T Sq. destruct (B q tau T Sq) as (R & _ & Sc). auto.
Qed.

(** ** One write: this is where the schedule is built *)
Lemma effective_tw p q o : tw p q -> effective p o = effective q o.
Proof. intros (Ed & Ep & _). unfold effective. rewrite Ed, Ep. reflexivity. Qed.

(** the boolean of the plain schedule that stands for this write: the next boolean of the
    effective schedule when the write is effective, [false] when it is not (it never flushes) or
    when that schedule is exhausted *)
Lemma simp_pwrite o : simp (fun p => pwrite p o).
Proof.
  intros p Ep. exists [effective p o && match sched p with true :: _ => true | _ => false end].
  cbn [fst snd]. split.
  - intros p' Q. inversion Q. destruct (pwrite_cases p o) as (_ & -> & _). exact Ep.
  - intros q tau T Sq. pose proof (effective_tw p q o T) as Eq.
    destruct T as (Ed & Epd & Ew & Ee & Eh & _ & Eq0). unfold pwrite. cbv zeta.
    rewrite Ep, Eq0, <- Eq, Sq. cbn [andb].
    (* the four cases of [pwrite p o] end alike *)
    destruct (effective p o); [destruct (sched p) as [|[|] rest]|]; cbn [negb andb app twr];
      (split; [|split; [reflexivity|intros q' Q; inversion Q; subst; reflexivity]]);
      unfold tw; cbn [disk pend wlog elog dhist effmode]; rewrite Ed, Epd, Ew, Ee, Eh; auto 10.
Qed.

Lemma simp_on_orphan v k : simp (fun p => on_orphan v p k).
Proof.
  unfold on_orphan. destruct ((snd k =? 1) && (fst k <? v)).
  - exact (simp_comp _ _ (simp_pwrite (del_node k)) (simp_pwrite (del_node (fst k, 0)))).
  - apply simp_pwrite.
Qed.

(** ** The simulation through the code *)
Section SimRun.
  Variable H : bytes -> bytes.

  Lemma loop_not_nov : forall fuel v p cur prev org,
    orphans_loop H fuel v p cur prev org <> PNoVersion.
  Proof.
    induction fuel as [|fuel IH]; intros v p cur prev org; cbn [orphans_loop]; [discriminate|].
    destruct (negb (nit_valid prev)).
    { destruct (nerr cur); [discriminate|]. destruct (nerr prev); discriminate. }
    destruct (nerr cur); [discriminate|].
    assert (B : match nstack prev with
                | (pk, pn) :: _ =>
                    if match org with
                       | Some (ok, on) => beq (fetched_hash H pk pn) (fetched_hash H ok on)
                       | None => false
                       end
                    then orphans_loop H fuel v p cur (nit_next (disk p) prev true) None
                    else orphans_loop H fuel v (on_orphan v p pk) cur
                           (nit_next (disk (on_orphan v p pk)) prev false) org
                | [] => PErr
                end <> PNoVersion).
    { destruct (nstack prev) as [|[pk pn] rest]; [discriminate|].
      destruct (match org with Some (ok, on) => _ | None => false end); apply IH. }
    destruct org as [[ok on]|]; [exact B|].
    destruct (nit_valid cur); [|exact B].
    destruct (nstack cur) as [|[k n] rest]; [discriminate|].
    destruct (fst k <=? v); apply IH.
  Qed.

  Lemma sim_loop : forall fuel v cur prev org,
    sim (fun p => (orphans_loop H fuel v p cur prev org, tt)).
  Proof.
    induction fuel as [|fuel IH]; intros v cur prev org; cbn [orphans_loop].
    { apply sim_err. exact I. }
    destruct (negb (nit_valid prev)).
    { destruct (nerr cur); [apply sim_err; exact I|].
      destruct (nerr prev); [apply sim_err; exact I|apply sim_ret]. }
    destruct (nerr cur); [apply sim_err; exact I|].
    assert (B : sim (fun p =>
                (match nstack prev with
                 | (pk, pn) :: _ =>
                     if match org with
                        | Some (ok, on) => beq (fetched_hash H pk pn) (fetched_hash H ok on)
                        | None => false
                        end
                     then orphans_loop H fuel v p cur (nit_next (disk p) prev true) None
                     else orphans_loop H fuel v (on_orphan v p pk) cur
                            (nit_next (disk (on_orphan v p pk)) prev false) org
                 | [] => PErr
                 end, tt))).
    { destruct (nstack prev) as [|[pk pn] rest]; [apply sim_err; exact I|].
      destruct (match org with Some (ok, on) => _ | None => false end).
      - apply (sim_read (fun d p => (orphans_loop H fuel v p cur (nit_next d prev true) None, tt))).
        intros d. apply IH.
      - apply (sim_pre tt (fun p => on_orphan v p pk)
                 (fun p' => (orphans_loop H fuel v p' cur (nit_next (disk p') prev false) org, tt))).
        + apply simp_on_orphan.
        + apply (sim_read (fun d p' => (orphans_loop H fuel v p' cur (nit_next d prev false) org, tt))).
          intros d. apply IH. }
    destruct org as [[ok on]|]; [exact B|].
    destruct (nit_valid cur); [|exact B].
    destruct (nstack cur) as [|[k n] rest]; [apply sim_err; exact I|].
    destruct (fst k <=? v).
    - apply (sim_read (fun d p => (orphans_loop H fuel v p (nit_next d cur true) prev (Some (k, n)), tt))).
      intros d. apply IH.
    - apply (sim_read (fun d p => (orphans_loop H fuel v p (nit_next d cur false) prev None, tt))).
      intros d. apply IH.
  Qed.

  (** [traverse_orphans] with the disk it reads made explicit *)
  Definition trav_d (fuel : nat) (v : Z) (c : rkc) (d : store) (p : pdb) : pres pdb * rkc :=
    match rkc_get c d (v + 1) with
    | (POk curk, c1) =>
        match nit_new d curk with
        | None => (PErr, c1)
        | Some cur =>
            match rkc_get c1 d v with
            | (POk prevk, c2) =>
                match nit_new d prevk with
                | None => (PErr, c2)
                | Some prev => (orphans_loop H fuel v p cur prev None, c2)
                end
            | (PNoVersion, c2) => (PNoVersion, c2)
            | (PErr, c2) => (PErr, c2)
            | (PFuel, c2) => (PFuel, c2)
            end
        end
    | (PNoVersion, c1) => (PNoVersion, c1)
    | (PErr, c1) => (PErr, c1)
    | (PFuel, c1) => (PFuel, c1)
    end.

  Lemma trav_eq fuel v p c : traverse_orphans H fuel v p c = trav_d fuel v c (disk p) p.
  Proof. reflexivity. Qed.

  Definition step1_d (fuel : nat) (v : Z) (c1 : rkc) (rootk : option nodekey) (d : store) (p : pdb)
    : pres pdb * rkc :=
    match rootk with
    | Some _ =>
        match trav_d fuel v c1 d p with
        | (POk p', c2) => (POk p', c2)
        | (PNoVersion, c2) => (POk p, c2)
        | (e, c2) => (e, c2)
        end
    | None => (POk p, c1)
    end.

  Lemma step1_eq fuel v p c1 rootk : dv_step1 H fuel v p c1 rootk = step1_d fuel v c1 rootk (disk p) p.
  Proof. reflexivity. Qed.

  Lemma sim_step1_d fuel v c1 rootk d : sim (step1_d fuel v c1 rootk d).
  Proof.
    unfold step1_d. destruct rootk as [k|]; [|apply sim_ret]. unfold trav_d.
    destruct (rkc_get c1 d (v + 1)) as [[curk| | |] c2]; cbv iota beta;
      try (apply sim_err; exact I); try apply sim_ret.
    destruct (nit_new d curk) as [cur|]; cbv iota beta; [|apply sim_err; exact I].
    destruct (rkc_get c2 d v) as [[prevk| | |] c3]; cbv iota beta;
      try (apply sim_err; exact I); try apply sim_ret.
    destruct (nit_new d prevk) as [prev|]; cbv iota beta; [|apply sim_err; exact I].
    apply (sim_ext (fun p => (fst (orphans_loop H fuel v p cur prev None, tt), c3))).
    - intros p. cbn [fst]. pose proof (loop_not_nov fuel v p cur prev None) as N.
      destruct (orphans_loop H fuel v p cur prev None); try reflexivity. contradiction.
    - apply sim_snd, sim_loop.
  Qed.

  (** [dv_tail] with the disk it reads made explicit *)
  Definition tail_d (v : Z) (c2 : rkc) (d : store) (p2 : pdb) : pres pdb * rkc :=
    match rkc_get c2 d (v + 1) with
    | (PErr, c3) => (PErr, c3)
    | (PFuel, c3) => (PFuel, c3)
    | (r3, c3) =>
        let nextk := match r3 with POk k => k | _ => None end in
        match nextk with
        | Some nk =>
            if keqb nk (v, 1) then
              match get_node d nk with
              | None => (PErr, c3)
              | Some root =>
                  let p3 := pwrite p2 (set_node ((v, 0), ENode root)) in
                  (POk (pwrite p3 (del_node (v, 1))), c3)
              end
            else (POk p2, c3)
        | None => (POk p2, c3)
        end
    end.

  Lemma tail_eq v p2 c2 : dv_tail v p2 c2 = tail_d v c2 (disk p2) p2.
  Proof. reflexivity. Qed.

  Lemma sim_tail_d v c2 d : sim (tail_d v c2 d).
  Proof.
    unfold tail_d.
    destruct (rkc_get c2 d (v + 1)) as [[[nk|]| | |] c3]; cbv iota beta zeta;
      try (apply sim_err; exact I); try apply sim_ret.
    destruct (keqb nk (v, 1)); [|apply sim_ret].
    destruct (get_node d nk) as [root|]; [|apply sim_err; exact I].
    apply (sim_snd (fun p2 => (POk (pwrite (pwrite p2 (set_node ((v, 0), ENode root))) (del_node (v, 1))), tt)) c3).
    exact (simp_comp _ _ (simp_pwrite _) (simp_pwrite _)).
  Qed.

  Lemma simp_p2 v rootk : simp (dv_p2 v rootk).
  Proof.
    unfold dv_p2. destruct rootk as [k|]; [destruct (keqb k (v, 1))|]; try apply simp_pwrite.
    exact (sim_ret tt).
  Qed.

  Lemma sim_delete_version fuel v c : sim (fun p => delete_version H fuel v p c).
  Proof.
    pose (K := fun (d : store) (p : pdb) =>
                 match rkc_get c d v with
                 | (PErr, c1) => (PErr, c1)
                 | (PFuel, c1) => (PFuel, c1)
                 | (r, c1) =>
                     let rootk := match r with POk k => k | _ => None end in
                     match dv_step1 H fuel v p c1 rootk with
                     | (POk p1, c2) => dv_tail v (dv_p2 v rootk p1) c2
                     | (e, c2) => (e, c2)
                     end
                 end).
    apply (sim_ext (fun p => K (disk p) p)).
    { intros p. symmetry. apply dv_eq. }
    apply (sim_read K). intros d. unfold K. clear K.
    assert (Body : forall rootk c1,
              sim (fun p => match dv_step1 H fuel v p c1 rootk with
                            | (POk p1, c2) => dv_tail v (dv_p2 v rootk p1) c2
                            | (e, c2) => (e, c2)
                            end)).
    { intros rootk c1.
      apply (sim_bind (fun p => dv_step1 H fuel v p c1 rootk)
               (fun c2 p1 => dv_tail v (dv_p2 v rootk p1) c2) (fun _ c2 => c2)).
      - apply (sim_ext (fun p => step1_d fuel v c1 rootk (disk p) p)); [intros p; symmetry; apply step1_eq|].
        apply sim_read. intros d'. apply sim_step1_d.
      - intros c2. apply (sim_pre c2 (dv_p2 v rootk) (fun p2 => dv_tail v p2 c2)); [apply simp_p2|].
        apply (sim_ext (fun p2 => tail_d v c2 (disk p2) p2)); [intros p2; symmetry; apply tail_eq|].
        apply sim_read. intros d'. apply sim_tail_d. }
    destruct (rkc_get c d v) as [[rootk| | |] c1]; cbv iota beta zeta.
    - apply Body.
    - apply Body.
    - apply sim_err. exact I.
    - apply sim_err. exact I.
  Qed.

  Lemma sim_delete_range fuel vs : forall c, sim (fun p => (delete_range H fuel vs p c, tt)).
  Proof.
    induction vs as [|v rest IH]; intros c; cbn [delete_range]; [apply sim_ret|].
    apply (sim_ext (fun p => match delete_version H fuel v p c with
                             | (POk p', c') => (delete_range H fuel rest p' c', tt)
                             | (e, c') => (e, tt)
                             end)).
    { intros p. destruct (delete_version H fuel v p c) as [[p'| | |] c']; reflexivity. }
    apply (sim_bind (fun p => delete_version H fuel v p c)
             (fun c' p' => (delete_range H fuel rest p' c', tt)) (fun _ _ => tt)).
    - apply sim_delete_version.
    - intros c'. apply IH.
  Qed.

  Theorem eff_run_is_plain_run fuel vs st schedule c :
    exists schedule',
      twr (delete_range H fuel vs (Pdb st [] schedule [] [] true [] [st]) c)
          (delete_range H fuel vs (Pdb st [] schedule' [] [] false [] [st]) c).
  Proof.
    destruct (sim_delete_range fuel vs c (Pdb st [] schedule [] [] true [] [st]) eq_refl)
      as (sg & _ & B).
    exists sg.
    destruct (B (Pdb st [] sg [] [] false [] [st]) []) as (R & _).
    - unfold tw. cbn. auto 10.
    - cbn [sched]. rewrite app_nil_r. reflexivity.
    - exact R.
  Qed.

  Corollary eff_disks_plain st schedule first latest to :
    exists schedule',
      prune_phys_disks H true st schedule first latest to =
      prune_phys_disks H false st schedule' first latest to.
  Proof.
    destruct (eff_run_is_plain_run (prune_fuel st) (versions_from_to first to) st schedule rkc_new)
      as (s' & R).
    exists s'. unfold prune_phys_disks. destruct (latest <=? to); [reflexivity|]. cbv zeta.
    destruct (delete_range H (prune_fuel st) (versions_from_to first to)
                (Pdb st [] schedule [] [] true [] [st]) rkc_new) as [p| | |];
      destruct (delete_range H (prune_fuel st) (versions_from_to first to)
                  (Pdb st [] s' [] [] false [] [st]) rkc_new) as [q| | |];
      cbn [twr] in R; try contradiction; try reflexivity.
    destruct R as (Ed & Ep & _ & _ & Eh & _). unfold pflush. cbn [dhist]. rewrite Ed, Ep, Eh. reflexivity.
  Qed.

  Corollary eff_store_plain st schedule first latest to :
    exists schedule',
      match prune_phys H true st schedule first latest to,
            prune_phys H false st schedule' first latest to with
      | POk (d1, _, _), POk (d2, _, _) => d1 = d2
      | PNoVersion, PNoVersion | PErr, PErr | PFuel, PFuel => True
      | _, _ => False
      end.
  Proof.
    destruct (eff_run_is_plain_run (prune_fuel st) (versions_from_to first to) st schedule rkc_new)
      as (s' & R).
    exists s'. unfold prune_phys. destruct (latest <=? to); [exact I|]. cbv zeta.
    destruct (delete_range H (prune_fuel st) (versions_from_to first to)
                (Pdb st [] schedule [] [] true [] [st]) rkc_new) as [p| | |];
      destruct (delete_range H (prune_fuel st) (versions_from_to first to)
                  (Pdb st [] s' [] [] false [] [st]) rkc_new) as [q| | |];
      cbn [twr] in R; try contradiction; try exact I.
    destruct R as (Ed & Ep & _). unfold pflush. cbn [disk]. rewrite Ed, Ep. reflexivity.
  Qed.
End SimRun.
