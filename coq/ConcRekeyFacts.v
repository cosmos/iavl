(** Proofs about the re-keying hand-off (ConcRekey.v), property C06.

    Everything a reader of a version whose root record refers to [(v,1)] needs from the
    sequence of disks [D 0, D 1, ...] it is interleaved with is the invariant [handoff]:
      - the root record is the same reference on every disk;
      - on every disk, EITHER [(v,1)] holds the node, OR [(v,1)] is absent and [(v,0)] holds the
        node on this and every LATER disk.
    Under [handoff], for every non-decreasing schedule, GetRoot followed by GetNode returns the
    node, or the schedule ends first ([handoff_run]: case analysis on what each probe sees, no
    enumeration).  The invariant is established at the granularity of single operations
    ([ops_at]) for the code's operation sequences, and then holds for ANY batching of them: a
    batching only hides some of the intermediate disks. *)
From Coq Require Import Lia Bool.
From IAVL Require Import Bytes Varint Tree MTree Store StoreFacts ConcRekey.
Local Open Scope Z_scope.

Notation disk := (list ((Z * Z) * entry)) (only parsing).
Notation dfind k d := (mfind kcmp k d) (only parsing).

(** ** Lookups after one write *)
Lemma find_set k k' e (d : disk) :
  dfind k (mset kcmp k' e d) = if keqb k k' then Some e else dfind k d.
Proof. apply mfind_mset_k. Qed.

Lemma find_del k k' (d : disk) :
  msorted kcmp d ->
  dfind k (mdel kcmp k' d) = if keqb k k' then None else dfind k d.
Proof. apply mfind_mdel_k. Qed.

Lemma apply_nop_set k e (d : disk) : apply_nop d (set_node (k, e)) = mset kcmp k e d.
Proof. reflexivity. Qed.
Lemma apply_nop_del k (d : disk) : apply_nop d (del_node k) = mdel kcmp k d.
Proof. reflexivity. Qed.

Lemma keqb_nonce v a b w : a <> b -> keqb (v, a) (w, b) = false.
Proof. intros N. apply keqb_false. intros E. inversion E. contradiction. Qed.
Lemma keqb_ver v a b w : v <> w -> keqb (v, a) (w, b) = false.
Proof. intros N. apply keqb_false. intros E. inversion E. contradiction. Qed.

Fixpoint ops_at (d : disk) (ops : list wop) (j : nat) : disk :=
  match ops, j with
  | o :: r, S j' => ops_at (apply_nop d o) r j'
  | _, _ => d
  end.

Fixpoint pos (batches : list (list wop)) (t : nat) : nat :=
  match batches, t with
  | b :: bs, S t' => (length b + pos bs t')%nat
  | _, _ => O
  end.

Lemma ops_at_app a : forall d c j,
  ops_at d (a ++ c) (length a + j) = ops_at (apply_batch d a) c j.
Proof.
  induction a as [|o a IH]; intros d c j; cbn [app length Nat.add ops_at apply_batch fold_left].
  - reflexivity.
  - apply IH.
Qed.

Lemma ops_at_0 d ops : ops_at d ops 0 = d.
Proof. destruct ops; reflexivity. Qed.

Lemma disk_at_ops_at batches : forall d t,
  disk_at d batches t = ops_at d (concat batches) (pos batches t).
Proof.
  induction batches as [|b bs IH]; intros d t; cbn [disk_at concat pos].
  - destruct t; reflexivity.
  - destruct t as [|t]; [symmetry; apply ops_at_0|].
    rewrite IH, ops_at_app. reflexivity.
Qed.

Lemma pos_mono batches : forall t t', (t <= t')%nat -> (pos batches t <= pos batches t')%nat.
Proof.
  induction batches as [|b bs IH]; intros t t' L; cbn [pos]; [destruct t, t'; lia|].
  destruct t as [|t]; [lia|]. destruct t' as [|t']; [lia|].
  specialize (IH t t'). lia.
Qed.

Definition handoff (D : nat -> disk) (r v : Z) (n : snode) : Prop :=
  (forall t, dfind (r, 1) (D t) = Some (ERef (v, 1))) /\
  (forall t, dfind (v, 1) (D t) = Some (ENode n) \/
             (dfind (v, 1) (D t) = None /\
              forall t', (t <= t')%nat -> dfind (v, 0) (D t') = Some (ENode n))).

Lemma handoff_batching d ops batches r v n :
  concat batches = ops ->
  handoff (ops_at d ops) r v n -> handoff (disk_at d batches) r v n.
Proof.
  intros <- [H1 H2]. split.
  - intros t. rewrite disk_at_ops_at. apply H1.
  - intros t. rewrite disk_at_ops_at.
    destruct (H2 (pos batches t)) as [P|[P Q]]; [left; exact P|right].
    split; [exact P|]. intros t' L. rewrite disk_at_ops_at. apply Q, pos_mono, L.
Qed.

Definition good (v : Z) (n : snode) (o : outcome rres) : Prop :=
  o = Done (RNode (v, 1) n) \/ o = Done (RNode (v, 0) n).

Lemma nondecb_cons a b s : nondecb (a :: b :: s) = true -> (a <= b)%nat /\ nondecb (b :: s) = true.
Proof.
  cbn [nondecb]. intros E. apply andb_true_iff in E. destruct E as [E1 E2].
  apply Nat.leb_le in E1. split; assumption.
Qed.

(** the core: case analysis on what each probe sees.  The reader makes at most four probes (the
    root record, [(v,1)], and two more for the fall-backs of GetRoot and GetNode together); a
    schedule that ends before the reader does says nothing. *)
Lemma handoff_run (D : nat -> disk) r v n s :
  handoff D r v n -> nondecb s = true ->
  match run_prog D (read_version r) s with
  | Done x => x = RNode (v, 1) n \/ x = RNode (v, 0) n
  | SchedShort => (length s < 4)%nat
  | SchedBad => False
  end.
Proof.
  intros [H1 H2] ND.
  unfold read_version, root_then_node, get_root_reader.
  destruct s as [|t0 s]; cbn [bind run_prog]; [cbn; lia|].
  rewrite H1. cbn [bind run_prog fst snd].
  destruct s as [|t1 s]; cbn [bind run_prog]; [cbn; lia|].
  apply nondecb_cons in ND. destruct ND as [L01 ND].
  destruct (H2 t1) as [P1|[P1 Q1]]; rewrite P1; cbn [bind run_prog].
  - (* GetRoot found (v,1) *)
    unfold get_node_reader. cbn [run_prog fst snd].
    destruct s as [|t2 s]; [cbn; lia|].
    apply nondecb_cons in ND. destruct ND as [L12 ND].
    destruct (H2 t2) as [P2|[P2 Q2]]; rewrite P2.
    + left. reflexivity.
    + change (1 =? 1) with true. cbn [run_prog].
      destruct s as [|t3 s]; [cbn; lia|].
      apply nondecb_cons in ND. destruct ND as [L23 ND].
      rewrite (Q2 t3 L23). left. reflexivity.
  - (* GetRoot missed (v,1): it is gone for good, (v,0) is there *)
    destruct s as [|t2 s]; [cbn; lia|].
    apply nondecb_cons in ND. destruct ND as [L12 ND].
    rewrite (Q1 t2 L12). cbn [bind run_prog].
    unfold get_node_reader. cbn [run_prog fst snd].
    destruct s as [|t3 s]; [cbn; lia|].
    apply nondecb_cons in ND. destruct ND as [L23 ND].
    rewrite (Q1 t3 (Nat.le_trans _ _ _ L12 L23)). right. reflexivity.
Qed.

Theorem handoff_safe_gen (D : nat -> disk) r v n sched :
  handoff D r v n ->
  nondecb sched = true -> (4 <= length sched)%nat ->
  good v n (run_prog D (read_version r) sched).
Proof.
  intros H ND LEN. pose proof (handoff_run D r v n sched H ND) as G. unfold good.
  destruct (run_prog D (read_version r) sched) as [x| |]; [|lia|contradiction].
  destruct G as [-> | ->]; auto.
Qed.

Lemma handoff_reader (d : disk) ops bs r v n sched :
  concat bs = ops -> handoff (ops_at d ops) r v n ->
  match run_reader d bs (read_version r) sched with
  | Done x => x = RNode (v, 1) n \/ x = RNode (v, 0) n
  | SchedShort => (length sched < 4)%nat
  | SchedBad => nondecb sched = false
  end.
Proof.
  intros C H. unfold run_reader. destruct (nondecb sched) eqn:ND; [|reflexivity].
  pose proof (handoff_run _ r v n sched (handoff_batching d ops bs r v n C H) ND) as G.
  destruct (run_prog (disk_at d bs) (read_version r) sched); [exact G|exact G|contradiction].
Qed.

Lemma handoff_ops_safe (d : disk) ops bs r v n sched :
  concat bs = ops -> handoff (ops_at d ops) r v n ->
  nondecb sched = true -> (4 <= length sched)%nat ->
  good v n (run_reader d bs (read_version r) sched).
Proof.
  intros C H ND LEN. pose proof (handoff_reader d ops bs r v n sched C H) as G. unfold good.
  destruct (run_reader d bs (read_version r) sched) as [x| |]; [|lia|congruence].
  destruct G as [-> | ->]; auto.
Qed.

Ltac srt :=
  repeat (apply (msorted_mset kcmp kcmp_ok) || apply (msorted_mdel kcmp)); assumption.

Ltac fnd :=
  cbn [ops_at]; rewrite ?apply_nop_set, ?apply_nop_del;
  repeat (rewrite find_set || (rewrite find_del by srt));
  repeat (rewrite keqb_refl
          || (rewrite keqb_nonce by lia)
          || (rewrite keqb_ver by lia)).

Lemma rekey_ops_handoff (d : disk) r v n :
  msorted kcmp d ->
  dfind (v, 1) d = Some (ENode n) ->
  dfind (r, 1) d = Some (ERef (v, 1)) ->
  handoff (ops_at d (rekey_ops v n)) r v n.
Proof.
  intros S Hn Hr.
  assert (NE : r <> v) by (intros ->; rewrite Hn in Hr; discriminate).
  unfold rekey_ops. split.
  - intros [|[|t]]; fnd; exact Hr.
  - intros [|[|t]].
    + left. exact Hn.
    + left. fnd. exact Hn.
    + right. split; [fnd; reflexivity|].
      intros [|[|t']] L; try lia. fnd. reflexivity.
Qed.

Lemma chain_ops_handoff (d : disk) v n :
  msorted kcmp d ->
  dfind (v, 1) d = Some (ENode n) ->
  dfind (v + 2, 1) d = Some (ERef (v, 1)) ->
  handoff (ops_at d (chain_ops v n)) (v + 2) v n.
Proof.
  intros S Hn Hr.
  unfold chain_ops, rekey_ops. cbn [app]. split.
  - intros [|[|[|t]]]; fnd; exact Hr.
  - intros [|[|[|t]]].
    + left. exact Hn.
    + left. fnd. exact Hn.
    + right. split; [fnd; reflexivity|].
      intros [|[|[|t']]] L; try lia; fnd; reflexivity.
    + right. split; [fnd; reflexivity|].
      intros [|[|[|t']]] L; try lia; fnd; reflexivity.
Qed.

(** any batching of the code's two operations (the flusher may cut anywhere) *)
Theorem rekey_handoff_safe_batching (d : disk) v n batches sched :
  msorted kcmp d ->
  dfind (v, 1) d = Some (ENode n) ->
  dfind (v + 1, 1) d = Some (ERef (v, 1)) ->
  concat batches = rekey_ops v n ->
  nondecb sched = true -> (5 <= length sched)%nat ->
  good v n (run_reader d batches (read_version (v + 1)) sched).
Proof.
  intros S Hn Hr C ND LEN.
  apply (handoff_ops_safe d (rekey_ops v n)); [exact C|apply rekey_ops_handoff; assumption|exact ND|lia].
Qed.

(** C06_rekey_handoff_safe: the code's write order in both batchings, every schedule:
    GetRoot(v+1) followed by GetNode returns the node, under the key (v,1) or (v,0) *)
Theorem rekey_handoff_safe (d : disk) v n batches sched :
  msorted kcmp d ->
  dfind (v, 1) d = Some (ENode n) ->
  dfind (v + 1, 1) d = Some (ERef (v, 1)) ->
  batches = code_one_batch v n \/ batches = code_flushed v n ->
  nondecb sched = true -> (5 <= length sched)%nat ->
  run_reader d batches (read_version (v + 1)) sched = Done (RNode (v, 1) n) \/
  run_reader d batches (read_version (v + 1)) sched = Done (RNode (v, 0) n).
Proof.
  intros S Hn Hr B ND LEN.
  apply rekey_handoff_safe_batching; try assumption.
  destruct B as [-> | ->]; reflexivity.
Qed.

(** whatever the schedule (short, decreasing): never an error of the store, never another node *)
Theorem rekey_handoff_no_wrong_answer (d : disk) v n batches sched :
  msorted kcmp d ->
  dfind (v, 1) d = Some (ENode n) ->
  dfind (v + 1, 1) d = Some (ERef (v, 1)) ->
  concat batches = rekey_ops v n ->
  match run_reader d batches (read_version (v + 1)) sched with
  | Done r => r = RNode (v, 1) n \/ r = RNode (v, 0) n
  | SchedShort => (length sched < 5)%nat
  | SchedBad => nondecb sched = false
  end.
Proof.
  intros S Hn Hr C.
  pose proof (handoff_reader d _ batches (v + 1) v n sched C (rekey_ops_handoff d _ v n S Hn Hr)) as G.
  destruct (run_reader d batches (read_version (v + 1)) sched); [exact G|lia|exact G].
Qed.

(** a chain v, v+1, v+2 rooted at (v,1); v then v+1 are deleted *)
Theorem rekey_chain_safe (d : disk) v n batches sched :
  msorted kcmp d ->
  dfind (v, 1) d = Some (ENode n) ->
  dfind (v + 2, 1) d = Some (ERef (v, 1)) ->
  concat batches = chain_ops v n ->
  nondecb sched = true -> (5 <= length sched)%nat ->
  run_reader d batches (read_version (v + 2)) sched = Done (RNode (v, 1) n) \/
  run_reader d batches (read_version (v + 2)) sched = Done (RNode (v, 0) n).
Proof.
  intros S Hn Hr C ND LEN.
  apply (handoff_ops_safe d (chain_ops v n)); [exact C|apply chain_ops_handoff; assumption|exact ND|lia].
Qed.

(** every cut of the three operations into non-empty batches is covered *)
Lemma batchings_concat {A} (ops : list A) : forall bs, In bs (batchings ops) -> concat bs = ops.
Proof.
  induction ops as [|o r IH]; intros bs HI.
  - cbn in HI. destruct HI as [<-|[]]. reflexivity.
  - cbn [batchings] in HI. destruct r as [|o' r'].
    + cbn in HI. destruct HI as [<-|[]]. reflexivity.
    + apply in_flat_map in HI. destruct HI as (bs0 & I0 & HI).
      specialize (IH bs0 I0). destruct bs0 as [|b bs']; [contradiction|].
      cbn [concat] in IH. destruct HI as [<-|[<-|[]]]; cbn [concat app]; rewrite <- IH; reflexivity.
Qed.

Corollary rekey_chain_safe_batchings (d : disk) v n batches sched :
  msorted kcmp d ->
  dfind (v, 1) d = Some (ENode n) ->
  dfind (v + 2, 1) d = Some (ERef (v, 1)) ->
  In batches (batchings (chain_ops v n)) ->
  nondecb sched = true -> (5 <= length sched)%nat ->
  run_reader d batches (read_version (v + 2)) sched = Done (RNode (v, 1) n) \/
  run_reader d batches (read_version (v + 2)) sched = Done (RNode (v, 0) n).
Proof.
  intros S Hn Hr HI. apply rekey_chain_safe; try assumption. apply batchings_concat, HI.
Qed.

(** ** The writer's operation sequences are what deleteVersion computes *)
Lemma delete_root_ops_rekey (d : disk) v n :
  dfind (v, 1) d = Some (ENode n) ->
  dfind (v + 1, 1) d = Some (ERef (v, 1)) ->
  delete_root_ops d v = Some (rekey_ops v n).
Proof.
  intros Hn Hr. unfold delete_root_ops, get_root_reader, get_node_reader.
  cbn [run_seq]. rewrite Hn. cbn [run_seq]. rewrite keqb_refl.
  rewrite Hr. cbn [run_seq fst snd]. rewrite Hn. cbn [run_seq]. rewrite keqb_refl.
  cbn [run_seq]. rewrite Hn. cbn [run_seq make_node app]. reflexivity.
Qed.

(** the second deletion of the chain, before or after the first one reached the disk *)
Lemma delete_root_ops_chain_second (d : disk) v n j :
  msorted kcmp d ->
  dfind (v, 1) d = Some (ENode n) ->
  dfind (v + 1, 1) d = Some (ERef (v, 1)) ->
  dfind (v + 2, 1) d = Some (ERef (v, 1)) ->
  delete_root_ops (ops_at d (rekey_ops v n) j) (v + 1) = Some [del_node (v + 1, 1)].
Proof.
  intros S Hn Hr1 Hr2.
  assert (HO1 : handoff (ops_at d (rekey_ops v n)) (v + 1) v n)
    by (apply rekey_ops_handoff; assumption).
  assert (HO2 : handoff (ops_at d (rekey_ops v n)) (v + 2) v n)
    by (apply rekey_ops_handoff; assumption).
  destruct HO1 as [A1 B]. destruct HO2 as [A2 _].
  unfold delete_root_ops, get_root_reader.
  replace (v + 1 + 1) with (v + 2) by lia.
  cbn [run_seq]. rewrite A1, A2. cbn [run_seq fst snd].
  destruct (B j) as [P|[P Q]]; rewrite P; cbn [run_seq].
  - rewrite !keqb_ver by lia. reflexivity.
  - rewrite (Q j (Nat.le_refl j)). cbn [run_seq]. rewrite !keqb_ver by lia. reflexivity.
Qed.

(** ** The two seeded defects *)

(** the reader probes (v,0) before the batch is written and (v,1) after: neither is found,
    "version does not exist" for the retained version 2 *)
Theorem swapped_probes_refuted :
  exists sched,
    nondecb sched = true /\
    run_reader ex_disk (code_one_batch 1 ex_node) (read_version_swapped 2) sched
      = Done RErrNoVersion /\
    run_reader ex_disk (code_flushed 1 ex_node) (read_version_swapped 2) sched
      = Done RErrNoVersion.
Proof. exists [0; 0; 2; 2; 2]%nat. vm_compute. repeat split. Qed.

(** the writer deletes (v,1), the batch is flushed, then it writes (v,0): a reader of the code
    in between finds neither *)
Theorem swapped_writes_refuted :
  exists sched,
    nondecb sched = true /\
    run_reader ex_disk (swapped_flushed 1 ex_node) (read_version 2) sched = Done RErrNoVersion.
Proof. exists [0; 1; 1; 1; 1]%nat. vm_compute. repeat split. Qed.

(** GetNode alone against the swapped writes (its two probes in one critical section) *)
Theorem swapped_writes_getnode_refuted :
  run_reader ex_disk (swapped_flushed 1 ex_node) (get_node_reader (1, 1)) [1; 1]%nat
    = Done (RErrMissing (1, 1)).
Proof. vm_compute. reflexivity. Qed.

(** monotonicity of the schedule is what the proof uses: a time-travelling reader fails *)
Theorem decreasing_schedule_fails :
  run_prog (disk_at ex_disk (code_one_batch 1 ex_node)) (read_version 2) [0; 1; 0; 0; 0]%nat
    = Done RErrNoVersion.
Proof. vm_compute. reflexivity. Qed.

(** the two defects on ANY disk of the hand-off shape whose key (v,0) is free *)
Theorem swapped_probes_fail_gen (d : disk) v n :
  msorted kcmp d ->
  dfind (v, 1) d = Some (ENode n) ->
  dfind (v, 0) d = None ->
  dfind (v + 1, 1) d = Some (ERef (v, 1)) ->
  run_reader d (code_one_batch v n) (read_version_swapped (v + 1)) [0; 0; 1; 1; 1]%nat
    = Done RErrNoVersion.
Proof.
  intros S Hn H0 Hr. unfold run_reader. cbn [nondecb Nat.leb andb].
  unfold read_version_swapped, root_then_node, get_root_reader_swapped, code_one_batch, rekey_ops.
  cbn [bind run_prog disk_at apply_batch fold_left]. rewrite Hr.
  cbn [bind run_prog fst snd]. rewrite H0. cbn [bind run_prog].
  fnd. reflexivity.
Qed.

Theorem swapped_writes_fail_gen (d : disk) v n :
  msorted kcmp d ->
  dfind (v, 1) d = Some (ENode n) ->
  dfind (v, 0) d = None ->
  dfind (v + 1, 1) d = Some (ERef (v, 1)) ->
  run_reader d (swapped_flushed v n) (read_version (v + 1)) [0; 1; 1; 1; 1]%nat
    = Done RErrNoVersion.
Proof.
  intros S Hn H0 Hr. unfold run_reader. cbn [nondecb Nat.leb andb].
  unfold read_version, root_then_node, get_root_reader, swapped_flushed.
  cbn [bind run_prog disk_at apply_batch fold_left]. rewrite Hr.
  cbn [bind run_prog fst snd]. fnd.
  cbn [bind run_prog]. fnd. rewrite H0. reflexivity.
Qed.

(** ** Exhaustive checks on the small instance (versions 1, 2, 3; all schedules of length 5) *)

Lemma is_ex_node_good o : is_ex_node o = true -> good 1 ex_node o.
Proof.
  unfold is_ex_node, good. destruct o as [[[a b] [k w|]| | | |]| |]; try discriminate.
  rewrite !andb_true_iff, orb_true_iff, !Z.eqb_eq. cbn [fst snd].
  intros [[[Ek Ew] ->] [-> | ->]]; apply beq_true in Ek, Ew; subst; auto.
Qed.

Lemma nondecb_head_le a s x : nondecb (a :: s) = true -> In x s -> (a <= x)%nat.
Proof.
  revert a. induction s as [|b s IH]; intros a ND Hx; [contradiction|].
  apply nondecb_cons in ND. destruct ND as [Lab ND].
  destruct Hx as [<-|Hx]; [exact Lab|]. apply Nat.le_trans with b; [exact Lab|apply IH; assumption].
Qed.

Lemma all_scheds_complete nb : forall len lo s,
  length s = len -> nondecb s = true ->
  (forall a, In a s -> (lo <= a <= nb)%nat) ->
  In s (scheds_from lo nb len).
Proof.
  induction len as [|len IH]; intros lo s L ND B.
  - destruct s; [left; reflexivity|discriminate].
  - destruct s as [|a s]; [discriminate|]. cbn [scheds_from].
    apply in_flat_map. exists a. split.
    + apply in_seq. specialize (B a (or_introl eq_refl)). lia.
    + apply in_map. apply IH.
      * cbn [length] in L. lia.
      * destruct s as [|b s]; [reflexivity|]. apply nondecb_cons in ND. apply ND.
      * intros x Hx. split; [exact (nondecb_head_le a s x ND Hx)|apply B; right; exact Hx].
Qed.

(** the code's order, both batchings, readers of version 2: all 21 + 6 schedules are safe *)
Example handoff_exhaustive_check :
  forallb (fun s => is_ex_node (run_reader ex_disk (code_flushed 1 ex_node) (read_version 2) s))
    (all_scheds 2 5) &&
  forallb (fun s => is_ex_node (run_reader ex_disk (code_one_batch 1 ex_node) (read_version 2) s))
    (all_scheds 1 5) = true.
Proof. vm_compute. reflexivity. Qed.

Theorem handoff_exhaustive s :
  length s = 5%nat -> nondecb s = true -> (forall a, In a s -> (a <= 2)%nat) ->
  good 1 ex_node (run_reader ex_disk (code_flushed 1 ex_node) (read_version 2) s).
Proof.
  intros L ND B. apply is_ex_node_good.
  pose proof handoff_exhaustive_check as E. apply andb_true_iff in E. destruct E as [E _].
  rewrite forallb_forall in E. apply E. apply all_scheds_complete; try assumption.
  intros a Ha. specialize (B a Ha). lia.
Qed.

(** the chain: deletions of 1 then 2, every cut of the three operations into batches, readers
    of version 3, every schedule *)
Example chain_exhaustive_check :
  forallb (fun bs =>
    forallb (fun s => is_ex_node (run_reader ex_disk bs (read_version 3) s))
      (all_scheds (length bs) 5))
    (batchings (chain_ops 1 ex_node)) = true.
Proof. vm_compute. reflexivity. Qed.

Example chain_batchings_count : length (batchings (chain_ops 1 ex_node)) = 4%nat.
Proof. vm_compute. reflexivity. Qed.

Example rekey_batchings :
  batchings (rekey_ops 1 ex_node) = [code_flushed 1 ex_node; code_one_batch 1 ex_node].
Proof. vm_compute. reflexivity. Qed.

(** the seeded reader: exactly the schedules whose probe of (v,0) precedes the write of (v,0)
    and whose probe of (v,1) follows the deletion of (v,1) fail (1 of 21, 1 of 6); all others
    deliver the node *)
Example swapped_probes_failures :
  filter (fun s => negb (is_ex_node
            (run_reader ex_disk (code_flushed 1 ex_node) (read_version_swapped 2) s)))
    (all_scheds 2 5)
  = [[0; 0; 2; 2; 2]]%nat /\
  filter (fun s => negb (is_ex_node
            (run_reader ex_disk (code_one_batch 1 ex_node) (read_version_swapped 2) s)))
    (all_scheds 1 5)
  = [[0; 0; 1; 1; 1]]%nat.
Proof. vm_compute. split; reflexivity. Qed.

(** the swapped writes: the failing schedules of the code's reader (8 of 21): every reader with
    a fall-back pair, or GetNode as a whole, inside the window between the two batches *)
Example swapped_writes_failures :
  filter (fun s => negb (is_ex_node
            (run_reader ex_disk (swapped_flushed 1 ex_node) (read_version 2) s)))
    (all_scheds 2 5)
  = [[0; 0; 1; 1; 1]; [0; 0; 1; 1; 2]; [0; 1; 1; 1; 1]; [0; 1; 1; 1; 2]; [0; 1; 1; 2; 2];
     [1; 1; 1; 1; 1]; [1; 1; 1; 1; 2]; [1; 1; 1; 2; 2]]%nat.
Proof. vm_compute. reflexivity. Qed.

(** the swapped writes in ONE batch are harmless (the defect needs the flush in between) *)
Example swapped_writes_one_batch_safe :
  forallb (fun s => is_ex_node
            (run_reader ex_disk [rekey_ops_swapped 1 ex_node] (read_version 2) s))
    (all_scheds 1 5) = true.
Proof. vm_compute. reflexivity. Qed.

(** the writer model reproduces the operation sequences on the instance *)
Example delete_root_ops_ex :
  delete_root_ops ex_disk 1 = Some (rekey_ops 1 ex_node) /\
  delete_root_ops (apply_batch ex_disk (rekey_ops 1 ex_node)) 2 = Some [del_node (2, 1)] /\
  delete_root_ops ex_disk 2 = Some [del_node (2, 1)].
Proof. vm_compute. repeat split. Qed.

(** the hypotheses of the general theorems hold on the instance *)
Lemma ex_disk_sorted : msorted kcmp ex_disk.
Proof. cbn. repeat split; repeat constructor. Qed.

Example rekey_handoff_safe_ex :
  good 1 ex_node
    (run_reader ex_disk (code_flushed 1 ex_node) (read_version (1 + 1)) [0; 1; 1; 2; 2]%nat).
Proof.
  apply rekey_handoff_safe; try reflexivity; try exact ex_disk_sorted; try (right; reflexivity); cbn; lia.
Qed.

Example rekey_chain_safe_ex :
  good 1 ex_node
    (run_reader ex_disk [[set_node ((1, 0), ENode ex_node)]; [del_node (1, 1); del_node (1 + 1, 1)]]
       (read_version (1 + 2)) [0; 1; 1; 2; 2]%nat).
Proof.
  apply rekey_chain_safe; try reflexivity; try exact ex_disk_sorted; cbn; lia.
Qed.

Print Assumptions handoff_safe_gen.
Print Assumptions rekey_handoff_safe.
Print Assumptions rekey_handoff_safe_batching.
Print Assumptions rekey_handoff_no_wrong_answer.
Print Assumptions rekey_chain_safe.
Print Assumptions rekey_chain_safe_batchings.
Print Assumptions swapped_probes_refuted.
Print Assumptions swapped_writes_refuted.
Print Assumptions swapped_probes_fail_gen.
Print Assumptions swapped_writes_fail_gen.
Print Assumptions handoff_exhaustive.
Print Assumptions delete_root_ops_chain_second.
