(** Proofs about the iavl/v2 model (V2.v): properties C19 and C20. *)
From Coq Require Import Permutation ZifyBool.
From IAVL Require Import Bytes Varint Tree VMap ListFacts VMapFacts TreeFacts MTree MTreeFacts HashFacts HashTable Iter IterFacts V2.
Local Open Scope Z_scope.

(** * 1. v2 computes the same trees as v1 (C19) *)

(** ** The comparison relation.
    [veq wv t1 t2]: same constructors, keys (also the routing keys), values, heights, sizes and
    effective versions ([ver = 0] read as [wv]).  Only nonces (sequences) and stored hashes are
    free.  It refines [HashFacts.shape_eq] (which also frees the routing keys) and, unlike
    [shape_eq], is a congruence for the write operations without any well-formedness
    hypothesis, because the writes only look at keys, heights and sizes. *)
Fixpoint veq (wv : Z) (t1 t2 : node) : Prop :=
  match t1, t2 with
  | Leaf k1 v1 m1, Leaf k2 v2 m2 => k1 = k2 /\ v1 = v2 /\ eff_ver wv m1 = eff_ver wv m2
  | Inner k1 h1 s1 m1 l1 r1, Inner k2 h2 s2 m2 l2 r2 =>
      k1 = k2 /\ h1 = h2 /\ s1 = s2 /\ eff_ver wv m1 = eff_ver wv m2 /\
      veq wv l1 l2 /\ veq wv r1 r2
  | _, _ => False
  end.

Lemma veq_refl wv t : veq wv t t.
Proof. induction t; cbn [veq]; auto 7. Qed.

Lemma veq_ind2 wv (P : node -> node -> Prop) :
  (forall k v m1 m2, eff_ver wv m1 = eff_ver wv m2 -> P (Leaf k v m1) (Leaf k v m2)) ->
  (forall k h s m1 m2 l1 r1 l2 r2,
     eff_ver wv m1 = eff_ver wv m2 -> veq wv l1 l2 -> veq wv r1 r2 -> P l1 l2 -> P r1 r2 ->
     P (Inner k h s m1 l1 r1) (Inner k h s m2 l2 r2)) ->
  forall t1 t2, veq wv t1 t2 -> P t1 t2.
Proof.
  intros PL PI. induction t1 as [k v m|k h s m l IHl r IHr]; intros [k2 v2 m2|k2 h2 s2 m2 l2 r2];
    cbn [veq]; try tauto.
  - intros (<- & <- & C). auto.
  - intros (<- & <- & <- & D & E & F). auto.
Qed.

Lemma veq_sym wv : forall t1 t2, veq wv t1 t2 -> veq wv t2 t1.
Proof. apply veq_ind2; intros; cbn [veq]; auto 7. Qed.

Lemma veq_trans wv t1 : forall t2 t3, veq wv t1 t2 -> veq wv t2 t3 -> veq wv t1 t3.
Proof.
  induction t1 as [k v m|k h s m l IHl r IHr]; intros [k2 v2 m2|k2 h2 s2 m2 l2 r2]
    [k3 v3 m3|k3 h3 s3 m3 l3 r3]; cbn [veq]; try tauto.
  - intros (A & B & C) (A' & B' & C'). repeat split; congruence.
  - intros (A & B & C & D & E & F) (A' & B' & C' & D' & E' & F').
    split; [congruence|]. split; [congruence|]. split; [congruence|]. split; [congruence|].
    split; eauto.
Qed.

Lemma veq_shape_eq wv : forall t1 t2, veq wv t1 t2 -> shape_eq wv t1 t2.
Proof. apply veq_ind2; intros; cbn [shape_eq]; auto 7. Qed.

Lemma veq_height wv t1 t2 : veq wv t1 t2 -> height t1 = height t2.
Proof. destruct t1, t2; cbn [veq height]; tauto. Qed.
Lemma veq_size wv t1 t2 : veq wv t1 t2 -> size t1 = size t2.
Proof. destruct t1, t2; cbn [veq size]; tauto. Qed.
Lemma veq_nkey wv t1 t2 : veq wv t1 t2 -> nkey t1 = nkey t2.
Proof. destruct t1, t2; cbn [veq nkey]; tauto. Qed.
Lemma veq_bal_of wv t1 t2 : veq wv t1 t2 -> bal_of t1 = bal_of t2.
Proof.
  destruct t1, t2; cbn [veq bal_of]; try tauto.
  intros (_ & _ & _ & _ & A & B). rewrite (veq_height _ _ _ A), (veq_height _ _ _ B). reflexivity.
Qed.

Lemma veq_elems wv t1 t2 : veq wv t1 t2 -> elems t1 = elems t2.
Proof. intros E. eapply shape_eq_elems, veq_shape_eq, E. Qed.

Lemma veq_min_key wv : forall t1 t2, veq wv t1 t2 -> min_key t1 = min_key t2.
Proof. apply veq_ind2; intros; cbn [min_key]; auto. Qed.

Lemma veq_keys_all wv P t1 : forall t2, veq wv t1 t2 -> keys_all P t1 -> keys_all P t2.
Proof.
  intros t2 E. rewrite !keys_all_elems, (veq_elems _ _ _ E). auto.
Qed.

Lemma veq_wf wv : forall t1 t2, veq wv t1 t2 -> wf t1 -> wf t2.
Proof.
  apply (veq_ind2 wv (fun t1 t2 => wf t1 -> wf t2)); [auto|].
  intros k h s m1 m2 l1 r1 l2 r2 _ E F IHl IHr. cbn [wf].
  intros (Wl & Wr & Kl & Kr & Hk & Hh & Hs).
  rewrite <- (veq_height _ _ _ E), <- (veq_height _ _ _ F),
          <- (veq_size _ _ _ E), <- (veq_size _ _ _ F), <- (veq_min_key _ _ _ F).
  repeat split; eauto using veq_keys_all.
Qed.

Lemma veq_avl wv : forall t1 t2, veq wv t1 t2 -> avl t1 -> avl t2.
Proof.
  apply (veq_ind2 wv (fun t1 t2 => avl t1 -> avl t2)); [auto|].
  intros k h s m1 m2 l1 r1 l2 r2 _ E F IHl IHr. cbn [avl].
  intros (Al & Ar & Hb). rewrite <- (veq_height _ _ _ E), <- (veq_height _ _ _ F). auto.
Qed.

Definition oveq (wv : Z) (a b : option node) : Prop :=
  match a, b with
  | Some x, Some y => veq wv x y
  | None, None => True
  | _, _ => False
  end.

Lemma oveq_refl wv a : oveq wv a a.
Proof. destruct a; cbn [oveq]; auto using veq_refl. Qed.
Lemma oveq_sym wv a b : oveq wv a b -> oveq wv b a.
Proof. destruct a, b; cbn [oveq]; auto using veq_sym. Qed.
Lemma oveq_trans wv a b c : oveq wv a b -> oveq wv b c -> oveq wv a c.
Proof. destruct a, b, c; cbn [oveq]; try tauto. apply veq_trans. Qed.

Lemma oveq_oinv wv a b : oveq wv a b -> oinv b -> oinv a.
Proof.
  destruct a, b; cbn [oveq oinv]; try tauto. intros E [W A]. apply veq_sym in E.
  eauto using veq_wf, veq_avl.
Qed.

Lemma oveq_elems wv a b : oveq wv a b -> oelems a = oelems b.
Proof. destruct a, b; cbn [oveq oelems]; try tauto. apply veq_elems. Qed.

Lemma eff_ver_v2 wv sq : eff_ver wv (v2_meta wv sq) = wv.
Proof.
  unfold eff_ver, v2_meta. cbn [ver]. destruct (wv =? 0) eqn:E; [|reflexivity].
  reflexivity.
Qed.
Lemma eff_ver_new_meta wv : eff_ver wv new_meta = wv.
Proof. reflexivity. Qed.
Lemma eff_ver_0 m : eff_ver 0 m = ver m.
Proof. unfold eff_ver. destruct (ver m =? 0) eqn:E; [apply Z.eqb_eq in E; auto|auto]. Qed.

Definition vimp {A B} (R : A -> B -> Prop) (x : option A) (y : B) : Prop :=
  match x with Some a => R a y | None => True end.

Definition set_rel (wv : Z) (a b : node * bool) : Prop :=
  veq wv (fst a) (fst b) /\ snd a = snd b.

Definition rm_rel (wv : Z) (a b : rm_res) : Prop :=
  rm_val a = rm_val b /\ rm_key a = rm_key b /\
  match rm_self a, rm_self b with
  | Some x, Some y => veq wv x y
  | None, None => True
  | _, _ => False
  end.

(** ** [veq] is a congruence for the v1 write operations.
    No well-formedness is needed: the writes only look at keys, heights and sizes. *)
Lemma veq_mk_mk wv k l1 r1 l2 r2 :
  veq wv l1 l2 -> veq wv r1 r2 -> veq wv (mk k l1 r1) (mk k l2 r2).
Proof.
  intros A B. unfold mk. cbn [veq].
  rewrite (veq_height _ _ _ A), (veq_height _ _ _ B), (veq_size _ _ _ A), (veq_size _ _ _ B).
  auto 7.
Qed.

Lemma rotR_veq wv t1 t2 : veq wv t1 t2 -> veq wv (rotR t1) (rotR t2).
Proof.
  intros E. destruct t1 as [|k h s m l r], t2 as [|k2 h2 s2 m2 l2 r2]; try exact E; try contradiction.
  destruct l as [|lk lh ls lm ll lr], l2 as [|lk2 lh2 ls2 lm2 ll2 lr2]; try exact E;
    try (cbn [veq] in E; tauto).
  rewrite !rotR_eq. cbn [veq] in E.
  destruct E as (A & B & C & D & (A' & B' & C' & D' & E' & F') & F). subst.
  apply veq_mk_mk; [assumption|]. apply veq_mk_mk; assumption.
Qed.

Lemma rotL_veq wv t1 t2 : veq wv t1 t2 -> veq wv (rotL t1) (rotL t2).
Proof.
  intros E. destruct t1 as [|k h s m l r], t2 as [|k2 h2 s2 m2 l2 r2]; try exact E; try contradiction.
  destruct r as [|rk rh rs rm rl rr], r2 as [|rk2 rh2 rs2 rm2 rl2 rr2]; try exact E;
    try (cbn [veq] in E; tauto).
  rewrite !rotL_eq. cbn [veq] in E.
  destruct E as (A & B & C & D & E & (A' & B' & C' & D' & E' & F')). subst.
  apply veq_mk_mk; [|assumption]. apply veq_mk_mk; assumption.
Qed.

Lemma balance_veq wv t1 t2 : veq wv t1 t2 -> veq wv (balance t1) (balance t2).
Proof.
  intros E. destruct t1 as [|k h s m l r], t2 as [|k2 h2 s2 m2 l2 r2]; try exact E; try contradiction.
  pose proof E as E0. cbn [veq] in E. destruct E as (A & B & C & D & El & Er). subst k2 h2 s2.
  rewrite !balance_eq.
  rewrite <- (veq_height _ _ _ El), <- (veq_height _ _ _ Er),
          <- (veq_bal_of _ _ _ El), <- (veq_bal_of _ _ _ Er).
  destruct (1 <? height l - height r).
  - destruct (0 <=? bal_of l); [apply rotR_veq, E0|].
    apply rotR_veq. cbn [veq]. pose proof (rotL_veq wv l l2 El). auto 7.
  - destruct (height l - height r <? -1); [|exact E0].
    destruct (bal_of r <=? 0); [apply rotL_veq, E0|].
    apply rotL_veq. cbn [veq]. pose proof (rotR_veq wv r r2 Er). auto 7.
Qed.

Lemma set_veq wv k v : forall t1 t2, veq wv t1 t2 -> set_rel wv (set t1 k v) (set t2 k v).
Proof.
  unfold set_rel. apply veq_ind2.
  - intros lk lv m m2 C. cbn [set]. destruct (bcmp k lk); cbn [fst snd veq]; auto 10.
  - intros nk h s m m2 l r l2 r2 D El Er IHl IHr. cbn [set].
    destruct (blt k nk).
    + destruct IHl as [Ev Eu].
      destruct (set l k v) as [l' u], (set l2 k v) as [l2' u2]. cbn [fst snd] in *. subst u2.
      destruct u; cbn [fst snd veq]; [auto 10|]. split; [|reflexivity].
      apply balance_veq, veq_mk_mk; assumption.
    + destruct IHr as [Ev Eu].
      destruct (set r k v) as [r' u], (set r2 k v) as [r2' u2]. cbn [fst snd] in *. subst u2.
      destruct u; cbn [fst snd veq]; [auto 10|]. split; [|reflexivity].
      apply balance_veq, veq_mk_mk; assumption.
Qed.

Lemma remove_veq wv k : forall t1 t2,
  veq wv t1 t2 -> rm_rel wv (remove t1 k) (remove t2 k).
Proof.
  apply veq_ind2.
  - intros lk lv m m2 C. cbn [remove].
    destruct (beq k lk); unfold rm_rel; cbn [rm_val rm_key rm_self veq]; auto.
  - intros nk h s m m2 l r l2 r2 D El Er IHl IHr. cbn [remove]. cbv zeta.
    destruct (blt k nk).
    + destruct IHl as (Ev & Ek & Es). rewrite <- Ev.
      destruct (rm_val (remove l k)) as [val|].
      * destruct (rm_self (remove l k)) as [l'|], (rm_self (remove l2 k)) as [l2'|]; try contradiction;
          unfold rm_rel; cbn [rm_val rm_key rm_self]; auto.
        repeat split; auto. apply balance_veq, veq_mk_mk; assumption.
      * unfold rm_rel. cbn [rm_val rm_key rm_self veq]. auto 8.
    + destruct IHr as (Ev & Ek & Es). rewrite <- Ev, <- Ek.
      destruct (rm_val (remove r k)) as [val|].
      * destruct (rm_self (remove r k)) as [r'|], (rm_self (remove r2 k)) as [r2'|]; try contradiction;
          unfold rm_rel; cbn [rm_val rm_key rm_self]; auto.
        repeat split; auto. apply balance_veq, veq_mk_mk; assumption.
      * unfold rm_rel. cbn [rm_val rm_key rm_self veq]. auto 8.
Qed.

Lemma set_rel_trans wv a b c : set_rel wv a b -> set_rel wv b c -> set_rel wv a c.
Proof. intros [A1 A2] [B1 B2]. split; [eapply veq_trans; eassumption|congruence]. Qed.

Lemma rm_rel_trans wv a b c : rm_rel wv a b -> rm_rel wv b c -> rm_rel wv a c.
Proof.
  unfold rm_rel. intros (A1 & A2 & A3) (B1 & B2 & B3). split; [congruence|]. split; [congruence|].
  destruct (rm_self a), (rm_self b), (rm_self c); try contradiction; [|exact I].
  eapply veq_trans; eassumption.
Qed.

(** ** v2 against v1: one write of v2 against one write of v1.
    Each v2 write, where it is defined, returns what the v1 write returns on the same tree, up
    to [veq]: v1 marks a node new exactly when it clones it, v2 stamps it [wv] exactly when it
    mutates it, and the two happen at the same nodes (the path, and both nodes of every
    rotation).  With the congruences above the same holds from related trees. *)

(** a node mutated in [wv] against v1's fresh clone *)
Lemma veq_node_mk wv k l1 r1 l2 r2 :
  veq wv l1 l2 -> veq wv r1 r2 -> veq wv (v2_node wv k l1 r1) (mk k l2 r2).
Proof.
  intros A B. unfold v2_node, mk. cbn [veq].
  rewrite (veq_height _ _ _ A), (veq_height _ _ _ B), (veq_size _ _ _ A), (veq_size _ _ _ B),
          eff_ver_v2.
  auto 7.
Qed.

Lemma veq_node_node wv k l1 r1 l2 r2 :
  veq wv l1 l2 -> veq wv r1 r2 -> veq wv (v2_node wv k l1 r1) (v2_node wv k l2 r2).
Proof.
  intros A B. unfold v2_node. cbn [veq].
  rewrite (veq_height _ _ _ A), (veq_height _ _ _ B), (veq_size _ _ _ A), (veq_size _ _ _ B).
  auto 7.
Qed.

Lemma v2_rotR_self wv t : vimp (veq wv) (v2_rotR wv t) (rotR t).
Proof.
  destruct t as [|k h s m [|lk lh ls lm ll lr] r]; try exact I.
  rewrite rotR_eq. cbn [v2_rotR vimp]. auto using veq_node_mk, veq_refl.
Qed.

Lemma v2_rotL_self wv t : vimp (veq wv) (v2_rotL wv t) (rotL t).
Proof.
  destruct t as [|k h s m l [|rk rh rs rm rl rr]]; try exact I.
  rewrite rotL_eq. cbn [v2_rotL vimp]. auto using veq_node_mk, veq_refl.
Qed.

Lemma vimp_veq wv x b c : vimp (veq wv) x b -> veq wv b c -> vimp (veq wv) x c.
Proof. destruct x; cbn [vimp]; [apply veq_trans|auto]. Qed.

Lemma v2_balance_self wv t : vimp (veq wv) (v2_balance wv t) (balance t).
Proof.
  destruct t as [|k h s m l r]; [exact I|]. rewrite balance_eq. cbn [v2_balance].
  destruct (hs m); [|exact I].
  destruct (1 <? height l - height r).
  - destruct (0 <=? bal_of l); [apply v2_rotR_self|].
    pose proof (v2_rotL_self wv l) as RL. destruct (v2_rotL wv l) as [l'|]; [|exact I].
    eapply vimp_veq; [apply v2_rotR_self|]. apply rotR_veq. cbn [veq]. auto 7 using veq_refl.
  - destruct (height l - height r <? -1); [|apply veq_refl].
    destruct (bal_of r <=? 0); [apply v2_rotL_self|].
    pose proof (v2_rotR_self wv r) as RR. destruct (v2_rotR wv r) as [r'|]; [|exact I].
    eapply vimp_veq; [apply v2_rotL_self|]. apply rotL_veq. cbn [veq]. auto 7 using veq_refl.
Qed.

Lemma v2_balance_veq wv t1 t2 :
  veq wv t1 t2 -> vimp (veq wv) (v2_balance wv t1) (balance t2).
Proof. intros E. eapply vimp_veq; [apply v2_balance_self|apply balance_veq, E]. Qed.

Lemma v2_set_self wv sq k v t : vimp (set_rel wv) (v2_set wv sq t k v) (set t k v).
Proof.
  induction t as [lk lv m|nk h s m l IHl r IHr]; cbn [v2_set set].
  - destruct (bcmp k lk) eqn:Cmp; cbn [vimp]; unfold set_rel; cbn [fst snd veq];
      rewrite ?eff_ver_v2, ?eff_ver_new_meta; auto 10 using veq_refl.
    apply bcmp_eq in Cmp. auto.
  - destruct (blt k nk).
    + destruct (v2_set wv sq l k v) as [[l' upd]|]; [|exact I].
      destruct (set l k v) as [l1 u1]. destruct IHl as [El Eu]. cbn [fst snd] in El, Eu. subst u1.
      destruct upd.
      * cbn [vimp]. unfold set_rel. cbn [fst snd veq]. rewrite eff_ver_v2, eff_ver_new_meta.
        auto 10 using veq_refl.
      * pose proof (v2_balance_veq wv _ _ (veq_node_mk wv nk _ _ _ _ El (veq_refl wv r))) as Bv.
        destruct (v2_balance wv (v2_node wv nk l' r)) as [t'|]; [|exact I]. split; [exact Bv|reflexivity].
    + destruct (v2_set wv sq r k v) as [[r' upd]|]; [|exact I].
      destruct (set r k v) as [r1 u1]. destruct IHr as [Er Eu]. cbn [fst snd] in Er, Eu. subst u1.
      destruct upd.
      * cbn [vimp]. unfold set_rel. cbn [fst snd veq]. rewrite eff_ver_v2, eff_ver_new_meta.
        auto 10 using veq_refl.
      * pose proof (v2_balance_veq wv _ _ (veq_node_mk wv nk _ _ _ _ (veq_refl wv l) Er)) as Bv.
        destruct (v2_balance wv (v2_node wv nk l r')) as [t'|]; [|exact I]. split; [exact Bv|reflexivity].
Qed.

Lemma v2_set_veq wv sq k v t1 t2 :
  veq wv t1 t2 -> vimp (set_rel wv) (v2_set wv sq t1 k v) (set t2 k v).
Proof.
  intros E. pose proof (v2_set_self wv sq k v t1) as S.
  destruct (v2_set wv sq t1 k v); [|exact I]. eapply set_rel_trans; [exact S|apply set_veq, E].
Qed.

Lemma v2_remove_self wv k t : vimp (rm_rel wv) (v2_remove wv t k) (remove t k).
Proof.
  induction t as [lk lv m|nk h s m l IHl r IHr]; cbn [v2_remove remove vimp].
  - destruct (beq k lk); unfold rm_rel; cbn [rm_val rm_key rm_self veq]; auto.
  - cbv zeta. destruct (blt k nk).
    + destruct (v2_remove wv l k) as [res|]; [|exact I].
      destruct IHl as (Ev & Ek & Es). rewrite <- Ev.
      destruct (rm_val res) as [val|];
        [|cbn [vimp]; unfold rm_rel; cbn [rm_val rm_key rm_self]; auto using veq_refl].
      destruct (rm_self res) as [l'|], (rm_self (remove l k)) as [l1|]; try contradiction.
      * pose proof (v2_balance_veq wv _ _ (veq_node_mk wv nk _ _ _ _ Es (veq_refl wv r))) as Bv.
        destruct (v2_balance wv (v2_node wv nk l' r)) as [t'|]; [|exact I].
        cbn [vimp] in *. unfold rm_rel. cbn [rm_val rm_key rm_self]. auto.
      * cbn [vimp]. unfold rm_rel. cbn [rm_val rm_key rm_self]. auto using veq_refl.
    + destruct (v2_remove wv r k) as [res|]; [|exact I].
      destruct IHr as (Ev & Ek & Es). rewrite <- Ev, <- Ek.
      destruct (rm_val res) as [val|];
        [|cbn [vimp]; unfold rm_rel; cbn [rm_val rm_key rm_self]; auto using veq_refl].
      destruct (rm_self res) as [r'|], (rm_self (remove r k)) as [r1|]; try contradiction.
      * pose proof (v2_balance_veq wv _ _ (veq_node_mk wv (match rm_key res with Some k' => k' | None => nk end)
                                            _ _ _ _ (veq_refl wv l) Es)) as Bv.
        destruct (v2_balance wv (v2_node wv _ l r')) as [t'|]; [|exact I].
        cbn [vimp] in *. unfold rm_rel. cbn [rm_val rm_key rm_self]. auto.
      * cbn [vimp]. unfold rm_rel. cbn [rm_val rm_key rm_self]. auto using veq_refl.
Qed.

Lemma v2_remove_veq wv k t1 t2 :
  veq wv t1 t2 -> vimp (rm_rel wv) (v2_remove wv t1 k) (remove t2 k).
Proof.
  intros E. pose proof (v2_remove_self wv k t1) as S.
  destruct (v2_remove wv t1 k); [|exact I]. eapply rm_rel_trans; [exact S|apply remove_veq, E].
Qed.

(** ** The v2 operations never fail on well-formed trees *)
Lemma v2_balance_defined wv k l r :
  wf l -> wf r -> exists t', v2_balance wv (v2_node wv k l r) = Some t'.
Proof.
  intros Wl Wr. unfold v2_node. cbn [v2_balance v2_meta hs].
  pose proof (height_nonneg _ Wl) as Hl0. pose proof (height_nonneg _ Wr) as Hr0.
  destruct (1 <? height l - height r) eqn:C1.
  - apply Z.ltb_lt in C1. destruct l as [|lk lh ls lm ll lr]; [cbn [height] in *; lia|].
    cbn [wf] in Wl. destruct Wl as (Wll & Wlr & _ & _ & _ & Hlh & _).
    pose proof (height_nonneg _ Wll). pose proof (height_nonneg _ Wlr).
    cbn [bal_of]. destruct (0 <=? height ll - height lr) eqn:C2.
    + cbn [v2_rotR]. eauto.
    + apply Z.leb_gt in C2. destruct lr as [|rk rh rs rm rl rr]; [cbn [height] in *; lia|].
      cbn [v2_rotL v2_rotR v2_node]. eauto.
  - destruct (height l - height r <? -1) eqn:C3; [|eauto].
    apply Z.ltb_lt in C3. destruct r as [|rk rh rs rm rl rr]; [cbn [height] in *; lia|].
    cbn [wf] in Wr. destruct Wr as (Wrl & Wrr & _ & _ & _ & Hrh & _).
    pose proof (height_nonneg _ Wrl). pose proof (height_nonneg _ Wrr).
    cbn [bal_of]. destruct (height rl - height rr <=? 0) eqn:C2.
    + cbn [v2_rotL]. eauto.
    + apply Z.leb_gt in C2. destruct rl as [|lk lh ls lm ll lr]; [cbn [height] in *; lia|].
      cbn [v2_rotL v2_rotR v2_node]. eauto.
Qed.

Lemma v2_set_wf wv sq k v t t' u :
  wf t -> v2_set wv sq t k v = Some (t', u) -> wf t'.
Proof.
  intros W E. pose proof (v2_set_self wv sq k v t) as R. rewrite E in R. destruct R as [R _].
  eapply veq_wf; [apply veq_sym, R|]. apply set_spec, W.
Qed.

Lemma v2_set_defined wv sq k v t : wf t -> exists r, v2_set wv sq t k v = Some r.
Proof.
  induction t as [lk lv m|nk h s m l IHl r IHr]; intros W; cbn [v2_set].
  - destruct (bcmp k lk); eauto.
  - cbn [wf] in W. destruct W as (Wl & Wr & _).
    destruct (blt k nk).
    + destruct (IHl Wl) as ([l' upd] & E). rewrite E. destruct upd; [eauto|].
      destruct (v2_balance_defined wv nk l' r (v2_set_wf _ _ _ _ _ _ _ Wl E) Wr) as (t' & B).
      rewrite B. eauto.
    + destruct (IHr Wr) as ([r' upd] & E). rewrite E. destruct upd; [eauto|].
      destruct (v2_balance_defined wv nk l r' Wl (v2_set_wf _ _ _ _ _ _ _ Wr E)) as (t' & B).
      rewrite B. eauto.
Qed.

Theorem v2_set_shape wv sq t k v :
  wf t ->
  exists t' , v2_set wv sq t k v = Some (t', snd (set t k v)) /\
              veq wv t' (fst (set t k v)) /\ shape_eq wv t' (fst (set t k v)).
Proof.
  intros W. destruct (v2_set_defined wv sq k v t W) as ([t' u] & E).
  pose proof (v2_set_self wv sq k v t) as R. rewrite E in R.
  destruct R as [R1 R2]. cbn [fst snd] in *. subst u.
  exists t'. split; [exact E|]. split; [exact R1|apply veq_shape_eq, R1].
Qed.

Lemma v2_remove_self_inv wv k t res val :
  wf t -> avl t -> v2_remove wv t k = Some res -> rm_val res = Some val -> oinv (rm_self res).
Proof.
  intros W A E V. pose proof (v2_remove_self wv k t) as R. rewrite E in R.
  destruct R as (Ev & _ & Es).
  pose proof (remove_spec t k W A) as P. unfold rm_post in P. rewrite <- Ev, V in P.
  apply (oveq_oinv wv _ (rm_self (remove t k)) Es).
  destruct (rm_self (remove t k)); [cbn [oinv]; tauto|exact I].
Qed.

Lemma v2_remove_defined wv k t : wf t -> avl t -> exists res, v2_remove wv t k = Some res.
Proof.
  induction t as [lk lv m|nk h s m l IHl r IHr]; intros W A; cbn [v2_remove]; [eauto|].
  cbn [wf] in W. destruct W as (Wl & Wr & _). cbn [avl] in A. destruct A as (Al & Ar & _).
  destruct (blt k nk).
  - destruct (IHl Wl Al) as (res & E). rewrite E.
    destruct (rm_val res) as [val|] eqn:V; [|eauto].
    pose proof (v2_remove_self_inv wv k l res val Wl Al E V) as I'.
    destruct (rm_self res) as [l'|]; [|eauto]. destruct I' as [W' _].
    destruct (v2_balance_defined wv nk l' r W' Wr) as (t' & B). rewrite B. eauto.
  - destruct (IHr Wr Ar) as (res & E). rewrite E.
    destruct (rm_val res) as [val|] eqn:V; [|eauto].
    pose proof (v2_remove_self_inv wv k r res val Wr Ar E V) as I'.
    destruct (rm_self res) as [r'|]; [|eauto]. destruct I' as [W' _].
    cbv zeta.
    destruct (v2_balance_defined wv (match rm_key res with Some k' => k' | None => nk end)
                l r' Wl W') as (t' & B). rewrite B. eauto.
Qed.

Theorem v2_remove_shape wv t k :
  wf t -> avl t ->
  exists res, v2_remove wv t k = Some res /\
    rm_val res = rm_val (remove t k) /\ rm_key res = rm_key (remove t k) /\
    match rm_self res, rm_self (remove t k) with
    | Some x, Some y => veq wv x y /\ shape_eq wv x y
    | None, None => True
    | _, _ => False
    end.
Proof.
  intros W A. destruct (v2_remove_defined wv k t W A) as (res & E).
  pose proof (v2_remove_self wv k t) as R. rewrite E in R.
  destruct R as (R1 & R2 & R3). exists res. repeat split; auto.
  destruct (rm_self res), (rm_self (remove t k)); auto using veq_shape_eq.
Qed.

(** ** Predicates preserved by the v2 writes *)
Definition vall {A} (P : A -> Prop) (x : option A) : Prop :=
  match x with Some a => P a | None => True end.

Lemma vall_some {A} (P : A -> Prop) x a : vall P x -> x = Some a -> P a.
Proof. intros V ->. exact V. Qed.

Lemma vall_map {A B} (P : B -> Prop) (f : A -> B) x :
  vall (fun a => P (f a)) x -> vall P (match x with Some a => Some (f a) | None => None end).
Proof. destruct x; auto. Qed.

Section Preserve.
  Variable wv : Z.
  Variable P : node -> Prop.
  Hypothesis P_sub : forall k h s m l r, P (Inner k h s m l r) -> P l /\ P r.
  Hypothesis P_inner : forall k h s sq l r, P l -> P r -> P (Inner k h s (v2_meta wv sq) l r).
  Hypothesis P_leaf : forall k v sq, P (Leaf k v (v2_meta wv sq)).

  Lemma P_node k l r : P l -> P r -> P (v2_node wv k l r).
  Proof. intros. unfold v2_node. apply P_inner; assumption. Qed.

  Lemma v2_rotR_pres t : P t -> vall P (v2_rotR wv t).
  Proof.
    destruct t as [|k h s m [|lk lh ls lm ll lr] r]; try exact (fun _ => I). intros Pt.
    destruct (P_sub _ _ _ _ _ _ Pt) as [Pl Pr]. destruct (P_sub _ _ _ _ _ _ Pl) as [Pll Plr].
    cbn [v2_rotR vall]. auto using P_node.
  Qed.

  Lemma v2_rotL_pres t : P t -> vall P (v2_rotL wv t).
  Proof.
    destruct t as [|k h s m l [|rk rh rs rm rl rr]]; try exact (fun _ => I). intros Pt.
    destruct (P_sub _ _ _ _ _ _ Pt) as [Pl Pr]. destruct (P_sub _ _ _ _ _ _ Pr) as [Prl Prr].
    cbn [v2_rotL vall]. auto using P_node.
  Qed.

  Lemma v2_balance_pres k l r : P l -> P r -> vall P (v2_balance wv (v2_node wv k l r)).
  Proof.
    intros Pl Pr. unfold v2_node. cbn [v2_balance v2_meta hs].
    pose proof (fun l' r' => P_inner k (Z.max (height l) (height r) + 1) (size l + size r) 0 l' r') as Pt.
    destruct (1 <? height l - height r).
    - destruct (0 <=? bal_of l); [apply v2_rotR_pres; auto|].
      pose proof (v2_rotL_pres l Pl) as Pl'. destruct (v2_rotL wv l) as [l'|]; [|exact I].
      apply v2_rotR_pres; auto.
    - destruct (height l - height r <? -1); [|cbn [vall]; auto].
      destruct (bal_of r <=? 0); [apply v2_rotL_pres; auto|].
      pose proof (v2_rotR_pres r Pr) as Pr'. destruct (v2_rotR wv r) as [r'|]; [|exact I].
      apply v2_rotL_pres; auto.
  Qed.

  Lemma v2_set_pres sq k v t : P t -> vall (fun r => P (fst r)) (v2_set wv sq t k v).
  Proof.
    induction t as [lk lv m|nk h s m l IHl r IHr]; intros Pt; cbn [v2_set].
    - destruct (bcmp k lk); cbn [vall fst]; auto.
    - destruct (P_sub _ _ _ _ _ _ Pt) as [Pl Pr].
      destruct (blt k nk).
      + specialize (IHl Pl). destruct (v2_set wv sq l k v) as [[l' upd]|]; [|exact I].
        destruct upd; [cbn [vall fst] in *; auto|].
        apply vall_map, v2_balance_pres; assumption.
      + specialize (IHr Pr). destruct (v2_set wv sq r k v) as [[r' upd]|]; [|exact I].
        destruct upd; [cbn [vall fst] in *; auto|].
        apply vall_map, v2_balance_pres; assumption.
  Qed.

  Lemma v2_remove_pres k t : P t -> vall (fun res => vall P (rm_self res)) (v2_remove wv t k).
  Proof.
    induction t as [lk lv m|nk h s m l IHl r IHr]; intros Pt; cbn [v2_remove].
    - destruct (beq k lk); cbn [vall rm_self]; auto.
    - destruct (P_sub _ _ _ _ _ _ Pt) as [Pl Pr].
      destruct (blt k nk).
      + specialize (IHl Pl). destruct (v2_remove wv l k) as [res1|]; [|exact I]. cbn [vall] in IHl.
        destruct (rm_val res1); [|exact Pt].
        destruct (rm_self res1) as [l'|]; [|exact Pr].
        apply vall_map, v2_balance_pres; assumption.
      + specialize (IHr Pr). destruct (v2_remove wv r k) as [res1|]; [|exact I]. cbn [vall] in IHr.
        destruct (rm_val res1); [|exact Pt].
        destruct (rm_self res1) as [r'|]; [|exact Pl]. cbv zeta.
        apply vall_map, v2_balance_pres; assumption.
  Qed.
End Preserve.

(** ** v2 trees carry no zero version *)
Lemma all_persisted_sub k h s m l r :
  all_persisted (Inner k h s m l r) -> all_persisted l /\ all_persisted r.
Proof. cbn [all_persisted]. tauto. Qed.

Lemma v2_set_persisted wv sq k v t :
  wv <> 0 -> all_persisted t -> vall (fun r => all_persisted (fst r)) (v2_set wv sq t k v).
Proof.
  intros Hwv. apply (v2_set_pres wv all_persisted all_persisted_sub);
    intros; cbn [all_persisted v2_meta ver]; auto.
Qed.

Lemma v2_remove_persisted wv k t :
  wv <> 0 -> all_persisted t -> vall (fun res => vall all_persisted (rm_self res)) (v2_remove wv t k).
Proof.
  intros Hwv. apply (v2_remove_pres wv all_persisted all_persisted_sub);
    intros; cbn [all_persisted v2_meta ver]; auto.
Qed.

Lemma veq_persisted_any a b t1 : forall t2,
  all_persisted t1 -> all_persisted t2 -> veq a t1 t2 -> veq b t1 t2.
Proof.
  induction t1 as [k v m|k h s m l IHl r IHr]; intros [k2 v2 m2|k2 h2 s2 m2 l2 r2];
    cbn [veq all_persisted]; try tauto.
  - intros P1 P2 (A & B & C). rewrite !eff_ver_old in C |- * by assumption. auto.
  - intros (P1 & Pl1 & Pr1) (P2 & Pl2 & Pr2) (A & B & C & D & E & F).
    rewrite !eff_ver_old in D |- * by assumption. auto 8.
Qed.

Section HashV2.
  Variable H : bytes -> bytes.

  Lemma v2_hash_pure t : v2_hash H t = pure_hash H 0 t.
  Proof.
    induction t as [k v m|k h s m l IHl r IHr]; cbn [v2_hash pure_hash]; rewrite eff_ver_0; congruence.
  Qed.

  Fixpoint v2_hok (t : node) : Prop :=
    (hs (nmeta t) = [] \/ hs (nmeta t) = v2_hash H t) /\
    match t with
    | Leaf _ _ _ => True
    | Inner _ _ _ _ l r => v2_hok l /\ v2_hok r
    end.

  Lemma v2_hok_sub k h s m l r : v2_hok (Inner k h s m l r) -> v2_hok l /\ v2_hok r.
  Proof. cbn [v2_hok]. tauto. Qed.

  Lemma v2_set_hok wv sq k v t : v2_hok t -> vall (fun r => v2_hok (fst r)) (v2_set wv sq t k v).
  Proof.
    apply (v2_set_pres wv v2_hok v2_hok_sub); intros; cbn [v2_hok nmeta v2_meta hs]; auto.
  Qed.

  Lemma v2_remove_hok wv k t :
    v2_hok t -> vall (fun res => vall v2_hok (rm_self res)) (v2_remove wv t k).
  Proof.
    apply (v2_remove_pres wv v2_hok v2_hok_sub); intros; cbn [v2_hok nmeta v2_meta hs]; auto.
  Qed.

  Lemma v2_hash_meta_irrel_leaf k v m m' :
    ver m = ver m' -> v2_hash H (Leaf k v m) = v2_hash H (Leaf k v m').
  Proof. cbn [v2_hash]. intros ->. reflexivity. Qed.

  Lemma v2_deep_hash_spec t :
    v2_hok t ->
    hs (nmeta (v2_deep_hash H t)) = v2_hash H t /\
    v2_hash H (v2_deep_hash H t) = v2_hash H t /\
    v2_hok (v2_deep_hash H t) /\
    (forall wv, veq wv (v2_deep_hash H t) t).
  Proof.
    induction t as [k v m|k h s m l IHl r IHr]; intros Hok.
    - cbn [v2_deep_hash]. destruct (hs m) as [|b bs] eqn:E.
      + cbn [nmeta hs v2_hash ver v2_hok veq]. repeat split; auto.
      + destruct Hok as [[C|C] _]; cbn [nmeta] in C; [congruence|].
        split; [exact C|]. split; [reflexivity|]. split; [|intros; apply veq_refl].
        cbn [v2_hok nmeta]. auto.
    - cbn [v2_deep_hash]. destruct (hs m) as [|b bs] eqn:E.
      + destruct (v2_hok_sub _ _ _ _ _ _ Hok) as [Hl Hr].
        destruct (IHl Hl) as (A1 & A2 & A3 & A4). destruct (IHr Hr) as (B1 & B2 & B3 & B4).
        cbn [nmeta hs v2_hash ver]. rewrite A1, B1, A2, B2.
        split; [reflexivity|]. split; [reflexivity|]. split.
        * cbn [v2_hok nmeta hs v2_hash ver]. rewrite A2, B2. auto.
        * intros wv. cbn [veq]. unfold eff_ver. cbn [ver]. auto 8.
      + destruct Hok as [[C|C] Hc]; cbn [nmeta] in C; [congruence|].
        split; [exact C|]. split; [reflexivity|]. split; [|intros; apply veq_refl].
        cbn [v2_hok nmeta]. auto.
  Qed.

  Lemma v2_deep_hash_persisted t : all_persisted t -> all_persisted (v2_deep_hash H t).
  Proof.
    induction t as [k v m|k h s m l IHl r IHr]; cbn [v2_deep_hash all_persisted].
    - destruct (hs m); cbn [all_persisted ver]; auto.
    - intros (A & B & C). destruct (hs m); cbn [all_persisted ver]; auto.
  Qed.

  Lemma stamp_veq wv t : wv <> 0 -> forall n, veq wv t (fst (stamp H wv n t)).
  Proof.
    intros Hwv. induction t as [k v m|k h s m l IHl r IHr]; intros n.
    - rewrite stamp_leaf. unfold is_new. cbn [nmeta].
      destruct (ver m =? 0) eqn:E; cbn [negb fst]; [|apply veq_refl].
      apply Z.eqb_eq in E. cbn [veq].
      rewrite (eff_ver_new wv m E), eff_ver_old by exact Hwv. auto.
    - rewrite stamp_inner. unfold is_new. cbn [nmeta].
      destruct (ver m =? 0) eqn:E; cbn [negb fst]; [|apply veq_refl].
      apply Z.eqb_eq in E.
      specialize (IHl (n + 1)). destruct (stamp H wv (n + 1) l) as [l' n1].
      specialize (IHr n1). destruct (stamp H wv n1 r) as [r' n2].
      cbn [fst] in *. cbn [veq].
      rewrite (eff_ver_new wv m E), eff_ver_old by exact Hwv. auto 8.
  Qed.
End HashV2.

(** ** The trees the v2 machine holds
    [good]: a well-formed AVL tree without zero versions whose stored hashes, where present,
    are right.  On such trees the writes are total, keep the tree [good], and do what v1 does
    on any related tree. *)
Definition opersisted (a : option node) : Prop :=
  match a with Some x => all_persisted x | None => True end.

Definition ohok (H : bytes -> bytes) (a : option node) : Prop :=
  match a with Some x => v2_hok H x | None => True end.

Definition good (H : bytes -> bytes) (r : option node) : Prop := oinv r /\ opersisted r /\ ohok H r.

Lemma good_None H : good H None.
Proof. repeat split. Qed.

Lemma oveq_persisted_any x y a b : opersisted a -> opersisted b -> oveq x a b -> oveq y a b.
Proof. destruct a, b; cbn [oveq opersisted]; auto. apply veq_persisted_any. Qed.

(** v1's [Set] on the root pointer *)
Definition oset (r : option node) (k v : bytes) : option node * bool :=
  match r with
  | None => (Some (Leaf k v new_meta), false)
  | Some n => (Some (fst (set n k v)), snd (set n k v))
  end.

Lemma do_set_oset s k v :
  do_set s k v = (MState (fst (oset (root s) k v)) (version s) (last_saved s) (forest s)
                         (init_ver s) (init_set s) (init_opt s), XBool (snd (oset (root s) k v))).
Proof. unfold do_set, oset. destruct (root s) as [n|]; [destruct (set n k v)|]; reflexivity. Qed.

Lemma oset_spec r k v :
  oinv r -> oinv (fst (oset r k v)) /\ oelems (fst (oset r k v)) = ins k v (oelems r).
Proof.
  destruct r as [n|]; cbn [oset oinv oelems fst]; [|cbn; auto].
  intros [W A]. destruct (set_spec n k v W) as (W1 & E1 & _). destruct (set_avl n k v W A) as (A1 & _).
  auto.
Qed.

Definition odeep (H : bytes -> bytes) (r : option node) : option node :=
  match r with None => None | Some n => Some (v2_deep_hash H n) end.

Section Good.
  Variables (H : bytes -> bytes) (wv : Z).
  Hypothesis wv_nonzero : wv <> 0.

  Theorem v2_root_set_good sq k v r r1 :
    good H r -> oveq wv r r1 ->
    exists r', v2_root_set wv sq r k v = Some (r', snd (oset r1 k v)) /\
               oveq wv r' (fst (oset r1 k v)) /\ good H r'.
  Proof.
    intros (I & P & K) E.
    destruct r as [n|], r1 as [n1|]; cbn [oveq] in E; try contradiction; cbn [v2_root_set oset fst snd].
    - destruct (oset_spec (Some n) k v I) as [I' _]. destruct I as [W A].
      destruct (v2_set_shape wv sq n k v W) as (n' & Es & Rv & _). rewrite Es.
      destruct (set_veq wv k v n n1 E) as [Rv1 <-].
      eexists. split; [reflexivity|]. split; [exact (veq_trans _ _ _ _ Rv Rv1)|].
      split; [exact (oveq_oinv wv (Some n') (Some _) Rv I')|].
      split; [exact (vall_some _ _ _ (v2_set_persisted wv sq k v n wv_nonzero P) Es)
             |exact (vall_some _ _ _ (v2_set_hok H wv sq k v n K) Es)].
    - eexists. split; [reflexivity|]. unfold good.
      cbn [oveq veq oinv wf avl opersisted all_persisted ohok v2_hok v2_meta ver nmeta hs].
      rewrite eff_ver_v2, eff_ver_new_meta. auto 10.
  Qed.

  (** [v2_remove] on a subtree; what the callers do with the result differs *)
  Theorem v2_remove_good k t t1 :
    good H (Some t) -> veq wv t t1 ->
    exists res, v2_remove wv t k = Some res /\ rm_rel wv res (remove t1 k) /\
                forall val, rm_val res = Some val -> good H (rm_self res).
  Proof.
    intros ((W & A) & P & K) E. destruct (v2_remove_defined wv k t W A) as (res & Er).
    exists res. split; [exact Er|]. split.
    - pose proof (v2_remove_veq wv k t t1 E) as R. rewrite Er in R. exact R.
    - intros val V. split; [exact (v2_remove_self_inv wv k t res val W A Er V)|].
      split; [exact (vall_some _ _ _ (v2_remove_persisted wv k t wv_nonzero P) Er)
             |exact (vall_some _ _ _ (v2_remove_hok H wv k t K) Er)].
  Qed.
End Good.

Lemma good_odeep H r : good H r -> good H (odeep H r) /\ oveq 0 (odeep H r) r.
Proof.
  destruct r as [n|]; cbn [odeep oveq]; [|auto]. intros (I & P & K).
  destruct (v2_deep_hash_spec H n K) as (_ & _ & K' & V).
  split; [|apply V]. split; [exact (oveq_oinv 0 (Some _) (Some n) (V 0) I)|].
  split; [apply v2_deep_hash_persisted, P|exact K'].
Qed.

Lemma Forall_snoc_le {A} (f : A -> Z) n l x :
  Forall (fun p => f p <= n) l -> f x <= n + 1 -> Forall (fun p => f p <= n + 1) (l ++ [x]).
Proof.
  intros F L. apply Forall_app. split; [|auto].
  eapply Forall_impl; [|exact F]. cbn. intros; lia.
Qed.

(** ** Histories.  The v2 Tree against the v1 MutableTree (MTree.step), operation by
    operation: same outputs (updated flags, removed values, root hashes, versions), related
    trees. *)
Section Simulation.
  Variable H : bytes -> bytes.

  Record sim (s1 : mstate) (s2 : v2tree) : Prop := Sim {
    sim_inv : state_inv s1;
    sim_hinv : hash_inv H s1;
    sim_init : init_set s1 = false;
    sim_ver : vt_version s2 = version s1;
    sim_forest : Forall (fun p => fst p <= version s1) (forest s1);
    sim_root : oveq (version s1 + 1) (vt_root s2) (root s1);
    sim_good : good H (vt_root s2)
  }.

  Lemma sim_init_state : sim (init_state 0 false) v2t_empty.
  Proof.
    constructor; cbn; auto using good_None.
    - apply state_inv_init. lia.
    - apply hash_inv_init. auto.
  Qed.

  Lemma sim_set s1 s2 k v :
    sim s1 s2 ->
    exists s2' u, v2t_set s2 k v = Some (s2', u) /\
                  XBool u = snd (do_set s1 k v) /\ sim (fst (do_set s1 k v)) s2'.
  Proof.
    intros S. pose proof (MTreeFacts.step_inv H s1 (OSet k v) (sim_inv _ _ S)) as SI'.
    pose proof (step_hash_inv H s1 (OSet k v) (sim_inv _ _ S) (sim_hinv _ _ S)) as HI'.
    cbn [MTree.step] in SI', HI'.
    pose proof (inv_version _ (sim_inv _ _ S)) as Hv.
    destruct S as [SI HI In Ev Fo Ro Go].
    destruct (v2_root_set_good H (version s1 + 1) ltac:(lia) (vt_lseq s2 + 1) k v _ _ Go Ro)
      as (r' & E & Ro' & Go').
    unfold v2t_set. rewrite Ev, E. rewrite do_set_oset in *. cbn [fst snd] in *.
    eexists _, _. split; [reflexivity|]. split; [reflexivity|].
    constructor; cbn [root version init_set forest vt_root vt_version]; auto.
  Qed.

  Lemma sim_remove s1 s2 k :
    sim s1 s2 ->
    exists s2' x, v2t_step H s2 (WRemove k) = Some (s2', x) /\
                  x = snd (do_remove s1 k) /\ sim (fst (do_remove s1 k)) s2'.
  Proof.
    intros S. pose proof (MTreeFacts.step_inv H s1 (ORemove k) (sim_inv _ _ S)) as SI'.
    pose proof (step_hash_inv H s1 (ORemove k) (sim_inv _ _ S) (sim_hinv _ _ S)) as HI'.
    cbn [MTree.step] in SI', HI'.
    pose proof (inv_version _ (sim_inv _ _ S)) as Hv.
    pose proof S as S0. destruct S as [SI HI In Ev Fo Ro Go]. cbn [v2t_step]. unfold v2t_remove, do_remove in *.
    cbv zeta in *. rewrite Ev.
    destruct (root s1) as [n1|], (vt_root s2) as [n2|]; cbn [oveq] in Ro; try contradiction;
      [|eauto].
    destruct (v2_remove_good H (version s1 + 1) ltac:(lia) k n2 n1 Go Ro)
      as (res & E & (Rv & _ & Rs) & Gs).
    rewrite E. rewrite <- Rv in *. destruct (rm_val res) as [val|]; [|eauto].
    assert (NS : forall a b, sim (MState (rm_self (remove n1 k)) (version s1) (last_saved s1)
                     (forest s1) (init_ver s1) (init_set s1) (init_opt s1))
                     (V2Tree (rm_self res) (version s1) a b)).
    { intros a b. constructor; cbn [root version init_set forest vt_root vt_version]; eauto. }
    destruct (match leaf_ver n2 k with Some lv => lv =? version s1 + 1 | None => false end);
      eexists _, _; (split; [reflexivity|]); cbn [fst snd]; (split; [reflexivity|]);
      apply NS.
  Qed.

  Lemma sim_save s1 s2 :
    sim s1 s2 ->
    exists s2' x, v2t_step H s2 WSave = Some (s2', x) /\
                  x = snd (do_save H s1) /\ sim (fst (do_save H s1)) s2'.
  Proof.
    intros S. pose proof (MTreeFacts.step_inv H s1 OSave (sim_inv _ _ S)) as SI'.
    pose proof (step_hash_inv H s1 OSave (sim_inv _ _ S) (sim_hinv _ _ S)) as HI'.
    cbn [MTree.step] in SI', HI'.
    pose proof (inv_version _ (sim_inv _ _ S)) as Hv.
    pose proof (hi_root H _ (sim_hinv _ _ S)) as HR.
    destruct S as [SI HI In Ev Fo Ro Go].
    assert (WV : working_version s1 = version s1 + 1).
    { unfold working_version. rewrite In, andb_false_r. reflexivity. }
    assert (L : lookup (version s1 + 1) (forest s1) = None)
      by (apply (lookup_above _ (version s1)); [exact Fo|lia]).
    destruct (good_odeep H _ Go) as [Go' _].
    cbn [v2t_step v2t_save]. unfold do_save, version_exists in *. cbv zeta in *.
    rewrite WV in *. rewrite L in *. cbn [fst snd] in *.
    eexists _, _. split; [reflexivity|]. cbn [vt_version].
    assert (Hwv : version s1 + 1 <> 0) by lia.
    destruct (root s1) as [n1|] eqn:R1, (vt_root s2) as [n2|] eqn:R2; cbn [oveq] in Ro; try contradiction.
    - cbn [onode_ok] in HR. destruct Go as (_ & Pe & Ho). cbn [opersisted ohok] in Pe, Ho.
      destruct (stamp_hash_ok H (version s1 + 1) 0 n1 HR ltac:(lia)) as (A & B & C & D).
      destruct (v2_deep_hash_spec H n2 Ho) as (D1 & _ & _ & D4).
      split.
      + rewrite Ev. f_equal. f_equal. f_equal.
        rewrite (root_hash_stored H _ _ B), C. cbn [v2_compute_hash]. rewrite D1, v2_hash_pure.
        rewrite (pure_hash_persisted H n2 Pe 0 (version s1 + 1)).
        apply pure_hash_ext, veq_shape_eq, Ro.
      + constructor; cbn [root version init_set forest vt_root vt_version]; auto.
        * lia.
        * apply Forall_snoc_le; [exact Fo|cbn; lia].
        * cbn [oveq]. apply (veq_persisted_any (version s1 + 1)); [apply Go'|exact B|].
          eapply veq_trans; [apply D4|]. eapply veq_trans; [exact Ro|]. apply stamp_veq, Hwv.
    - split; [rewrite Ev; reflexivity|].
      constructor; cbn [root version init_set forest vt_root vt_version oveq]; auto.
      + lia.
      + apply Forall_snoc_le; [exact Fo|cbn; lia].
  Qed.

  Lemma sim_step s1 s2 o :
    sim s1 s2 ->
    exists s2' x, v2t_step H s2 o = Some (s2', x) /\
                  x = snd (MTree.step H s1 (wop_v1 o)) /\ sim (fst (MTree.step H s1 (wop_v1 o))) s2'.
  Proof.
    intros S. destruct o as [k v|k|]; cbn [wop_v1 MTree.step].
    - destruct (sim_set s1 s2 k v S) as (s2' & u & E & X & S'). cbn [v2t_step]. rewrite E. eauto.
    - apply sim_remove, S.
    - apply sim_save, S.
  Qed.

  Lemma sim_run ops : forall s1 s2,
    sim s1 s2 ->
    exists s2' xs, v2t_run H s2 ops = Some (s2', xs) /\
                   xs = snd (MTree.run H s1 (map wop_v1 ops)) /\
                   sim (fst (MTree.run H s1 (map wop_v1 ops))) s2'.
  Proof.
    induction ops as [|o ops IH]; intros s1 s2 S; cbn [v2t_run map MTree.run].
    - eexists _, _. split; [reflexivity|]. cbn [fst snd]. auto.
    - destruct (sim_step s1 s2 o S) as (s2a & x & E & X & S'). rewrite E.
      destruct (MTree.step H s1 (wop_v1 o)) as [s1a x1]. cbn [fst snd] in *. subst x1.
      destruct (IH s1a s2a S') as (s2b & xs & E2 & X2 & S2). rewrite E2.
      destruct (MTree.run H s1a (map wop_v1 ops)) as [s1b xs1]. cbn [fst snd] in *. subst xs1.
      eexists _, _. split; [reflexivity|]. auto.
  Qed.

  (** v2 never fails on a history of writes and commits, and answers every operation as v1
      does: the same "updated" flags, removed values, versions and ROOT HASHES. *)
  Theorem v2_same_hash ops :
    exists s2 xs,
      v2t_run H v2t_empty ops = Some (s2, xs) /\
      xs = snd (MTree.run H (init_state 0 false) (map wop_v1 ops)) /\
      sim (fst (MTree.run H (init_state 0 false) (map wop_v1 ops))) s2.
  Proof. apply sim_run, sim_init_state. Qed.
End Simulation.

Theorem v2_same_hash_full (H : bytes -> bytes) (ops : list wop) :
  let r1 := MTree.run H (init_state 0 false) (map wop_v1 ops) in
  exists s2 xs,
    v2t_run H v2t_empty ops = Some (s2, xs) /\
    xs = snd r1 /\
    vt_version s2 = version (fst r1) /\
    oveq (version (fst r1) + 1) (vt_root s2) (root (fst r1)) /\
    oelems (vt_root s2) = oelems (root (fst r1)) /\
    (forall H', opure_hash H' (version (fst r1) + 1) (vt_root s2) =
                opure_hash H' (version (fst r1) + 1) (root (fst r1))) /\
    oinv (vt_root s2).
Proof.
  intros r1. destruct (v2_same_hash H ops) as (s2 & xs & E & X & S). fold r1 in X, S.
  exists s2, xs. split; [exact E|]. split; [exact X|].
  pose proof (sim_root _ _ _ S) as R.
  split; [apply (sim_ver _ _ _ S)|]. split; [exact R|].
  split; [apply (oveq_elems _ _ _ R)|]. split; [|apply (sim_good _ _ _ S)].
  intros H'. destruct (vt_root s2), (root (fst r1)); cbn [oveq] in R; try contradiction; [|reflexivity].
  apply pure_hash_ext, veq_shape_eq, R.
Qed.

(** ** Reads: every read of a v2 tree is the read of the related v1 tree, so the v1 results
    (C01 reads against the sorted-list specification, C11 balance) transfer. *)
Lemma veq_get wv k : forall t1 t2, veq wv t1 t2 -> get t1 k = get t2 k.
Proof.
  apply veq_ind2; [reflexivity|]. intros nk h s m1 m2 l1 r1 l2 r2 _ _ Er IHl IHr. cbn [get].
  rewrite IHl, IHr, (veq_size _ _ _ Er). reflexivity.
Qed.

Lemma veq_has wv k : forall t1 t2, veq wv t1 t2 -> has t1 k = has t2 k.
Proof.
  apply veq_ind2; [reflexivity|]. intros nk h s m1 m2 l1 r1 l2 r2 _ _ _ IHl IHr. cbn [has nkey].
  rewrite IHl, IHr. reflexivity.
Qed.

Lemma veq_get_by_index wv : forall t1 t2,
  veq wv t1 t2 -> forall i, get_by_index t1 i = get_by_index t2 i.
Proof.
  apply (veq_ind2 wv (fun t1 t2 => forall i, get_by_index t1 i = get_by_index t2 i)); [reflexivity|]. intros nk h s m1 m2 l1 r1 l2 r2 _ El _ IHl IHr i. cbn [get_by_index].
  rewrite IHl, IHr, (veq_size _ _ _ El). reflexivity.
Qed.

Theorem v2_reads_transfer wv t2 t1 :
  veq wv t2 t1 ->
  (forall k, get t2 k = get t1 k) /\ (forall k, has t2 k = has t1 k) /\
  (forall i, get_by_index t2 i = get_by_index t1 i) /\
  size t2 = size t1 /\ height t2 = height t1 /\ elems t2 = elems t1 /\
  (wf t1 -> wf t2) /\ (avl t1 -> avl t2) /\
  (forall H, pure_hash H wv t2 = pure_hash H wv t1).
Proof.
  intros E. repeat split.
  - intros k. apply (veq_get _ _ _ _ E).
  - intros k. apply (veq_has _ _ _ _ E).
  - apply (veq_get_by_index _ _ _ E).
  - apply (veq_size _ _ _ E).
  - apply (veq_height _ _ _ E).
  - apply (veq_elems _ _ _ E).
  - apply (veq_wf _ _ _ (veq_sym _ _ _ E)).
  - apply (veq_avl _ _ _ (veq_sym _ _ _ E)).
  - intros H. apply pure_hash_ext, veq_shape_eq, E.
Qed.

(** * 2. The TreeIterator *)

Lemma dsorted_app_r asc (a b : kvs) : dsorted asc (a ++ b) -> dsorted asc b.
Proof.
  induction a as [|[k v] a IH]; cbn [app dsorted]; [auto|]. intros [_ S]. auto.
Qed.

Lemma v2_nodes_pos t : (0 < v2_nodes t)%nat.
Proof. destruct t; cbn [v2_nodes]; lia. Qed.

Lemma elems_le_nodes t : (length (elems t) <= v2_nodes t)%nat.
Proof.
  induction t as [|k h s m l IHl r IHr]; cbn [elems v2_nodes length]; [lia|].
  rewrite app_length. lia.
Qed.

Lemma not_lt_nil (x : bytes) : ~ x <b [].
Proof. unfold BytesO.lt. destruct x; cbn; auto. Qed.

Definition nodes_of (st : list node) : nat := fold_right (fun n a => (v2_nodes n + a)%nat) 0%nat st.
Ltac nodes_lia := unfold nodes_of in *; cbn [fold_right v2_nodes] in *; lia.

(** the contract of one Next(): [remf st] is what the stack [st] still stands for, [f] selects *)
Definition next_ok (inv : list node -> bool -> Prop) (remf : list node -> kvs)
           (f : bytes * bytes -> bool) (st : list node)
           (r : option (bytes * bytes) * list node) : Prop :=
  match filter f (remf st) with
  | [] => fst r = None
  | kv :: tl =>
      fst r = Some kv /\ inv (snd r) true /\ filter f (remf (snd r)) = tl /\
      (nodes_of (snd r) < nodes_of st)%nat
  end.

Lemma next_ok_weaken inv remf f st st0 r :
  filter f (remf st0) = filter f (remf st) -> (nodes_of st <= nodes_of st0)%nat ->
  next_ok inv remf f st r -> next_ok inv remf f st0 r.
Proof.
  unfold next_ok. intros -> L. destruct (filter f (remf st)); [auto|].
  intros (A & B & C & D). repeat split; auto. lia.
Qed.

(** stepAscend and stepDescend are one walk over the stack, the near child of a branch on top.
    A leaf is skipped before the first element if [skip], ends the iteration if [past]; at a
    branch both children are pushed if [both], else only the far one. *)
Section Walk.
  Variables (asc : bool) (skip past both : bytes -> bool).

  Definition near (l r : node) : node := if asc then l else r.
  Definition far (l r : node) : node := if asc then r else l.

  Fixpoint gstep (fuel : nat) (st : list node) (started : bool)
    : option (option (bytes * bytes) * list node) :=
    match fuel with
    | O => None
    | S f =>
        match st with
        | [] => Some (None, [])
        | Leaf k v _ :: st' =>
            if negb started && skip k then gstep f st' started
            else if past k then Some (None, st')
            else Some (Some (k, v), st')
        | Inner nk _ _ _ l r :: st' =>
            if both nk then gstep f (near l r :: far l r :: st') started
            else gstep f (far l r :: st') started
        end
    end.

  Definition walk (n : node) : kvs := if asc then elems n else rev (elems n).
  Definition rem (st : list node) : kvs := flat_map walk st.
  Definition gsel (p : bytes * bytes) : bool := negb (skip (fst p)) && negb (past (fst p)).

  Hypothesis skip_anti : forall k k', kbefore asc k k' -> skip k = false -> skip k' = false.
  Hypothesis past_mono : forall k k', kbefore asc k k' -> past k = true -> past k' = true.
  Hypothesis near_skipped :
    forall nk k, both nk = false -> (if asc then k <b nk else nk <=b k) -> skip k = true.

  Definition ginv (st : list node) (started : bool) : Prop :=
    Forall wf st /\ dsorted asc (rem st) /\
    (started = true -> Forall (fun p => skip (fst p) = false) (rem st)).

  Lemma rem_leaf k v m st : rem (Leaf k v m :: st) = (k, v) :: rem st.
  Proof. unfold rem, walk. cbn [flat_map elems rev app]. destruct asc; reflexivity. Qed.

  Lemma rem_inner k h s m l r st :
    rem (Inner k h s m l r :: st) = walk (near l r) ++ walk (far l r) ++ rem st.
  Proof.
    unfold rem, walk, near, far. cbn [flat_map elems].
    destruct asc; [|rewrite rev_app_distr]; rewrite <- app_assoc; reflexivity.
  Qed.

  Lemma gstep_ok fuel : forall st started,
    ginv st started -> (nodes_of st < fuel)%nat ->
    exists r, gstep fuel st started = Some r /\ next_ok ginv rem gsel st r.
  Proof.
    induction fuel as [|f IH]; intros st started (W & S & L) F; [lia|].
    destruct st as [|n st']; cbn [gstep].
    { eexists. split; [reflexivity|]. unfold next_ok. cbn. reflexivity. }
    inversion W as [|? ? Wn Wst]; subst.
    destruct n as [k v m|nk h s m l r].
    - rewrite rem_leaf in S, L. cbn [dsorted] in S. destruct S as [Fk S'].
      destruct (negb started && skip k) eqn:T1.
      + apply andb_prop in T1. destruct T1 as [T1 T2]. apply negb_true_iff in T1. subst started.
        destruct (IH st' false) as (r & E & Ok).
        { split; [exact Wst|]. split; [exact S'|discriminate]. }
        { nodes_lia. }
        exists r. split; [exact E|].
        eapply next_ok_weaken; [| |exact Ok].
        * rewrite rem_leaf. cbn [filter]. unfold gsel at 1. cbn [fst]. rewrite T2. reflexivity.
        * nodes_lia.
      + assert (Sk : skip k = false).
        { apply andb_false_iff in T1. destruct T1 as [T1|T1]; [|exact T1].
          apply negb_false_iff in T1. specialize (L T1). inversion L; subst. assumption. }
        rewrite Forall_forall in Fk.
        destruct (past k) eqn:Pk; (eexists; split; [reflexivity|]); unfold next_ok;
          rewrite rem_leaf; cbn [filter]; unfold gsel at 1; cbn [fst]; rewrite Sk, Pk;
          cbn [negb andb fst snd].
        * rewrite filter_none; [reflexivity|]. intros p Ip. unfold gsel.
          rewrite (past_mono _ _ (Fk _ Ip) Pk). apply andb_false_r.
        * split; [reflexivity|]. split; [|split; [reflexivity|nodes_lia]].
          split; [exact Wst|]. split; [exact S'|]. intros _.
          apply Forall_forall. intros p Ip. exact (skip_anti _ _ (Fk _ Ip) Sk).
    - rewrite rem_inner in S, L.
      assert (Wnf : wf (near l r) /\ wf (far l r))
        by (cbn [wf] in Wn; unfold near, far; destruct asc; tauto).
      assert (Nn : (v2_nodes (near l r) + v2_nodes (far l r) = v2_nodes l + v2_nodes r)%nat)
        by (unfold near, far; destruct asc; lia).
      destruct (both nk) eqn:T.
      + destruct (IH (near l r :: far l r :: st') started) as (r0 & E & Ok).
        { split; [constructor; [tauto|constructor; [tauto|assumption]]|].
          unfold rem in *. cbn [flat_map]. auto. }
        { nodes_lia. }
        exists r0. split; [exact E|].
        eapply next_ok_weaken; [| |exact Ok].
        * rewrite rem_inner. reflexivity.
        * nodes_lia.
      + assert (NS : forall p, In p (walk (near l r)) -> gsel p = false).
        { intros p Ip. unfold gsel. rewrite (near_skipped nk (fst p) T); [reflexivity|].
          cbn [wf] in Wn. destruct Wn as (_ & _ & Kl & Kr & _). apply keys_all_elems in Kl, Kr.
          rewrite Forall_forall in Kl, Kr. unfold walk, near in Ip.
          destruct asc; [apply Kl, Ip|apply Kr, in_rev, Ip]. }
        destruct (IH (far l r :: st') started) as (r0 & E & Ok).
        { split; [constructor; tauto|]. split; [exact (dsorted_app_r _ _ _ S)|].
          intros St. specialize (L St). apply Forall_app in L. apply L. }
        { nodes_lia. }
        exists r0. split; [exact E|].
        eapply next_ok_weaken; [| |exact Ok].
        * rewrite rem_inner, filter_app, (filter_none _ _ NS). reflexivity.
        * nodes_lia.
  Qed.
End Walk.

Section IterProofs.
  Variables (start stop : option bytes) (incl : bool).

  Definition lo (k : bytes) : bool := match start with None => true | Some s => ble s k end.
  Definition hi (i : bool) (k : bytes) : bool :=
    match stop with None => true | Some e => if i then ble k e else blt k e end.

  Lemma start_test k : blt k (onil start) = negb (lo k).
  Proof.
    unfold lo, onil. destruct start as [s|].
    - unfold blt, ble. rewrite (bcmp_antisym k s). destruct (bcmp k s); reflexivity.
    - unfold blt. destruct k; reflexivity.
  Qed.

  Lemma past_end_asc_hi k : past_end_asc stop incl k = negb (hi incl k).
  Proof.
    unfold past_end_asc, hi. destruct stop as [e|]; [|reflexivity].
    unfold blt, ble. rewrite (bcmp_antisym k e). destruct incl, (bcmp k e); reflexivity.
  Qed.

  Lemma past_end_desc_lo k : past_end_desc start k = negb (lo k).
  Proof.
    unfold past_end_desc, lo. destruct start as [s|]; [|reflexivity].
    unfold blt, ble. rewrite (bcmp_antisym k s). destruct (bcmp k s); reflexivity.
  Qed.

  (** the inclusive flag is ignored by stepDescend's leaf test *)
  Lemma skip_desc_hi k : skip_desc stop incl k = negb (hi false k).
  Proof.
    unfold skip_desc, hi. destruct stop as [e|]; [|reflexivity].
    unfold blt, ble. rewrite (bcmp_antisym k e). destruct incl, (bcmp k e); reflexivity.
  Qed.

  Lemma lo_mono k k' : k <b k' -> lo k = true -> lo k' = true.
  Proof.
    unfold lo. destruct start as [s|]; [|auto]. intros L E. btests. apply ble_true. border.
  Qed.
  Lemma hi_mono i k k' : k <b k' -> hi i k = false -> hi i k' = false.
  Proof.
    unfold hi. destruct stop as [e|]; [|discriminate]. intros L E.
    destruct i; btests; [apply ble_false|apply blt_false]; border.
  Qed.

  Lemma lo_mono_inv k k' : k <b k' -> lo k' = false -> lo k = false.
  Proof.
    intros L E. destruct (lo k) eqn:C; [|reflexivity]. rewrite (lo_mono _ _ L C) in E. discriminate.
  Qed.
  Lemma hi_mono_inv i k k' : k <b k' -> hi i k' = true -> hi i k = true.
  Proof.
    intros L E. destruct (hi i k) eqn:C; [reflexivity|]. rewrite (hi_mono _ _ _ L C) in E. discriminate.
  Qed.

  Definition sel (i : bool) (p : bytes * bytes) : bool := in_range start stop i (fst p).

  Definition skip_asc (k : bytes) : bool := blt k (onil start).
  Definition both_asc (nk : bytes) : bool := blt (onil start) nk.
  Definition both_desc (nk : bytes) : bool := match stop with None => true | Some e => ble nk e end.

  Lemma v2_step_asc_walk fuel : forall st started,
    v2_step_asc start stop incl fuel st started =
    gstep true skip_asc (past_end_asc stop incl) both_asc fuel st started.
  Proof.
    induction fuel as [|f IH]; intros st started; [reflexivity|]. cbn [v2_step_asc gstep near far].
    destruct st as [|[k v m|nk h s m l r] st']; rewrite ?IH; reflexivity.
  Qed.

  Lemma v2_step_desc_walk fuel : forall st started,
    v2_step_desc start stop incl fuel st started =
    gstep false (skip_desc stop incl) (past_end_desc start) both_desc fuel st started.
  Proof.
    induction fuel as [|f IH]; intros st started; [reflexivity|]. cbn [v2_step_desc gstep near far].
    destruct st as [|[k v m|nk h s m l r] st']; rewrite ?IH; reflexivity.
  Qed.

  Definition inv_asc := ginv true skip_asc.
  Definition inv_desc := ginv false (skip_desc stop incl).

  Lemma next_sel asc skip past i inv st r :
    (forall k, negb (skip k) && negb (past k) = in_range start stop i k) ->
    next_ok inv (rem asc) (gsel skip past) st r -> next_ok inv (rem asc) (sel i) st r.
  Proof.
    intros E. unfold next_ok.
    assert (X : forall l, filter (gsel skip past) l = filter (sel i) l)
      by (intros l; apply filter_ext; intros p; apply E).
    rewrite !X. auto.
  Qed.

  Lemma step_asc_ok fuel st started :
    inv_asc st started -> (nodes_of st < fuel)%nat ->
    exists r, v2_step_asc start stop incl fuel st started = Some r /\
              next_ok inv_asc (rem true) (sel incl) st r.
  Proof.
    intros I F. rewrite v2_step_asc_walk.
    destruct (gstep_ok true skip_asc (past_end_asc stop incl) both_asc) with
      (fuel := fuel) (st := st) (started := started) as (r & E & Ok); try assumption.
    - intros k k' B. unfold skip_asc. rewrite !start_test, !negb_false_iff. apply lo_mono, B.
    - intros k k' B. rewrite !past_end_asc_hi, !negb_true_iff. apply hi_mono, B.
    - intros nk k T B. unfold both_asc, skip_asc in *. btests. apply blt_true.
      destruct start as [s0|]; cbn [onil] in *; [border|]. exfalso. apply (not_lt_nil k). border.
    - exists r. split; [exact E|]. revert Ok. apply next_sel. intros k. unfold skip_asc.
      rewrite start_test, past_end_asc_hi, !negb_involutive. reflexivity.
  Qed.

  Lemma step_desc_ok fuel st started :
    inv_desc st started -> (nodes_of st < fuel)%nat ->
    exists r, v2_step_desc start stop incl fuel st started = Some r /\
              next_ok inv_desc (rem false) (sel false) st r.
  Proof.
    intros I F. rewrite v2_step_desc_walk.
    destruct (gstep_ok false (skip_desc stop incl) (past_end_desc start) both_desc) with
      (fuel := fuel) (st := st) (started := started) as (r & E & Ok); try assumption.
    - intros k k' B. rewrite !skip_desc_hi, !negb_false_iff. apply hi_mono_inv, B.
    - intros k k' B. rewrite !past_end_desc_lo, !negb_true_iff. apply lo_mono_inv, B.
    - intros nk k T B. rewrite skip_desc_hi. apply negb_true_iff. unfold both_desc, hi in *.
      destruct stop as [e|]; [|discriminate]. btests. apply blt_false. border.
    - exists r. split; [exact E|]. revert Ok. apply next_sel. intros k.
      rewrite skip_desc_hi, past_end_desc_lo, !negb_involutive. apply andb_comm.
  Qed.

  Lemma v2_next_step (asc : bool) fuel st started :
    (0 < fuel)%nat ->
    v2_next start stop incl asc fuel st started =
    if asc then v2_step_asc start stop incl fuel st started
    else v2_step_desc start stop incl fuel st started.
  Proof. destruct fuel; [lia|]. destruct st, asc; reflexivity. Qed.

  Lemma collect_ok (asc : bool) (inv : list node -> bool -> Prop) remf f :
    (forall fuel st started, inv st started -> (nodes_of st < fuel)%nat ->
       exists r, (if asc then v2_step_asc start stop incl fuel st started
                  else v2_step_desc start stop incl fuel st started) = Some r /\
                 next_ok inv remf f st r) ->
    forall n fuel st started,
      inv st started -> (nodes_of st < fuel)%nat -> (length (filter f (remf st)) < n)%nat ->
      v2_collect start stop incl asc n fuel st started = Some (filter f (remf st)).
  Proof.
    intros Hstep. induction n as [|n IH]; intros fuel st started I F Ln; [lia|].
    cbn [v2_collect]. rewrite v2_next_step by lia.
    destruct (Hstep fuel st started I F) as ([o st'] & E & Ok). rewrite E.
    unfold next_ok in Ok. cbn [fst snd] in Ok.
    destruct (filter f (remf st)) as [|kv tl] eqn:Fl.
    - subst o. reflexivity.
    - destruct Ok as (-> & I' & Fl' & N').
      rewrite (IH fuel st' true I'); [rewrite Fl'; reflexivity|lia|rewrite Fl'; cbn [length] in Ln; lia].
  Qed.
End IterProofs.

Theorem v2_iter_spec_asc t start stop incl :
  wf t ->
  v2_iter_collect (Some t) start stop incl true = Some (range_spec (elems t) start stop incl true).
Proof.
  intros W. unfold v2_iter_collect, range_spec.
  rewrite (collect_ok start stop incl true (inv_asc start) (rem true) (sel start stop incl)
             (step_asc_ok start stop incl)); cbn [rem flat_map walk]; rewrite ?app_nil_r.
  - reflexivity.
  - split; [auto|]. split; [|discriminate]. cbn [rem flat_map walk]. rewrite app_nil_r.
    apply dsorted_true, wf_sorted, W.
  - nodes_lia.
  - pose proof (filter_length_le (sel start stop incl) (elems t)). pose proof (elems_le_nodes t). lia.
Qed.

(** Reverse iteration is the reversed EXCLUSIVE range selection, whatever the [inclusive]
    field says (the public ReverseIterator always passes [false]). *)
Theorem v2_iter_spec_desc t start stop incl :
  wf t ->
  v2_iter_collect (Some t) start stop incl false =
    Some (range_spec (elems t) start stop false false).
Proof.
  intros W. unfold v2_iter_collect, range_spec.
  rewrite (collect_ok start stop incl false (inv_desc stop incl) (rem false) (sel start stop false)
             (step_desc_ok start stop incl)); cbn [rem flat_map walk]; rewrite ?app_nil_r.
  - rewrite filter_rev. reflexivity.
  - split; [auto|]. split; [|discriminate]. cbn [rem flat_map walk]. rewrite app_nil_r.
    change false with (negb true). apply dsorted_rev, dsorted_true, wf_sorted, W.
  - nodes_lia.
  - rewrite filter_rev, rev_length.
    pose proof (filter_length_le (sel start stop false) (elems t)). pose proof (elems_le_nodes t). lia.
Qed.

Theorem v2_iter_spec root start stop incl asc :
  oinv root ->
  v2_iter_collect root start stop incl asc =
    Some (range_spec (oelems root) start stop (incl && asc) asc).
Proof.
  destruct root as [t|]; cbn [oinv oelems].
  - intros [W _]. destruct asc.
    + rewrite andb_true_r. apply v2_iter_spec_asc, W.
    + rewrite andb_false_r. apply v2_iter_spec_desc, W.
  - intros _. cbn [v2_iter_collect]. unfold range_spec. cbn. destruct asc; reflexivity.
Qed.

(** The [inclusive] branch of stepDescend is wrong: the end key itself is skipped.  It cannot
    be reached through the public API (ReverseIterator hard-codes inclusive = false). *)
Theorem v2_iter_desc_inclusive_refuted :
  exists t start stop,
    wf t /\
    v2_iter_collect (Some t) start stop true false <>
      Some (range_spec (elems t) start stop true false).
Proof.
  exists (Inner [2%N] 1 2 new_meta (Leaf [1%N] [10%N] new_meta) (Leaf [2%N] [20%N] new_meta)),
         None, (Some [2%N]).
  split.
  - cbn [wf keys_all min_key height size]. repeat split; try reflexivity; cbn; auto.
  - vm_compute. discriminate.
Qed.

(** * 3. Persistence (C20) *)

Fixpoint leaves (t : node) : list (bytes * bytes * meta) :=
  match t with
  | Leaf k v m => [(k, v, m)]
  | Inner _ _ _ _ l r => leaves l ++ leaves r
  end.

Definition oleaves (t : option node) : list (bytes * bytes * meta) :=
  match t with Some n => leaves n | None => [] end.

Lemma v2_rotR_leaves wv t : vall (fun t' => leaves t' = leaves t) (v2_rotR wv t).
Proof.
  destruct t as [|k h s m [|lk lh ls lm ll lr] r]; try exact I.
  cbn [v2_rotR vall v2_node leaves]. apply app_assoc.
Qed.

Lemma v2_rotL_leaves wv t : vall (fun t' => leaves t' = leaves t) (v2_rotL wv t).
Proof.
  destruct t as [|k h s m l [|rk rh rs rm rl rr]]; try exact I.
  cbn [v2_rotL vall v2_node leaves]. symmetry. apply app_assoc.
Qed.

Lemma v2_balance_leaves wv t : vall (fun t' => leaves t' = leaves t) (v2_balance wv t).
Proof.
  destruct t as [|k h s m l r]; [exact I|]. cbn [v2_balance].
  destruct (hs m); [|exact I].
  destruct (1 <? height l - height r).
  - destruct (0 <=? bal_of l); [apply v2_rotR_leaves|].
    pose proof (v2_rotL_leaves wv l) as El. destruct (v2_rotL wv l) as [l'|]; [|exact I].
    pose proof (v2_rotR_leaves wv (Inner k h s m l' r)) as E2.
    destruct (v2_rotR wv (Inner k h s m l' r)); [|exact I]. cbn [vall leaves] in *. congruence.
  - destruct (height l - height r <? -1); [|reflexivity].
    destruct (bal_of r <=? 0); [apply v2_rotL_leaves|].
    pose proof (v2_rotR_leaves wv r) as Er. destruct (v2_rotR wv r) as [r'|]; [|exact I].
    pose proof (v2_rotL_leaves wv (Inner k h s m l r')) as E2.
    destruct (v2_rotL wv (Inner k h s m l r')); [|exact I]. cbn [vall leaves] in *. congruence.
Qed.

(** a Set inserts one leaf [x] or ([u]) replaces the leaf of the same key; all others are
    untouched *)
Definition set_leaves (x : bytes * bytes * meta) (u : bool) (old new : list (bytes * bytes * meta)) : Prop :=
  exists l1 l2,
    new = l1 ++ x :: l2 /\
    (if u then exists v0 m0, old = l1 ++ (fst (fst x), v0, m0) :: l2 else old = l1 ++ l2).

Lemma set_leaves_frame x u old new a b :
  set_leaves x u old new -> set_leaves x u (a ++ old ++ b) (a ++ new ++ b).
Proof.
  intros (l1 & l2 & -> & E). exists (a ++ l1), (l2 ++ b).
  split; [rewrite <- !app_assoc; reflexivity|].
  destruct u; [destruct E as (v0 & m0 & ->); exists v0, m0|subst old]; rewrite <- !app_assoc; reflexivity.
Qed.

Lemma v2_set_leaves wv sq k v t :
  vall (fun r => set_leaves (k, v, v2_meta wv sq) (snd r) (leaves t) (leaves (fst r)))
       (v2_set wv sq t k v).
Proof.
  induction t as [lk lv m|nk h s m l IHl r IHr]; cbn [v2_set].
  - destruct (bcmp k lk) eqn:C; cbn [vall fst snd leaves].
    + apply bcmp_eq in C. subst lk. exists [], []. split; [reflexivity|]. exists lv, m. reflexivity.
    + exists [], [(lk, lv, m)]. split; reflexivity.
    + exists [(lk, lv, m)], []. split; reflexivity.
  - destruct (blt k nk).
    + destruct (v2_set wv sq l k v) as [[l' upd]|]; [|exact I]. cbn [vall fst snd] in IHl.
      apply (set_leaves_frame _ _ _ _ [] (leaves r)) in IHl.
      destruct upd; [exact IHl|].
      pose proof (v2_balance_leaves wv (v2_node wv nk l' r)) as B.
      destruct (v2_balance wv (v2_node wv nk l' r)); [|exact I].
      cbn [vall fst snd leaves v2_node] in *. rewrite B. exact IHl.
    + destruct (v2_set wv sq r k v) as [[r' upd]|]; [|exact I]. cbn [vall fst snd] in IHr.
      apply (set_leaves_frame _ _ _ _ (leaves l) []) in IHr. rewrite !app_nil_r in IHr.
      destruct upd; [exact IHr|].
      pose proof (v2_balance_leaves wv (v2_node wv nk l r')) as B.
      destruct (v2_balance wv (v2_node wv nk l r')); [|exact I].
      cbn [vall fst snd leaves v2_node] in *. rewrite B. exact IHr.
Qed.

Lemma v2_root_set_leaves wv sq k v r r' u :
  v2_root_set wv sq r k v = Some (r', u) ->
  set_leaves (k, v, v2_meta wv sq) u (oleaves r) (oleaves r').
Proof.
  destruct r as [n|]; cbn [v2_root_set].
  - pose proof (v2_set_leaves wv sq k v n) as L.
    destruct (v2_set wv sq n k v) as [[n' u']|]; [|discriminate].
    intros X; injection X as <- <-. exact L.
  - intros X; injection X as <- <-. exists [], []. split; reflexivity.
Qed.

(** a successful Remove deletes exactly the leaf [leaf_ver] looks at ([lv] is its version) *)
Definition rm_leaves (k : bytes) (lv : option Z) (old new : list (bytes * bytes * meta)) : Prop :=
  exists l1 v0 m0 l2, old = l1 ++ (k, v0, m0) :: l2 /\ lv = Some (ver m0) /\ new = l1 ++ l2.

Lemma rm_leaves_frame k lv old new a b :
  rm_leaves k lv old new -> rm_leaves k lv (a ++ old ++ b) (a ++ new ++ b).
Proof.
  intros (l1 & v0 & m0 & l2 & -> & E & ->). exists (a ++ l1), v0, m0, (l2 ++ b).
  rewrite <- !app_assoc. auto.
Qed.

Lemma v2_remove_leaves wv k t :
  vall (fun res => rm_val res <> None ->
                   rm_leaves k (leaf_ver t k) (leaves t) (oleaves (rm_self res)))
       (v2_remove wv t k).
Proof.
  induction t as [lk lv m|nk h s m l IHl r IHr]; cbn [v2_remove leaf_ver].
  - destruct (beq k lk) eqn:B; cbn [vall rm_val rm_self oleaves]; [|intros []; reflexivity].
    intros _. btests. subst lk. exists [], lv, m, []. auto.
  - destruct (blt k nk).
    + destruct (v2_remove wv l k) as [res1|]; [|exact I]. cbn [vall] in IHl.
      destruct (rm_val res1) as [val1|]; [|intros []; reflexivity].
      specialize (IHl ltac:(discriminate)). apply (rm_leaves_frame _ _ _ _ [] (leaves r)) in IHl.
      destruct (rm_self res1) as [l'|]; [|intros _; exact IHl].
      pose proof (v2_balance_leaves wv (v2_node wv nk l' r)) as B.
      destruct (v2_balance wv (v2_node wv nk l' r)); [|exact I].
      cbn [vall rm_self oleaves leaves v2_node] in *. rewrite B. intros _. exact IHl.
    + destruct (v2_remove wv r k) as [res1|]; [|exact I]. cbn [vall] in IHr.
      destruct (rm_val res1) as [val1|]; [|intros []; reflexivity].
      specialize (IHr ltac:(discriminate)). apply (rm_leaves_frame _ _ _ _ (leaves l) []) in IHr.
      rewrite !app_nil_r in IHr.
      destruct (rm_self res1) as [r'|]; cbn [oleaves] in IHr; rewrite ?app_nil_r in IHr;
        [|intros _; exact IHr]. cbv zeta.
      pose proof (v2_balance_leaves wv (v2_node wv (match rm_key res1 with Some k' => k' | None => nk end)
                                                l r')) as B.
      destruct (v2_balance wv (v2_node wv _ l r')); [|exact I].
      cbn [vall rm_self oleaves leaves v2_node] in *. rewrite B. intros _. exact IHr.
Qed.

Definition row_of (wv : Z) (x : bytes * bytes * meta) : list (Z * logop) :=
  let '(k, v, m) := x in if ver m =? wv then [(nonce m, LSet k v)] else [].
Definition rows_of (wv : Z) (ls : list (bytes * bytes * meta)) : list (Z * logop) :=
  flat_map (row_of wv) ls.

Lemma leaf_rows_leaves wv t : leaf_rows wv t = rows_of wv (leaves t).
Proof.
  induction t as [k v m|k h s m l IHl r IHr]; cbn [leaf_rows leaves].
  - unfold rows_of. cbn [flat_map row_of]. rewrite app_nil_r. reflexivity.
  - unfold rows_of in *. rewrite flat_map_app, IHl, IHr. reflexivity.
Qed.

Lemma rows_of_app wv a b : rows_of wv (a ++ b) = rows_of wv a ++ rows_of wv b.
Proof. apply flat_map_app. Qed.
Lemma rows_of_cons wv x l : rows_of wv (x :: l) = row_of wv x ++ rows_of wv l.
Proof. reflexivity. Qed.

Lemma row_of_new wv sq k v : row_of wv (k, v, v2_meta wv sq) = [(sq, LSet k v)].
Proof. cbn [row_of v2_meta ver nonce]. rewrite Z.eqb_refl. reflexivity. Qed.
Lemma row_of_other wv k v m : ver m <> wv -> row_of wv (k, v, m) = [].
Proof. intros N. cbn [row_of]. apply Z.eqb_neq in N. rewrite N. reflexivity. Qed.

Lemma rows_of_old wv a ls : Forall (fun x => ver (snd x) <= a) ls -> a < wv -> rows_of wv ls = [].
Proof.
  intros F L. induction F as [|[[k v] m] ls Hx _ IH]; [reflexivity|]. cbn [snd] in Hx.
  rewrite rows_of_cons, IH, row_of_other by lia. reflexivity.
Qed.

(** ** Sorting rows by sequence *)
Fixpoint rsorted (l : list (Z * logop)) : Prop :=
  match l with
  | [] => True
  | x :: r => Forall (fun y => fst x < fst y) r /\ rsorted r
  end.
Fixpoint wsorted (l : list (Z * logop)) : Prop :=
  match l with
  | [] => True
  | x :: r => Forall (fun y => fst x <= fst y) r /\ wsorted r
  end.

Lemma ins_row_perm x l : Permutation (ins_row x l) (x :: l).
Proof.
  induction l as [|y l IH]; cbn [ins_row]; [reflexivity|].
  destruct (fst x <=? fst y); [reflexivity|].
  rewrite IH. apply perm_swap.
Qed.

Lemma sort_rows_perm l : Permutation (sort_rows l) l.
Proof.
  induction l as [|x l IH]; cbn [sort_rows fold_right]; [reflexivity|].
  fold (sort_rows l). rewrite ins_row_perm, IH. reflexivity.
Qed.

Lemma ins_row_wsorted x l : wsorted l -> wsorted (ins_row x l).
Proof.
  induction l as [|y l IH]; cbn [ins_row wsorted]; [auto|]. intros [F S].
  destruct (fst x <=? fst y) eqn:C.
  - apply Z.leb_le in C. cbn [wsorted]. split; [|auto]. constructor; [exact C|].
    eapply Forall_impl; [|exact F]. cbn. intros; lia.
  - apply Z.leb_gt in C. cbn [wsorted]. split; [|auto].
    eapply Permutation_Forall; [symmetry; apply ins_row_perm|]. constructor; [lia|exact F].
Qed.

Lemma sort_rows_wsorted l : wsorted (sort_rows l).
Proof.
  induction l as [|x l IH]; cbn [sort_rows fold_right]; [exact I|]. apply ins_row_wsorted, IH.
Qed.

Lemma sorted_perm_eq a : forall b, wsorted a -> rsorted b -> Permutation a b -> a = b.
Proof.
  induction a as [|x a IH]; intros b Wa Rb P.
  - apply Permutation_nil in P. auto.
  - destruct b as [|y b]; [symmetry in P; apply Permutation_nil in P; discriminate|].
    cbn [wsorted rsorted] in Wa, Rb. destruct Wa as [Fa Wa]. destruct Rb as [Fb Rb].
    assert (x = y).
    { assert (Ix : In x (y :: b)) by (eapply Permutation_in; [exact P|left; reflexivity]).
      assert (Iy : In y (x :: a))
        by (eapply Permutation_in; [symmetry; exact P|left; reflexivity]).
      destruct Ix as [->|Ix]; [reflexivity|]. destruct Iy as [->|Iy]; [reflexivity|].
      rewrite Forall_forall in Fa, Fb. specialize (Fa _ Iy). specialize (Fb _ Ix). lia. }
    subst y. f_equal. apply IH; auto. eapply Permutation_cons_inv, P.
Qed.

Lemma sort_rows_unique l l' : Permutation l l' -> rsorted l' -> sort_rows l = l'.
Proof.
  intros P R. apply sorted_perm_eq; [apply sort_rows_wsorted|exact R|].
  rewrite sort_rows_perm. exact P.
Qed.

(** ** The abstract content and normal-form histories *)
Definition op_key (o : logop) : bytes := match o with LSet k _ => k | LDel k => k end.

Definition apply_kv (m : kvs) (o : logop) : kvs :=
  match o with LSet k v => ins k v m | LDel k => del k m end.
Definition apply_kvs (m : kvs) (ops : list logop) : kvs := fold_left apply_kv ops m.

(** a version in normal form: every key touched at most once, removals only of keys that are
    present when the version starts *)
Definition nf_version (m : kvs) (ops : list logop) : Prop :=
  NoDup (map op_key ops) /\ forall k, In (LDel k) ops -> mem k m = true.

Fixpoint nf_history (m : kvs) (hist : list (list logop * bool)) : Prop :=
  match hist with
  | [] => True
  | e :: rest => nf_version m (fst e) /\ nf_history (apply_kvs m (fst e)) rest
  end.

Lemma mem_apply_other k ops : forall m, ~ In k (map op_key ops) -> mem k (apply_kvs m ops) = mem k m.
Proof.
  induction ops as [|o ops IH]; intros m NI; [reflexivity|].
  cbn [apply_kvs fold_left]. fold (apply_kvs (apply_kv m o) ops).
  cbn [map In] in NI. rewrite IH by tauto.
  unfold mem. destruct o as [k' v'|k']; cbn [apply_kv op_key] in *.
  - rewrite assoc_ins. replace (beq k k') with false; [reflexivity|].
    symmetry. apply beq_false. intro; subst; tauto.
  - rewrite assoc_del_ne; [reflexivity|]. intro; subst; tauto.
Qed.

(** ** One version: the run, its changelog, and the replay of that changelog *)
Definition del_rows (d : list (Z * bytes)) : list (Z * logop) :=
  map (fun p => (fst p, LDel (snd p))) d.

Fixpoint numbered (i : Z) (ops : list logop) : list (Z * logop) :=
  match ops with
  | [] => []
  | o :: r => (i, o) :: numbered (i + 1) r
  end.

Lemma numbered_app i a b :
  numbered i (a ++ b) = numbered i a ++ numbered (i + Z.of_nat (length a)) b.
Proof.
  revert i. induction a as [|o a IH]; intros i; cbn [app numbered length].
  - rewrite Z.add_0_r. reflexivity.
  - rewrite IH. do 3 f_equal. lia.
Qed.

Lemma numbered_In i ops j o : In (j, o) (numbered i ops) -> In o ops /\ i <= j.
Proof.
  revert i. induction ops as [|o' ops IH]; intros i; cbn [numbered In]; [tauto|].
  intros [E|I]; [injection E as -> ->; split; [auto|lia]|].
  destruct (IH _ I). split; [auto|lia].
Qed.

Lemma numbered_rsorted i ops : rsorted (numbered i ops).
Proof.
  revert i. induction ops as [|o ops IH]; intros i; cbn [numbered rsorted]; [exact I|].
  split; [|apply IH]. apply Forall_forall. intros [j o'] Hj. apply numbered_In in Hj. cbn. lia.
Qed.

Lemma last_opt_snoc {A} (l : list A) x : last_opt (l ++ [x]) = Some x.
Proof.
  induction l as [|y l IH]; [reflexivity|]. cbn [app last_opt].
  destruct (l ++ [x]) eqn:E; [destruct l; discriminate|]. exact IH.
Qed.

Lemma perm_insert {A} (a b d n : list A) x :
  Permutation (a ++ b ++ d) n -> Permutation ((a ++ x :: b) ++ d) (n ++ [x]).
Proof.
  intros P. rewrite <- app_assoc. cbn [app].
  etransitivity; [symmetry; apply Permutation_middle|].
  etransitivity; [apply perm_skip, P|]. apply Permutation_cons_append.
Qed.

Lemma veq0_leaf_ver k : forall t1 t2, veq 0 t1 t2 -> leaf_ver t1 k = leaf_ver t2 k.
Proof.
  apply veq_ind2.
  - intros lk lv m1 m2 C. cbn [leaf_ver]. rewrite !eff_ver_0 in C. rewrite C. reflexivity.
  - intros nk h s m1 m2 l1 r1 l2 r2 _ _ _ IHl IHr. cbn [leaf_ver]. rewrite IHl, IHr. reflexivity.
Qed.

Lemma leaves_deep_hash_ver H b t :
  Forall (fun x => ver (snd x) <= b) (leaves (v2_deep_hash H t)) <->
  Forall (fun x => ver (snd x) <= b) (leaves t).
Proof.
  induction t as [k v m|k h s m l IHl r IHr]; cbn [v2_deep_hash].
  - destruct (hs m); cbn [leaves]; [|reflexivity].
    split; intros F; inversion F; subst; constructor; auto.
  - destruct (hs m); cbn [leaves]; [|reflexivity]. rewrite !Forall_app, IHl, IHr. reflexivity.
Qed.

Section Version.
  Variable H : bytes -> bytes.
  Variable a : Z.                 (* the version the working tree is based on *)
  Hypothesis a_nonneg : 0 <= a.
  Variable m0 : kvs.              (* its content *)

  Let wv := a + 1.

  Let wv_nonzero : wv <> 0.
  Proof. unfold wv. lia. Qed.

  Record vinv (done : list logop) (s : v2tree) : Prop := VInv {
    vi_ver : vt_version s = a;
    vi_seq : vt_lseq s = Z.of_nat (length done);
    vi_good : good H (vt_root s);
    vi_elems : oelems (vt_root s) = apply_kvs m0 done;
    vi_below : Forall (fun x => ver (snd x) <= wv) (oleaves (vt_root s));
    vi_rows : Permutation (rows_of wv (oleaves (vt_root s)) ++ del_rows (vt_dels s))
                          (numbered 1 done)
  }.

  Lemma vinv_fresh done s k v0 m' :
    vinv done s -> In (k, v0, m') (oleaves (vt_root s)) -> ver m' = wv -> In k (map op_key done).
  Proof.
    intros V I E. pose proof (vi_rows _ _ V) as P.
    assert (I2 : In (nonce m', LSet k v0) (rows_of wv (oleaves (vt_root s)) ++ del_rows (vt_dels s))).
    { apply in_or_app. left. unfold rows_of. apply in_flat_map. exists (k, v0, m'). split; [exact I|].
      cbn [row_of]. rewrite E, Z.eqb_refl. left. reflexivity. }
    eapply Permutation_in in I2; [|exact P]. apply numbered_In in I2. destruct I2 as [I2 _].
    apply in_map_iff. exists (LSet k v0). auto.
  Qed.

  (** the replaying tree against the running tree *)
  Definition rel (s' s : v2tree) : Prop :=
    vt_version s' = vt_version s /\ vt_lseq s' = vt_lseq s /\ vt_dels s' = vt_dels s /\
    oveq 0 (vt_root s') (vt_root s) /\ good H (vt_root s').

  Lemma run_set done s k v :
    vinv done s -> ~ In k (map op_key done) ->
    exists s1 u, v2t_set s k v = Some (s1, u) /\ vinv (done ++ [LSet k v]) s1 /\
                 vt_lseq s1 = vt_lseq s + 1 /\ vt_dels s1 = vt_dels s.
  Proof.
    intros V NI. pose proof V as V0. destruct V as [Ev Es G Ee Eb Er].
    destruct (v2_root_set_good H wv wv_nonzero (vt_lseq s + 1) k v _ _ G (oveq_refl wv _))
      as (r' & E & Rv & G').
    destruct (oset_spec (vt_root s) k v (proj1 G)) as [_ E1].
    destruct (v2_root_set_leaves _ _ _ _ _ _ _ E) as (l1 & l2 & L1 & L2).
    unfold v2t_set. rewrite Ev. fold wv. rewrite E.
    assert (LB : oleaves (vt_root s) = l1 ++ l2 \/
                 exists v0 m', oleaves (vt_root s) = l1 ++ (k, v0, m') :: l2 /\ ver m' <> wv).
    { destruct (snd (oset (vt_root s) k v)); [|auto]. right. destruct L2 as (v0 & m' & L2).
      exists v0, m'. split; [exact L2|].
      intros Evr. apply NI. eapply (vinv_fresh done s k v0 m' V0); [|exact Evr].
      rewrite L2. apply in_or_app. right. left. reflexivity. }
    assert (RO : rows_of wv (oleaves (vt_root s)) = rows_of wv l1 ++ rows_of wv l2).
    { destruct LB as [->|(v0 & m' & -> & Nv)]; rewrite rows_of_app; [reflexivity|].
      rewrite rows_of_cons, row_of_other by exact Nv. reflexivity. }
    assert (SUB : forall x, In x (l1 ++ l2) -> In x (oleaves (vt_root s))).
    { intros x Ix. destruct LB as [->|(v0 & m' & -> & _)]; [exact Ix|].
      apply in_app_or in Ix. apply in_or_app. destruct Ix; [left|right; right]; assumption. }
    eexists _, _. split; [reflexivity|]. cbn [vt_lseq vt_dels]. split; [|auto].
    constructor; cbn [vt_root vt_version vt_lseq vt_dels].
    - reflexivity.
    - rewrite app_length, Nat2Z.inj_add, Es. reflexivity.
    - exact G'.
    - rewrite (oveq_elems _ _ _ Rv), E1, Ee. unfold apply_kvs. rewrite fold_left_app. reflexivity.
    - rewrite L1. apply Forall_app. rewrite Forall_forall in Eb. split.
      + apply Forall_forall. intros x Ix. apply Eb, SUB, in_or_app. auto.
      + constructor; [cbn; lia|]. apply Forall_forall. intros x Ix. apply Eb, SUB, in_or_app. auto.
    - rewrite numbered_app. cbn [numbered]. rewrite L1, rows_of_app, rows_of_cons, row_of_new.
      cbn [app]. rewrite Es.
      replace (Z.of_nat (length done) + 1) with (1 + Z.of_nat (length done)) by lia.
      apply perm_insert. rewrite app_assoc, <- RO. exact Er.
  Qed.

  Lemma run_del done s k :
    vinv done s -> ~ In k (map op_key done) -> mem k m0 = true ->
    exists s1 val, v2t_remove s k = Some (s1, Some val) /\ vinv (done ++ [LDel k]) s1 /\
                   vt_lseq s1 = vt_lseq s + 1 /\ vt_dels s1 = vt_dels s ++ [(vt_lseq s + 1, k)].
  Proof.
    intros V NI Mk. pose proof V as V0. destruct V as [Ev Es G Ee Eb Er].
    assert (Mk' : mem k (oelems (vt_root s)) = true) by (rewrite Ee, mem_apply_other; assumption).
    unfold v2t_remove. rewrite Ev. fold wv.
    destruct (vt_root s) as [n|] eqn:R; [|discriminate Mk'].
    destruct (v2_remove_good H wv wv_nonzero k n n G (veq_refl _ _)) as (res & E & (Rv & _ & Rs) & Gs).
    rewrite E. destruct G as ([W A] & _).
    pose proof (remove_spec n k W A) as Post. unfold rm_post in Post. rewrite <- Rv in Post.
    cbn [oelems oleaves] in *.
    destruct (rm_val res) as [val|] eqn:Vl.
    2:{ unfold mem in Mk'. rewrite Post in Mk'. discriminate. }
    destruct Post as (_ & Post). specialize (Gs val eq_refl).
    destruct (vall_some _ _ _ (v2_remove_leaves wv k n) E ltac:(rewrite Vl; discriminate))
      as (l1 & v0 & m' & l2 & L1 & L2 & NL).
    assert (Nv : ver m' <> wv).
    { intros Evr. apply NI. eapply (vinv_fresh done s k v0 m' V0); [|exact Evr].
      rewrite R. cbn [oleaves]. rewrite L1. apply in_or_app. right. left. reflexivity. }
    rewrite L2. replace (ver m' =? wv) with false by lia.
    eexists _, _. split; [reflexivity|]. cbn [vt_lseq vt_dels]. split; [|auto].
    assert (RO : rows_of wv (leaves n) = rows_of wv (l1 ++ l2)).
    { rewrite L1, !rows_of_app, rows_of_cons, row_of_other by exact Nv. reflexivity. }
    constructor; cbn [vt_root vt_version vt_lseq vt_dels].
    - reflexivity.
    - rewrite app_length, Nat2Z.inj_add, Es. reflexivity.
    - exact Gs.
    - unfold apply_kvs. rewrite fold_left_app. cbn [fold_left apply_kv]. fold (apply_kvs m0 done).
      rewrite <- Ee, (oveq_elems wv _ (rm_self (remove n k)) Rs).
      destruct (rm_self (remove n k)) as [t1|]; cbn [oelems]; [apply Post|].
      destruct Post as ((mm & ->) & _). cbn [elems del]. rewrite bcmp_refl. reflexivity.
    - rewrite NL. rewrite Forall_forall in Eb. apply Forall_forall. intros x Ix. apply Eb.
      rewrite L1. apply in_app_or in Ix. apply in_or_app. destruct Ix; [left|right; right]; assumption.
    - rewrite NL, <- RO. unfold del_rows. rewrite map_app. cbn [map fst snd].
      rewrite numbered_app. cbn [numbered]. rewrite app_assoc, Es.
      replace (Z.of_nat (length done) + 1) with (1 + Z.of_nat (length done)) by lia.
      apply Permutation_app_tail. exact Er.
  Qed.

  Lemma replay_set s' s k v s1 u :
    rel s' s -> vt_version s = a -> good H (vt_root s) ->
    v2t_set s k v = Some (s1, u) ->
    exists s1', replay_row s' (vt_lseq s + 1, LSet k v) = Some s1' /\ rel s1' s1.
  Proof.
    intros (Rv & Rq & Rd & Rr & G') Ev G E.
    unfold replay_row. cbn [snd fst]. unfold v2t_set in *. rewrite Rv, Rq, Rd, Ev in *. fold wv in E |- *.
    assert (Rw : oveq wv (vt_root s') (vt_root s))
      by (apply (oveq_persisted_any 0); [apply G'|apply G|exact Rr]).
    destruct (v2_root_set_good H wv wv_nonzero (vt_lseq s + 1) k v _ _ G (oveq_refl _ _))
      as (r1 & E1 & V1 & G1).
    destruct (v2_root_set_good H wv wv_nonzero (vt_lseq s + 1) k v _ _ G' Rw) as (r1' & E1' & V1' & G1').
    rewrite E1 in E. injection E as <- <-. rewrite E1'. cbn [vt_lseq]. rewrite Z.eqb_refl.
    eexists. split; [reflexivity|].
    unfold rel. cbn [vt_version vt_lseq vt_dels vt_root]. repeat (split; [reflexivity|]).
    split; [|exact G1']. apply (oveq_persisted_any wv); [apply G1'|apply G1|].
    eapply oveq_trans; [exact V1'|apply oveq_sym, V1].
  Qed.

  Lemma replay_del s' s k s1 val :
    rel s' s -> vt_version s = a -> good H (vt_root s) ->
    v2t_remove s k = Some (s1, val) -> vt_lseq s1 = vt_lseq s + 1 ->
    exists s1', replay_row s' (vt_lseq s + 1, LDel k) = Some s1' /\ rel s1' s1.
  Proof.
    intros (Rv & Rq & Rd & Rr & G') Ev G E Eq.
    unfold replay_row. cbn [snd fst]. unfold v2t_remove in *. rewrite Rv, Rq, Rd, Ev in *. fold wv in E |- *.
    destruct (vt_root s') as [n'|] eqn:R', (vt_root s) as [n|] eqn:R; cbn [oveq] in Rr; try contradiction.
    2:{ injection E as <- <-. lia. }
    assert (Rw : veq wv n' n) by (apply (veq_persisted_any 0); [apply G'|apply G|exact Rr]).
    destruct (v2_remove_good H wv wv_nonzero k n n G (veq_refl _ _)) as (res & E1 & (V2 & _ & S2) & G1).
    destruct (v2_remove_good H wv wv_nonzero k n' n G' Rw) as (res' & E' & (V1 & _ & S1) & G1').
    rewrite E1 in E. rewrite E'. rewrite V1, <- V2 in *. rewrite (veq0_leaf_ver k n' n Rr).
    destruct (rm_val res) as [vl|] eqn:Vl; [|injection E as <- <-; lia].
    specialize (G1 vl eq_refl). specialize (G1' vl eq_refl).
    destruct (match leaf_ver n k with Some lv => lv =? wv | None => false end);
      [injection E as <- <-; cbn [vt_lseq] in Eq; lia|].
    injection E as <- <-. cbn [vt_dels vt_root vt_lseq].
    rewrite last_opt_snoc. cbn [fst]. rewrite Z.eqb_refl. eexists. split; [reflexivity|].
    unfold rel. cbn [vt_version vt_lseq vt_dels vt_root]. repeat (split; [reflexivity|]).
    split; [|exact G1']. apply (oveq_persisted_any wv); [apply G1'|apply G1|].
    eapply oveq_trans; [exact S1|apply oveq_sym, S2].
  Qed.

  Lemma version_run ops : forall done s s',
    vinv done s -> rel s' s ->
    NoDup (map op_key (done ++ ops)) -> (forall k, In (LDel k) ops -> mem k m0 = true) ->
    exists sp sp',
      v2_apply_all s ops = Some sp /\ vinv (done ++ ops) sp /\
      replay_rows s' (numbered (Z.of_nat (length done) + 1) ops) = Some sp' /\ rel sp' sp.
  Proof.
    induction ops as [|o ops IH]; intros done s s' V Rl ND Pr.
    - exists s, s'. rewrite app_nil_r. cbn [v2_apply_all numbered replay_rows]. auto.
    - assert (NI : ~ In (op_key o) (map op_key done)).
      { rewrite map_app in ND. cbn [map] in ND. apply NoDup_remove_2 in ND.
        intros C. apply ND. apply in_or_app. auto. }
      assert (ND' : NoDup (map op_key ((done ++ [o]) ++ ops))) by (rewrite <- app_assoc; exact ND).
      assert (Pr' : forall k, In (LDel k) ops -> mem k m0 = true) by (intros k0 I0; apply Pr; right; exact I0).
      cbn [v2_apply_all numbered replay_rows].
      assert (Sq : Z.of_nat (length done) + 1 = vt_lseq s + 1) by (rewrite (vi_seq _ _ V); reflexivity).
      rewrite Sq.
      assert (Sq' : vt_lseq s + 1 + 1 = Z.of_nat (length (done ++ [o])) + 1).
      { rewrite app_length, Nat2Z.inj_add, (vi_seq _ _ V). cbn [length]. lia. }
      rewrite Sq'.
      destruct o as [k v|k]; cbn [op_key] in NI.
      + destruct (run_set done s k v V NI) as (s1 & u & E & V1 & Q1 & D1).
        cbn [v2_apply]. rewrite E.
        destruct (replay_set s' s k v s1 u Rl (vi_ver _ _ V) (vi_good _ _ V) E)
          as (s1' & E' & Rl1).
        rewrite E'.
        destruct (IH (done ++ [LSet k v]) s1 s1' V1 Rl1 ND' Pr') as (sp & sp' & A1 & A2 & A3 & A4).
        exists sp, sp'. rewrite <- app_assoc in A2. cbn [app] in A2. auto.
      + assert (Mk : mem k m0 = true) by (apply Pr; left; reflexivity).
        destruct (run_del done s k V NI Mk) as (s1 & val & E & V1 & Q1 & D1).
        cbn [v2_apply]. rewrite E.
        destruct (replay_del s' s k s1 (Some val) Rl (vi_ver _ _ V) (vi_good _ _ V) E Q1)
          as (s1' & E' & Rl1).
        rewrite E'.
        destruct (IH (done ++ [LDel k]) s1 s1' V1 Rl1 ND' Pr') as (sp & sp' & A1 & A2 & A3 & A4).
        exists sp, sp'. rewrite <- app_assoc in A2. cbn [app] in A2. auto.
  Qed.

  (** The version as a whole.  From a saved state [V2Tree R a 0 []] whose leaves all carry
      versions <= a: the operations succeed, the changelog SaveVersion writes is the list of
      operations numbered from 1, and replaying it (replayChangelog's per-version step) from
      any tree related to [R] succeeds and ends in a tree related to the result. *)
  Theorem version_replay R ops :
    good H R -> oelems R = m0 -> Forall (fun x => ver (snd x) <= a) (oleaves R) ->
    nf_version m0 ops ->
    exists sp,
      v2_apply_all (V2Tree R a 0 []) ops = Some sp /\
      vt_version sp = a /\ good H (vt_root sp) /\
      oelems (vt_root sp) = apply_kvs m0 ops /\
      Forall (fun x => ver (snd x) <= a + 1) (oleaves (vt_root sp)) /\
      v2_changelog sp = numbered 1 ops /\
      forall s', oveq 0 (vt_root s') R -> good H (vt_root s') ->
        exists s'', replay_version s' (a + 1, v2_changelog sp) = Some s'' /\
      oveq 0 (vt_root s'') (vt_root sp) /\ good H (vt_root s'').
  Proof.
    intros G Em Below [ND Pr].
    assert (V0 : vinv [] (V2Tree R a 0 [])).
    { constructor; cbn [vt_version vt_lseq vt_root vt_dels length]; auto.
      - eapply Forall_impl; [|exact Below]. cbn. intros. unfold wv. lia.
      - cbn [del_rows map numbered]. rewrite app_nil_r, (rows_of_old wv a _ Below) by (unfold wv; lia).
        reflexivity. }
    destruct (version_run ops [] (V2Tree R a 0 []) (V2Tree R a 0 []) V0) as (sp & sp0 & A1 & A2 & _ & _).
    { unfold rel. cbn [vt_version vt_lseq vt_dels vt_root]. repeat split; auto using oveq_refl; apply G. }
    { exact ND. } { exact Pr. }
    cbn [app] in A2. exists sp. split; [exact A1|].
    split; [apply (vi_ver _ _ A2)|]. split; [apply (vi_good _ _ A2)|].
    split; [apply (vi_elems _ _ A2)|]. split; [apply (vi_below _ _ A2)|].
    assert (CL : v2_changelog sp = numbered 1 ops).
    { unfold v2_changelog. rewrite (vi_ver _ _ A2). fold wv.
      apply sort_rows_unique; [|apply numbered_rsorted].
      replace (match vt_root sp with Some n => leaf_rows wv n | None => [] end)
        with (rows_of wv (oleaves (vt_root sp)))
        by (destruct (vt_root sp); cbn [oleaves]; [symmetry; apply leaf_rows_leaves|reflexivity]).
      exact (vi_rows _ _ A2). }
    split; [exact CL|].
    intros s' Rr G'. rewrite CL. unfold replay_version. cbn [fst snd].
    destruct (numbered 1 ops) as [|p l] eqn:En.
    - assert (ops = []) by (destruct ops; [reflexivity|discriminate En]). subst ops.
      exists s'. split; [reflexivity|]. split; [|exact G'].
      cbn [v2_apply_all] in A1. injection A1 as <-. exact Rr.
    - rewrite <- En.
      destruct (version_run ops [] (V2Tree R a 0 []) (V2Tree (vt_root s') a 0 []) V0)
        as (sp1 & sp' & B1 & _ & B3 & B4).
      { unfold rel. cbn [vt_version vt_lseq vt_dels vt_root]. repeat split; auto; apply G'. }
      { exact ND. } { exact Pr. }
      rewrite A1 in B1. injection B1 as <-. cbn [length Z.of_nat Z.add] in B3.
      replace (a + 1 - 1) with a by lia.
      exists sp'. split; [exact B3|]. destruct B4 as (_ & _ & _ & B4 & B5). auto.
  Qed.
End Version.


(** ** FindPrevious *)
Fixpoint zsorted (l : list Z) : Prop :=
  match l with
  | [] => True
  | x :: r => Forall (fun y => x < y) r /\ zsorted r
  end.

Definition is_prev (vs : list Z) (v c : Z) : Prop :=
  In c vs /\ c <= v /\ forall x, In x vs -> x <= v -> x <= c.

Lemma is_prev_unique vs v c1 c2 : is_prev vs v c1 -> is_prev vs v c2 -> c1 = c2.
Proof.
  intros (I1 & L1 & M1) (I2 & L2 & M2). pose proof (M1 _ I2 L2). pose proof (M2 _ I1 L1). lia.
Qed.

Lemma zsorted_nth l : zsorted l -> forall i j, (i < j < length l)%nat -> nth i l 0 < nth j l 0.
Proof.
  induction l as [|x l IH]; intros S i j Hij; cbn [length] in Hij; [lia|].
  cbn [zsorted] in S. destruct S as [F S].
  destruct j as [|j]; [lia|]. destruct i as [|i]; cbn [nth].
  - rewrite Forall_forall in F. apply F, nth_In. lia.
  - apply IH; [exact S|lia].
Qed.

Lemma zsorted_nth_le l : zsorted l -> forall i j, (i <= j < length l)%nat -> nth i l 0 <= nth j l 0.
Proof.
  intros S i j Hij. destruct (Nat.eq_dec i j) as [->|NE]; [lia|].
  pose proof (zsorted_nth l S i j ltac:(lia)). lia.
Qed.

Lemma zindex_nth vs i :
  0 <= i < Z.of_nat (length vs) -> zindex vs i = Some (nth (Z.to_nat i) vs 0).
Proof.
  intros Hi. unfold zindex. replace (i <? 0) with false by lia.
  apply nth_error_nth'. lia.
Qed.

Lemma fp_loop_spec fuel : forall vs v low high,
  zsorted vs -> (0 < length vs)%nat -> nth 0 vs 0 <= v ->
  0 <= low -> high < Z.of_nat (length vs) -> low <= high + 1 ->
  (forall i, 0 <= i < low -> nth (Z.to_nat i) vs 0 < v) ->
  (forall i, high < i < Z.of_nat (length vs) -> v < nth (Z.to_nat i) vs 0) ->
  (Z.to_nat (high - low + 2) <= fuel)%nat ->
  exists c, fp_loop fuel vs v low high = FPVal c /\ is_prev vs v c.
Proof.
  induction fuel as [|f IH]; intros vs v low high S Ne H0 Hl Hh Hlh Lo Hi Fu; [lia|].
  cbn [fp_loop]. destruct (low <=? high) eqn:C.
  - apply Z.leb_le in C.
    assert (M : low <= (low + high) / 2 <= high)
      by (split; [apply Z.div_le_lower_bound; lia|apply Z.div_le_upper_bound; lia]).
    set (mid := (low + high) / 2) in *.
    rewrite (zindex_nth vs mid) by lia.
    destruct (nth (Z.to_nat mid) vs 0 =? v) eqn:E1.
    + apply Z.eqb_eq in E1. exists v. split; [reflexivity|]. split; [|split; [lia|auto]].
      rewrite <- E1. apply nth_In. lia.
    + apply Z.eqb_neq in E1. destruct (nth (Z.to_nat mid) vs 0 <? v) eqn:E2.
      * apply Z.ltb_lt in E2. apply IH; auto; try lia.
        intros i Hi'. destruct (Z_lt_dec i low); [apply Lo; lia|].
        pose proof (zsorted_nth_le vs S (Z.to_nat i) (Z.to_nat mid) ltac:(lia)). lia.
      * apply Z.ltb_ge in E2. apply IH; auto; try lia.
        intros i Hi'. destruct (Z_lt_dec high i); [apply Hi; lia|].
        pose proof (zsorted_nth_le vs S (Z.to_nat mid) (Z.to_nat i) ltac:(lia)). lia.
  - apply Z.leb_gt in C.
    assert (Hge : 0 <= high).
    { destruct (Z_lt_dec high 0) as [Neg|]; [|lia].
      specialize (Hi 0 ltac:(lia)). cbn in Hi. lia. }
    rewrite (zindex_nth vs high) by lia.
    eexists. split; [reflexivity|]. split; [apply nth_In; lia|]. split.
    + specialize (Lo high ltac:(lia)). lia.
    + intros x Ix Lx. destruct (In_nth vs x 0 Ix) as (i & Hi' & <-).
      destruct (Z_lt_dec high (Z.of_nat i)) as [G|G].
      * specialize (Hi (Z.of_nat i) ltac:(lia)). rewrite Nat2Z.id in Hi. lia.
      * apply (zsorted_nth_le vs S). lia.
Qed.

Theorem find_previous_spec vs v :
  zsorted vs ->
  match vs with
  | [] => find_previous vs v = FPVal (-1)
  | v0 :: _ =>
      if v <? v0 then find_previous vs v = FPVal (-1)
      else exists c, find_previous vs v = FPVal c /\ is_prev vs v c
  end.
Proof.
  intros S. destruct vs as [|v0 vs']; [reflexivity|]. cbn [find_previous].
  destruct (v <? v0) eqn:C; [reflexivity|]. apply Z.ltb_ge in C.
  apply fp_loop_spec; auto; cbn [length nth]; try lia.
Qed.

Lemma zsorted_app_snoc l x : zsorted l -> Forall (fun y => y < x) l -> zsorted (l ++ [x]).
Proof.
  induction l as [|y l IH]; cbn [app zsorted]; [auto|]. intros [F S] Fx. inversion Fx; subst.
  split; [|auto]. apply Forall_app. split; [exact F|]. constructor; [lia|constructor].
Qed.

Lemma zsorted_filter f l : zsorted l -> zsorted (filter f l).
Proof.
  induction l as [|y l IH]; cbn [filter zsorted]; [auto|]. intros [F S].
  destruct (f y); [|auto]. cbn [zsorted]. split; [|auto].
  apply Forall_forall. intros z Hz. apply filter_In in Hz. rewrite Forall_forall in F. apply F, Hz.
Qed.

Lemma zsorted_hd_le l x : zsorted l -> In x l -> hd 0 l <= x.
Proof.
  destruct l as [|y l]; [intros _ []|]. cbn [zsorted hd In]. intros [F _] [->|I]; [lia|].
  rewrite Forall_forall in F. specialize (F _ I). lia.
Qed.

Theorem find_previous_iff vs v :
  zsorted vs ->
  exists c, find_previous vs v = FPVal c /\
            ((c = -1 /\ forall x, In x vs -> v < x) \/ is_prev vs v c).
Proof.
  intros S. pose proof (find_previous_spec vs v S) as P.
  destruct vs as [|v0 vs']; [exists (-1); split; [exact P|left; split; [reflexivity|intros x []]]|].
  destruct (v <? v0) eqn:C; [|destruct P as (c & E & P); eauto].
  exists (-1). split; [exact P|]. left. split; [reflexivity|]. intros x Ix.
  apply Z.ltb_lt in C. pose proof (zsorted_hd_le _ _ S Ix) as Hx. cbn [hd] in Hx. lia.
Qed.

Lemma find_previous_some vs v x :
  zsorted vs -> In x vs -> x <= v -> exists c, find_previous vs v = FPVal c /\ is_prev vs v c.
Proof.
  intros S I L. destruct (find_previous_iff vs v S) as (c & E & [[_ A]|P]); [|eauto].
  specialize (A x I). lia.
Qed.

Lemma find_previous_In vs v c :
  zsorted vs -> find_previous vs v = FPVal c -> c <> -1 -> is_prev vs v c.
Proof.
  intros S E N. destruct (find_previous_iff vs v S) as (c' & E' & [[-> _]|P]);
    rewrite E' in E; injection E as <-; [contradiction|exact P].
Qed.

(** ** Histories, checkpoints and LoadVersion *)
Lemma compute_hash_cong H r1 r2 :
  good H r1 -> good H r2 -> oveq 0 r1 r2 -> v2_compute_hash H r1 = v2_compute_hash H r2.
Proof.
  destruct r1 as [n1|], r2 as [n2|]; cbn [oveq]; try tauto.
  intros (_ & _ & K1) (_ & _ & K2) E. cbn [ohok v2_compute_hash] in *.
  destruct (v2_deep_hash_spec H n1 K1) as (-> & _). destruct (v2_deep_hash_spec H n2 K2) as (-> & _).
  rewrite !v2_hash_pure. apply pure_hash_ext, veq_shape_eq, E.
Qed.

Lemma replay_log_app l1 : forall s0 l2,
  replay_log s0 (l1 ++ l2) =
    match replay_log s0 l1 with Some s' => replay_log s' l2 | None => None end.
Proof.
  induction l1 as [|e l1 IH]; intros s0 l2; cbn [app replay_log]; [reflexivity|].
  destruct (replay_version s0 e); [apply IH|reflexivity].
Qed.

Definition tree_at (trees : list (option node)) (v : Z) : option node :=
  nth (Z.to_nat (v - 1)) trees None.

Definition in_seg (c v : Z) (e : Z * list (Z * logop)) : bool := (c <? fst e) && (fst e <=? v).

Lemma tree_at_app_old trees t v :
  1 <= v <= Z.of_nat (length trees) -> tree_at (trees ++ [t]) v = tree_at trees v.
Proof. intros Hv. unfold tree_at. apply app_nth1. lia. Qed.

Lemma tree_at_app_new trees t :
  tree_at (trees ++ [t]) (Z.of_nat (length trees) + 1) = t.
Proof.
  unfold tree_at. replace (Z.to_nat (Z.of_nat (length trees) + 1 - 1)) with (length trees) by lia.
  apply nth_middle.
Qed.

Lemma seg_snoc_old c v n (log : list (Z * list (Z * logop))) e :
  v <= n -> fst e = n + 1 -> filter (in_seg c v) (log ++ [e]) = filter (in_seg c v) log.
Proof.
  intros Hv He. rewrite filter_app. cbn [filter]. unfold in_seg at 2. rewrite He.
  replace (n + 1 <=? v) with false by lia.
  rewrite andb_false_r. apply app_nil_r.
Qed.

Lemma seg_snoc_new c n (log : list (Z * list (Z * logop))) e :
  c <= n -> fst e = n + 1 -> Forall (fun e => fst e <= n) log ->
  filter (in_seg c (n + 1)) (log ++ [e]) = filter (in_seg c n) log ++ [e].
Proof.
  intros Hc He F. rewrite filter_app. cbn [filter]. unfold in_seg at 2. rewrite He.
  replace (c <? n + 1) with true by lia.
  rewrite Z.leb_refl. cbn [andb]. f_equal.
  apply filter_ext_in. intros e' He'. rewrite Forall_forall in F. specialize (F _ He'). unfold in_seg.
  replace (fst e' <=? n + 1) with true by lia.
  replace (fst e' <=? n) with true by lia. reflexivity.
Qed.

Lemma seg_empty c v (log : list (Z * list (Z * logop))) :
  Forall (fun e => fst e <= c) log -> filter (in_seg c v) log = [].
Proof.
  intros F. apply filter_none. intros e Ie. rewrite Forall_forall in F. specialize (F _ Ie).
  unfold in_seg. lia.
Qed.

Lemma in_snoc_if {A} (b : bool) (l : list A) x y :
  In y (if b then l ++ [x] else l) -> In y l \/ (b = true /\ y = x).
Proof.
  destruct b; [|auto]. intros I. apply in_app_or in I. destruct I as [I|[<-|[]]]; auto.
Qed.

Section History.
  Variable H : bytes -> bytes.
  Variable interval : Z.

  Definition replay_ok (db : v2db) (trees : list (option node)) (c v : Z) : Prop :=
    forall s', oveq 0 (vt_root s') (tree_at trees c) -> good H (vt_root s') ->
      exists s'', replay_log s' (filter (in_seg c v) (db_log db)) = Some s'' /\
                  oveq 0 (vt_root s'') (tree_at trees v) /\ good H (vt_root s'').

  (** after [n] versions: [trees] are the roots the run had right after each save *)
  Record hinv (n : Z) (trees : list (option node)) (s : v2tree) (db : v2db) : Prop := HInv {
    hi_len : Z.of_nat (length trees) = n;
    hi_state : s = V2Tree (tree_at trees n) n 0 [];
    hi_good : forall v, 1 <= v <= n -> good H (tree_at trees v);
    hi_below : Forall (fun x => ver (snd x) <= n) (oleaves (vt_root s));
    hi_sorted : zsorted (db_ckpts db);
    hi_range : forall c, In c (db_ckpts db) -> 1 <= c <= n;
    hi_first : 1 <= n -> In 1 (db_ckpts db);
    hi_roots : forall c, In c (db_ckpts db) -> lookup c (db_roots db) = Some (tree_at trees c);
    hi_roots_range : Forall (fun p => fst p <= n) (db_roots db);
    hi_hashes : forall v, 1 <= v <= n ->
                  lookup v (db_hashes db) = Some (v2_compute_hash H (tree_at trees v));
    hi_hashes_range : Forall (fun p => fst p <= n) (db_hashes db);
    hi_log : Forall (fun e => fst e <= n) (db_log db);
    hi_replay : forall c v, In c (db_ckpts db) -> c <= v <= n -> replay_ok db trees c v
  }.

  Lemma hinv_empty : hinv 0 [] v2t_empty db_empty.
  Proof.
    constructor; cbn; auto; try lia; intros; try lia; try contradiction.
  Qed.

  Lemma hinv_root_good n trees s db : hinv n trees s db -> good H (vt_root s).
  Proof.
    intros I. rewrite (hi_state _ _ _ _ I). cbn [vt_root]. destruct (Z.eq_dec n 0) as [->|N].
    - pose proof (hi_len _ _ _ _ I) as L. destruct trees; [apply good_None|discriminate L].
    - apply (hi_good _ _ _ _ I). pose proof (hi_len _ _ _ _ I). lia.
  Qed.

  Lemma hinv_step n trees s db ops want :
    hinv n trees s db -> nf_version (oelems (vt_root s)) ops ->
    exists s1 db1 t,
      v2_version H interval (s, db) (ops, want) = Some (s1, db1) /\
      hinv (n + 1) (trees ++ [t]) s1 db1 /\
      vt_root s1 = t /\ oelems t = apply_kvs (oelems (vt_root s)) ops.
  Proof.
    intros I NF. pose proof (hinv_root_good _ _ _ _ I) as G.
    destruct I as [Hlen Hstate Hgood Hbelow Hsorted Hrange Hfirst Hroots Hroots_range Hhashes Hhashes_range
                     Hlog Hreplay].
    assert (Hn : 0 <= n) by lia.
    assert (St : s = V2Tree (vt_root s) n 0 []) by (rewrite Hstate; reflexivity).
    assert (ER : vt_root s = tree_at trees n) by (rewrite Hstate; reflexivity).
    destruct (version_replay H n Hn (oelems (vt_root s)) (vt_root s) ops G eq_refl
                Hbelow NF) as (sp & A1 & A2 & A3 & A4 & A5 & A6 & A7).
    rewrite <- St in A1.
    destruct (good_odeep H _ A3) as [G1 V1]. set (R1 := odeep H (vt_root sp)) in *.
    set (ck := v2_should_checkpoint interval want (db_ckpts db) (n + 1)).
    exists (V2Tree R1 (n + 1) 0 []),
           (V2Db (if ck then db_ckpts db ++ [n + 1] else db_ckpts db)
                 (if ck then db_roots db ++ [(n + 1, R1)] else db_roots db)
                 (db_hashes db ++ [(n + 1, v2_compute_hash H (vt_root sp))])
                 (db_log db ++ [(n + 1, v2_changelog sp)])), R1.
    split.
    { unfold v2_version. cbn [fst snd]. rewrite A1. unfold v2_commit, v2t_save. cbn [fst snd].
      rewrite A2. reflexivity. }
    assert (TA_old : forall v, 1 <= v <= n -> tree_at (trees ++ [R1]) v = tree_at trees v)
      by (intros v Hv; apply tree_at_app_old; lia).
    assert (TA_new : tree_at (trees ++ [R1]) (n + 1) = R1) by (rewrite <- Hlen; apply tree_at_app_new).
    assert (RP_old : forall c v, In c (db_ckpts db) -> c <= v <= n + 1 ->
              replay_ok (V2Db [] [] [] (db_log db ++ [(n + 1, v2_changelog sp)])) (trees ++ [R1]) c v).
    { intros c v Ic Hcv s' Rs' Gs'. pose proof (Hrange c Ic) as Rg. cbn [db_log].
      rewrite TA_old in Rs' by lia.
      destruct (Z_le_gt_dec v n) as [Le|Gt].
      - rewrite (seg_snoc_old c v n), TA_old by (reflexivity || lia).
        apply (Hreplay c v Ic ltac:(lia) s' Rs' Gs').
      - assert (v = n + 1) by lia. subst v.
        rewrite (seg_snoc_new c n), TA_new by (reflexivity || lia || apply Hlog).
        destruct (Hreplay c n Ic ltac:(lia) s' Rs' Gs') as (s2 & E2 & V2 & G2).
        rewrite replay_log_app, E2. cbn [replay_log]. rewrite <- ER in V2.
        destruct (A7 s2 V2 G2) as (s3 & E3 & V3 & G3). rewrite E3.
        exists s3. split; [reflexivity|]. split; [|exact G3].
        eapply oveq_trans; [exact V3|apply oveq_sym, V1]. }
    split; [|split; [reflexivity|]].
    constructor; cbn [db_ckpts db_roots db_hashes db_log vt_root].
    - rewrite app_length, Nat2Z.inj_add. cbn [length]. lia.
    - rewrite TA_new. reflexivity.
    - intros v Hv. destruct (Z_le_gt_dec v n).
      + rewrite TA_old by lia. apply Hgood. lia.
      + replace v with (n + 1) by lia. rewrite TA_new. exact G1.
    - unfold R1. destruct (vt_root sp) as [n0|]; cbn [odeep oleaves] in *; [|constructor].
      apply leaves_deep_hash_ver. exact A5.
    - destruct ck; [|apply Hsorted].
      apply zsorted_app_snoc; [apply Hsorted|].
      apply Forall_forall. intros c Ic. pose proof (Hrange c Ic). lia.
    - intros c Ic. destruct (in_snoc_if _ _ _ _ Ic) as [Ic'|[_ ->]]; [|lia].
      pose proof (Hrange c Ic'). lia.
    - intros _. destruct (Z.eq_dec n 0) as [E0|N0].
      + unfold ck, v2_should_checkpoint. rewrite E0. cbn [Z.add Z.eqb]. rewrite orb_true_r. cbn [orb].
        apply in_or_app. right. left. reflexivity.
      + assert (I1 : In 1 (db_ckpts db)) by (apply Hfirst; lia).
        destruct ck; [apply in_or_app; left|]; exact I1.
    - intros c Ic. destruct (in_snoc_if _ _ _ _ Ic) as [Ic'|[Eck ->]].
      + pose proof (Hrange c Ic'). rewrite TA_old by lia.
        destruct ck; [rewrite lookup_app|]; rewrite (Hroots c Ic'); reflexivity.
      + rewrite Eck, lookup_snoc, Z.eqb_refl, TA_new; [reflexivity|].
        apply (lookup_above _ n); [apply Hroots_range|lia].
    - destruct ck; [apply Forall_snoc_le; [apply Hroots_range|cbn; lia]|].
      eapply Forall_impl; [|apply Hroots_range]. cbn. intros; lia.
    - intros v Hv. destruct (Z_le_gt_dec v n).
      + rewrite TA_old, lookup_app, Hhashes by lia. reflexivity.
      + replace v with (n + 1) by lia.
        rewrite lookup_snoc, Z.eqb_refl, TA_new;
          [|apply (lookup_above _ n); [apply Hhashes_range|lia]].
        f_equal. apply compute_hash_cong; [exact A3|exact G1|apply oveq_sym, V1].
    - apply Forall_snoc_le; [apply Hhashes_range|cbn; lia].
    - apply Forall_snoc_le; [apply Hlog|cbn; lia].
    - intros c v Ic Hcv. destruct (in_snoc_if _ _ _ _ Ic) as [Ic'|[_ ->]]; [apply RP_old; assumption|].
      assert (v = n + 1) by lia. subst v. intros s' Rs' Gs'. cbn [db_log].
      rewrite seg_empty by (apply Forall_snoc_le; [apply Hlog|cbn; lia]).
      exists s'. split; [reflexivity|]. auto.
    - rewrite <- A4. apply (oveq_elems _ _ _ V1).
  Qed.

  (** a whole history in normal form preserves the invariant; the tree recorded for version
      [n + i] is the root the run has after the first [i] versions of the history *)
  Lemma hinv_history hist : forall n trees s db,
    hinv n trees s db -> nf_history (oelems (vt_root s)) hist ->
    exists s1 db1 ts,
      v2_history H interval (s, db) hist = Some (s1, db1) /\
      hinv (n + Z.of_nat (length hist)) (trees ++ ts) s1 db1 /\
      forall i, (1 <= i <= length hist)%nat ->
        exists si dbi, v2_history H interval (s, db) (firstn i hist) = Some (si, dbi) /\
                       vt_version si = n + Z.of_nat i /\
                       vt_root si = tree_at (trees ++ ts) (n + Z.of_nat i).
  Proof.
    induction hist as [|[ops want] hist IH]; intros n trees s db I NF.
    - exists s, db, []. cbn [v2_history length]. rewrite app_nil_r, Z.add_0_r.
      split; [reflexivity|]. split; [exact I|]. intros i Hi. lia.
    - cbn [nf_history fst] in NF. destruct NF as [NF1 NF2].
      destruct (hinv_step n trees s db ops want I NF1) as (s1 & db1 & t & E1 & I1 & R1 & C1).
      rewrite <- C1, <- R1 in NF2.
      destruct (IH (n + 1) (trees ++ [t]) s1 db1 I1 NF2) as (s2 & db2 & ts & E2 & I2 & P2).
      rewrite <- app_assoc in I2, P2. cbn [app] in I2, P2.
      exists s2, db2, (t :: ts). cbn [v2_history length]. rewrite E1.
      split; [exact E2|]. split.
      + replace (n + Z.of_nat (S (length hist))) with (n + 1 + Z.of_nat (length hist)) by lia. exact I2.
      + intros [|i] Hi; [lia|]. cbn [firstn v2_history]. rewrite E1.
        replace (n + Z.of_nat (S i)) with (n + 1 + Z.of_nat i) by lia.
        destruct i as [|i]; [|apply P2; lia].
        exists s1, db1. split; [reflexivity|].
        rewrite Z.add_0_r, (hi_state _ _ _ _ I1). cbn [vt_version vt_root]. split; [reflexivity|].
        pose proof (hi_len _ _ _ _ I) as L0. pose proof (hi_len _ _ _ _ I1) as L1. unfold tree_at.
        replace (trees ++ t :: ts) with ((trees ++ [t]) ++ ts) by (rewrite <- app_assoc; reflexivity).
        symmetry. apply app_nth1. lia.
  Qed.

  Lemma hinv_load n trees s db v :
    hinv n trees s db -> 1 <= v <= n ->
    exists s', v2_load H db v = Some s' /\
      vt_version s' = v /\ vt_lseq s' = 0 /\ vt_dels s' = [] /\
      oveq 0 (vt_root s') (tree_at trees v) /\ good H (vt_root s') /\
      v2_compute_hash H (vt_root s') = v2_compute_hash H (tree_at trees v).
  Proof.
    intros I Hv.
    destruct (find_previous_some (db_ckpts db) v 1 (hi_sorted _ _ _ _ I) (hi_first _ _ _ _ I ltac:(lia))
                ltac:(lia)) as (c & Ec & Ic & Lc & Mc).
    unfold v2_load. rewrite Ec, (hi_roots _ _ _ _ I c Ic).
    pose proof (hi_range _ _ _ _ I c Ic) as Rg.
    destruct (c <? v) eqn:C.
    - apply Z.ltb_lt in C. rewrite (hi_hashes _ _ _ _ I v Hv).
      destruct (hi_replay _ _ _ _ I c v Ic ltac:(lia) (V2Tree (tree_at trees c) c 0 []))
        as (s2 & E2 & V2 & G2).
      { cbn [vt_root]. apply oveq_refl. }
      { cbn [vt_root]. apply (hi_good _ _ _ _ I). lia. }
      unfold in_seg in E2. rewrite E2.
      pose proof (compute_hash_cong H _ _ G2 (hi_good _ _ _ _ I v Hv) V2) as EH.
      destruct (list_eq_dec N.eq_dec (v2_compute_hash H (tree_at trees v)) (v2_compute_hash H (vt_root s2)))
        as [_|NE]; [|congruence].
      eexists. split; [reflexivity|]. unfold v2t_save. cbn [fst vt_root vt_version vt_lseq vt_dels].
      destruct (good_odeep H _ G2) as [G3 V3]. unfold odeep in G3, V3.
      split; [lia|]. split; [reflexivity|]. split; [reflexivity|].
      split; [eapply oveq_trans; [exact V3|exact V2]|]. split; [exact G3|].
      apply compute_hash_cong; [exact G3|apply (hi_good _ _ _ _ I v Hv)|].
      eapply oveq_trans; [exact V3|exact V2].
    - apply Z.ltb_ge in C. assert (c = v) by lia. subst c.
      eexists. split; [reflexivity|]. cbn [vt_root vt_version vt_lseq vt_dels].
      repeat split; auto using oveq_refl; apply (hi_good _ _ _ _ I v Hv).
  Qed.
End History.

(** [replay_deterministic].  For every history in normal form, every checkpoint interval and
    every pattern of externally requested checkpoints: the run succeeds, and LoadVersion of
    ANY version [v] of the resulting database succeeds (sequence checks and root-hash check
    pass) and returns the tree the uninterrupted run had right after saving [v]: same keys,
    values, heights, sizes and node versions ([oveq 0]), hence the same root hash. *)
Theorem replay_deterministic (H : bytes -> bytes) (interval : Z) (hist : list (list logop * bool)) :
  nf_history [] hist ->
  exists s db,
    v2_history H interval (v2t_empty, db_empty) hist = Some (s, db) /\
    forall v, 1 <= v <= Z.of_nat (length hist) ->
      exists sv dbv s',
        v2_history H interval (v2t_empty, db_empty) (firstn (Z.to_nat v) hist) = Some (sv, dbv) /\
        v2_load H db v = Some s' /\
        vt_version s' = v /\ vt_version sv = v /\ vt_lseq s' = 0 /\ vt_dels s' = [] /\
        oveq 0 (vt_root s') (vt_root sv) /\
        oelems (vt_root s') = oelems (vt_root sv) /\
        v2_compute_hash H (vt_root s') = v2_compute_hash H (vt_root sv) /\
        good H (vt_root s').
Proof.
  intros NF.
  destruct (hinv_history H interval hist 0 [] v2t_empty db_empty (hinv_empty H) NF)
    as (s & db & ts & E & I & P).
  exists s, db. split; [exact E|]. intros v Hv. cbn [Z.add app] in I, P.
  destruct (P (Z.to_nat v) ltac:(lia)) as (sv & dbv & Ev & Vv & Rv). rewrite Z2Nat.id in Vv, Rv by lia.
  destruct (hinv_load H _ _ _ _ v I Hv) as (s' & El & A1 & A2 & A3 & A4 & A5 & A6).
  rewrite <- Rv in A4, A6.
  exists sv, dbv, s'. repeat (split; [assumption|]).
  split; [apply (oveq_elems _ _ _ A4)|]. split; assumption.
Qed.

(** ** Continuing from a loaded tree gives the same future *)
Lemma veq0_leaf_vers : forall t1 t2,
  veq 0 t1 t2 -> map (fun x => ver (snd x)) (leaves t1) = map (fun x => ver (snd x)) (leaves t2).
Proof.
  apply veq_ind2.
  - intros k v m1 m2 C. rewrite !eff_ver_0 in C. cbn [leaves map snd]. rewrite C. reflexivity.
  - intros k h s m1 m2 l1 r1 l2 r2 _ _ _ IHl IHr. cbn [leaves]. rewrite !map_app, IHl, IHr. reflexivity.
Qed.

Lemma oveq0_below a r1 r2 :
  oveq 0 r1 r2 -> Forall (fun x => ver (snd x) <= a) (oleaves r2) ->
  Forall (fun x => ver (snd x) <= a) (oleaves r1).
Proof.
  destruct r1 as [t1|], r2 as [t2|]; cbn [oveq oleaves]; try tauto.
  intros E F. apply veq0_leaf_vers in E.
  assert (F2 : Forall (fun z => z <= a) (map (fun x => ver (snd x)) (leaves t2)))
    by (rewrite Forall_map; exact F).
  rewrite <- E, Forall_map in F2. exact F2.
Qed.

(** the same version executed on the original tree and on a related (reloaded) tree: same
    changelog, same root hash, related results *)
Theorem continue_version (H : bytes -> bytes) (a : Z) (R R' : option node) (ops : list logop) :
  0 <= a -> good H R -> good H R' -> oveq 0 R' R ->
  Forall (fun x => ver (snd x) <= a) (oleaves R) -> nf_version (oelems R) ops ->
  exists sp sp',
    v2_apply_all (V2Tree R a 0 []) ops = Some sp /\
    v2_apply_all (V2Tree R' a 0 []) ops = Some sp' /\
    oveq 0 (vt_root sp') (vt_root sp) /\ good H (vt_root sp) /\ good H (vt_root sp') /\
    v2_changelog sp' = v2_changelog sp /\
    v2_compute_hash H (vt_root sp') = v2_compute_hash H (vt_root sp).
Proof.
  intros Ha G G' V B NF.
  assert (Ee : oelems R' = oelems R).
  { destruct R' as [t'|], R as [t|]; cbn [oveq oelems] in *; try contradiction; [|reflexivity].
    apply (veq_elems _ _ _ V). }
  destruct (version_replay H a Ha (oelems R) R ops G eq_refl B NF)
    as (sp & A1 & A2 & A3 & A4 & A5 & A6 & A7).
  rewrite <- Ee in NF.
  destruct (version_replay H a Ha (oelems R') R' ops G' eq_refl (oveq0_below a R' R V B) NF)
    as (sp' & B1 & B2 & B3 & B4 & B5 & B6 & B7).
  exists sp, sp'. split; [exact A1|]. split; [exact B1|].
  destruct (A7 (V2Tree R' a 0 []) V G') as (s1 & E1 & V1 & G1).
  destruct (B7 (V2Tree R' a 0 []) (oveq_refl 0 R') G') as (s2 & E2 & V2 & G2).
  rewrite A6 in E1. rewrite B6 in E2. rewrite E1 in E2. injection E2 as <-.
  assert (VV : oveq 0 (vt_root sp') (vt_root sp))
    by (eapply oveq_trans; [apply oveq_sym, V2|exact V1]).
  split; [exact VV|]. split; [exact A3|]. split; [exact B3|].
  split; [rewrite A6, B6; reflexivity|]. apply compute_hash_cong; assumption.
Qed.

(** ** Pruning *)
Lemma is_prev_filter vs v c x :
  is_prev vs v x -> c <= x -> is_prev (filter (fun y => c <=? y) vs) v x.
Proof.
  intros (I & L & M) Hc. split; [|split; [exact L|]].
  - apply filter_In. split; [exact I|]. apply Z.leb_le, Hc.
  - intros y Iy Ly. apply filter_In in Iy. apply M; tauto.
Qed.

(** After DeleteVersionsTo(n), with [c] the last checkpoint at or before [n]: every version
    >= c loads exactly as before (everything below [c] is gone). *)
Theorem prune_keeps (H : bytes -> bytes) (db : v2db) (n c v : Z) :
  zsorted (db_ckpts db) ->
  find_previous (db_ckpts db) n = FPVal c -> c <> -1 -> In c (db_ckpts db) -> c <= v ->
  v2_load H (v2_prune db n) v = v2_load H db v.
Proof.
  intros S Ec Nc Ic Hv. unfold v2_prune. rewrite Ec.
  replace (c =? -1) with false by lia.
  destruct (find_previous_some (db_ckpts db) v c S Ic Hv) as (x & Ex & Px).
  assert (Hcx : c <= x) by (destruct Px as (_ & _ & M); apply M; [exact Ic|exact Hv]).
  assert (Px' : is_prev (filter (fun y => c <=? y) (db_ckpts db)) v x)
    by (apply is_prev_filter; assumption).
  destruct (find_previous_some (filter (fun y => c <=? y) (db_ckpts db)) v c) as (x' & Ex' & Px'').
  { apply zsorted_filter, S. }
  { apply filter_In. split; [exact Ic|apply Z.leb_le; lia]. }
  { exact Hv. }
  assert (x' = x) by (eapply is_prev_unique; eassumption). subst x'.
  unfold v2_load. cbn [db_ckpts db_roots db_hashes db_log]. rewrite Ex, Ex'.
  rewrite (lookup_filter (fun y => c <=? y) x (db_roots db)).
  replace (c <=? x) with true by lia.
  destruct (lookup x (db_roots db)) as [r|]; [|reflexivity].
  destruct (x <? v) eqn:C; [|reflexivity].
  rewrite (lookup_filter (fun y => c <=? y) v (db_hashes db)).
  replace (c <=? v) with true by lia.
  destruct (lookup v (db_hashes db)) as [target|]; [|reflexivity].
  rewrite filter_filter_imp; [reflexivity|].
  intros e _ He. apply andb_prop in He. destruct He as [He _]. apply Z.ltb_lt in He.
  apply Z.leb_le. lia.
Qed.

Theorem prune_removes (db : v2db) (n c : Z) :
  find_previous (db_ckpts db) n = FPVal c -> c <> -1 ->
  Forall (fun x => c <= x) (db_ckpts (v2_prune db n)) /\
  Forall (fun p => c <= fst p) (db_roots (v2_prune db n)) /\
  Forall (fun p => c <= fst p) (db_hashes (v2_prune db n)) /\
  Forall (fun p => c <= fst p) (db_log (v2_prune db n)).
Proof.
  intros Ec Nc. unfold v2_prune. rewrite Ec.
  replace (c =? -1) with false by lia.
  cbn [db_ckpts db_roots db_hashes db_log].
  repeat split; apply Forall_forall; intros x Hx; apply filter_In in Hx; destruct Hx as [_ Hx];
    apply Z.leb_le, Hx.
Qed.

(** ** Snapshots *)

(** cached heights and sizes consistent enough for the readers: a branch is higher than both
    children (hence not mistaken for a leaf) and stores the sum of the sizes *)
Fixpoint hproper (t : node) : Prop :=
  match t with
  | Leaf _ _ _ => True
  | Inner _ h s _ l r =>
      0 <= height l < h /\ 0 <= height r < h /\ s = size l + size r /\ hproper l /\ hproper r
  end.

Lemma wf_hproper t : wf t -> hproper t.
Proof.
  induction t as [|k h s m l IHl r IHr]; cbn [wf hproper]; [auto|].
  intros (Wl & Wr & _ & _ & _ & Hh & Hs).
  pose proof (height_nonneg _ Wl). pose proof (height_nonneg _ Wr).
  repeat split; auto; lia.
Qed.

Section Snapshot.
  Variable H : bytes -> bytes.

  Fixpoint v2_full (t : node) : Prop :=
    hs (nmeta t) = v2_hash H t /\
    match t with
    | Leaf _ _ _ => True
    | Inner _ _ _ _ l r => v2_full l /\ v2_full r
    end.

  Lemma v2_full_root t : v2_full t -> hs (nmeta t) = v2_hash H t.
  Proof. destruct t; intros F; apply F. Qed.

  Lemma rehash_full t : v2_full t -> rehash H t = t.
  Proof.
    induction t as [k v m|k h s m l IHl r IHr]; cbn [v2_full rehash]; [auto|].
    intros (E & Fl & Fr). rewrite (IHl Fl), (IHr Fr).
    cbn [nmeta v2_hash] in E. rewrite (v2_full_root l Fl), (v2_full_root r Fr), <- E.
    destruct m; reflexivity.
  Qed.

  Lemma import_finish_full t rest : v2_full t -> import_finish H (Some (t, rest)) = Some t.
  Proof.
    intros F. unfold import_finish. rewrite (rehash_full t F).
    destruct (list_eq_dec N.eq_dec (hs (nmeta t)) (hs (nmeta t))); [reflexivity|congruence].
  Qed.

  Lemma leaf_of_row_of k v m : leaf_of_row (srow_of (Leaf k v m)) = Leaf k v m.
  Proof. unfold leaf_of_row. cbn. destruct m; reflexivity. Qed.
  Lemma inner_of_row_of k h s m l r l' r' :
    inner_of_row (srow_of (Inner k h s m l r)) l' r' = Inner k h s m l' r'.
  Proof. unfold inner_of_row. cbn. destruct m; reflexivity. Qed.

  Lemma snapshot_pre_length t : length (snapshot_pre t) = v2_nodes t.
  Proof.
    induction t as [|k h s m l IHl r IHr]; cbn [snapshot_pre v2_nodes length]; [reflexivity|].
    rewrite app_length, IHl, IHr. reflexivity.
  Qed.
  Lemma snapshot_post_length t : length (snapshot_post t) = v2_nodes t.
  Proof.
    induction t as [|k h s m l IHl r IHr]; cbn [snapshot_post v2_nodes length]; [reflexivity|].
    rewrite !app_length, IHl, IHr. cbn [length]. lia.
  Qed.

  Lemma import_pre_step_spec t : forall fuel rest,
    hproper t -> (v2_nodes t <= fuel)%nat ->
    import_pre_step fuel (snapshot_pre t ++ rest) = Some (t, rest).
  Proof.
    induction t as [k v m|k h s m l IHl r IHr]; intros fuel rest P F;
      (destruct fuel as [|f]; [cbn [v2_nodes] in F; lia|]).
    - cbn [snapshot_pre app import_pre_step srow_of sr_height Z.eqb].
      change (SRow (ver m) (nonce m) 0 1 k (hs m) v) with (srow_of (Leaf k v m)).
      rewrite leaf_of_row_of. reflexivity.
    - cbn [hproper] in P. destruct P as (Hl & Hr & Hs & Pl & Pr).
      cbn [v2_nodes] in F.
      cbn [snapshot_pre app import_pre_step]. cbn [srow_of sr_height].
      replace (h =? 0) with false by lia.
      rewrite <- app_assoc, (IHl f _ Pl ltac:(lia)), (IHr f _ Pr ltac:(lia)).
      change (SRow (ver m) (nonce m) h s k (hs m) []) with (srow_of (Inner k h s m l r)).
      rewrite inner_of_row_of. reflexivity.
  Qed.

  Lemma import_post_step_spec t : forall fuel rest,
    hproper t -> (v2_nodes t <= fuel)%nat ->
    import_post_step fuel (rev (snapshot_post t) ++ rest) = Some (t, rest).
  Proof.
    induction t as [k v m|k h s m l IHl r IHr]; intros fuel rest P F;
      (destruct fuel as [|f]; [cbn [v2_nodes] in F; lia|]).
    - cbn [snapshot_post rev app import_post_step srow_of sr_height Z.eqb].
      change (SRow (ver m) (nonce m) 0 1 k (hs m) v) with (srow_of (Leaf k v m)).
      rewrite leaf_of_row_of. reflexivity.
    - cbn [hproper] in P. destruct P as (Hl & Hr & Hs & Pl & Pr).
      cbn [v2_nodes] in F.
      cbn [snapshot_post]. rewrite !rev_app_distr. cbn [rev app].
      cbn [import_post_step]. cbn [srow_of sr_height].
      replace (h =? 0) with false by lia.
      rewrite <- app_assoc, (IHr f _ Pr ltac:(lia)), (IHl f _ Pl ltac:(lia)).
      change (SRow (ver m) (nonce m) h s k (hs m) []) with (srow_of (Inner k h s m l r)).
      rewrite inner_of_row_of. reflexivity.
  Qed.

  (** A snapshot written in pre-order imports to exactly the tree that was written (node
      keys, heights, sizes, keys, values and hashes), and the root-hash check passes. *)
  Theorem snapshot_roundtrip_pre t :
    hproper t -> v2_full t -> import_pre H (snapshot_pre t) = Some t.
  Proof.
    intros P F. unfold import_pre.
    rewrite <- (app_nil_r (snapshot_pre t)) at 2.
    rewrite import_pre_step_spec; [apply import_finish_full, F|exact P|].
    rewrite snapshot_pre_length. lia.
  Qed.

  Theorem snapshot_roundtrip_post t :
    hproper t -> v2_full t -> import_post H (snapshot_post t) = Some t.
  Proof.
    intros P F. unfold import_post.
    rewrite <- (app_nil_r (rev (snapshot_post t))).
    rewrite import_post_step_spec; [apply import_finish_full, F|exact P|].
    rewrite snapshot_post_length. lia.
  Qed.

  (** the nodes WriteSnapshot rebuilds: node key (version, ordinal), size and hash recomputed *)
  Lemma restored_leaf k v m ord :
    let t' := Leaf k v (Meta (ver m) ord (H (leaf_preimage H (ver m) k v))) in
    veq 0 t' (Leaf k v m) /\ v2_full t' /\ hproper t'.
  Proof. cbn [veq v2_full nmeta hs v2_hash ver hproper]. unfold eff_ver. cbn [ver]. auto. Qed.

  Lemma restored_inner k h s m l r l' r' ord :
    hproper (Inner k h s m l r) -> veq 0 l' l -> veq 0 r' r ->
    v2_full l' -> v2_full r' -> hproper l' -> hproper r' ->
    let s' := size l' + size r' in
    let t' := Inner k h s' (Meta (ver m) ord
                (H (inner_preimage h s' (ver m) (hs (nmeta l')) (hs (nmeta r'))))) l' r' in
    veq 0 t' (Inner k h s m l r) /\ v2_full t' /\ hproper t'.
  Proof.
    cbn [hproper]. intros (Hl & Hr & Hs & _) Vl Vr Fl Fr Pl Pr.
    cbn [veq v2_full nmeta hs v2_hash ver hproper]. unfold eff_ver. cbn [ver].
    rewrite (veq_size _ _ _ Vl), (veq_size _ _ _ Vr), (veq_height _ _ _ Vl), (veq_height _ _ _ Vr),
            (v2_full_root _ Fl), (v2_full_root _ Fr).
    repeat split; auto; lia.
  Qed.

  (** WriteSnapshot(PostOrder) from an export stream rebuilds a related, fully hashed tree *)
  Lemma restore_post_spec t : forall ord stack rest,
    hproper t ->
    exists t', restore_post_loop H ord stack (export_post t ++ rest) =
                 restore_post_loop H (ord + Z.of_nat (v2_nodes t)) (t' :: stack) rest /\
               veq 0 t' t /\ v2_full t' /\ hproper t'.
  Proof.
    induction t as [k v m|k h s m l IHl r IHr]; intros ord stack rest P.
    - cbn [export_post app restore_post_loop sn_height Z.eqb sn_key sn_val sn_ver v2_nodes].
      eexists. split; [reflexivity|]. apply restored_leaf.
    - pose proof P as (Hl & Hr & Hs & Pl & Pr).
      cbn [export_post]. rewrite <- !app_assoc.
      destruct (IHl ord stack (export_post r ++ [SNode k [] (ver m) h] ++ rest) Pl)
        as (l' & El & Vl & Fl & Pl').
      rewrite El.
      destruct (IHr (ord + Z.of_nat (v2_nodes l)) (l' :: stack) ([SNode k [] (ver m) h] ++ rest) Pr)
        as (r' & Er & Vr & Fr & Pr').
      rewrite Er. cbn [app restore_post_loop sn_height sn_key sn_val sn_ver].
      replace (h =? 0) with false by lia.
      rewrite (veq_height _ _ _ Vl), (veq_height _ _ _ Vr).
      replace (height r <? h) with true by lia.
      replace (height l <? h) with true by lia.
      cbn [andb]. eexists. split; [f_equal; cbn [v2_nodes]; lia|].
      apply (restored_inner k h s m l r); assumption.
  Qed.

  Theorem restore_post_roundtrip t :
    hproper t ->
    exists t', restore_post H (export_post t) = Some t' /\
               veq 0 t' t /\ v2_hash H t' = v2_hash H t /\ v2_full t' /\
               import_post H (snapshot_post t') = Some t'.
  Proof.
    intros P. unfold restore_post.
    destruct (restore_post_spec t 0 [] [] P) as (t' & E & V & F & P').
    rewrite app_nil_r in E. rewrite E. cbn [restore_post_loop].
    exists t'. split; [reflexivity|]. split; [exact V|]. split.
    - rewrite !v2_hash_pure. apply pure_hash_ext, veq_shape_eq, V.
    - split; [exact F|]. apply snapshot_roundtrip_post; assumption.
  Qed.

  (** WriteSnapshot(PreOrder) *)
  Lemma restore_pre_spec t : forall fuel ord rest,
    hproper t -> (v2_nodes t <= fuel)%nat ->
    exists t' ord', restore_pre_step H fuel ord (export_pre t ++ rest) = Some (t', ord', rest) /\
                    veq 0 t' t /\ v2_full t' /\ hproper t'.
  Proof.
    induction t as [k v m|k h s m l IHl r IHr]; intros fuel ord rest P F;
      (destruct fuel as [|f]; [cbn [v2_nodes] in F; lia|]).
    - cbn [export_pre app restore_pre_step sn_height Z.eqb sn_key sn_val sn_ver].
      eexists _, _. split; [reflexivity|]. apply restored_leaf.
    - pose proof P as (Hl & Hr & Hs & Pl & Pr). cbn [v2_nodes] in F.
      cbn [export_pre app restore_pre_step sn_height sn_key sn_val sn_ver].
      replace (h =? 0) with false by lia.
      rewrite <- app_assoc.
      destruct (IHl f (ord + 1) (export_pre r ++ rest) Pl ltac:(lia)) as (l' & o1 & El & Vl & Fl & Pl').
      rewrite El.
      destruct (IHr f o1 rest Pr ltac:(lia)) as (r' & o2 & Er & Vr & Fr & Pr').
      rewrite Er. eexists _, _. split; [reflexivity|].
      apply (restored_inner k h s m l r); assumption.
  Qed.

  Lemma export_pre_length t : length (export_pre t) = v2_nodes t.
  Proof.
    induction t as [|k h s m l IHl r IHr]; cbn [export_pre v2_nodes length]; [reflexivity|].
    rewrite app_length, IHl, IHr. reflexivity.
  Qed.

  Theorem restore_pre_roundtrip t :
    hproper t ->
    exists t', restore_pre H (export_pre t) = Some t' /\
               veq 0 t' t /\ v2_hash H t' = v2_hash H t /\ v2_full t' /\
               import_pre H (snapshot_pre t') = Some t'.
  Proof.
    intros P. unfold restore_pre.
    destruct (restore_pre_spec t (S (length (export_pre t))) 0 [] P) as (t' & o & E & V & F & P').
    { rewrite export_pre_length. lia. }
    rewrite app_nil_r in E. rewrite E.
    exists t'. split; [reflexivity|]. split; [exact V|]. split.
    - rewrite !v2_hash_pure. apply pure_hash_ext, veq_shape_eq, V.
    - split; [exact F|]. apply snapshot_roundtrip_pre; assumption.
  Qed.

  Lemma v2_full_hok t : v2_full t -> v2_hok H t.
  Proof.
    induction t as [k v m|k h s m l IHl r IHr]; cbn [v2_full v2_hok]; [tauto|].
    intros (E & Fl & Fr). auto.
  Qed.
End Snapshot.

(** ** Outside the normal form LoadVersion can fail (findings) *)

(** the hash function is irrelevant for these two witnesses *)
Definition idh : bytes -> bytes := fun b => b.

(** A key written twice in one version: the leaf row carries the sequence of the SECOND write
    (mutateNode draws a new leaf sequence), the replay writes it once and stops with
    "sequence mismatch". *)
Theorem load_double_write_refuted :
  exists hist s db,
    ~ nf_history [] hist /\
    v2_history idh 0 (v2t_empty, db_empty) hist = Some (s, db) /\
    vt_version s = 2 /\ v2_load idh db 1 <> None /\ v2_load idh db 2 = None.
Proof.
  exists [([LSet [1%N] [10%N]], false); ([LSet [2%N] [20%N]; LSet [2%N] [21%N]], false)].
  eexists _, _. split.
  - intros (_ & (ND & _) & _). cbn in ND. inversion ND as [|? ? NI _]. apply NI. left. reflexivity.
  - split; [vm_compute; reflexivity|]. split; [reflexivity|]. split; vm_compute; congruence.
Qed.

(** A key that exists, is updated and then removed in the same version: addDelete skips the
    delete row because the leaf already carries the working version, the updated leaf is not
    in the final tree, so the changelog of the version is EMPTY; the replay keeps the key and
    stops with "root hash mismatch". *)
Theorem load_update_then_remove_refuted :
  exists hist s db,
    ~ nf_history [] hist /\
    v2_history idh 0 (v2t_empty, db_empty) hist = Some (s, db) /\
    lookup 2 (db_log db) = Some [] /\
    oelems (vt_root s) = [([2%N], [20%N])] /\
    v2_load idh db 2 = None.
Proof.
  exists [([LSet [1%N] [10%N]; LSet [2%N] [20%N]], false); ([LSet [1%N] [11%N]; LDel [1%N]], false)].
  eexists _, _. split.
  - intros (_ & (ND & _) & _). cbn in ND. inversion ND as [|? ? NI _]. apply NI. left. reflexivity.
  - split; [vm_compute; reflexivity|]. repeat split; vm_compute; reflexivity.
Qed.

(** ** Pruning after a history *)
Theorem history_checkpoints (H : bytes -> bytes) (interval : Z) (hist : list (list logop * bool)) s db :
  nf_history [] hist ->
  v2_history H interval (v2t_empty, db_empty) hist = Some (s, db) ->
  zsorted (db_ckpts db) /\
  Forall (fun c => 1 <= c <= Z.of_nat (length hist)) (db_ckpts db) /\
  (hist <> [] -> In 1 (db_ckpts db)) /\
  vt_version s = Z.of_nat (length hist).
Proof.
  intros NF E.
  destruct (hinv_history H interval hist 0 [] v2t_empty db_empty (hinv_empty H) NF)
    as (s1 & db1 & ts & E1 & I & _).
  rewrite E in E1. injection E1 as <- <-. cbn [Z.add] in I.
  split; [apply (hi_sorted _ _ _ _ _ I)|]. split; [apply Forall_forall, (hi_range _ _ _ _ _ I)|]. split.
  - intros NE. apply (hi_first _ _ _ _ _ I). destruct hist; [contradiction NE; reflexivity|].
    cbn [length]. lia.
  - rewrite (hi_state _ _ _ _ _ I). reflexivity.
Qed.

(** After DeleteVersionsTo(n) on the database of a normal-form history: with [c] the last
    checkpoint <= n, every version from [c] on still loads, to the same tree as before. *)
Theorem prune_then_load (H : bytes -> bytes) (interval : Z) (hist : list (list logop * bool)) s db n c v :
  nf_history [] hist ->
  v2_history H interval (v2t_empty, db_empty) hist = Some (s, db) ->
  find_previous (db_ckpts db) n = FPVal c -> c <> -1 -> c <= v ->
  v2_load H (v2_prune db n) v = v2_load H db v.
Proof.
  intros NF E Ec Nc Hv.
  destruct (history_checkpoints H interval hist s db NF E) as (S & _).
  apply (prune_keeps H db n c v S Ec Nc); [|exact Hv].
  apply (find_previous_In _ _ _ S Ec Nc).
Qed.

(** * The model depends on the hash function through its values only (see HashTable.v) *)
Section HashExt.
  Variables H H' : bytes -> bytes.
  Hypothesis HE : forall b, H b = H' b.

  Lemma v2_hash_hext t : v2_hash H t = v2_hash H' t.
  Proof. rewrite !v2_hash_pure. apply pure_hash_hext, HE. Qed.

  Lemma v2_deep_hash_hext t : v2_deep_hash H t = v2_deep_hash H' t.
  Proof.
    induction t as [k v m|k h s m l IHl r IHr]; cbn [v2_deep_hash]; destruct (hs m); try reflexivity.
    - rewrite (leaf_preimage_hext H H' HE), HE. reflexivity.
    - rewrite IHl, IHr, HE. reflexivity.
  Qed.

  Lemma v2_compute_hash_hext r : v2_compute_hash H r = v2_compute_hash H' r.
  Proof. destruct r; cbn [v2_compute_hash]; [rewrite v2_deep_hash_hext; reflexivity|apply HE]. Qed.

  Lemma v2t_save_hext s : v2t_save H s = v2t_save H' s.
  Proof.
    unfold v2t_save. rewrite v2_compute_hash_hext.
    destruct (vt_root s); rewrite ?v2_deep_hash_hext; reflexivity.
  Qed.

  Lemma v2_history_hext i hist : forall sd, v2_history H i sd hist = v2_history H' i sd hist.
  Proof.
    induction hist as [|e rest IH]; intros sd; cbn [v2_history]; [reflexivity|].
    unfold v2_version. destruct (v2_apply_all _ _); [|reflexivity].
    unfold v2_commit. rewrite v2t_save_hext. apply IH.
  Qed.

  Lemma v2_load_hext db v : v2_load H db v = v2_load H' db v.
  Proof.
    unfold v2_load. destruct (find_previous _ _); try reflexivity.
    destruct (lookup _ (db_roots db)); try reflexivity. destruct (_ <? _); try reflexivity.
    destruct (lookup _ _); try reflexivity. destruct (replay_log _ _); try reflexivity.
    rewrite v2_compute_hash_hext, v2t_save_hext. reflexivity.
  Qed.

  Lemma rehash_hext t : rehash H t = rehash H' t.
  Proof.
    induction t as [|k h s m l IHl r IHr]; cbn [rehash]; [reflexivity|].
    rewrite IHl, IHr, HE. reflexivity.
  Qed.

  Lemma import_finish_hext r : import_finish H r = import_finish H' r.
  Proof. destruct r as [[t rows]|]; cbn [import_finish]; rewrite ?rehash_hext; reflexivity. Qed.

  Lemma import_pre_hext rows : import_pre H rows = import_pre H' rows.
  Proof. apply import_finish_hext. Qed.

  Lemma import_post_hext rows : import_post H rows = import_post H' rows.
  Proof. apply import_finish_hext. Qed.

  Lemma restore_post_hext stream : restore_post H stream = restore_post H' stream.
  Proof.
    unfold restore_post. generalize 0 (@nil node).
    induction stream as [|sn rest IH]; intros ord stack; cbn [restore_post_loop]; [reflexivity|].
    rewrite (leaf_preimage_hext H H' HE), HE, IH. destruct (_ =? _); [reflexivity|].
    destruct stack as [|r [|l stack]]; try reflexivity. rewrite HE, IH. reflexivity.
  Qed.

  Lemma restore_pre_hext stream : restore_pre H stream = restore_pre H' stream.
  Proof.
    unfold restore_pre. generalize (S (length stream)) 0. intros fuel ord0.
    enough (forall str ord, restore_pre_step H fuel ord str = restore_pre_step H' fuel ord str) as ->
      by reflexivity.
    induction fuel as [|f IH]; intros [|sn rest] ord; cbn [restore_pre_step]; try reflexivity.
    rewrite (leaf_preimage_hext H H' HE), HE, IH. destruct (_ =? _); [reflexivity|].
    destruct (restore_pre_step H' f _ rest) as [[[l o1] rest1]|]; [|reflexivity]. rewrite IH.
    destruct (restore_pre_step H' f o1 rest1) as [[[r o2] rest2]|]; [|reflexivity].
    rewrite HE. reflexivity.
  Qed.

  Lemma v2t_run_hext ops : forall s, v2t_run H s ops = v2t_run H' s ops.
  Proof.
    induction ops as [|o ops IH]; intros s; cbn [v2t_run]; [reflexivity|].
    replace (v2t_step H s o) with (v2t_step H' s o).
    - destruct (v2t_step H' s o) as [[s1 x]|]; [rewrite IH|]; reflexivity.
    - destruct o; cbn [v2t_step]; try reflexivity.
      unfold v2t_save, v2_compute_hash.
      destruct (vt_root s); rewrite ?v2_deep_hash_hext, ?HE; reflexivity.
  Qed.
End HashExt.
