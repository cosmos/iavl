(** Proofs about Diff.v: the net change of a version applied to the previous contents gives
    the new contents; the two-iterator merge of [extractStateChanges] computes exactly the
    net change; [SaveChangeSet] applies a change set as one new version; replaying the net
    changes of versions 1..n into an empty tree reproduces every version's contents. *)
From Coq Require Import Lia ZifyBool Sorted.
From IAVL Require Import Bytes Varint Tree VMap ListFacts VMapFacts TreeFacts MTree MTreeFacts Diff.
From IAVL Require HashFacts StoreFacts.
Local Open Scope Z_scope.

(** * Lists of keys in strictly ascending order *)
Fixpoint ksorted (l : list bytes) : Prop :=
  match l with
  | [] => True
  | k :: r => Forall (fun x => k <b x) r /\ ksorted r
  end.

Lemma sorted_ksorted (l : kvs) : sorted l <-> ksorted (map fst l).
Proof.
  induction l as [|[k v] l IH]; cbn [sorted ksorted map fst]; [tauto|].
  rewrite IH, Forall_map. tauto.
Qed.

Lemma ksorted_StronglySorted {A} (f : A -> bytes) (l : list A) :
  ksorted (map f l) <-> StronglySorted (fun a b => f a <b f b) l.
Proof.
  induction l as [|a l IH]; cbn [map ksorted].
  - split; [constructor|trivial].
  - rewrite IH, Forall_map. split.
    + intros [F S]. constructor; assumption.
    + intros S. apply StronglySorted_inv in S. tauto.
Qed.

Lemma ksorted_iff l : ksorted l <-> StronglySorted (fun a b => a <b b) l.
Proof. rewrite <- (map_id l) at 1. apply (ksorted_StronglySorted (fun x => x)). Qed.

Lemma ksorted_app a b :
  ksorted a -> ksorted b -> (forall x y, In x a -> In y b -> x <b y) -> ksorted (a ++ b).
Proof. rewrite !ksorted_iff. apply StronglySorted_app. Qed.

Lemma ksorted_filter (f : bytes -> bool) l : ksorted l -> ksorted (filter f l).
Proof. rewrite !ksorted_iff. apply StronglySorted_filter. Qed.

Lemma ksorted_NoDup l : ksorted l -> NoDup l.
Proof. rewrite ksorted_iff. apply StronglySorted_NoDup. intros x L. border. Qed.

Lemma ksorted_head k l x : ksorted (k :: l) -> In x l -> k <b x.
Proof. intros [F _] I. rewrite Forall_forall in F. auto. Qed.

Lemma ksorted_tail k l : ksorted (k :: l) -> ksorted l.
Proof. intros [_ S]. exact S. Qed.

Lemma ksorted_before k k' l x : k <b k' -> ksorted (k' :: l) -> In x (k' :: l) -> k <b x.
Proof. intros L S [<-|I]; [exact L|]. pose proof (ksorted_head _ _ _ S I). border. Qed.

Lemma ksorted_not_in k l : ksorted (k :: l) -> ~ In k l.
Proof. intros S I. pose proof (ksorted_head _ _ _ S I). border. Qed.

Lemma ksorted_ext {A} (f : A -> bytes) (l1 l2 : list A) :
  ksorted (map f l1) -> ksorted (map f l2) -> (forall x, In x l1 <-> In x l2) -> l1 = l2.
Proof.
  rewrite !ksorted_StronglySorted. apply sorted_same_elements.
  - intros x L. border.
  - intros x y L1 L2. border.
Qed.

(** * Applying changes *)
Lemma sorted_apply_change c l : sorted l -> sorted (apply_change c l).
Proof. destruct c; cbn [apply_change]; [apply sorted_ins|apply sorted_del]. Qed.

Lemma sorted_apply cs : forall l, sorted l -> sorted (apply_changes cs l).
Proof.
  induction cs as [|c cs IH]; intros l S; cbn [apply_changes]; [exact S|].
  apply IH, sorted_apply_change, S.
Qed.

Lemma assoc_apply_change_ne k c l : k <> ckey c -> assoc k (apply_change c l) = assoc k l.
Proof.
  destruct c as [k' v|k']; cbn [apply_change ckey]; intros NE.
  - rewrite assoc_ins, (proj2 (beq_false k k') NE). reflexivity.
  - apply assoc_del_ne, NE.
Qed.

Lemma assoc_apply_notin k cs : forall l,
  ~ In k (map ckey cs) -> assoc k (apply_changes cs l) = assoc k l.
Proof.
  induction cs as [|c cs IH]; intros l N; cbn [apply_changes]; [reflexivity|].
  cbn [map In] in N. rewrite IH by tauto. apply assoc_apply_change_ne. intros E. apply N. left. congruence.
Qed.

Lemma assoc_apply_set k v cs : forall l,
  ksorted (map ckey cs) -> In (CSet k v) cs -> assoc k (apply_changes cs l) = Some v.
Proof.
  induction cs as [|c cs IH]; intros l S I; [destruct I|].
  cbn [map] in S. cbn [apply_changes]. destruct I as [->|I].
  - cbn [ckey] in S. rewrite assoc_apply_notin by (apply ksorted_not_in, S).
    cbn [apply_change]. rewrite assoc_ins, (proj2 (beq_true k k) eq_refl). reflexivity.
  - apply IH; [exact (ksorted_tail _ _ S)|exact I].
Qed.

Lemma assoc_apply_del k cs : forall l,
  ksorted (map ckey cs) -> In (CDel k) cs -> sorted l -> assoc k (apply_changes cs l) = None.
Proof.
  induction cs as [|c cs IH]; intros l S I Sl; [destruct I|].
  cbn [map] in S. cbn [apply_changes]. destruct I as [->|I].
  - cbn [ckey] in S. rewrite assoc_apply_notin by (apply ksorted_not_in, S).
    cbn [apply_change]. apply assoc_del_eq, Sl.
  - apply IH; [exact (ksorted_tail _ _ S)|exact I|apply sorted_apply_change, Sl].
Qed.

(** * The merge of sets and deletions *)
Lemma merge_nil_l d : merge [] d = map CDel d.
Proof. destruct d; reflexivity. Qed.
Lemma merge_nil_r s : merge s [] = map cset s.
Proof. destruct s as [|[k v] s]; reflexivity. Qed.
Lemma merge_cons k v s kd d :
  merge ((k, v) :: s) (kd :: d) =
    if blt kd k then CDel kd :: merge ((k, v) :: s) d else CSet k v :: merge s (kd :: d).
Proof. reflexivity. Qed.

Lemma merge_In c s : forall d, In c (merge s d) <-> In c (map cset s) \/ In c (map CDel d).
Proof.
  induction s as [|[k v] s IHs]; intros d.
  - rewrite merge_nil_l. cbn [map In]. tauto.
  - induction d as [|kd d IHd].
    + rewrite merge_nil_r. cbn [map In]. tauto.
    + rewrite merge_cons. destruct (blt kd k).
      * cbn [In]. rewrite IHd. cbn [map In]. tauto.
      * cbn [In]. rewrite IHs. cbn [map In cset fst snd]. tauto.
Qed.

Lemma merge_keys x s d :
  In x (map ckey (merge s d)) <-> In x (map fst s) \/ In x d.
Proof.
  rewrite in_map_iff. split.
  - intros (c & E & I). apply merge_In in I. destruct I as [I|I]; apply in_map_iff in I.
    + destruct I as ([k v] & <- & I). left. apply in_map_iff. exists (k, v). auto.
    + destruct I as (k & <- & I). right. subst. exact I.
  - intros [I|I].
    + apply in_map_iff in I. destruct I as ([k v] & <- & I). exists (CSet k v). split; [reflexivity|].
      apply merge_In. left. apply in_map_iff. exists (k, v). auto.
    + exists (CDel x). split; [reflexivity|]. apply merge_In. right. apply in_map, I.
Qed.

Lemma ksorted_map_cset s : ksorted (map fst s) -> ksorted (map ckey (map cset s)).
Proof. rewrite map_map. cbn [cset ckey]. auto. Qed.
Lemma ksorted_map_cdel d : ksorted d -> ksorted (map ckey (map CDel d)).
Proof. rewrite map_map. cbn [ckey]. rewrite map_id. auto. Qed.

Lemma merge_sorted s : forall d,
  ksorted (map fst s) -> ksorted d -> (forall k, In k d -> ~ In k (map fst s)) ->
  ksorted (map ckey (merge s d)).
Proof.
  induction s as [|[k v] s IHs]; intros d Ss Sd Dj.
  - rewrite merge_nil_l. apply ksorted_map_cdel, Sd.
  - induction d as [|kd d IHd].
    + rewrite merge_nil_r. apply ksorted_map_cset, Ss.
    + rewrite merge_cons. cbn [map fst] in Ss.
      destruct (blt kd k) eqn:C; btests; cbn [map ckey ksorted].
      * split.
        -- apply Forall_forall. intros x I. apply merge_keys in I.
           destruct I as [I|I]; [exact (ksorted_before _ _ _ _ C Ss I)|exact (ksorted_head _ _ _ Sd I)].
        -- apply IHd; [exact (ksorted_tail _ _ Sd)|]. intros x I. apply Dj. right; exact I.
      * assert (k <b kd) as L.
        { assert (k <> kd) by (intros ->; apply (Dj kd); left; reflexivity). border. }
        split.
        -- apply Forall_forall. intros x I. apply merge_keys in I.
           destruct I as [I|I]; [exact (ksorted_head _ _ _ Ss I)|exact (ksorted_before _ _ _ _ L Sd I)].
        -- apply IHs; [exact (ksorted_tail _ _ Ss)|exact Sd|].
           intros x I N. apply (Dj x I). right; exact N.
Qed.

(** * New and old leaves *)
Definition owf (t : option node) : Prop := match t with None => True | Some n => wf n end.
Definition oold (pv : Z) (t : option node) : kvs :=
  match t with None => [] | Some n => old_leaves pv n end.

Lemma elems_new_old pv t p : In p (elems t) <-> In p (new_leaves pv t) \/ In p (old_leaves pv t).
Proof.
  induction t as [k v m|k h s m l IHl r IHr]; cbn [elems new_leaves old_leaves].
  - destruct (ver m <=? pv); cbn [In]; tauto.
  - rewrite !in_app_iff, IHl, IHr. tauto.
Qed.

Lemma new_leaves_incl pv t p : In p (new_leaves pv t) -> In p (elems t).
Proof. intros I. apply (elems_new_old pv). left; exact I. Qed.

Lemma new_leaves_sorted pv t : wf t -> sorted (new_leaves pv t).
Proof.
  induction t as [k v m|k h s m l IHl r IHr]; intros W; cbn [new_leaves].
  - destruct (ver m <=? pv); cbn [sorted]; auto.
  - pose proof (wf_keys_lt _ _ _ _ _ _ W) as KL. pose proof (wf_keys_ge _ _ _ _ _ _ W) as KG.
    cbn [wf] in W. destruct W as (Wl & Wr & _).
    apply (sorted_app _ _ k); auto.
    + exact (incl_Forall (new_leaves_incl pv l) KL).
    + exact (incl_Forall (new_leaves_incl pv r) KG).
Qed.

Lemma osorted t : owf t -> sorted (oelems t).
Proof. destruct t; cbn [owf oelems sorted]; [apply wf_sorted|auto]. Qed.

Lemma sets_sorted pv t : owf t -> sorted (sets_of pv t).
Proof. destruct t; cbn [owf sets_of sorted]; [apply new_leaves_sorted|auto]. Qed.

Lemma sets_incl pv t p : In p (sets_of pv t) -> In p (oelems t).
Proof. destruct t; cbn [sets_of oelems]; [apply new_leaves_incl|auto]. Qed.

Lemma oelems_new_old pv t p : In p (oelems t) <-> In p (sets_of pv t) \/ In p (oold pv t).
Proof. destruct t; cbn [oelems sets_of oold]; [apply elems_new_old|cbn [In]; tauto]. Qed.

Lemma dels_In prev cur k :
  In k (dels_of prev cur) <-> In k (map fst (oelems prev)) /\ ~ In k (map fst (oelems cur)).
Proof.
  unfold dels_of. rewrite filter_In, negb_true_iff, mem_false_notin. reflexivity.
Qed.

Lemma dels_sorted prev cur : owf prev -> ksorted (dels_of prev cur).
Proof. intros W. apply ksorted_filter, sorted_ksorted, osorted, W. Qed.

Lemma dels_sets_disjoint pv prev cur k :
  In k (dels_of prev cur) -> ~ In k (map fst (sets_of pv cur)).
Proof.
  intros I N. apply dels_In in I. exact (proj2 I (incl_map fst (sets_incl pv cur) k N)).
Qed.

Theorem net_sorted pv prev cur :
  owf prev -> owf cur -> ksorted (map ckey (net prev cur pv)).
Proof.
  intros Wp Wc. unfold net. apply merge_sorted.
  - apply sorted_ksorted, sets_sorted, Wc.
  - apply dels_sorted, Wp.
  - intros k. apply dels_sets_disjoint.
Qed.

Corollary net_NoDup pv prev cur :
  owf prev -> owf cur -> NoDup (map ckey (net prev cur pv)).
Proof. intros Wp Wc. apply ksorted_NoDup, net_sorted; assumption. Qed.

Lemma net_set_In pv prev cur k v :
  In (CSet k v) (net prev cur pv) <-> In (k, v) (sets_of pv cur).
Proof.
  unfold net. rewrite merge_In. split.
  - intros [I|I]; apply in_map_iff in I.
    + destruct I as ([k' v'] & E & I). unfold cset in E. cbn [fst snd] in E.
      inversion E; subst. exact I.
    + destruct I as (k' & E & _). discriminate E.
  - intros I. left. apply in_map_iff. exists (k, v). auto.
Qed.

Lemma net_del_In pv prev cur k :
  In (CDel k) (net prev cur pv) <-> In k (dels_of prev cur).
Proof.
  unfold net. rewrite merge_In. split.
  - intros [I|I]; apply in_map_iff in I.
    + destruct I as ([k' v'] & E & _). discriminate E.
    + destruct I as (k' & E & I). inversion E; subst. exact I.
  - intros I. right. apply in_map, I.
Qed.

Theorem net_ascending pv prev cur :
  owf prev -> owf cur ->
  ksorted (map ckey (net prev cur pv)) /\ NoDup (map ckey (net prev cur pv)).
Proof. intros Wp Wc. split; [apply net_sorted|apply net_NoDup]; assumption. Qed.

Theorem net_members pv prev cur k v :
  (In (CSet k v) (net prev cur pv) <-> In (k, v) (sets_of pv cur)) /\
  (In (CDel k) (net prev cur pv) <->
     In k (map fst (oelems prev)) /\ ~ In k (map fst (oelems cur))).
Proof. split; [apply net_set_In|]. rewrite net_del_In. apply dels_In. Qed.

Lemma net_keys pv prev cur k :
  In k (map ckey (net prev cur pv)) <->
  In k (map fst (sets_of pv cur)) \/ In k (map fst (oelems prev)) /\ ~ In k (map fst (oelems cur)).
Proof. unfold net. rewrite merge_keys, dels_In. reflexivity. Qed.

Lemma assoc_none_notin k (l : kvs) : assoc k l = None -> ~ In k (map fst l).
Proof. intros E. apply mem_false_notin. unfold mem. rewrite E. reflexivity. Qed.

(** ** Theorem 1: the net change applied to the previous contents gives the new contents.
    Version consistency: a leaf of [cur] not created after [pv] is a leaf of [prev]. *)
Theorem apply_net pv prev cur :
  owf prev -> owf cur ->
  (forall p, In p (oold pv cur) -> In p (oelems prev)) ->
  apply_changes (net prev cur pv) (oelems prev) = oelems cur.
Proof.
  intros Wp Wc Old.
  pose proof (osorted _ Wp) as Sp. pose proof (osorted _ Wc) as Sc.
  pose proof (net_sorted pv _ _ Wp Wc) as Sn.
  apply sorted_assoc_ext; [apply sorted_apply, Sp|exact Sc|].
  intros k.
  destruct (assoc k (sets_of pv cur)) as [v|] eqn:AS.
  - apply assoc_some_in in AS.
    rewrite (assoc_apply_set k v) by (auto; apply net_set_In, AS).
    symmetry. apply assoc_in_sorted; [exact Sc|]. apply (sets_incl pv), AS.
  - pose proof (assoc_none_notin _ _ AS) as NS.
    destruct (assoc k (oelems cur)) as [v|] eqn:AC.
    + apply assoc_some_in in AC.
      assert (Ip : In (k, v) (oelems prev)).
      { apply Old. apply (oelems_new_old pv) in AC. destruct AC as [I|I]; [|exact I].
        destruct (NS (in_map fst _ _ I)). }
      rewrite assoc_apply_notin.
      * apply assoc_in_sorted; auto.
      * intros I. apply net_keys in I. destruct I as [I|[_ I]]; [auto|].
        exact (I (in_map fst _ _ AC)).
    + pose proof (assoc_none_notin _ _ AC) as NC.
      destruct (assoc k (oelems prev)) as [v'|] eqn:AP.
      * apply assoc_some_in in AP.
        apply assoc_apply_del; auto. apply net_del_In, dels_In. split; [|exact NC].
        exact (in_map fst _ _ AP).
      * rewrite assoc_apply_notin; [exact AP|].
        intros I. apply net_keys in I. destruct I as [I|[I _]]; [auto|].
        exact (assoc_none_notin _ _ AP I).
Qed.

(** * Subtrees *)
Fixpoint subtree (s t : node) : Prop :=
  s = t \/
  match t with
  | Leaf _ _ _ => False
  | Inner _ _ _ _ l r => subtree s l \/ subtree s r
  end.
Definition osubtree (s : node) (o : option node) : Prop :=
  match o with None => False | Some t => subtree s t end.

Fixpoint ver_mono (t : node) : Prop :=
  match t with
  | Leaf _ _ _ => True
  | Inner _ _ _ m l r =>
      ver (nmeta l) <= ver m /\ ver (nmeta r) <= ver m /\ ver_mono l /\ ver_mono r
  end.
Definition over_mono (t : option node) : Prop := match t with None => True | Some n => ver_mono n end.

Lemma subtree_refl t : subtree t t.
Proof. destruct t; left; reflexivity. Qed.

Lemma subtree_iff s t : subtree s t <-> HashFacts.subtree s t.
Proof.
  split.
  - induction t as [k v m|k h z m l IHl r IHr]; cbn [subtree]; intros [->|S];
      try apply HashFacts.sub_refl; [destruct S|].
    destruct S as [S|S]; [apply HashFacts.sub_left|apply HashFacts.sub_right]; auto.
  - induction 1; [apply subtree_refl| |]; cbn [subtree]; auto.
Qed.

Lemma subtree_trans a b c : subtree a b -> subtree b c -> subtree a c.
Proof. rewrite !subtree_iff. apply StoreFacts.sub_trans. Qed.

Lemma ver_mono_sub s t : ver_mono t -> subtree s t -> ver_mono s.
Proof.
  intros M S. apply subtree_iff in S.
  induction S; [exact M| |]; apply IHS; cbn [ver_mono] in M; tauto.
Qed.

Lemma subtree_elems s t p : subtree s t -> In p (elems s) -> In p (elems t).
Proof.
  intros S I. apply subtree_iff in S.
  induction S; [exact I| |]; cbn [elems]; apply in_or_app; auto.
Qed.

Lemma subtree_keys s t x : subtree s t -> In x (map fst (elems s)) -> In x (map fst (elems t)).
Proof. intros S. exact (incl_map fst (fun p => subtree_elems s t p S) x). Qed.

Lemma subtree_nodes s t : subtree s t -> (nodes s <= nodes t)%nat.
Proof. intros S. apply subtree_iff in S. induction S; cbn [nodes]; lia. Qed.

Lemma subtree_strict s t : subtree s t -> s = t \/ (nodes s < nodes t)%nat.
Proof.
  destruct t as [k v m|k h z m l r]; cbn [subtree]; intros [->|S]; auto; [destruct S|].
  right. cbn [nodes]. destruct S as [S|S]; apply subtree_nodes in S; lia.
Qed.

Lemma min_key_in t : In (min_key t) (map fst (elems t)).
Proof. destruct (elems_min t) as (v & rest & E). rewrite E. left. reflexivity. Qed.

Lemma wf_left_lt k h z m l r x :
  wf (Inner k h z m l r) -> In x (map fst (elems l)) -> x <b k.
Proof.
  intros W I. apply wf_keys_lt in W. unfold keys_lt in W. rewrite Forall_forall in W.
  apply in_map_iff in I. destruct I as (p & <- & I). apply W, I.
Qed.
Lemma wf_right_ge k h z m l r x :
  wf (Inner k h z m l r) -> In x (map fst (elems r)) -> k <=b x.
Proof.
  intros W I. apply wf_keys_ge in W. unfold keys_ge in W. rewrite Forall_forall in W.
  apply in_map_iff in I. destruct I as (p & <- & I). apply W, I.
Qed.

Lemma wf_sides k h z m l r x :
  wf (Inner k h z m l r) -> In x (map fst (elems l)) -> In x (map fst (elems r)) -> False.
Proof.
  intros W Il Ir. pose proof (wf_left_lt _ _ _ _ _ _ _ W Il). pose proof (wf_right_ge _ _ _ _ _ _ _ W Ir).
  border.
Qed.

Lemma wf_children k h z m l r : wf (Inner k h z m l r) -> wf l /\ wf r.
Proof. cbn [wf]. tauto. Qed.

(** * A pre-order walk that does not descend below the nodes satisfying [stop]

    It meets leaves, and topmost stopping nodes.  Both iterators of [extractStateChanges] are
    such walks: the one over the current tree stops at the nodes not created after the
    previous version, the one over the previous tree at the nodes it recognises as shared. *)
Definition item : Type := bytes * bytes + node.

Fixpoint tops (w : list item) : list node :=
  match w with
  | [] => []
  | inl _ :: r => tops r
  | inr s :: r => s :: tops r
  end.
Fixpoint leaves (w : list item) : kvs :=
  match w with
  | [] => []
  | inl p :: r => p :: leaves r
  | inr _ :: r => leaves r
  end.
Definition ikey (i : item) : bytes := match i with inl p => fst p | inr s => min_key s end.

Lemma tops_app a b : tops (a ++ b) = tops a ++ tops b.
Proof. induction a as [|[p|s] a IH]; cbn [app tops]; [reflexivity|exact IH|rewrite IH; reflexivity]. Qed.
Lemma leaves_app a b : leaves (a ++ b) = leaves a ++ leaves b.
Proof. induction a as [|[p|s] a IH]; cbn [app leaves]; [reflexivity|rewrite IH; reflexivity|exact IH]. Qed.

Lemma tops_ikey s w : In s (tops w) -> In (min_key s) (map ikey w).
Proof.
  induction w as [|[p|s'] w IH]; cbn [tops map In ikey]; [tauto|auto|].
  intros [->|I]; auto.
Qed.

Lemma tops_sorted w : ksorted (map ikey w) -> ksorted (map min_key (tops w)).
Proof.
  induction w as [|[p|s] w IH]; cbn [map ikey tops]; intros S; [exact I| |].
  - apply IH, (ksorted_tail _ _ S).
  - cbn [map ksorted]. split; [|apply IH, (ksorted_tail _ _ S)].
    apply Forall_forall. intros x I. apply in_map_iff in I. destruct I as (s' & <- & I).
    apply (ksorted_head _ _ _ S), tops_ikey, I.
Qed.

Section Walk.
  Variable stop : node -> bool.

  Fixpoint walk (t : node) : list item :=
    if stop t then [inr t] else
    match t with
    | Leaf k v _ => [inl (k, v)]
    | Inner _ _ _ _ l r => walk l ++ walk r
    end.

  Lemma walk_stop t : stop t = true -> walk t = [inr t].
  Proof. intros E. destruct t; cbn [walk]; rewrite E; reflexivity. Qed.
  Lemma walk_leaf k v m : stop (Leaf k v m) = false -> walk (Leaf k v m) = [inl (k, v)].
  Proof. intros E. cbn [walk]. rewrite E. reflexivity. Qed.
  Lemma walk_inner k h z m l r :
    stop (Inner k h z m l r) = false -> walk (Inner k h z m l r) = walk l ++ walk r.
  Proof. intros E. cbn [walk]. rewrite E. reflexivity. Qed.

  Lemma walk_ind (P : node -> Prop) :
    (forall t, stop t = true -> walk t = [inr t] -> P t) ->
    (forall k v m, stop (Leaf k v m) = false -> walk (Leaf k v m) = [inl (k, v)] -> P (Leaf k v m)) ->
    (forall k h z m l r, stop (Inner k h z m l r) = false ->
       walk (Inner k h z m l r) = walk l ++ walk r -> P l -> P r -> P (Inner k h z m l r)) ->
    forall t, P t.
  Proof.
    intros Ht Hl Hi. induction t as [k v m|k h z m l IHl r IHr].
    - destruct (stop (Leaf k v m)) eqn:E; [apply Ht|apply Hl]; auto using walk_stop, walk_leaf.
    - destruct (stop (Inner k h z m l r)) eqn:E; [apply Ht|apply Hi]; auto using walk_stop, walk_inner.
  Qed.

  Lemma tops_sub s t : In s (tops (walk t)) -> subtree s t /\ stop s = true.
  Proof.
    induction t as [t St E|k v m _ E|k h z m l r _ E IHl IHr] using walk_ind; rewrite E.
    - intros [<-|[]]. split; [apply subtree_refl|exact St].
    - intros [].
    - rewrite tops_app, in_app_iff. cbn [subtree].
      intros [I|I]; [destruct (IHl I)|destruct (IHr I)]; auto.
  Qed.

  Lemma keys_split x t :
    In x (map fst (elems t)) <->
    In x (map fst (leaves (walk t))) \/ exists s, In s (tops (walk t)) /\ In x (map fst (elems s)).
  Proof.
    induction t as [t _ E|k v m _ E|k h z m l r _ E IHl IHr] using walk_ind; rewrite E.
    - cbn [leaves tops map In]. split; [eauto|]. intros [[]|(s & [<-|[]] & I)]. exact I.
    - cbn [leaves tops elems map In]. split; [auto|]. intros [I|(s & [] & _)]. exact I.
    - cbn [elems]. rewrite leaves_app, tops_app, !map_app, !in_app_iff, IHl, IHr.
      setoid_rewrite in_app_iff. split.
      + intros [[I|(s & J & K)]|[I|(s & J & K)]]; eauto 6.
      + intros [[I|I]|(s & [J|J] & K)]; eauto 6.
  Qed.

  Lemma leaves_keys x t : In x (map fst (leaves (walk t))) -> In x (map fst (elems t)).
  Proof. intros I. apply keys_split. left. exact I. Qed.

  Lemma walk_sorted t :
    wf t ->
    ksorted (map ikey (walk t)) /\
    (forall x, In x (map ikey (walk t)) -> In x (map fst (elems t))).
  Proof.
    induction t as [t _ E|k v m _ E|k h z m l r _ E IHl IHr] using walk_ind; rewrite E; intros W.
    - cbn [map ikey ksorted In]. repeat split; auto. intros x [<-|[]]. apply min_key_in.
    - cbn. repeat split; auto.
    - destruct (wf_children _ _ _ _ _ _ W) as [Wl Wr].
      destruct (IHl Wl) as [Sl Il]. destruct (IHr Wr) as [Sr Ir]. rewrite map_app. split.
      + apply ksorted_app; auto. intros x y Ix Iy.
        pose proof (wf_left_lt _ _ _ _ _ _ _ W (Il _ Ix)).
        pose proof (wf_right_ge _ _ _ _ _ _ _ W (Ir _ Iy)). border.
      + intros x I. cbn [elems]. rewrite map_app. apply in_app_or in I. apply in_or_app.
        destruct I as [I|I]; [left|right]; auto.
  Qed.

  Lemma leaf_not_below_top x s t :
    wf t -> In x (map fst (leaves (walk t))) -> In s (tops (walk t)) -> ~ In x (map fst (elems s)).
  Proof.
    induction t as [t _ E|k v m _ E|k h z m l r _ E IHl IHr] using walk_ind; rewrite E; intros W.
    - intros [].
    - intros _ [].
    - rewrite leaves_app, map_app, tops_app, !in_app_iff.
      destruct (wf_children _ _ _ _ _ _ W) as [Wl Wr].
      intros [Ix|Ix] [Is|Is]; auto; intros Ik; destruct (tops_sub _ _ Is) as [Sb _];
        apply leaves_keys in Ix.
      + exact (wf_sides _ _ _ _ _ _ _ W Ix (subtree_keys _ _ _ Sb Ik)).
      + exact (wf_sides _ _ _ _ _ _ _ W (subtree_keys _ _ _ Sb Ik) Ix).
  Qed.

  Lemma tops_antichain a s t :
    wf t -> In a (tops (walk t)) -> In s (tops (walk t)) -> subtree s a -> s = a.
  Proof.
    induction t as [t _ E|k v m _ E|k h z m l r _ E IHl IHr] using walk_ind; rewrite E; intros W.
    - intros [<-|[]] [<-|[]] _. reflexivity.
    - intros [].
    - rewrite tops_app, !in_app_iff.
      destruct (wf_children _ _ _ _ _ _ W) as [Wl Wr].
      intros [Ia|Ia] [Is|Is] Sb; auto; exfalso;
        destruct (tops_sub _ _ Ia) as [Sa _]; destruct (tops_sub _ _ Is) as [Ss _];
        pose proof (subtree_keys _ _ _ Sa (subtree_keys _ _ _ Sb (min_key_in s))) as Ka;
        pose proof (subtree_keys _ _ _ Ss (min_key_in s)) as Ks.
      + exact (wf_sides _ _ _ _ _ _ _ W Ka Ks).
      + exact (wf_sides _ _ _ _ _ _ _ W Ks Ka).
  Qed.

  Lemma top_or_below s t :
    stop s = true -> subtree s t ->
    In s (tops (walk t)) \/
    exists a, In a (tops (walk t)) /\ subtree s a /\ (nodes s < nodes a)%nat.
  Proof.
    intros Sh. induction t as [t St E|k v m St E|k h z m l r St E IHl IHr] using walk_ind; rewrite E.
    - intros Sb. cbn [tops In]. destruct (subtree_strict _ _ Sb) as [->|Lt]; [auto|].
      right. exists t. auto.
    - intros [->|[]]. congruence.
    - rewrite tops_app. setoid_rewrite in_app_iff. intros [->|[Sb|Sb]]; [congruence| |].
      + destruct (IHl Sb) as [I|(a & I & Q)]; eauto 6.
      + destruct (IHr Sb) as [I|(a & I & Q)]; eauto 6.
  Qed.
End Walk.

Definition owalk (stop : node -> bool) (o : option node) : list item :=
  match o with None => [] | Some t => walk stop t end.

Section OWalk.
  Variables (stop : node -> bool) (o : option node).
  Let w := owalk stop o.

  Lemma otops_sub s : In s (tops w) -> osubtree s o /\ stop s = true.
  Proof. destruct o; [apply tops_sub|intros []]. Qed.
  Lemma okeys_split k :
    In k (map fst (oelems o)) <->
    In k (map fst (leaves w)) \/ exists s, In s (tops w) /\ In k (map fst (elems s)).
  Proof. destruct o; [apply keys_split|]. split; [intros []|intros [[]|(s & [] & _)]]. Qed.
  Lemma owalk_sorted : owf o -> ksorted (map ikey w).
  Proof. destruct o; [intros W; apply walk_sorted, W|intros _; exact I]. Qed.
  Lemma oleaf_not_below_top x s :
    owf o -> In x (map fst (leaves w)) -> In s (tops w) -> ~ In x (map fst (elems s)).
  Proof. destruct o; [apply leaf_not_below_top|intros _ []]. Qed.
  Lemma otops_antichain a s : owf o -> In a (tops w) -> In s (tops w) -> subtree s a -> s = a.
  Proof. destruct o; [apply tops_antichain|intros _ []]. Qed.
  Lemma otop_or_below s :
    stop s = true -> osubtree s o ->
    In s (tops w) \/ exists a, In a (tops w) /\ subtree s a /\ (nodes s < nodes a)%nat.
  Proof. destruct o; [intros E; apply top_or_below, E|intros _ []]. Qed.
End OWalk.

(** an iterator is a stack of subtrees still to be walked, the next one on top *)
Definition swalk (stop : node -> bool) (st : nstack) : list item := flat_map (walk stop) st.

Section SWalk.
  Variable stop : node -> bool.

  Lemma swalk_stop t st : stop t = true -> swalk stop (t :: st) = inr t :: swalk stop st.
  Proof. intros E. unfold swalk. cbn [flat_map]. rewrite walk_stop by exact E. reflexivity. Qed.
  Lemma swalk_leaf k v m st :
    stop (Leaf k v m) = false -> swalk stop (Leaf k v m :: st) = inl (k, v) :: swalk stop st.
  Proof. intros E. unfold swalk. cbn [flat_map]. rewrite walk_leaf by exact E. reflexivity. Qed.
  Lemma swalk_inner k h z m l r st :
    stop (Inner k h z m l r) = false -> swalk stop (Inner k h z m l r :: st) = swalk stop (l :: r :: st).
  Proof.
    intros E. unfold swalk. cbn [flat_map]. rewrite walk_inner by exact E. symmetry. apply app_assoc.
  Qed.
  Lemma swalk_new o : swalk stop (ni_new o) = owalk stop o.
  Proof. destruct o; cbn [ni_new swalk flat_map owalk]; [apply app_nil_r|reflexivity]. Qed.
End SWalk.

(** the walk of the current tree stops at the nodes not created after [pv]; under
    [ver_mono] the leaves it meets are the new leaves *)
Definition old_at (pv : Z) (t : node) : bool := ver (nmeta t) <=? pv.

Lemma ver_mono_old pv t : ver_mono t -> ver (nmeta t) <= pv -> new_leaves pv t = [].
Proof.
  induction t as [k v m|k h z m l IHl r IHr]; cbn [ver_mono nmeta new_leaves]; intros M V.
  - replace (ver m <=? pv) with true by lia. reflexivity.
  - destruct M as (Vl & Vr & Ml & Mr). rewrite IHl, IHr; auto; lia.
Qed.

Lemma leaves_new_leaves pv t : ver_mono t -> leaves (walk (old_at pv) t) = new_leaves pv t.
Proof.
  induction t as [t St E|k v m St E|k h z m l r _ E IHl IHr] using (walk_ind (old_at pv));
    rewrite E; intros M.
  - symmetry. apply ver_mono_old; [exact M|apply Z.leb_le, St].
  - cbn [new_leaves]. unfold old_at in St. cbn [nmeta] in St. rewrite St. reflexivity.
  - cbn [ver_mono] in M. destruct M as (_ & _ & Ml & Mr).
    cbn [new_leaves]. rewrite leaves_app, IHl, IHr; auto.
Qed.

Lemma oleaves_sets pv cur : over_mono cur -> leaves (owalk (old_at pv) cur) = sets_of pv cur.
Proof. destruct cur; [apply leaves_new_leaves|reflexivity]. Qed.

(** * The merge on item sequences *)

(** What the walk of the current tree hands to the merge: new leaves, and the topmost shared
    subtrees (skipped).  What the walk of the previous tree hands to it: orphaned leaves
    (only the key matters) and the topmost subtrees it recognises as shared. *)
Inductive citem := CNew (k v : bytes) | CShared (n : node).
Inductive pitem := POrph (k : bytes) | PShared (n : node).

Definition cof (i : item) : citem := match i with inl p => CNew (fst p) (snd p) | inr s => CShared s end.
Definition pof (i : item) : pitem := match i with inl p => POrph (fst p) | inr s => PShared s end.

Definition cstack pv (st : nstack) : list citem := map cof (swalk (old_at pv) st).
Definition pstack (sh : Z * Z -> bool) (st : nstack) : list pitem :=
  map pof (swalk (fun t => sh (nk t)) st).

Definition cnew (p : bytes * bytes) : citem := CNew (fst p) (snd p).

Fixpoint cshared (cs : list citem) : list node :=
  match cs with
  | [] => []
  | CNew _ _ :: r => cshared r
  | CShared s :: r => s :: cshared r
  end.
Fixpoint pshared (ps : list pitem) : list node :=
  match ps with
  | [] => []
  | POrph _ :: r => pshared r
  | PShared s :: r => s :: pshared r
  end.
Fixpoint cnews (cs : list citem) : kvs :=
  match cs with
  | [] => []
  | CNew k v :: r => (k, v) :: cnews r
  | CShared _ :: r => cnews r
  end.
Fixpoint porphs (ps : list pitem) : list bytes :=
  match ps with
  | [] => []
  | POrph k :: r => k :: porphs r
  | PShared _ :: r => porphs r
  end.

Definition ck (c : citem) : bytes := match c with CNew k _ => k | CShared s => min_key s end.
Definition pk (p : pitem) : bytes := match p with POrph k => k | PShared s => min_key s end.

Lemma cstack_shared pv t st : old_at pv t = true -> cstack pv (t :: st) = CShared t :: cstack pv st.
Proof. intros E. unfold cstack. rewrite swalk_stop by exact E. reflexivity. Qed.
Lemma cstack_leaf pv k v m st :
  old_at pv (Leaf k v m) = false -> cstack pv (Leaf k v m :: st) = CNew k v :: cstack pv st.
Proof. intros E. unfold cstack. rewrite swalk_leaf by exact E. reflexivity. Qed.
Lemma cstack_inner pv k h s m l r st :
  old_at pv (Inner k h s m l r) = false -> cstack pv (Inner k h s m l r :: st) = cstack pv (l :: r :: st).
Proof. intros E. unfold cstack. rewrite swalk_inner by exact E. reflexivity. Qed.

Lemma pstack_shared sh t st : sh (nk t) = true -> pstack sh (t :: st) = PShared t :: pstack sh st.
Proof. intros E. unfold pstack. rewrite swalk_stop by exact E. reflexivity. Qed.
Lemma pstack_leaf sh k v m st :
  sh (nk (Leaf k v m)) = false -> pstack sh (Leaf k v m :: st) = POrph k :: pstack sh st.
Proof. intros E. unfold pstack. rewrite swalk_leaf by exact E. reflexivity. Qed.
Lemma pstack_inner sh k h s m l r st :
  sh (nk (Inner k h s m l r)) = false -> pstack sh (Inner k h s m l r :: st) = pstack sh (l :: r :: st).
Proof. intros E. unfold pstack. rewrite swalk_inner by exact E. reflexivity. Qed.

Lemma cshared_cof w : cshared (map cof w) = tops w.
Proof. induction w as [|[p|s] w IH]; cbn [map cof cshared tops]; congruence. Qed.
Lemma pshared_pof w : pshared (map pof w) = tops w.
Proof. induction w as [|[p|s] w IH]; cbn [map pof pshared tops]; congruence. Qed.
Lemma cnews_cof w : cnews (map cof w) = leaves w.
Proof. induction w as [|[[k v]|s] w IH]; cbn [map cof cnews leaves fst snd]; congruence. Qed.
Lemma porphs_pof w : porphs (map pof w) = map fst (leaves w).
Proof. induction w as [|[p|s] w IH]; cbn [map pof porphs leaves]; congruence. Qed.
Lemma ck_cof w : map ck (map cof w) = map ikey w.
Proof. rewrite map_map. apply map_ext. intros [p|s]; reflexivity. Qed.
Lemma pk_pof w : map pk (map pof w) = map ikey w.
Proof. rewrite map_map. apply map_ext. intros [p|s]; reflexivity. Qed.

Lemma porphs_app a b : porphs (a ++ b) = porphs a ++ porphs b.
Proof. induction a as [|[k|s] a IH]; cbn [app porphs]; [reflexivity|rewrite IH; reflexivity|exact IH]. Qed.

Lemma cshared_news nl tl : cshared (map cnew nl ++ tl) = cshared tl.
Proof. induction nl as [|[k v] nl IH]; cbn [map app cnew cshared]; auto. Qed.
Lemma cnews_news nl : cnews (map cnew nl) = nl.
Proof. induction nl as [|[k v] nl IH]; cbn [map cnew cnews fst snd]; [reflexivity|rewrite IH; reflexivity]. Qed.

Lemma cnews_In k v cs : In (k, v) (cnews cs) <-> In (CNew k v) cs.
Proof.
  induction cs as [|[k' v'|s'] cs IH]; cbn [cnews In]; [tauto| |].
  - rewrite IH. split; intros [E|I]; auto; left; congruence.
  - rewrite IH. split; [auto|]. intros [E|I]; [discriminate|exact I].
Qed.
Lemma porphs_In k ps : In k (porphs ps) <-> In (POrph k) ps.
Proof.
  induction ps as [|[k'|s'] ps IH]; cbn [porphs In]; [tauto| |].
  - rewrite IH. split; intros [E|I]; auto; left; congruence.
  - rewrite IH. split; [auto|]. intros [E|I]; [discriminate|exact I].
Qed.

(** The merge of Diff.v run on the two item sequences instead of the two node stacks:
    [b_orphan] is [Diff.add_orphan], [b_loop] is [Diff.main_loop], [b_flush] what
    [main_loop] does at a shared node of the previous tree.  The prefix [b_] only keeps the
    names apart from those of Diff.v. *)
Fixpoint b_orphan (ok : bytes) (cs : list citem) : list change * list citem :=
  match cs with
  | CNew k v :: cs' =>
      match bcmp ok k with
      | Gt => let (e, r) := b_orphan ok cs' in (CSet k v :: e, r)
      | Lt => ([CDel ok], cs)
      | Eq => ([CSet k v], cs')
      end
  | _ => ([CDel ok], cs)
  end.

Fixpoint b_flush (cs : list citem) : list change * list citem :=
  match cs with
  | CNew k v :: cs' => let (e, r) := b_flush cs' in (CSet k v :: e, r)
  | CShared _ :: cs' => ([], cs')
  | [] => ([], [])
  end.

Fixpoint b_loop (ps : list pitem) (cs : list citem) : list change :=
  match ps with
  | [] => fst (b_flush cs)
  | POrph k :: ps' => let (e, cs') := b_orphan k cs in e ++ b_loop ps' cs'
  | PShared _ :: ps' => let (e, cs') := b_flush cs in e ++ b_loop ps' cs'
  end.

Definition tail_ok (tl : list citem) : Prop := tl = [] \/ exists s r, tl = CShared s :: r.

Lemma b_flush_news nl tl :
  tail_ok tl ->
  b_flush (map cnew nl ++ tl) = (map cset nl, match tl with [] => [] | _ :: r => r end).
Proof.
  intros T. induction nl as [|[k v] nl IH]; cbn [map app cnew fst snd].
  - destruct T as [->|(s & r & ->)]; reflexivity.
  - cbn [b_flush]. rewrite IH. reflexivity.
Qed.

Lemma b_orphan_news ok nl tl :
  tail_ok tl ->
  b_orphan ok (map cnew nl ++ tl) =
    (fst (add_orphan ok nl), map cnew (snd (add_orphan ok nl)) ++ tl).
Proof.
  intros T. induction nl as [|[k v] nl IH]; cbn [map app].
  - destruct T as [->|(s & r & ->)]; reflexivity.
  - change (cnew (k, v)) with (CNew k v). cbn [b_orphan add_orphan].
    destruct (bcmp ok k); cbn [fst snd map]; try reflexivity.
    rewrite IH. destruct (add_orphan ok nl) as [e r]. reflexivity.
Qed.

(** ** The machine computes the item-level merge *)
Definition nodes_stack (st : nstack) : nat := fold_right (fun t n => (nodes t + n)%nat) O st.
Definition oshared (shn : option node) : list citem :=
  match shn with Some s => [CShared s] | None => [] end.

Lemma nodes_stack_cons t st : nodes_stack (t :: st) = (nodes t + nodes_stack st)%nat.
Proof. reflexivity. Qed.
Lemma nodes_stack_new o : (nodes_stack (ni_new o) < S (onodes o))%nat.
Proof. destruct o; cbn [ni_new nodes_stack fold_right onodes]; lia. Qed.

Lemma nodes_pos t : (1 <= nodes t)%nat.
Proof. destruct t; cbn [nodes]; lia. Qed.

Lemma adv_loop_spec pv fuel : forall cst nl,
  (nodes_stack cst < fuel)%nat ->
  exists cst' shn nl',
    adv_loop fuel pv cst nl = Some (cst', shn, nl') /\
    map cnew nl ++ cstack pv cst = map cnew nl' ++ oshared shn ++ cstack pv cst' /\
    (shn = None -> cst' = []) /\
    (nodes_stack cst' <= nodes_stack cst)%nat.
Proof.
  induction fuel as [|f IH]; intros cst nl Hf; [lia|].
  destruct cst as [|t st].
  - exists [], None, nl. cbn [adv_loop oshared cstack flat_map app]. auto.
  - cbn [adv_loop]. rewrite nodes_stack_cons in Hf.
    destruct (ver (nmeta t) <=? pv) eqn:Sh.
    + exists st, (Some t), nl. rewrite (cstack_shared _ _ _ Sh), nodes_stack_cons.
      cbn [ni_next oshared app]. repeat split; auto; try discriminate; try lia.
    + destruct t as [k v m|k h s m l r]; cbn [ni_next nodes] in *.
      * destruct (IH st (nl ++ [(k, v)])) as (cst' & shn & nl' & E & Q & N & L); [lia|].
        exists cst', shn, nl'. split; [exact E|]. split; [|split; [exact N|]].
        -- rewrite <- Q, (cstack_leaf _ _ _ _ _ Sh), map_app, <- app_assoc. reflexivity.
        -- rewrite nodes_stack_cons. lia.
      * destruct (IH (l :: r :: st) nl) as (cst' & shn & nl' & E & Q & N & L).
        { rewrite !nodes_stack_cons. lia. }
        exists cst', shn, nl'. split; [exact E|]. split; [|split; [exact N|]].
        -- rewrite <- Q, (cstack_inner _ _ _ _ _ _ _ _ Sh). reflexivity.
        -- rewrite !nodes_stack_cons in *. cbn [nodes]. lia.
Qed.

Definition nk_eqb (a b : Z * Z) : bool := (fst a =? fst b) && (snd a =? snd b).
Lemma nk_eqb_eq a b : nk_eqb a b = true <-> a = b.
Proof.
  destruct a as [a1 a2], b as [b1 b2]. unfold nk_eqb. cbn [fst snd].
  rewrite andb_true_iff, !Z.eqb_eq. split; [intros [-> ->]; reflexivity|intros E; inversion E; auto].
Qed.

Lemma same_node_nk a b : same_node a b = true <-> nk a = nk b.
Proof. exact (nk_eqb_eq (nk a) (nk b)). Qed.

Lemma cons_eq_inv {A} (a b : A) l m : a :: l = b :: m -> a = b /\ l = m.
Proof. intros E. inversion E. auto. Qed.

Section MachineMerge.
  Variable pv : Z.
  Variable sh : Z * Z -> bool.
  Variable cfuel : nat.

  Lemma tail_ok_state shn cst : (shn = None -> cst = []) -> tail_ok (oshared shn ++ cstack pv cst).
  Proof.
    intros N. destruct shn as [s|]; cbn [oshared app].
    - right. eauto.
    - left. rewrite (N eq_refl). reflexivity.
  Qed.

  (** the walks agree on the shared subtrees they still have to meet, and the previous walk
      recognises every one of them; the new leaves collected so far do not enter into it *)
  Lemma main_loop_spec fuel : forall pst cst shn nl,
    (nodes_stack pst < fuel)%nat -> (nodes_stack cst < cfuel)%nat ->
    (shn = None -> cst = []) ->
    map nk (pshared (pstack sh pst)) = map nk (cshared (oshared shn ++ cstack pv cst)) ->
    (forall s, In s (cshared (oshared shn ++ cstack pv cst)) -> sh (nk s) = true) ->
    main_loop fuel cfuel pv pst cst shn nl =
      Some (b_loop (pstack sh pst) (map cnew nl ++ oshared shn ++ cstack pv cst)).
  Proof.
    induction fuel as [|f IH]; intros pst cst shn nl Hf Hc N AL SH; [lia|].
    pose proof (tail_ok_state shn cst N) as TO.
    destruct pst as [|t st]; cbn [main_loop].
    - change (pstack sh []) with (@nil pitem). cbn [b_loop]. rewrite (b_flush_news _ _ TO). reflexivity.
    - rewrite nodes_stack_cons in Hf. pose proof (nodes_pos t) as Pt.
      destruct (sh (nk t)) eqn:St.
      + (* the walk of the previous tree meets a recognised subtree: it is the current one *)
        rewrite (pstack_shared _ _ _ St) in *. cbn [pshared map] in AL.
        destruct shn as [s|].
        2:{ rewrite (N eq_refl) in AL. discriminate AL. }
        cbn [oshared app cshared map] in AL, SH. apply cons_eq_inv in AL. destruct AL as [E1 AL].
        rewrite (proj2 (same_node_nk t s) E1). cbn [ni_next].
        destruct (adv_loop_spec pv cfuel cst [] Hc) as (cst' & shn' & nl' & EA & Q & N' & L).
        rewrite EA. cbn [map app] in Q.
        assert (Q' : cshared (cstack pv cst) = cshared (oshared shn' ++ cstack pv cst'))
          by (rewrite Q; apply cshared_news).
        rewrite (IH st cst' shn' nl'); try lia; auto.
        * cbn [option_map b_loop oshared app].
          rewrite (b_flush_news nl (CShared s :: cstack pv cst)) by (right; eauto).
          rewrite Q. reflexivity.
        * rewrite <- Q'. exact AL.
        * intros x I. apply SH. right. rewrite Q'. exact I.
      + assert (Sm : match shn with Some s => same_node t s | None => false end = false).
        { destruct shn as [s|]; [|reflexivity].
          destruct (same_node t s) eqn:Sm; [|reflexivity]. apply same_node_nk in Sm.
          rewrite Sm, SH in St; [discriminate St|left; reflexivity]. }
        rewrite Sm. destruct t as [k v m|k h s0 m l r]; cbn [ni_next nodes] in *.
        * rewrite (pstack_leaf _ _ _ _ _ St) in *. cbn [pshared b_loop] in *.
          rewrite (b_orphan_news k nl _ TO).
          destruct (add_orphan k nl) as [e nl'] eqn:EO. cbn [fst snd].
          rewrite (IH st cst shn nl'); try lia; auto.
        * rewrite (pstack_inner _ _ _ _ _ _ _ _ St) in *.
          apply IH; auto. rewrite !nodes_stack_cons. lia.
  Qed.
End MachineMerge.

Lemma cstack_new pv cur : cstack pv (ni_new cur) = map cof (owalk (old_at pv) cur).
Proof. unfold cstack. rewrite swalk_new. reflexivity. Qed.
Lemma pstack_new sh prev : pstack sh (ni_new prev) = map pof (owalk (fun t => sh (nk t)) prev).
Proof. unfold pstack. rewrite swalk_new. reflexivity. Qed.

Lemma extract_b_loop pv sh prev cur :
  let wp := owalk (fun t => sh (nk t)) prev in
  let wc := owalk (old_at pv) cur in
  map nk (tops wp) = map nk (tops wc) ->
  (forall s, In s (tops wc) -> sh (nk s) = true) ->
  extract pv prev cur = Some (b_loop (map pof wp) (map cof wc)).
Proof.
  intros wp wc AL SH. unfold extract.
  destruct (adv_loop_spec pv _ _ [] (nodes_stack_new cur)) as (cst' & shn' & nl' & EA & Q & N' & L).
  rewrite EA. cbn [map app] in Q. rewrite cstack_new in Q. fold wc in Q.
  assert (Q' : tops wc = cshared (oshared shn' ++ cstack pv cst'))
    by (rewrite <- cshared_cof, Q; apply cshared_news).
  pose proof (nodes_stack_new cur). pose proof (nodes_stack_new prev).
  rewrite (main_loop_spec pv sh), pstack_new, Q; auto; try lia.
  - rewrite pstack_new, pshared_pof, <- Q'. exact AL.
  - rewrite <- Q'. exact SH.
Qed.

(** * The item-level merge on ordered, aligned item sequences *)
Lemma b_loop_nil_new k v cs : b_loop [] (CNew k v :: cs) = CSet k v :: b_loop [] cs.
Proof. cbn [b_loop b_flush]. destruct (b_flush cs). reflexivity. Qed.
Lemma b_loop_orph_new k ps k' v cs :
  b_loop (POrph k :: ps) (CNew k' v :: cs) =
    match bcmp k k' with
    | Gt => CSet k' v :: b_loop (POrph k :: ps) cs
    | Lt => CDel k :: b_loop ps (CNew k' v :: cs)
    | Eq => CSet k' v :: b_loop ps cs
    end.
Proof.
  cbn [b_loop b_orphan]. destruct (bcmp k k'); try reflexivity.
  destruct (b_orphan k cs). reflexivity.
Qed.
Lemma b_loop_orph_shared k ps s cs :
  b_loop (POrph k :: ps) (CShared s :: cs) = CDel k :: b_loop ps (CShared s :: cs).
Proof. reflexivity. Qed.
Lemma b_loop_orph_nil k ps : b_loop (POrph k :: ps) [] = CDel k :: b_loop ps [].
Proof. reflexivity. Qed.
Lemma b_loop_sh_new x ps k' v cs :
  b_loop (PShared x :: ps) (CNew k' v :: cs) = CSet k' v :: b_loop (PShared x :: ps) cs.
Proof. cbn [b_loop b_flush]. destruct (b_flush cs). reflexivity. Qed.
Lemma b_loop_sh_shared x ps s cs : b_loop (PShared x :: ps) (CShared s :: cs) = b_loop ps cs.
Proof. reflexivity. Qed.

(** [out] is what the merge owes for the remaining items [ps] of the previous and [cs] of the
    current tree: in key order, a set for every new leaf, a removal for every orphan whose key
    is not written *)
Definition out_spec (ps : list pitem) (cs : list citem) (out : list change) : Prop :=
  ksorted (map ckey out) /\
  (forall k v, In (CSet k v) out <-> In (CNew k v) cs) /\
  (forall k, In (CDel k) out <-> In (POrph k) ps /\ ~ In k (map fst (cnews cs))).

Definition before (k : bytes) (ps : list pitem) (cs : list citem) : Prop :=
  (forall x, In x (map pk ps) -> k <b x) /\ (forall x, In x (map ck cs) -> k <b x).

Lemma news_keys_ck a cs : In a (map fst (cnews cs)) -> In a (map ck cs).
Proof.
  intros I. apply in_map_iff in I. destruct I as ([k v] & <- & I). apply cnews_In in I.
  apply in_map_iff. exists (CNew k v). auto.
Qed.
Lemma orph_keys_pk a ps : In (POrph a) ps -> In a (map pk ps).
Proof. intros I. apply in_map_iff. exists (POrph a). auto. Qed.
Lemma cshared_ck s cs : In s (cshared cs) -> In (min_key s) (map ck cs).
Proof.
  induction cs as [|[k v|s'] cs IH]; cbn [cshared map ck In]; [tauto|auto|]. intros [->|I]; auto.
Qed.
Lemma pshared_pk s ps : In s (pshared ps) -> In (min_key s) (map pk ps).
Proof.
  induction ps as [|[k|s'] ps IH]; cbn [pshared map pk In]; [tauto|auto|]. intros [->|I]; auto.
Qed.

Lemma out_cons_sorted c ps cs out :
  out_spec ps cs out -> before (ckey c) ps cs -> ksorted (map ckey (c :: out)).
Proof.
  intros (S & HS & HD) [Bp Bc]. cbn [map ksorted]. split; [|exact S].
  apply Forall_forall. intros x I. apply in_map_iff in I. destruct I as ([k v|k] & <- & I); cbn [ckey].
  - apply Bc. apply HS in I. apply in_map_iff. exists (CNew k v). auto.
  - apply Bp, orph_keys_pk, HD, I.
Qed.

Lemma out_spec_written k ps cs out :
  out_spec ps cs out -> In k (map fst (cnews cs)) -> out_spec (POrph k :: ps) cs out.
Proof.
  intros (S & HS & HD) W. split; [exact S|]. split; [exact HS|].
  intros a. rewrite HD. cbn [In]. split; [tauto|].
  intros [[E|I] N]; [|tauto]. inversion E; subst a. tauto.
Qed.

Lemma out_spec_set k v ps cs out :
  out_spec ps cs out -> before k ps cs -> out_spec ps (CNew k v :: cs) (CSet k v :: out).
Proof.
  intros O B. split; [exact (out_cons_sorted (CSet k v) _ _ _ O B)|].
  destruct O as (_ & HS & HD). destruct B as [Bp _]. split.
  - intros a b. cbn [In]. rewrite HS. split; intros [E|I]; auto; left; congruence.
  - intros a. cbn [In cnews map fst]. rewrite HD. split.
    + intros [E|[I N]]; [discriminate E|]. split; [exact I|]. intros [<-|I2]; [|auto].
      pose proof (Bp _ (orph_keys_pk _ _ I)). border.
    + intros [I N]. right. tauto.
Qed.

Lemma out_spec_del k ps cs out :
  out_spec ps cs out -> before k ps cs -> out_spec (POrph k :: ps) cs (CDel k :: out).
Proof.
  intros O B. split; [exact (out_cons_sorted (CDel k) _ _ _ O B)|].
  destruct O as (_ & HS & HD). destruct B as [_ Bc]. split.
  - intros a b. cbn [In]. rewrite HS. split; [intros [E|I]; [discriminate E|exact I]|auto].
  - intros a. cbn [In]. rewrite HD. split.
    + intros [E|[I N]]; [|tauto]. inversion E; subst a. split; [left; reflexivity|].
      intros I. pose proof (Bc _ (news_keys_ck _ _ I)). border.
    + intros [[E|I] N]; [left; congruence|tauto].
Qed.

Lemma out_spec_upd k v ps cs out :
  out_spec ps cs out -> before k ps cs ->
  out_spec (POrph k :: ps) (CNew k v :: cs) (CSet k v :: out).
Proof. intros O B. apply out_spec_written; [apply out_spec_set; assumption|left; reflexivity]. Qed.

Lemma out_spec_skip x s ps cs out :
  out_spec ps cs out -> out_spec (PShared x :: ps) (CShared s :: cs) out.
Proof.
  intros (S & HS & HD). split; [exact S|]. split.
  - intros a b. rewrite HS. cbn [In]. split; [auto|intros [E|I]; [discriminate E|exact I]].
  - intros a. rewrite HD. cbn [In cnews].
    split; [intros [I N]; auto|intros [[E|I] N]; [discriminate E|auto]].
Qed.

Lemma b_loop_props ps : forall cs,
  ksorted (map ck cs) -> ksorted (map pk ps) -> pshared ps = cshared cs ->
  out_spec ps cs (b_loop ps cs).
Proof.
  induction ps as [|p ps IHp]; induction cs as [|c cs IHc]; intros Sc Sp AL; cbn [map] in Sc, Sp.
  - cbn. repeat split; tauto.
  - (* the previous tree is exhausted: only new leaves can remain *)
    destruct c as [k v|s]; [|discriminate AL]. destruct Sc as [Hc Sc]. rewrite Forall_forall in Hc.
    rewrite b_loop_nil_new. apply out_spec_set; [apply IHc; assumption|].
    split; [intros x []|exact Hc].
  - destruct p as [k|x]; [|discriminate AL]. destruct Sp as [Hp Sp]. rewrite Forall_forall in Hp.
    rewrite b_loop_orph_nil. apply out_spec_del; [apply IHp; assumption|].
    split; [exact Hp|intros x []].
  - pose proof (ksorted_tail _ _ Sc) as Sc'. pose proof (ksorted_tail _ _ Sp) as Sp'.
    pose proof (fun x => ksorted_head _ _ x Sc) as Hc. pose proof (fun x => ksorted_head _ _ x Sp) as Hp.
    destruct p as [k|x]; destruct c as [k' v|s]; cbn [pk ck pshared cshared] in *.
    + rewrite b_loop_orph_new. bcases k k'.
      * (* same key: an update *)
        subst k'. apply out_spec_upd; [apply IHp; assumption|split; assumption].
      * (* the orphan is smaller: a removal *)
        apply out_spec_del; [apply IHp; assumption|].
        split; [exact Hp|intros x; exact (ksorted_before _ _ _ _ E Sc)].
      * (* the new leaf is smaller: an insertion, the orphan stays *)
        apply out_spec_set; [apply IHc; assumption|].
        split; [intros x; exact (ksorted_before _ _ _ _ E Sp)|exact Hc].
    + (* the current walk waits at a shared subtree: a removal *)
      rewrite b_loop_orph_shared. apply out_spec_del; [apply IHp; assumption|].
      assert (Ks : k <b min_key s) by (apply Hp, pshared_pk; rewrite AL; left; reflexivity).
      split; [exact Hp|intros y; exact (ksorted_before _ _ _ _ Ks Sc)].
    + (* the previous walk waits at the shared subtree: an insertion *)
      rewrite b_loop_sh_new. apply out_spec_set; [apply IHc; assumption|].
      assert (Kx : k' <b min_key x) by (apply Hc, cshared_ck; rewrite <- AL; left; reflexivity).
      split; [intros y; exact (ksorted_before _ _ _ _ Kx Sp)|exact Hc].
    + (* both walks are at the shared subtree *)
      rewrite b_loop_sh_shared. apply cons_eq_inv in AL.
      apply out_spec_skip, IHp; [assumption|assumption|apply AL].
Qed.

(** * How the two walks line up *)

Definition shared_keys (pv : Z) (cur : option node) : Z * Z -> bool :=
  fun key => existsb (fun s => nk_eqb (nk s) key) (tops (owalk (old_at pv) cur)).

Lemma shared_keys_spec pv cur key :
  shared_keys pv cur key = true <-> exists s, In s (tops (owalk (old_at pv) cur)) /\ nk s = key.
Proof.
  unfold shared_keys. rewrite existsb_exists. split; intros (s & I & E); exists s; split; auto;
    apply nk_eqb_eq; exact E.
Qed.

Definition shared_in_prev (pv : Z) (prev cur : option node) : Prop :=
  forall s, osubtree s cur -> ver (nmeta s) <= pv -> osubtree s prev.
Definition keys_identify (prev cur : option node) : Prop :=
  forall x y, osubtree x prev -> osubtree y cur -> nk x = nk y -> x = y.

(** the walk of the previous tree meets exactly the topmost shared subtrees of the current
    tree, in the same order *)
Theorem walks_aligned pv prev cur :
  owf prev -> owf cur -> shared_in_prev pv prev cur -> keys_identify prev cur ->
  tops (owalk (fun t => shared_keys pv cur (nk t)) prev) = tops (owalk (old_at pv) cur).
Proof.
  intros Wp Wc SP KI. set (sh := fun t => shared_keys pv cur (nk t)).
  assert (Fwd : forall x, In x (tops (owalk sh prev)) -> In x (tops (owalk (old_at pv) cur))).
  { intros x I. destruct (otops_sub _ _ _ I) as [Sx Shx].
    apply shared_keys_spec in Shx. destruct Shx as (s & Is & E).
    destruct (otops_sub _ _ _ Is) as [Ss _].
    rewrite (KI x s Sx Ss (eq_sym E)). exact Is. }
  apply (ksorted_ext min_key).
  - apply tops_sorted, owalk_sorted, Wp.
  - apply tops_sorted, owalk_sorted, Wc.
  - intros x. split; [apply Fwd|]. intros I.
    destruct (otops_sub _ _ _ I) as [Sx Vx]. apply Z.leb_le in Vx.
    assert (Shx : sh x = true) by (apply shared_keys_spec; eauto).
    destruct (otop_or_below sh prev x Shx (SP x Sx Vx)) as [J|(a & J & Sb & Lt)]; [exact J|].
    exfalso. pose proof (otops_antichain _ _ a x Wc (Fwd a J) I Sb). subst a. lia.
Qed.

(** ** Theorem 2: the two-iterator merge computes the net change *)
Theorem extract_is_net pv prev cur :
  owf prev -> owf cur -> over_mono cur ->
  shared_in_prev pv prev cur -> keys_identify prev cur ->
  extract pv prev cur = Some (net prev cur pv).
Proof.
  intros Wp Wc VM SP KI. set (sh := shared_keys pv cur).
  set (wp := owalk (fun t => sh (nk t)) prev). set (wc := owalk (old_at pv) cur).
  pose proof (walks_aligned pv prev cur Wp Wc SP KI) as AL. fold sh wp wc in AL.
  assert (News : leaves wc = sets_of pv cur) by (apply oleaves_sets, VM).
  rewrite (extract_b_loop pv sh); fold wp wc.
  2:{ rewrite AL. reflexivity. }
  2:{ intros s I. apply shared_keys_spec. eauto. }
  f_equal.
  destruct (b_loop_props (map pof wp) (map cof wc)) as (OS & HS & HD).
  { rewrite ck_cof. apply owalk_sorted, Wc. }
  { rewrite pk_pof. apply owalk_sorted, Wp. }
  { rewrite pshared_pof, cshared_cof. exact AL. }
  apply (ksorted_ext ckey); [exact OS|apply net_sorted; assumption|].
  intros [k v|k].
  - rewrite HS, net_set_In, <- News, <- cnews_In, cnews_cof. reflexivity.
  - (* the two trees have the same keys below the shared subtrees; the other keys are those
       their walks meet, and a key met in [prev] is not below a shared subtree *)
    rewrite HD, net_del_In, dels_In, <- porphs_In, porphs_pof, cnews_cof, News.
    rewrite (okeys_split (fun t => sh (nk t)) prev), (okeys_split (old_at pv) cur).
    fold wp wc. rewrite AL, News.
    pose proof (fun s => oleaf_not_below_top (fun t => sh (nk t)) prev k s Wp) as NB.
    fold wp in NB. rewrite AL in NB.
    split.
    + intros [Io Nn]. split; [left; exact Io|].
      intros [Ic|(s & J & K)]; [exact (Nn Ic)|exact (NB s Io J K)].
    + intros [[Io|(s & J & K)] Nc]; [split; [exact Io|tauto]|]. destruct Nc. right. eauto.
Qed.

(** ** Decidable versions of the hypotheses (to instantiate the theorems on concrete trees) *)
Fixpoint subtrees (t : node) : list node :=
  t :: match t with
       | Leaf _ _ _ => []
       | Inner _ _ _ _ l r => subtrees l ++ subtrees r
       end.
Definition osubtrees (o : option node) : list node :=
  match o with None => [] | Some t => subtrees t end.

Lemma subtrees_spec s t : In s (subtrees t) <-> subtree s t.
Proof.
  induction t as [k v m|k h z m l IHl r IHr]; cbn [subtrees subtree In].
  - split; intros [E|[]]; left; congruence.
  - rewrite in_app_iff, IHl, IHr. split; intros [E|S]; auto; left; congruence.
Qed.
Lemma osubtrees_spec s o : In s (osubtrees o) <-> osubtree s o.
Proof. destruct o; cbn [osubtrees osubtree In]; [apply subtrees_spec|tauto]. Qed.

Definition bytes_eq_dec : forall a b : bytes, {a = b} + {a <> b} := list_eq_dec N.eq_dec.
Definition meta_eq_dec (a b : meta) : {a = b} + {a <> b}.
Proof. decide equality; [apply bytes_eq_dec|apply Z.eq_dec|apply Z.eq_dec]. Defined.
Definition node_eq_dec (a b : node) : {a = b} + {a <> b}.
Proof. decide equality; try apply bytes_eq_dec; try apply meta_eq_dec; apply Z.eq_dec. Defined.
Definition node_eqb (a b : node) : bool := if node_eq_dec a b then true else false.
Lemma node_eqb_eq a b : node_eqb a b = true <-> a = b.
Proof. unfold node_eqb. destruct (node_eq_dec a b); split; congruence. Qed.

Definition shared_in_prev_b (pv : Z) (prev cur : option node) : bool :=
  forallb (fun s => (pv <? ver (nmeta s)) || existsb (node_eqb s) (osubtrees prev)) (osubtrees cur).
Definition keys_identify_b (prev cur : option node) : bool :=
  forallb (fun x => forallb (fun y => negb (nk_eqb (nk x) (nk y)) || node_eqb x y) (osubtrees cur))
          (osubtrees prev).
Fixpoint ver_mono_b (t : node) : bool :=
  match t with
  | Leaf _ _ _ => true
  | Inner _ _ _ m l r =>
      (ver (nmeta l) <=? ver m) && (ver (nmeta r) <=? ver m) && ver_mono_b l && ver_mono_b r
  end.
Definition over_mono_b (t : option node) : bool :=
  match t with None => true | Some n => ver_mono_b n end.

Lemma shared_in_prev_b_sound pv prev cur :
  shared_in_prev_b pv prev cur = true -> shared_in_prev pv prev cur.
Proof.
  unfold shared_in_prev_b, shared_in_prev. rewrite forallb_forall. intros F s S V.
  apply osubtrees_spec in S. specialize (F s S). apply orb_true_iff in F. destruct F as [F|F].
  - apply Z.ltb_lt in F. lia.
  - apply existsb_exists in F. destruct F as (x & I & E). apply node_eqb_eq in E. subst x.
    apply osubtrees_spec, I.
Qed.

Lemma keys_identify_b_sound prev cur :
  keys_identify_b prev cur = true -> keys_identify prev cur.
Proof.
  unfold keys_identify_b, keys_identify. rewrite forallb_forall. intros F x y Sx Sy E.
  apply osubtrees_spec in Sx, Sy. specialize (F x Sx). rewrite forallb_forall in F.
  specialize (F y Sy). apply orb_true_iff in F. destruct F as [F|F].
  - apply negb_true_iff in F. assert (nk_eqb (nk x) (nk y) = true) by (apply nk_eqb_eq, E). congruence.
  - apply node_eqb_eq, F.
Qed.

Lemma ver_mono_b_sound t : ver_mono_b t = true -> ver_mono t.
Proof.
  induction t as [k v m|k h z m l IHl r IHr]; cbn [ver_mono_b ver_mono]; [auto|].
  rewrite !andb_true_iff, !Z.leb_le. intros [[[A B] C] D]. auto.
Qed.
Lemma over_mono_b_sound t : over_mono_b t = true -> over_mono t.
Proof. destruct t; cbn [over_mono_b over_mono]; [apply ver_mono_b_sound|auto]. Qed.

(** the weaker hypothesis of Theorem 1 follows from persistent sharing *)
Lemma old_leaves_sub pv t p : In p (old_leaves pv t) ->
  exists m, subtree (Leaf (fst p) (snd p) m) t /\ ver m <= pv.
Proof.
  induction t as [k v m|k h z m l IHl r IHr]; cbn [old_leaves].
  - destruct (ver m <=? pv) eqn:E; [|intros []]. intros [<-|[]]. apply Z.leb_le in E.
    exists m. split; [left; reflexivity|exact E].
  - rewrite in_app_iff. cbn [subtree]. intros [I|I]; [destruct (IHl I) as (m0 & S & V)|destruct (IHr I) as (m0 & S & V)];
      exists m0; auto.
Qed.

Lemma shared_old_leaves pv prev cur :
  shared_in_prev pv prev cur -> forall p, In p (oold pv cur) -> In p (oelems prev).
Proof.
  intros SP p I. destruct cur as [c|]; [|destruct I]. cbn [oold] in I.
  destruct (old_leaves_sub pv c p I) as (m & S & V).
  pose proof (SP _ S V) as Sp. destruct prev as [q|]; [|destruct Sp]. cbn [osubtree oelems] in *.
  apply (subtree_elems _ _ _ Sp). destruct p. left. reflexivity.
Qed.

(** * SaveChangeSet on the MutableTree machine *)

(** every removal finds its key when the pairs are applied left to right *)
Fixpoint cs_ok (cs : list change) (l : kvs) : Prop :=
  match cs with
  | [] => True
  | CSet k v :: r => cs_ok r (ins k v l)
  | CDel k :: r => mem k l = true /\ cs_ok r (del k l)
  end.

Lemma mem_apply_change_ne k c l : k <> ckey c -> mem k (apply_change c l) = mem k l.
Proof. intros NE. unfold mem. rewrite assoc_apply_change_ne by exact NE. reflexivity. Qed.

Lemma sorted_cs_ok cs : forall l,
  ksorted (map ckey cs) -> (forall k, In (CDel k) cs -> mem k l = true) -> cs_ok cs l.
Proof.
  induction cs as [|c cs IH]; intros l S D; cbn [cs_ok]; [exact I|].
  cbn [map] in S.
  assert (Rest : forall k, In (CDel k) cs -> mem k (apply_change c l) = true).
  { intros k I. rewrite mem_apply_change_ne; [apply D; right; exact I|].
    intros E. apply (ksorted_not_in _ _ S). rewrite <- E. apply (in_map ckey _ _ I). }
  destruct c as [k v|k]; cbn [apply_change] in Rest.
  - apply IH; [exact (ksorted_tail _ _ S)|exact Rest].
  - split; [apply D; left; reflexivity|]. apply IH; [exact (ksorted_tail _ _ S)|exact Rest].
Qed.

Lemma net_cs_ok pv prev cur : owf prev -> owf cur -> cs_ok (net prev cur pv) (oelems prev).
Proof.
  intros Wp Wc. apply sorted_cs_ok; [apply net_sorted; assumption|].
  intros k I. apply net_del_In, dels_In in I. apply mem_true_in, I.
Qed.

Lemma cs_ok_cons c cs l : cs_ok (c :: cs) l <-> cs_ok [c] l /\ cs_ok cs (apply_change c l).
Proof. destruct c; cbn [cs_ok apply_change]; tauto. Qed.

Lemma same_but_root_wv s s' : same_but_root s s' -> working_version s' = working_version s.
Proof. intros (V & _ & _ & IV & IS & _). unfold working_version. rewrite V, IV, IS. reflexivity. Qed.

Lemma working_version_unset s : init_set s = false -> working_version s = version s + 1.
Proof. intros E. unfold working_version. rewrite E, andb_false_r. reflexivity. Qed.

Definition stamp_root (H : bytes -> bytes) (wv : Z) (w : option node) : option node :=
  match w with None => None | Some n => Some (fst (stamp H wv 0 n)) end.

Section SaveChangeSet.
  Variable H : bytes -> bytes.

  Lemma stamp_not_new wv n t : wv <> 0 -> is_new (fst (stamp H wv n t)) = false.
  Proof.
    intros NZ. destruct t as [k v m|k h z m l r].
    - rewrite stamp_leaf. destruct (is_new (Leaf k v m)) eqn:E; cbn [negb fst]; [|exact E].
      unfold is_new. cbn [nmeta ver]. apply Z.eqb_neq, NZ.
    - rewrite stamp_inner. destruct (is_new (Inner k h z m l r)) eqn:E; cbn [negb fst]; [|exact E].
      destruct (stamp H wv (n + 1) l) as [l' n1]. destruct (stamp H wv n1 r) as [r' n2].
      cbn [fst]. unfold is_new. cbn [nmeta ver]. apply Z.eqb_neq, NZ.
  Qed.

  Definition saved_state (s : mstate) (r' : option node) : mstate * out :=
    (MState r' (working_version s) r' (forest s ++ [(working_version s, r')])
            (init_ver s) false (init_opt s),
     XPair (XBytes (Some (root_hash H (working_version s) r'))) (XInt (working_version s))).

  Definition onot_new (r : option node) : Prop :=
    match r with Some n => is_new n = false | None => True end.

  Lemma do_save_new s :
    lookup (working_version s) (forest s) = None ->
    do_save H s = saved_state s (stamp_root H (working_version s) (root s)).
  Proof. intros L. unfold do_save, version_exists, saved_state. cbv zeta. rewrite L. reflexivity. Qed.

  Lemma stamp_root_elems wv r : oelems (stamp_root H wv r) = oelems r.
  Proof. destruct r; cbn [stamp_root oelems]; [apply stamp_elems|reflexivity]. Qed.

  Lemma stamp_root_not_new wv r : wv <> 0 -> onot_new (stamp_root H wv r).
  Proof. intros NZ. destruct r; cbn [stamp_root onot_new]; [apply stamp_not_new, NZ|exact I]. Qed.

  Lemma saved_state_same s s1 r' : same_but_root s s1 -> saved_state s1 r' = saved_state s r'.
  Proof.
    intros SB. pose proof (same_but_root_wv _ _ SB) as WV. destruct SB as (_ & _ & F & IV & _ & IO).
    unfold saved_state. rewrite WV, F, IV, IO. reflexivity.
  Qed.

  Lemma apply_pairs_del k cs s :
    state_inv s ->
    apply_pairs H s (CDel k :: cs) =
      if mem k (oelems (root s)) then apply_pairs H (fst (do_remove s k)) cs
      else (fst (do_remove s k), XErr).
  Proof.
    intros I. destruct (do_remove_refines s k I) as (_ & O & _). cbn [apply_pairs step].
    destruct (do_remove s k) as [s1 o]. cbn [fst snd] in *. subst o.
    destruct (mem k (oelems (root s))); reflexivity.
  Qed.

  Lemma apply_pairs_step c s :
    state_inv s -> cs_ok [c] (oelems (root s)) ->
    exists s1,
      (forall cs, apply_pairs H s (c :: cs) = apply_pairs H s1 cs) /\
      state_inv s1 /\ same_but_root s s1 /\
      oelems (root s1) = apply_change c (oelems (root s)).
  Proof.
    intros I OK. destruct c as [k v|k]; cbn [cs_ok] in OK.
    - exists (fst (do_set s k v)). destruct (do_set_refines s k v I) as (E & _ & SB).
      split; [reflexivity|]. split; [apply do_set_inv, I|auto].
    - destruct OK as [M _]. destruct (do_remove_refines s k I) as (E & _ & SB).
      exists (fst (do_remove s k)). split; [|split; [apply do_remove_inv, I|auto]].
      intros cs. rewrite apply_pairs_del, M by exact I. reflexivity.
  Qed.

  Lemma apply_pairs_ok cs : forall s,
    state_inv s -> cs_ok cs (oelems (root s)) ->
    lookup (working_version s) (forest s) = None ->
    exists r',
      oelems r' = apply_changes cs (oelems (root s)) /\
      (working_version s <> 0 -> onot_new r') /\
      apply_pairs H s cs = saved_state s r'.
  Proof.
    induction cs as [|c cs IH]; intros s I OK L.
    - exists (stamp_root H (working_version s) (root s)).
      split; [apply stamp_root_elems|]. split; [apply stamp_root_not_new|apply do_save_new, L].
    - apply cs_ok_cons in OK. destruct OK as [OK1 OK].
      destruct (apply_pairs_step c s I OK1) as (s1 & ST & I1 & SB & E).
      pose proof (same_but_root_wv _ _ SB) as WV.
      destruct (IH s1 I1) as (r' & E' & NN & AP).
      { rewrite E. exact OK. }
      { destruct SB as (_ & _ & F & _). rewrite WV, F. exact L. }
      exists r'. rewrite ST, AP, <- WV. cbn [apply_changes]. rewrite <- E.
      auto using saved_state_same.
  Qed.

  Lemma apply_pairs_missing pre k post : forall s,
    state_inv s -> cs_ok pre (oelems (root s)) ->
    mem k (apply_changes pre (oelems (root s))) = false ->
    exists s',
      apply_pairs H s (pre ++ CDel k :: post) = (s', XErr) /\
      forest s' = forest s /\ version s' = version s /\
      oelems (root s') = apply_changes pre (oelems (root s)).
  Proof.
    induction pre as [|c pre IH]; intros s I OK M; cbn [app apply_changes] in *.
    - rewrite apply_pairs_del, M by exact I. destruct (do_remove_refines s k I) as (E & _ & V & _ & F & _).
      exists (fst (do_remove s k)). repeat split; auto.
      rewrite E. apply del_absent, assoc_notin, mem_false_notin, M.
    - apply cs_ok_cons in OK. destruct OK as [OK1 OK].
      destruct (apply_pairs_step c s I OK1) as (s1 & ST & I1 & SB & E).
      destruct (IH s1 I1) as (s' & AP & F' & V' & E').
      { rewrite E. exact OK. }
      { rewrite E. exact M. }
      destruct SB as (V & _ & F & _).
      exists s'. rewrite ST, AP, F', V', E', E, F, V. auto.
  Qed.

  Lemma apply_pairs_inv cs : forall s, state_inv s -> state_inv (fst (apply_pairs H s cs)).
  Proof.
    induction cs as [|c cs IH]; intros s I.
    - apply step_inv, I.
    - destruct c as [k v|k].
      + apply IH, step_inv, I.
      + rewrite apply_pairs_del by exact I.
        destruct (mem k (oelems (root s))); [apply IH|]; apply do_remove_inv, I.
  Qed.

  (** ** Theorem 3: saving the net change of a version on top of its predecessor's contents
      creates one new version with that version's contents. *)
  Theorem save_change_set_net pv prev cur s :
    state_inv s -> root_is_new s = false ->
    oelems (root s) = oelems prev ->
    lookup (working_version s) (forest s) = None ->
    owf prev -> owf cur -> (forall p, In p (oold pv cur) -> In p (oelems prev)) ->
    exists r',
      apply_cs H s (net prev cur pv) = saved_state s r' /\
      oelems r' = oelems cur /\ (working_version s <> 0 -> onot_new r').
  Proof.
    intros I NN E L Wp Wc Old. unfold apply_cs. rewrite NN.
    destruct (apply_pairs_ok (net prev cur pv) s I) as (r' & E' & N' & AP).
    - rewrite E. apply net_cs_ok; assumption.
    - exact L.
    - exists r'. split; [exact AP|]. split; [|exact N'].
      rewrite E', E. apply apply_net; assumption.
  Qed.

  Theorem save_change_set_missing pre k post s :
    state_inv s -> root_is_new s = false ->
    cs_ok pre (oelems (root s)) ->
    mem k (apply_changes pre (oelems (root s))) = false ->
    exists s',
      apply_cs H s (pre ++ CDel k :: post) = (s', XErr) /\
      forest s' = forest s /\ version s' = version s /\
      oelems (root s') = apply_changes pre (oelems (root s)).
  Proof.
    intros I NN OK M. unfold apply_cs. rewrite NN. apply apply_pairs_missing; assumption.
  Qed.

  Theorem save_change_set_dirty s cs : root_is_new s = true -> apply_cs H s cs = (s, XErr).
  Proof. intros E. unfold apply_cs. rewrite E. reflexivity. Qed.
End SaveChangeSet.

(** * Replaying the net changes of versions 1..n into an empty tree *)

(** the net changes of the consecutive trees [t; ts], the first one being version [j + 1] *)
Fixpoint nets (j : Z) (t : option node) (ts : list (option node)) : list (list change) :=
  match ts with
  | [] => []
  | t' :: r => net t t' j :: nets (j + 1) t' r
  end.

(** consecutive versions: well-formed, and a leaf not created in version [j + 1] is a leaf
    of version [j] *)
Fixpoint chain (j : Z) (t : option node) (ts : list (option node)) : Prop :=
  match ts with
  | [] => True
  | t' :: r =>
      owf t' /\ (forall p, In p (oold j t') -> In p (oelems t)) /\ chain (j + 1) t' r
  end.

Lemma nth_error_nets ts : forall j t i a b,
  nth_error (t :: ts) i = Some a -> nth_error ts i = Some b ->
  nth_error (nets j t ts) i = Some (net a b (j + Z.of_nat i)).
Proof.
  induction ts as [|t1 ts IH]; intros j t [|i] a b Qa Qb; try discriminate Qb; cbn [nets nth_error] in *.
  - inversion Qa. inversion Qb. f_equal. f_equal. lia.
  - rewrite (IH _ _ _ _ _ Qa Qb). f_equal. f_equal. lia.
Qed.

Section Replay.
  Variable H : bytes -> bytes.

  Definition saved_out (o : out) (v : Z) : Prop := exists h, o = XPair (XBytes (Some h)) (XInt v).

  (** the state into which the change set of version [j + 1] is saved: version [j] with the
      contents of [t], nothing uncommitted, no later version *)
  Record replay_inv (j : Z) (t : option node) (s : mstate) : Prop := {
    ri_inv : state_inv s;
    ri_set : init_set s = false;
    ri_ver : version s = j;
    ri_saved : root_is_new s = false;
    ri_elems : oelems (root s) = oelems t;
    ri_top : forall w, j < w -> lookup w (forest s) = None;
    ri_wf : owf t
  }.

  Lemma replay_step j t t' s :
    replay_inv j t s -> owf t' -> (forall p, In p (oold j t') -> In p (oelems t)) ->
    exists s1 r' o,
      apply_cs H s (net t t' j) = (s1, o) /\ saved_out o (j + 1) /\ replay_inv (j + 1) t' s1 /\
      forest s1 = forest s ++ [(j + 1, r')] /\ oelems r' = oelems t'.
  Proof.
    intros [I IS V NN E Fr Wt] Wt' Old. pose proof (inv_version s I) as V0.
    pose proof (working_version_unset s IS) as WV. rewrite V in WV.
    assert (L : lookup (j + 1) (forest s) = None) by (apply Fr; lia).
    destruct (save_change_set_net H j t t' s I NN E) as (r' & AP & E' & N'); auto.
    { rewrite WV. exact L. }
    pose proof (apply_pairs_inv H (net t t' j) s I) as I1.
    unfold apply_cs in AP. rewrite NN in AP. rewrite AP in I1.
    unfold apply_cs. rewrite NN, AP. unfold saved_state in *. rewrite WV in *.
    eexists. exists r'. eexists. split; [reflexivity|]. split; [eexists; reflexivity|].
    split; [|split; [reflexivity|exact E']].
    constructor; cbn [init_set version root forest]; auto.
    - unfold root_is_new. cbn [root]. specialize (N' ltac:(lia)). destruct r'; cbn [onot_new] in N'; auto.
    - intros w Hw. rewrite (lookup_snoc w (j + 1) r' _ L). replace (w =? j + 1) with false by lia.
      apply Fr. lia.
  Qed.

  Lemma replay_general ts : forall j t s,
    replay_inv j t s -> chain j t ts ->
    let res := replay H s (nets j t ts) in
    (forall i t' w, nth_error ts i = Some t' -> w = j + 1 + Z.of_nat i ->
       exists r, lookup w (forest (fst res)) = Some r /\ oelems r = oelems t') /\
    (forall i t' w, nth_error ts i = Some t' -> w = j + 1 + Z.of_nat i ->
       exists o, nth_error (snd res) i = Some o /\ saved_out o w) /\
    (forall w a, lookup w (forest s) = Some a -> lookup w (forest (fst res)) = Some a).
  Proof.
    induction ts as [|t' ts IH]; intros j t s RI Ch; cbn [nets replay].
    - cbn [fst snd]. repeat split; auto; intros [|i] x w Q; discriminate Q.
    - destruct Ch as (Wt' & Old & Ch).
      destruct (replay_step j t t' s RI Wt' Old) as (s1 & r' & o & AP & SO & RI1 & F1 & E').
      rewrite AP. specialize (IH (j + 1) t' s1 RI1 Ch).
      destruct (replay H s1 (nets (j + 1) t' ts)) as [s2 xs]. cbn [fst snd] in *.
      destruct IH as (C & O & K).
      assert (L1 : lookup (j + 1) (forest s1) = Some r').
      { rewrite F1, lookup_snoc by (apply (ri_top _ _ _ RI); lia). rewrite Z.eqb_refl. reflexivity. }
      split; [|split].
      + intros [|i] x w Q ->; cbn [nth_error] in Q.
        * inversion Q; subst x. exists r'. split; [|exact E']. rewrite Z.add_0_r. apply K, L1.
        * apply (C i x _ Q). lia.
      + intros [|i] x w Q ->; cbn [nth_error] in Q |- *.
        * exists o. split; [reflexivity|]. rewrite Z.add_0_r. exact SO.
        * apply (O i x _ Q). lia.
      + intros w a Lw. apply K. rewrite F1, lookup_app, Lw. reflexivity.
  Qed.

  (** ** Theorem 4: replaying the net changes of versions 1..n into an empty tree reproduces
      every version's contents *)
  Theorem replay_contents ts :
    chain 0 None ts ->
    let res := replay H (init_state 0 false) (nets 0 None ts) in
    forall i t, nth_error ts i = Some t ->
      (exists r, lookup (Z.of_nat i + 1) (forest (fst res)) = Some r /\ oelems r = oelems t) /\
      (exists o, nth_error (snd res) i = Some o /\ saved_out o (Z.of_nat i + 1)).
  Proof.
    intros Ch res i t Q.
    assert (RI : replay_inv 0 None (init_state 0 false)).
    { constructor; auto; try exact Logic.I. apply state_inv_init. lia. }
    destruct (replay_general ts 0 None _ RI Ch) as (C & O & _).
    split; [apply (C i t _ Q)|apply (O i t _ Q)]; lia.
  Qed.
End Replay.

(** * The fuel of [extract] always suffices *)
Lemma main_loop_total pv cfuel fuel : forall pst cst shn nl,
  (nodes_stack pst < fuel)%nat -> (nodes_stack cst < cfuel)%nat ->
  exists cs, main_loop fuel cfuel pv pst cst shn nl = Some cs.
Proof.
  induction fuel as [|f IH]; intros pst cst shn nl Hf Hc; [lia|].
  destruct pst as [|t st]; cbn [main_loop]; [eauto|].
  rewrite nodes_stack_cons in Hf. pose proof (nodes_pos t) as Pt.
  destruct (match shn with Some s => same_node t s | None => false end).
  - cbn [ni_next].
    destruct (adv_loop_spec pv cfuel cst [] Hc) as (cst' & shn' & nl' & EA & _ & _ & L).
    rewrite EA. destruct (IH st cst' shn' nl') as (cs & E); try lia. rewrite E. cbn [option_map]. eauto.
  - destruct t as [k v m|k h z m l r]; cbn [ni_next].
    + destruct (add_orphan k nl) as [e nl'].
      destruct (IH st cst shn nl') as (cs & E); try lia. rewrite E. cbn [option_map]. eauto.
    + apply IH; [|exact Hc]. rewrite !nodes_stack_cons. cbn [nodes] in Hf. lia.
Qed.

Theorem extract_total pv prev cur : exists cs, extract pv prev cur = Some cs.
Proof.
  unfold extract. pose proof (nodes_stack_new cur) as Nc.
  destruct (adv_loop_spec pv _ _ [] Nc) as (cst' & shn' & nl' & EA & _ & _ & L).
  rewrite EA. apply main_loop_total; [apply nodes_stack_new|lia].
Qed.

(** * Fragments of Theorem 2 with their hypotheses discharged *)

Definition diff_hyps_b (pv : Z) (prev cur : option node) : bool :=
  shared_in_prev_b pv prev cur && keys_identify_b prev cur && over_mono_b cur.

Corollary extract_is_net_b pv prev cur :
  owf prev -> owf cur -> diff_hyps_b pv prev cur = true ->
  extract pv prev cur = Some (net prev cur pv).
Proof.
  intros Wp Wc Hb. unfold diff_hyps_b in Hb. apply andb_true_iff in Hb. destruct Hb as [Hb C].
  apply andb_true_iff in Hb. destruct Hb as [A B].
  apply extract_is_net; auto.
  - apply over_mono_b_sound, C.
  - apply shared_in_prev_b_sound, A.
  - apply keys_identify_b_sound, B.
Qed.

Corollary extract_first_version pv cur :
  owf cur -> (forall s, osubtree s cur -> pv < ver (nmeta s)) -> over_mono cur ->
  extract pv None cur = Some (map cset (oelems cur)).
Proof.
  intros Wc New VM. rewrite extract_is_net; auto.
  - f_equal. unfold net, dels_of. cbn [oelems map filter]. rewrite merge_nil_r. f_equal.
    destruct cur as [c|]; [|reflexivity]. cbn [sets_of oelems].
    assert (G : forall t, (forall s, subtree s t -> pv < ver (nmeta s)) -> new_leaves pv t = elems t).
    { induction t as [k v m|k h z m l IHl r IHr]; intros N; cbn [new_leaves elems].
      - specialize (N _ (subtree_refl _)). cbn [nmeta] in N.
        replace (ver m <=? pv) with false by lia. reflexivity.
      - rewrite IHl, IHr; auto; intros s S; apply N; cbn [subtree]; auto. }
    apply G. exact New.
  - exact Logic.I.
  - intros s S V. specialize (New s S). lia.
  - intros x y [].
Qed.

Corollary extract_noop pv t :
  owf t -> (forall s, osubtree s t -> ver (nmeta s) <= pv) -> over_mono t ->
  (forall x y, osubtree x t -> osubtree y t -> nk x = nk y -> x = y) ->
  extract pv t t = Some [].
Proof.
  intros W Old VM KI. rewrite extract_is_net; auto.
  - f_equal. apply (ksorted_ext ckey); [apply net_sorted; auto|exact Logic.I|].
    intros c. split; [|intros []]. intros I. destruct c as [k v|k].
    + apply net_set_In in I. destruct t as [n|]; [|destruct I]. cbn [sets_of] in I.
      rewrite ver_mono_old in I; [destruct I|exact VM|]. apply Old. apply subtree_refl.
    + apply net_del_In, dels_In in I. tauto.
  - intros s S _. exact S.
Qed.

(** * Validation of the full statement on concrete histories, and a finding *)
Module DiffExamples.
  Definition Hid (b : bytes) : bytes := b.
  Definition k (n : N) : bytes := [n].
  Definition forest_of (ops : list op) := forest (fst (run Hid (init_state 0 false) ops)).
  Definition tree_at (ops : list op) (v : Z) : option node :=
    match lookup v (forest_of ops) with Some r => r | None => None end.

  (** version 1: five keys.  Version 2: a key written several times, set-then-remove,
      remove-then-set, an identical rewrite, a removal.  Version 3: nothing.  Version 4:
      removals emptying the left subtree.  Version 5: inserts on both sides and a removal. *)
  Definition ops1 : list op :=
    [OSet (k 1) (k 10); OSet (k 2) (k 20); OSet (k 3) (k 30); OSet (k 4) (k 40); OSet (k 5) (k 50);
     OSet (k 3) (k 31); OSave;
     OSet (k 2) (k 20); ORemove (k 4); OSet (k 6) (k 60); OSet (k 6) (k 61); OSet (k 7) (k 70);
     ORemove (k 7); ORemove (k 1); OSet (k 1) (k 11); OSave;
     OSave;
     ORemove (k 1); ORemove (k 2); ORemove (k 3); OSave;
     OSet (k 0) (k 1); OSet (k 9) (k 1); OSet (k 8) (k 1); OSet (k 7) (k 1); ORemove (k 5); OSave].

  Definition agree (ops : list op) (v : Z) : bool :=
    let prev := tree_at ops (v - 1) in
    let cur := tree_at ops v in
    diff_hyps_b (v - 1) prev cur &&
    match extract (v - 1) prev cur with
    | Some cs => if list_eq_dec (fun a b : change => ltac:(decide equality; apply bytes_eq_dec)) cs (net prev cur (v - 1))
                 then true else false
    | None => false
    end.

  Example all_versions_agree : map (agree ops1) [1; 2; 3; 4; 5] = [true; true; true; true; true].
  Proof. vm_compute. reflexivity. Qed.

  Example version2_net :
    net (tree_at ops1 1) (tree_at ops1 2) 1 =
      [CSet (k 1) (k 11); CSet (k 2) (k 20); CDel (k 4); CSet (k 6) (k 61)].
  Proof. vm_compute. reflexivity. Qed.
  Example version3_net : net (tree_at ops1 2) (tree_at ops1 3) 2 = [].
  Proof. vm_compute. reflexivity. Qed.
  Example version4_net :
    net (tree_at ops1 3) (tree_at ops1 4) 3 = [CDel (k 1); CDel (k 2); CDel (k 3)].
  Proof. vm_compute. reflexivity. Qed.
  Example version5_net :
    net (tree_at ops1 4) (tree_at ops1 5) 4 =
      [CSet (k 0) (k 1); CDel (k 5); CSet (k 7) (k 1); CSet (k 8) (k 1); CSet (k 9) (k 1)].
  Proof. vm_compute. reflexivity. Qed.

  (** a larger history: 24 keys, then scattered rewrites, removals and inserts *)
  Definition ops2 : list op :=
    map (fun n => OSet (k n) (k n)) [12;3;20;7;1;16;9;23;5;14;18;2;21;10;6;24;11;4;19;8;15;22;13;17]%N
    ++ [OSave]
    ++ [OSet (k 7) (k 70); ORemove (k 12); ORemove (k 13); OSet (k 30) (k 1); OSet (k 0) (k 1);
        OSet (k 16) (k 16); ORemove (k 1); OSet (k 1) (k 2); OSet (k 25) (k 1); ORemove (k 25); OSave]
    ++ [ORemove (k 20); ORemove (k 21); ORemove (k 22); ORemove (k 23); ORemove (k 24); ORemove (k 30);
        OSet (k 2) (k 3); OSave].

  Example all_versions_agree2 : map (agree ops2) [1; 2; 3] = [true; true; true].
  Proof. vm_compute. reflexivity. Qed.

  (** ** Finding: the first retained version after pruning.
      [traverseStateChanges] replaces a missing predecessor root by the empty tree but keeps
      [prevVersion = start - 1]; nodes of the first retained version that were created
      earlier still count as shared, the walk of the current tree stops at the first of them
      and the (empty) walk of the previous tree never resumes it.  The change set is then
      neither the contents of the version nor the keys written in it: here version 2 writes
      keys 1 and 5, and only key 1 is reported.  (Reproduced on the Go code: after
      [DeleteVersionsTo(1)], [TraverseStateChanges] yields for version 2 only key 1.) *)
  Definition ops3 : list op :=
    [OSet (k 1) (k 10); OSet (k 2) (k 20); OSet (k 3) (k 30); OSet (k 4) (k 40); OSet (k 5) (k 50); OSave;
     OSet (k 1) (k 11); OSet (k 5) (k 51); OSave;
     OSet (k 3) (k 31); OSave].

  Example unpruned_traverse :
    traverse_state_changes (fst (run Hid (init_state 0 false) ops3)) 0 100 =
      TOk [(1, [CSet (k 1) (k 10); CSet (k 2) (k 20); CSet (k 3) (k 30); CSet (k 4) (k 40); CSet (k 5) (k 50)]);
           (2, [CSet (k 1) (k 11); CSet (k 5) (k 51)]);
           (3, [CSet (k 3) (k 31)])].
  Proof. vm_compute. reflexivity. Qed.

  Theorem missing_predecessor_refuted :
    exists (s : mstate) (cur : option node),
      s = fst (run Hid (init_state 0 false) (ops3 ++ [OPrune 1])) /\
      lookup 1 (forest s) = None /\ lookup 2 (forest s) = Some cur /\
      traverse_state_changes s 0 100 =
        TOk [(2, [CSet (k 1) (k 11)]); (3, [CSet (k 3) (k 31)])] /\
      (* neither the contents of version 2 (a diff against the empty tree) ... *)
      oelems cur = [(k 1, k 11); (k 2, k 20); (k 3, k 30); (k 4, k 40); (k 5, k 51)] /\
      (* ... nor the keys written in version 2 *)
      sets_of 1 cur = [(k 1, k 11); (k 5, k 51)].
  Proof. eexists. eexists. vm_compute. repeat split; reflexivity. Qed.

  Example end_version_inclusive :
    traverse_state_changes (fst (run Hid (init_state 0 false) ops3)) 2 2 =
      TOk [(2, [CSet (k 1) (k 11); CSet (k 5) (k 51)])].
  Proof. vm_compute. reflexivity. Qed.
End DiffExamples.

(** * One version of writes produces trees that satisfy the hypotheses of Theorem 2.
    A working tree consists of new nodes on top of subtrees of the base version; stamping
    gives the new nodes the new version and distinct nonces. *)
Section WorkingTrees.
  Variable base : node -> Prop.
  Hypothesis B2 : forall s s2, base s -> subtree s2 s -> base s2.

  Fixpoint clean (t : node) : Prop :=
    if is_new t then
      match t with
      | Leaf _ _ _ => True
      | Inner _ _ _ _ l r => clean l /\ clean r
      end
    else base t.

  Lemma clean_spec t : clean t <-> forall u, subtree u t -> ver (nmeta u) <> 0 -> base u.
  Proof.
    induction t as [k v m|k h z m l IHl r IHr]; cbn [clean].
    - destruct (is_new (Leaf k v m)) eqn:E; unfold is_new in E.
      + split; [|auto]. intros _ u [->|[]] N. lia.
      + split; [intros B u [->|[]] _; exact B|]. intros F. apply F; [apply subtree_refl|lia].
    - destruct (is_new (Inner k h z m l r)) eqn:E; unfold is_new in E.
      + rewrite IHl, IHr. split.
        * intros [Fl Fr] u [->|[S|S]] N; [lia|apply Fl|apply Fr]; assumption.
        * intros F. split; intros u S; apply F; cbn [subtree]; auto.
      + split; [intros B u S _; exact (B2 _ _ B S)|]. intros F. apply F; [apply subtree_refl|lia].
  Qed.

  Lemma clean_base s : base s -> clean s.
  Proof. intros B. apply clean_spec. intros u S _. exact (B2 _ _ B S). Qed.

  (** Set and Remove build new nodes over untouched persisted subtrees *)
  Lemma clean_from_old t t' : StoreFacts.from_old t' t -> clean t -> clean t'.
  Proof.
    rewrite !clean_spec. intros F C u S N. apply C; [|exact N].
    apply subtree_iff, F; [apply subtree_iff, S|exact N].
  Qed.

  Lemma clean_set t k v : clean t -> clean (fst (set t k v)).
  Proof. apply clean_from_old, StoreFacts.set_from_old. Qed.

  Lemma clean_remove t k :
    clean t -> match rm_self (remove t k) with Some t' => clean t' | None => True end.
  Proof.
    intros C. destruct (rm_self (remove t k)) as [t'|] eqn:E; [|exact I].
    exact (clean_from_old _ _ (StoreFacts.remove_from_old t k t' E) C).
  Qed.

  Variable wv : Z.
  Hypothesis B1 : forall s, base s -> 0 < ver (nmeta s) < wv.
  Hypothesis B4 : forall s, base s -> ver_mono s.

  (** ** Stamping a clean tree *)
  Variable H : bytes -> bytes.

  Definition fresh (lo hi : Z) (s : node) : Prop :=
    ver (nmeta s) = wv /\ lo < nonce (nmeta s) <= hi.

  (** every node of [t] is a base node, or has version [wv] and a nonce in (lo, hi] of its own *)
  Definition stamped (lo hi : Z) (t : node) : Prop :=
    (forall s, subtree s t -> base s \/ fresh lo hi s) /\
    (forall x y, subtree x t -> subtree y t ->
       ver (nmeta x) = wv -> ver (nmeta y) = wv -> nonce (nmeta x) = nonce (nmeta y) -> x = y) /\
    ver_mono t.

  Lemma stamped_base n t : base t -> stamped n n t.
  Proof.
    intros B. split; [|split].
    - intros s S. left. exact (B2 _ _ B S).
    - intros x y Sx _ Vx _ _. pose proof (B1 _ (B2 _ _ B Sx)). lia.
    - apply B4, B.
  Qed.

  Lemma stamped_nonce lo hi t :
    stamped lo hi t -> forall s, subtree s t -> ver (nmeta s) = wv -> lo < nonce (nmeta s) <= hi.
  Proof. intros [S _] s Ss V. destruct (S s Ss) as [B|F]; [apply B1 in B; lia|apply F]. Qed.

  Lemma stamped_ver lo hi t : stamped lo hi t -> ver (nmeta t) <= wv.
  Proof.
    intros [S _]. destruct (S t (subtree_refl t)) as [B|[F _]]; [apply B1 in B|]; lia.
  Qed.

  Lemma stamp_clean t : forall n,
    clean t ->
    let t' := fst (stamp H wv n t) in
    let n' := snd (stamp H wv n t) in
    n <= n' /\ stamped n n' t'.
  Proof.
    induction t as [k v m|k h z m l IHl r IHr]; intros n C; cbn [clean] in C.
    - rewrite stamp_leaf. destruct (is_new (Leaf k v m)) eqn:E; cbn [negb fst snd].
      2:{ split; [lia|apply stamped_base, C]. }
      split; [lia|]. split; [|split].
      + intros s [->|[]]. right. unfold fresh. cbn [nmeta ver nonce]. lia.
      + intros x y [->|[]] [->|[]] _ _ _. reflexivity.
      + exact Logic.I.
    - rewrite stamp_inner. destruct (is_new (Inner k h z m l r)) eqn:E; cbn [negb].
      2:{ split; [cbn [fst snd]; lia|apply stamped_base, C]. }
      destruct C as [Cl Cr].
      specialize (IHl (n + 1) Cl). destruct (stamp H wv (n + 1) l) as [l' n1].
      specialize (IHr n1 Cr). destruct (stamp H wv n1 r) as [r' n2].
      cbn [fst snd] in *. destruct IHl as [Nl Tl]. destruct IHr as [Nr Tr].
      pose proof (stamped_nonce _ _ _ Tl) as Frl. pose proof (stamped_nonce _ _ _ Tr) as Frr.
      pose proof (stamped_ver _ _ _ Tl). pose proof (stamped_ver _ _ _ Tr).
      destruct Tl as (Sl & Ul & Ml). destruct Tr as (Sr & Ur & Mr).
      split; [lia|]. split; [|split].
      + intros s [->|[S|S]].
        * right. unfold fresh. cbn [nmeta ver nonce]. lia.
        * destruct (Sl s S) as [B|[F1 F2]]; [left; exact B|right; unfold fresh; lia].
        * destruct (Sr s S) as [B|[F1 F2]]; [left; exact B|right; unfold fresh; lia].
      + intros x y Sx Sy Vx Vy Nxy. cbn [subtree] in Sx, Sy.
        destruct Sx as [->|[Sx|Sx]]; destruct Sy as [->|[Sy|Sy]]; auto;
          cbn [nmeta nonce] in Nxy;
          try (pose proof (Frl _ Sx Vx)); try (pose proof (Frr _ Sx Vx));
          try (pose proof (Frl _ Sy Vy)); try (pose proof (Frr _ Sy Vy)); lia.
      + cbn [ver_mono ver]. auto.
  Qed.
End WorkingTrees.

(** ** One version step *)

Definition persisted (j : Z) (t : option node) : Prop :=
  (forall s, osubtree s t -> 0 < ver (nmeta s) <= j) /\ over_mono t /\
  (forall x y, osubtree x t -> osubtree y t -> nk x = nk y -> x = y).

Definition oclean (prev w : option node) : Prop :=
  match w with None => True | Some n => clean (fun s => osubtree s prev) n end.

Lemma osubtree_trans a b o : subtree a b -> osubtree b o -> osubtree a o.
Proof. destruct o; cbn [osubtree]; [apply subtree_trans|auto]. Qed.

Lemma persisted_base j prev :
  persisted j prev ->
  (forall s, osubtree s prev -> 0 < ver (nmeta s) < j + 1) /\
  (forall s s2, osubtree s prev -> subtree s2 s -> osubtree s2 prev) /\
  (forall s, osubtree s prev -> ver_mono s).
Proof.
  intros (V & M & _). split; [|split].
  - intros s S. specialize (V s S). lia.
  - intros s s2 S S2. exact (osubtree_trans _ _ _ S2 S).
  - intros s S. destruct prev as [p|]; [|destruct S]. exact (ver_mono_sub _ _ M S).
Qed.

Lemma oclean_refl j t : persisted j t -> oclean t t.
Proof.
  intros P. destruct (persisted_base _ _ P) as (_ & B2 & _).
  destruct t as [n|]; [|exact I]. apply (clean_base _ B2), subtree_refl.
Qed.

Theorem version_step H j prev w :
  0 <= j -> persisted j prev -> oclean prev w ->
  let cur := stamp_root H (j + 1) w in
  persisted (j + 1) cur /\ shared_in_prev j prev cur /\ keys_identify prev cur.
Proof.
  intros Hj P C cur. destruct (persisted_base j prev P) as (B1 & B2 & B4).
  destruct P as (PV & PM & PU).
  destruct w as [n|]; cbn [stamp_root] in cur; subst cur.
  2:{ unfold persisted, shared_in_prev, keys_identify; cbn [osubtree over_mono]; intuition. }
  cbn [oclean] in C.
  destruct (stamp_clean (fun s => osubtree s prev) B2 (j + 1) B1 B4 H n 0 C) as (_ & S & U & M).
  set (t' := fst (stamp H (j + 1) 0 n)) in *. cbn [osubtree over_mono].
  assert (Cases : forall s, subtree s t' ->
            (osubtree s prev /\ 0 < ver (nmeta s) <= j) \/ ver (nmeta s) = j + 1).
  { intros s Ss. destruct (S s Ss) as [B|[F _]]; [left; split; [exact B|apply PV, B]|right; exact F]. }
  assert (NK : forall x y, nk x = nk y ->
            ver (nmeta x) = ver (nmeta y) /\ nonce (nmeta x) = nonce (nmeta y)).
  { intros x y E. unfold nk in E. inversion E. auto. }
  split; [split; [|split]|split].
  - intros s Ss. destruct (Cases s Ss) as [[_ V]|V]; lia.
  - exact M.
  - intros x y Sx Sy E. destruct (NK _ _ E) as [Ev En].
    destruct (Cases x Sx) as [[Bx Vx]|Vx]; destruct (Cases y Sy) as [[By Vy]|Vy]; try lia.
    + apply PU; assumption.
    + apply U; auto.
  - intros s Ss V. destruct (Cases s Ss) as [[B _]|V']; [exact B|lia].
  - intros x y Sx Sy E. destruct (NK _ _ E) as [Ev En].
    destruct (Cases y Sy) as [[By _]|Vy].
    + apply PU; assumption.
    + pose proof (PV x Sx). lia.
Qed.

(** * Histories of writes and saves on the MutableTree machine *)
Definition vtree (s : mstate) (v : Z) : option node :=
  match lookup v (forest s) with Some r => r | None => None end.

Definition good_pair (pv : Z) (prev cur : option node) : Prop :=
  owf prev /\ owf cur /\ over_mono cur /\ shared_in_prev pv prev cur /\ keys_identify prev cur.

Record hist_inv (s : mstate) : Prop := HistInv {
  hi_inv : state_inv s;
  hi_set : init_set s = false;
  hi_top : forall w, version s < w -> lookup w (forest s) = None;
  hi_low : forall w, w < 1 -> lookup w (forest s) = None;
  hi_saved : last_saved s = vtree s (version s);
  hi_base : persisted (version s) (vtree s (version s));
  hi_root : oclean (vtree s (version s)) (root s);
  hi_pairs : forall v, 1 <= v <= version s ->
     exists cur, lookup v (forest s) = Some cur /\ good_pair (v - 1) (vtree s (v - 1)) cur
}.

Definition hist_op (o : op) : bool :=
  match o with
  | OReopen | OLoad _ | OPrune _ | OLvfo _ => false
  | _ => true
  end.

Lemma hist_inv_init : hist_inv (init_state 0 false).
Proof.
  constructor; cbn [init_state init_set version forest last_saved root lookup vtree oclean]; auto.
  - apply state_inv_init. lia.
  - unfold persisted. cbn [osubtree over_mono]. intuition.
  - intros v Hv. lia.
Qed.

Lemma hist_inv_root s r' :
  hist_inv s -> state_inv (MState r' (version s) (last_saved s) (forest s) (init_ver s) (init_set s) (init_opt s)) ->
  oclean (vtree s (version s)) r' ->
  hist_inv (MState r' (version s) (last_saved s) (forest s) (init_ver s) (init_set s) (init_opt s)).
Proof.
  intros HI I C. destruct HI. constructor; cbn [init_set version forest last_saved root]; auto.
Qed.

Section History.
  Variable H : bytes -> bytes.

  Lemma hist_set s k v : hist_inv s -> hist_inv (fst (do_set s k v)).
  Proof.
    intros HI. pose proof (do_set_inv s k v (hi_inv s HI)) as I1.
    destruct (persisted_base _ _ (hi_base s HI)) as (B1 & B2 & B4).
    pose proof (hi_root s HI) as C. unfold do_set in *.
    destruct (root s) as [n|] eqn:R.
    - pose proof (clean_set _ B2 n k v C) as C'.
      destruct (set n k v) as [n' upd]. cbn [fst] in *. apply hist_inv_root; auto.
    - cbn [fst] in *. apply hist_inv_root; auto; exact Logic.I.
  Qed.

  Lemma hist_remove s k : hist_inv s -> hist_inv (fst (do_remove s k)).
  Proof.
    intros HI. pose proof (do_remove_inv s k (hi_inv s HI)) as I1.
    destruct (persisted_base _ _ (hi_base s HI)) as (B1 & B2 & B4).
    pose proof (hi_root s HI) as C. unfold do_remove in *. cbv zeta in *.
    destruct (root s) as [n|] eqn:R; [|exact HI].
    pose proof (clean_remove _ B2 n k C) as C'.
    destruct (rm_val (remove n k)); [|exact HI]. cbn [fst] in *.
    apply hist_inv_root; auto.
  Qed.

  Lemma hist_rollback s :
    hist_inv s ->
    hist_inv (MState (if 0 <? version s then last_saved s else None) (version s) (last_saved s)
                     (forest s) (init_ver s) (init_set s) (init_opt s)).
  Proof.
    intros HI. apply hist_inv_root; auto.
    - apply rollback_inv, HI.
    - destruct (0 <? version s); [|exact Logic.I]. rewrite (hi_saved s HI).
      exact (oclean_refl _ _ (hi_base s HI)).
  Qed.

  Lemma vtree_snoc s wv r' w :
    lookup wv (forest s) = None ->
    vtree (MState r' wv r' (forest s ++ [(wv, r')]) (init_ver s) false (init_opt s)) w =
      if w =? wv then r' else vtree s w.
  Proof.
    intros L. unfold vtree. cbn [forest]. rewrite (lookup_snoc w wv r' _ L).
    destruct (w =? wv); reflexivity.
  Qed.

  Lemma hist_save s : hist_inv s -> hist_inv (fst (do_save H s)).
  Proof.
    intros HI. pose proof (hi_inv s HI) as I. pose proof (do_save_inv H s I) as I1.
    pose proof (inv_version s I) as V0.
    pose proof (working_version_unset s (hi_set s HI)) as WV.
    assert (L : lookup (version s + 1) (forest s) = None) by (apply (hi_top s HI); lia).
    rewrite do_save_new in * by (rewrite WV; exact L).
    unfold saved_state in *. rewrite WV in *. cbn [fst] in *.
    set (wv := version s + 1) in *. set (r' := stamp_root H wv (root s)) in *.
    destruct (version_step H (version s) _ (root s) V0 (hi_base s HI) (hi_root s HI)) as (P' & SP & KI).
    fold wv in P'. fold r' in P', SP, KI.
    pose proof (fun w => vtree_snoc s wv r' w L) as VT.
    constructor; cbn [init_set version forest last_saved root].
    - exact I1.
    - reflexivity.
    - intros w Hw. rewrite (lookup_snoc w wv r' _ L). replace (w =? wv) with false by lia.
      apply (hi_top s HI). lia.
    - intros w Hw. rewrite (lookup_snoc w wv r' _ L). replace (w =? wv) with false by lia.
      apply (hi_low s HI). lia.
    - rewrite VT, Z.eqb_refl. reflexivity.
    - rewrite VT, Z.eqb_refl. exact P'.
    - rewrite VT, Z.eqb_refl. exact (oclean_refl _ _ P').
    - intros v Hv. rewrite VT.
      replace (v - 1 =? wv) with false by lia.
      destruct (Z.eq_dec v wv) as [->|NE].
      + exists r'. split.
        * rewrite (lookup_snoc wv wv r' _ L), Z.eqb_refl. reflexivity.
        * replace (wv - 1) with (version s) by lia.
          assert (Wp : owf (vtree s (version s))).
          { unfold vtree. destruct (lookup (version s) (forest s)) as [t|] eqn:Lt; [|exact Logic.I].
            destruct (state_inv_lookup s _ _ I Lt) as [O _]. destruct t; [apply O|exact Logic.I]. }
          assert (Wc : owf r').
          { pose proof (inv_root _ I1) as O. cbn [root] in O. destruct r'; [apply O|exact Logic.I]. }
          destruct P' as (_ & M' & _). repeat split; assumption.
      + destruct (hi_pairs s HI v ltac:(lia)) as (cur & Lc & G). exists cur. split; [|exact G].
        rewrite (lookup_snoc v wv r' _ L). replace (v =? wv) with false by lia. exact Lc.
  Qed.

  Lemma hist_step s o : hist_op o = true -> hist_inv s -> hist_inv (fst (step H s o)).
  Proof.
    intros Ho HI. destruct o as [k v|k|k| | | |v|n|v|t r|k v|v| | | | | ]; cbn [hist_op] in Ho;
      try discriminate Ho; cbn [step]; try exact HI.
    - apply hist_set, HI.
    - apply hist_remove, HI.
    - apply hist_save, HI.
    - cbn [fst]. apply hist_rollback, HI.
    - destruct t as [|v]; [exact HI|]. destruct (lookup v (forest s)); exact HI.
    - destruct (lookup v (forest s)) as [[n|]|]; exact HI.
  Qed.

  Lemma hist_run ops : forall s,
    forallb hist_op ops = true -> hist_inv s -> hist_inv (fst (run H s ops)).
  Proof.
    induction ops as [|o ops IH]; intros s Ho HI; cbn [run]; [exact HI|].
    cbn [forallb] in Ho. apply andb_true_iff in Ho. destruct Ho as [Ho Hr].
    pose proof (hist_step s o Ho HI) as H1.
    destruct (step H s o) as [s1 x]. cbn [fst] in H1.
    specialize (IH s1 Hr H1). destruct (run H s1 ops) as [s2 xs]. exact IH.
  Qed.

  (** ** C15 on histories: every saved version of a history of writes, saves and rollbacks
      from the empty store.  The change set extracted for version [v] is the net change,
      it lists each key once in ascending order, and applied to the contents of [v - 1] it
      gives the contents of [v]. *)
  Theorem history_change_sets ops v cur :
    forallb hist_op ops = true ->
    let s := fst (run H (init_state 0 false) ops) in
    lookup v (forest s) = Some cur ->
    let prev := vtree s (v - 1) in
    extract (v - 1) prev cur = Some (net prev cur (v - 1)) /\
    ksorted (map ckey (net prev cur (v - 1))) /\
    apply_changes (net prev cur (v - 1)) (oelems prev) = oelems cur.
  Proof.
    intros Ho s L prev. pose proof (hist_run ops _ Ho hist_inv_init) as HI. fold s in HI.
    assert (Hv : 1 <= v <= version s).
    { split.
      - destruct (Z_lt_le_dec v 1) as [Lt|Le]; [|exact Le]. rewrite (hi_low s HI v Lt) in L. discriminate L.
      - destruct (Z_lt_le_dec (version s) v) as [Lt|Le]; [|exact Le]. rewrite (hi_top s HI v Lt) in L. discriminate L. }
    destruct (hi_pairs s HI v Hv) as (cur' & L' & (Wp & Wc & VM & SP & KI)).
    rewrite L in L'. inversion L'; subst cur'. fold prev in Wp, SP, KI.
    split; [apply extract_is_net; assumption|]. split; [apply net_sorted; assumption|].
    apply apply_net; auto. apply shared_old_leaves, SP.
  Qed.

  (** the saved trees of a history, versions [j + 1 .. j + n] *)
  Fixpoint trees_from (s : mstate) (j : Z) (n : nat) : list (option node) :=
    match n with
    | O => []
    | S n' => vtree s (j + 1) :: trees_from s (j + 1) n'
    end.

  Lemma hist_chain s n : forall j,
    hist_inv s -> 0 <= j -> j + Z.of_nat n <= version s -> chain j (vtree s j) (trees_from s j n).
  Proof.
    induction n as [|n IH]; intros j HI Hj Hn; cbn [trees_from chain]; [exact Logic.I|].
    destruct (hi_pairs s HI (j + 1) ltac:(lia)) as (cur & L & (Wp & Wc & VM & SP & KI)).
    replace (j + 1 - 1) with j in * by lia.
    assert (E : vtree s (j + 1) = cur) by (unfold vtree; rewrite L; reflexivity).
    rewrite E. split; [exact Wc|]. split; [apply shared_old_leaves, SP|].
    rewrite <- E. apply IH; auto; lia.
  Qed.

  Lemma nth_trees_from s n : forall j i,
    (i <= n)%nat -> nth_error (vtree s j :: trees_from s j n) i = Some (vtree s (j + Z.of_nat i)).
  Proof.
    induction n as [|n IH]; intros j [|i] Hi; try lia; cbn [trees_from nth_error].
    1,2: f_equal; f_equal; lia.
    rewrite IH by lia. f_equal. f_equal. lia.
  Qed.

  (** replaying the extracted change sets of a history into an empty tree (with any hash
      function [H']) reproduces every version's contents *)
  Theorem history_replay (H' : bytes -> bytes) ops :
    forallb hist_op ops = true ->
    let s := fst (run H (init_state 0 false) ops) in
    let n := Z.to_nat (version s) in
    let css := nets 0 None (trees_from s 0 n) in
    let res := replay H' (init_state 0 false) css in
    forall v, 1 <= v <= version s ->
      (exists r, lookup v (forest (fst res)) = Some r /\ oelems r = oelems (vtree s v)) /\
      (exists o, nth_error (snd res) (Z.to_nat (v - 1)) = Some o /\ saved_out o v) /\
      nth_error css (Z.to_nat (v - 1)) = Some (net (vtree s (v - 1)) (vtree s v) (v - 1)).
  Proof.
    intros Ho s n css res v Hv. pose proof (hist_run ops _ Ho hist_inv_init) as HI. fold s in HI.
    assert (V0 : vtree s 0 = None) by (unfold vtree; rewrite (hi_low s HI) by lia; reflexivity).
    assert (Ch : chain 0 None (trees_from s 0 n)).
    { rewrite <- V0. apply hist_chain; auto; unfold n; lia. }
    assert (Nth : forall i, (i <= n)%nat ->
              nth_error (None :: trees_from s 0 n) i = Some (vtree s (Z.of_nat i))).
    { intros i Hi. rewrite <- V0. exact (nth_trees_from s n 0 i Hi). }
    pose proof (Nth (Z.to_nat (v - 1)) ltac:(unfold n; lia)) as Na.
    pose proof (Nth (S (Z.to_nat (v - 1))) ltac:(unfold n; lia)) as Ni. cbn [nth_error] in Ni.
    replace (Z.of_nat (Z.to_nat (v - 1))) with (v - 1) in Na by lia.
    replace (Z.of_nat (S (Z.to_nat (v - 1)))) with v in Ni by lia.
    destruct (replay_contents H' _ Ch _ _ Ni) as [C O].
    replace (Z.of_nat (Z.to_nat (v - 1)) + 1) with v in C, O by lia.
    split; [exact C|]. split; [exact O|].
    unfold css. rewrite (nth_error_nets _ _ _ _ _ _ Na Ni). f_equal. f_equal. lia.
  Qed.
End History.

(** ** Why the histories above exclude load / prune: in the MTree model, loading an old version,
    pruning past it and saving creates a version 2 next to a version 3 that was not derived
    from it.  [extract] and [net] still agree, but the version-consistency hypothesis of
    Theorem 1 fails and the change set does not lead from the contents of 2 to those of 3.
    (On the Go code this sequence does not produce such a version: the write after the prune
    fails on a missing node.) *)
Module ConsistencyNeeded.
  Import DiffExamples.
  Definition ops : list op :=
    [OSet (k 1) (k 10); OSet (k 2) (k 20); OSet (k 3) (k 30); OSet (k 4) (k 40); OSave;
     OSet (k 1) (k 11); OSave;
     OSet (k 4) (k 41); OSave;
     OLoad 1; OPrune 2; OSet (k 2) (k 22); OSave].
  Example version_consistency_needed :
    let s := fst (run Hid (init_state 0 false) ops) in
    let prev := vtree s 2 in
    let cur := vtree s 3 in
    map fst (forest s) = [3; 2] /\
    extract 2 prev cur = Some (net prev cur 2) /\
    net prev cur 2 = [CSet (k 4) (k 41)] /\
    apply_changes (net prev cur 2) (oelems prev) <> oelems cur.
  Proof. vm_compute. repeat split; try reflexivity. discriminate. Qed.
End ConsistencyNeeded.
