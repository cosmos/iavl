(** PruneFaultFacts2: what a run that was cut short leaves behind ([ERR]), the writes of
    PruneAlgo's functions only extend the write log ([wpre]), and the orphan callback with a
    failing call ([on_orphan_f_spec]). *)
From Coq Require Import Lia.
From IAVL Require Import Bytes Varint Tree VMap TreeFacts MTree MTreeFacts HashFacts VersionFacts
  Store StoreFacts PruneAlgo PruneAlgoFacts1 PruneAlgoFacts2 PruneAlgoFacts3 PruneAlgoFacts4
  PruneAlgoFacts5 PruneFault PruneFaultFacts1.
Local Open Scope Z_scope.

(** ** The write log only grows *)
Definition wpre (p p' : pdb) : Prop := exists W, wlog p' = wlog p ++ W.

Lemma wpre_refl p : wpre p p.
Proof. exists []. rewrite app_nil_r. reflexivity. Qed.

Lemma wpre_trans a b c : wpre a b -> wpre b c -> wpre a c.
Proof. intros (W1 & E1) (W2 & E2). exists (W1 ++ W2). rewrite E2, E1, app_assoc. reflexivity. Qed.

Lemma wpre_pwrite p o : wpre p (pwrite p o).
Proof.
  unfold pwrite. cbv zeta. destruct (effmode p && negb (effective p o)); [exists [o]; reflexivity|].
  destruct (sched p) as [|[|] rest]; exists [o]; reflexivity.
Qed.

Lemma wlog_pflushed p : wlog (pflushed p) = wlog p.
Proof. unfold pflushed. destruct (sched p) as [|[|] rest]; reflexivity. Qed.

Lemma wpre_pflushed_l p q : wpre p q -> wpre (pflushed p) q.
Proof. intros (W & E). exists W. rewrite wlog_pflushed. exact E. Qed.

Lemma wpre_pflushed_r p q : wpre p q -> wpre p (pflushed q).
Proof. intros (W & E). exists W. rewrite wlog_pflushed. exact E. Qed.

Lemma wpre_on_orphan v p k : wpre p (on_orphan v p k).
Proof.
  unfold on_orphan. destruct ((snd k =? 1) && (fst k <? v)); [|apply wpre_pwrite].
  exact (wpre_trans _ _ _ (wpre_pwrite _ _) (wpre_pwrite _ _)).
Qed.

Section Mono.
  Variable H : bytes -> bytes.

  Lemma loop_wpre : forall fuel v p cur prev org p',
    orphans_loop H fuel v p cur prev org = POk p' -> wpre p p'.
  Proof.
    induction fuel as [|fuel IH]; intros v p cur prev org p'; [discriminate|].
    rewrite orphans_loop_S. destruct (ldec H true v cur prev org) as [[|]|skip o| |pk]; try discriminate.
    - intros Q. inversion Q; subst. apply wpre_refl.
    - apply IH.
    - apply IH.
    - intros Q. exact (wpre_trans _ _ _ (wpre_on_orphan v p pk) (IH _ _ _ _ _ _ Q)).
  Qed.

  Lemma traverse_wpre fuel v p c p' c' :
    traverse_orphans H fuel v p c = (POk p', c') -> wpre p p'.
  Proof.
    unfold traverse_orphans.
    destruct (rkc_get c (disk p) (v + 1)) as [[curk| | |] c1]; try discriminate.
    destruct (nit_new (disk p) curk) as [cur|]; [|discriminate].
    destruct (rkc_get c1 (disk p) v) as [[prevk| | |] c2]; try discriminate.
    destruct (nit_new (disk p) prevk) as [prev|]; [|discriminate].
    intros Q. inversion Q as [[Q1 Q2]]. exact (loop_wpre _ _ _ _ _ _ _ Q1).
  Qed.

  Lemma step1_wpre fuel v p c1 rootk p' c' :
    dv_step1 H fuel v p c1 rootk = (POk p', c') -> wpre p p'.
  Proof.
    unfold dv_step1. destruct rootk as [k|].
    - destruct (traverse_orphans H fuel v p c1) as [[p1| | |] c2] eqn:T; intros Q; inversion Q; subst.
      + exact (traverse_wpre _ _ _ _ _ _ T).
      + apply wpre_refl.
    - intros Q. inversion Q; subst. apply wpre_refl.
  Qed.

  Lemma p2_wpre v rootk p : wpre p (dv_p2 v rootk p).
  Proof.
    unfold dv_p2. destruct rootk as [k|]; [destruct (keqb k (v, 1))|]; try apply wpre_pwrite.
    apply wpre_refl.
  Qed.

  Lemma tail_wpre v p c p' c' : dv_tail v p c = (POk p', c') -> wpre p p'.
  Proof.
    unfold dv_tail. destruct (rkc_get c (disk p) (v + 1)) as [[k| | |] c3]; cbv beta iota zeta;
      try discriminate.
    - destruct k as [nk|]; [|intros Q; inversion Q; subst; apply wpre_refl].
      destruct (keqb nk (v, 1)); [|intros Q; inversion Q; subst; apply wpre_refl].
      destruct (get_node (disk p) nk) as [root|]; [|discriminate].
      intros Q. inversion Q; subst. exact (wpre_trans _ _ _ (wpre_pwrite _ _) (wpre_pwrite _ _)).
    - intros Q. inversion Q; subst. apply wpre_refl.
  Qed.

  Lemma delete_version_wpre fuel v p c p' c' :
    delete_version H fuel v p c = (POk p', c') -> wpre p p'.
  Proof.
    rewrite dv_eq.
    assert (Body : forall rootk c1,
              match dv_step1 H fuel v p c1 rootk with
              | (POk p1, c2) => dv_tail v (dv_p2 v rootk p1) c2
              | (e, c2) => (e, c2)
              end = (POk p', c') -> wpre p p').
    { intros rootk c1. destruct (dv_step1 H fuel v p c1 rootk) as [[p1| | |] c2] eqn:S1; try discriminate.
      intros Q. apply (wpre_trans _ _ _ (step1_wpre _ _ _ _ _ _ _ S1)).
      exact (wpre_trans _ _ _ (p2_wpre v rootk p1) (tail_wpre _ _ _ _ _ Q)). }
    destruct (rkc_get c (disk p) v) as [[rootk| | |] c1]; cbv beta iota zeta; try discriminate; apply Body.
  Qed.

  Lemma delete_range_wpre fuel vs : forall p c p',
    delete_range H fuel vs p c = POk p' -> wpre p p'.
  Proof.
    induction vs as [|v rest IH]; intros p c p'; cbn [delete_range].
    - intros Q. inversion Q; subst. apply wpre_refl.
    - destruct (delete_version H fuel v p c) as [[p1| | |] c1] eqn:D; try discriminate.
      intros Q. exact (wpre_trans _ _ _ (delete_version_wpre _ _ _ _ _ _ D) (IH _ _ _ Q)).
  Qed.
End Mono.

(** ** What is left behind *)
Lemma sub_of_incl f g x : incl f g -> sub_of f x -> sub_of g x.
Proof. intros Inc (w & t & I & S). exists w, t. split; [apply Inc, I|exact S]. Qed.

Section Err.
  Variable fK : forest_t.    (* the versions that are not being deleted *)
  Variable bK : Z.

  (* what holds of a run that ended with an error: every disk it went through, and disk + batch
     at the end, serve the versions [fK] *)
  Definition ERR (p : pdb) : Prop :=
    Forall (safe (sub_of fK) fK bK) (dhist p) /\ safe (sub_of fK) fK bK (Vof p).

  Lemma ERR_of_PI p (L : node -> Prop) sro r b E :
    PI p L sro r b E -> (forall x, sub_of fK x -> L x) -> incl fK sro -> b <= bK -> ERR p.
  Proof.
    intros P HL HS Hb. split.
    - eapply Forall_impl; [|exact (pi_hist _ _ _ _ _ _ P)].
      intros d Sd. exact (safe_anti _ _ _ _ _ _ _ Sd HL HS Hb).
    - exact (safe_anti _ _ _ _ _ _ _ (proj1 (pi_Vgood _ _ _ _ _ _ P)) HL HS Hb).
  Qed.

  Lemma Vof_pflushed p : Vof (pflushed p) = Vof p.
  Proof. unfold pflushed, Vof. destruct (sched p) as [|[|] rest]; reflexivity. Qed.

  Lemma ERR_pflushed p : ERR p -> ERR (pflushed p).
  Proof.
    intros [A B]. split; [|rewrite Vof_pflushed; exact B].
    unfold pflushed. destruct (sched p) as [|[|] rest]; try exact A. cbn [dhist].
    apply Forall_app. split; [exact A|]. constructor; [exact B|constructor].
  Qed.

  Lemma ERR_pwrite p o : ERR p -> safe (sub_of fK) fK bK (sapply (Vof p) o) -> ERR (pwrite p o).
  Proof.
    intros [A B] S. destruct (pwrite_cases p o) as (EV & _ & [[_ Eh]|[_ Eh]]); split; rewrite ?EV, ?Eh; auto.
    apply Forall_app. split; [exact A|]. constructor; [exact B|constructor].
  Qed.

  Lemma ERR_failed p q : ERR p -> (q = p \/ q = pflushed p) -> ERR q.
  Proof. intros E [->| ->]; [exact E|apply ERR_pflushed, E]. Qed.
End Err.

(** ** The orphan callback with a failing call *)
Lemma on_orphan_f_spec v s k ok s' :
  on_orphan_f v s k = (ok, s') -> live s ->
  wadv s s' /\
  ((ok = true /\ live s' /\ fp s' = on_orphan v (fp s) k) \/
   (ok = false /\ ~ live s' /\
    exists pm, (pm = fp s \/ pm = pwrite (fp s) (del_node k)) /\ (fp s' = pm \/ fp s' = pflushed pm))).
Proof.
  unfold on_orphan_f, on_orphan. intros Q L. destruct ((snd k =? 1) && (fst k <? v)).
  - destruct (pwrite_f s (del_node k)) as [ok1 s1] eqn:W1.
    destruct (pwrite_f_spec s _ ok1 s1 W1 L) as (A1 & B1).
    destruct B1 as [(-> & L1 & E1)|(-> & D1 & E1)].
    + destruct (pwrite_f_spec s1 _ ok s' Q L1) as (A2 & B2). split; [exact (wadv_trans _ _ _ A1 A2)|].
      destruct B2 as [(-> & L2 & E2)|(-> & D2 & E2)].
      * left. rewrite E2, E1. auto.
      * right. split; [reflexivity|]. split; [exact D2|]. exists (pwrite (fp s) (del_node k)).
        rewrite <- E1. auto.
    + inversion Q; subst. split; [exact A1|]. right. split; [reflexivity|]. split; [exact D1|].
      exists (fp s). auto.
  - destruct (pwrite_f_spec s _ ok s' Q L) as (A & B). split; [exact A|].
    destruct B as [B|(-> & D & E)]; [left; exact B|]. right. split; [reflexivity|]. split; [exact D|].
    exists (fp s). auto.
Qed.
