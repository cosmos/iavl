(** Proofs about the codec model (Codec.v): round trips, decoder guards, absence of panics,
    order preservation of node keys, root entry classification, storage labels, size hints. *)
From IAVL Require Import Bytes Varint VarintFacts Codec.
From Coq Require Import Lia ZifyBool ZifyNat ZifyN.
Local Open Scope Z_scope.


Definition in_int8 (z : Z) : Prop := -128 <= z <= 127.
Definition in_int64 (z : Z) : Prop := - 2 ^ 63 <= z < 2 ^ 63.
Definition in_uint32 (z : Z) : Prop := 0 <= z < 2 ^ 32.
(** byte strings [DecodeBytes] can return: [len < MaxInt] *)
Definition short (b : bytes) : Prop := (N.of_nat (length b) < 2 ^ 63 - 1)%N.

Lemma to_int8_fix z : z = to_int8 z <-> in_int8 z.
Proof. unfold to_int8, in_int8. split; intros H; Z.div_mod_to_equations; lia. Qed.

Lemma to_uint32_fix z : z = to_uint32 z <-> in_uint32 z.
Proof. unfold to_uint32, in_uint32. split; intros H; Z.div_mod_to_equations; lia. Qed.

Lemma to_uint64_bound z : (to_uint64 z < 2 ^ 64)%N.
Proof.
  unfold to_uint64. pose proof (Z.mod_pos_bound z (2 ^ 64) ltac:(lia)). lia.
Qed.

Lemma to_uint64_nonneg z : 0 <= z < 2 ^ 63 -> to_uint64 z = Z.to_N z.
Proof. intros H. unfold to_uint64. rewrite Z.mod_small by lia. reflexivity. Qed.

Lemma to_int64_to_uint64 z : in_int64 z -> to_int64 (to_uint64 z) = z.
Proof.
  unfold in_int64, to_int64, to_uint64. intros H.
  pose proof (Z.mod_pos_bound z (2 ^ 64) ltac:(lia)) as Hb.
  rewrite Z2N.id by lia. rewrite Z.mod_mod by lia.
  destruct (z mod 2 ^ 64 <? 2 ^ 63) eqn:E; Z.div_mod_to_equations; lia.
Qed.

Lemma to_int64_range u : in_int64 (to_int64 u).
Proof.
  unfold in_int64, to_int64.
  pose proof (Z.mod_pos_bound (Z.of_N u) (2 ^ 64) ltac:(lia)) as Hb.
  destruct (Z.of_N u mod 2 ^ 64 <? 2 ^ 63) eqn:E; lia.
Qed.

Lemma in_int8_int64 z : in_int8 z -> in_int64 z.
Proof. unfold in_int8, in_int64. lia. Qed.

Lemma in_uint32_int64 z : in_uint32 z -> in_int64 z.
Proof. unfold in_uint32, in_int64. lia. Qed.

Lemma short32 h : length h = 32%nat -> short h.
Proof. unfold short. intros ->. lia. Qed.


Lemma firstn_app_exact {A} k (a b : list A) : length a = k -> firstn k (a ++ b) = a.
Proof. intros <-. apply firstn_length_app. Qed.

Lemma skipn_app_exact {A} k (a b : list A) : length a = k -> skipn k (a ++ b) = b.
Proof. intros <-. apply skipn_length_app. Qed.

(** ** node keys *)

Lemma node_key_bytes_length v n : length (node_key_bytes v n) = 12%nat.
Proof. unfold node_key_bytes. rewrite app_length, !be_enc_length. reflexivity. Qed.

Lemma node_key_bytes_wf v n : well_formed (node_key_bytes v n).
Proof. unfold node_key_bytes. apply well_formed_app. split; apply be_enc_wf. Qed.

Lemma pow256_8 : (256 ^ N.of_nat 8 = 2 ^ 64)%N. Proof. reflexivity. Qed.
Lemma pow256_4 : (256 ^ N.of_nat 4 = 2 ^ 32)%N. Proof. reflexivity. Qed.

Theorem parse_node_key_roundtrip v n :
  in_int64 v -> in_uint32 n -> parse_node_key (node_key_bytes v n) = DOk (v, n).
Proof.
  intros Hv Hn. unfold parse_node_key.
  rewrite node_key_bytes_length. cbn [Nat.ltb Nat.leb].
  unfold node_key_bytes.
  rewrite (firstn_app_exact 8) by apply be_enc_length.
  rewrite (skipn_app_exact 8) by apply be_enc_length.
  rewrite firstn_all2 by (rewrite be_enc_length; lia).
  rewrite be_roundtrip by (rewrite pow256_8; apply to_uint64_bound).
  unfold in_uint32 in Hn.
  rewrite be_roundtrip by (rewrite pow256_4; rewrite Z.mod_small by lia; lia).
  rewrite to_int64_to_uint64 by exact Hv.
  rewrite Z.mod_small by lia. rewrite Z2N.id by lia. reflexivity.
Qed.

Lemma parse_node_key_ok k : (12 <= length k)%nat -> exists v n, parse_node_key k = DOk (v, n).
Proof.
  intros H. unfold parse_node_key.
  destruct (length k <? 12)%nat eqn:E; [lia|]. eauto.
Qed.

Lemma parse_node_key_panic k : parse_node_key k = DPanic <-> (length k < 12)%nat.
Proof.
  unfold parse_node_key. destruct (length k <? 12)%nat eqn:E; split; intros H;
    try discriminate; try reflexivity; lia.
Qed.

Theorem node_key_compare v n v' n' :
  0 <= v < 2 ^ 63 -> 0 <= v' < 2 ^ 63 -> in_uint32 n -> in_uint32 n' ->
  bcmp (node_key_bytes v n) (node_key_bytes v' n') =
  match v ?= v' with Eq => n ?= n' | c => c end.
Proof.
  unfold in_uint32. intros Hv Hv' Hn Hn'. unfold node_key_bytes.
  rewrite bcmp_app by (now rewrite !be_enc_length).
  rewrite !to_uint64_nonneg by assumption.
  rewrite !Z.mod_small by lia.
  rewrite !be_enc_compare by (rewrite ?pow256_8, ?pow256_4; lia).
  rewrite !Z2N.inj_compare by lia. reflexivity.
Qed.

Theorem node_key_order v n v' n' :
  0 <= v < 2 ^ 63 -> 0 <= v' < 2 ^ 63 -> in_uint32 n -> in_uint32 n' ->
  (bcmp (node_key_bytes v n) (node_key_bytes v' n') = Lt <-> (v < v' \/ (v = v' /\ n < n'))).
Proof.
  intros Hv Hv' Hn Hn'. rewrite node_key_compare by assumption.
  destruct (Z.compare_spec v v') as [E|L|G].
  - rewrite Z.compare_lt_iff. lia.
  - split; [lia | reflexivity].
  - split; [discriminate | lia].
Qed.

Corollary node_key_inj v n v' n' :
  0 <= v < 2 ^ 63 -> 0 <= v' < 2 ^ 63 -> in_uint32 n -> in_uint32 n' ->
  node_key_bytes v n = node_key_bytes v' n' -> v = v' /\ n = n'.
Proof.
  intros Hv Hv' Hn Hn' E.
  pose proof (node_key_compare v n v' n' Hv Hv' Hn Hn') as H.
  rewrite E, bcmp_refl in H.
  destruct (Z.compare_spec v v') as [E1|L|G]; try discriminate.
  symmetry in H. apply Z.compare_eq_iff in H. auto.
Qed.

(** db keys: the 's' prefix does not disturb the order; a version's keys share the 9-byte
    prefix used by prefix scans and range deletes *)
Lemma pad_right_exact w b : length b = w -> pad_right w b = b.
Proof.
  intros <-. unfold pad_right. rewrite firstn_all, Nat.sub_diag. cbn. apply app_nil_r.
Qed.

Lemma db_node_key_exact nk : length nk = 12%nat -> db_node_key nk = prefix_node :: nk.
Proof. intros H. unfold db_node_key, fpf_key. now rewrite pad_right_exact. Qed.

Lemma db_node_key_order v n v' n' :
  0 <= v < 2 ^ 63 -> 0 <= v' < 2 ^ 63 -> in_uint32 n -> in_uint32 n' ->
  (bcmp (db_node_key (node_key_bytes v n)) (db_node_key (node_key_bytes v' n')) = Lt
   <-> (v < v' \/ (v = v' /\ n < n'))).
Proof.
  intros. rewrite !db_node_key_exact by apply node_key_bytes_length.
  cbn [bcmp]. rewrite N.compare_refl. now apply node_key_order.
Qed.

Lemma is_prefix_app a b : is_prefix a (a ++ b) = true.
Proof. induction a as [|x a IH]; cbn; auto. rewrite N.eqb_refl, IH. reflexivity. Qed.

Lemma db_node_prefix_key_prefix v n :
  is_prefix (db_node_prefix_key v) (db_node_key (node_key_bytes v n)) = true.
Proof.
  rewrite db_node_key_exact by apply node_key_bytes_length.
  unfold db_node_prefix_key, node_key_bytes.
  change (prefix_node :: be_enc 8 (to_uint64 v) ++ ?x)
    with ((prefix_node :: be_enc 8 (to_uint64 v)) ++ x).
  apply is_prefix_app.
Qed.

Lemma db_key_spaces_disjoint nk k h v :
  db_node_key nk <> db_fast_key k /\ db_node_key nk <> db_legacy_node_key h /\
  db_node_key nk <> db_legacy_root_key v /\ db_node_key nk <> db_meta_key /\
  db_fast_key k <> db_legacy_node_key h /\ db_fast_key k <> db_legacy_root_key v /\
  db_fast_key k <> db_meta_key /\ db_legacy_node_key h <> db_legacy_root_key v /\
  db_legacy_node_key h <> db_meta_key /\ db_legacy_root_key v <> db_meta_key.
Proof. repeat split; intros H; discriminate H. Qed.

(** ** readers *)

Lemma rd_varint_enc c x rest :
  in_int64 x ->
  rd_varint (c, varint_enc x ++ rest) = Some (x, ((c + length (varint_enc x))%nat, rest)).
Proof.
  intros Hx. unfold rd_varint. cbn [fst snd].
  rewrite varint_roundtrip by exact Hx. rewrite skipn_length_app. reflexivity.
Qed.

Lemma rd_bytes_enc c b rest :
  short b ->
  rd_bytes (c, bytes_enc b ++ rest) = Some (b, ((c + length (bytes_enc b))%nat, rest)).
Proof.
  intros Hb. unfold rd_bytes. cbn [fst snd].
  rewrite bytes_roundtrip by exact Hb. rewrite skipn_length_app. reflexivity.
Qed.

Lemma enc32_bytes_enc h : length h = 32%nat -> enc32 h = bytes_enc h.
Proof. intros H. unfold bytes_enc. rewrite H. reflexivity. Qed.


Definition st_ok (L : nat) (W : Prop) (st : rstate) : Prop :=
  (fst st + length (snd st) = L)%nat /\ (W -> well_formed (snd st)).

Definition reader_ok {A} (P : nat -> A -> Prop) (Pw : A -> Prop)
    (rd : rstate -> option (A * rstate)) : Prop :=
  forall L W st a st', rd st = Some (a, st') -> st_ok L W st ->
    st_ok L W st' /\ (fst st < fst st')%nat /\ P L a /\ (W -> Pw a).

Lemma rd_varint_ok : reader_ok (fun _ _ => True) in_int64 rd_varint.
Proof.
  intros L W st x st'. unfold rd_varint, st_ok.
  destruct (varint_dec (snd st)) as [[y n]|] eqn:E; [|discriminate].
  intros H [HL Hw]. inversion H; subst; clear H. cbn [fst snd].
  destruct (varint_dec_guard _ _ _ E) as (H1 & H2 & H3).
  pose proof (length_skipn_eq n (snd st) ltac:(lia)).
  repeat split; try lia; auto using well_formed_skipn.
Qed.

Lemma rd_bytes_ok :
  reader_ok (fun L b => (length b <= L)%nat /\ short b) well_formed rd_bytes.
Proof.
  intros L W st b st'. unfold rd_bytes, st_ok.
  destruct (bytes_dec (snd st)) as [[y n]|] eqn:E; [|discriminate].
  intros H [HL Hw]. inversion H; subst; clear H. cbn [fst snd].
  destruct (bytes_dec_guard _ _ _ E) as (H1 & H2 & H3 & _).
  pose proof (length_skipn_eq n (snd st) ltac:(lia)).
  repeat split; try lia; eauto using well_formed_skipn, bytes_dec_wf.
  exact (bytes_dec_short _ _ _ E).
Qed.

Lemma obind_ok {A B} (P : nat -> A -> Prop) Pw rd (k : A * rstate -> option B) L W st r :
  reader_ok P Pw rd -> st_ok L W st -> obind (rd st) k = Some r ->
  exists a st', k (a, st') = Some r /\
    st_ok L W st' /\ (fst st < fst st')%nat /\ P L a /\ (W -> Pw a).
Proof.
  intros R S H. destruct (rd st) as [[a st']|] eqn:E; [|discriminate].
  exists a, st'. split; [exact H|]. exact (R _ _ _ _ _ E S).
Qed.

(** [rd_step R H S a st']: [H] says that a decoder succeeded which starts with a call of the
    reader [R : reader_ok _ _ _] in a state [S : st_ok _ _ _].  Names what was read [a] and the
    state after it [st']; [H] becomes the rest of the decoder, [S] the invariant of [st'], and
    what [R] promises about [a] is put in the context. *)
Ltac rd_step R H S a st' :=
  apply (obind_ok _ _ _ _ _ _ _ _ R S) in H; clear S;
  destruct H as (a & st' & H & S & ? & ? & ?); cbn beta iota in H.

Lemma of_opt_ok {A} (o : option A) a : of_opt o = DOk a -> o = Some a.
Proof. destruct o; [intros H; inversion H; reflexivity|discriminate]. Qed.

Lemma st_ok_start buf : st_ok (length buf) (well_formed buf) (0%nat, buf).
Proof. split; [reflexivity|trivial]. Qed.

Lemma st_ok_end L W st : st_ok L W st -> (fst st <= L)%nat.
Proof. unfold st_ok. lia. Qed.

(** ** new-format nodes *)

Definition wf_child (c : child_ref) : Prop :=
  match c with
  | RefNone => False
  | RefNew v n => in_int64 v /\ in_uint32 n
  | RefLegacy h => length h = 32%nat
  end.

(** nodes [writeBytes]/[MakeNode] round-trip on: what [SaveNode] is given in a sane tree *)
Definition wf_raw (n : raw_node) : Prop :=
  in_int8 (rn_height n) /\ in_int64 (rn_size n) /\ short (rn_key n) /\
  if rn_height n =? 0 then
    (exists v, rn_value n = Some v /\ short v) /\
    rn_hash n = [] /\ rn_left n = RefNone /\ rn_right n = RefNone
  else
    rn_value n = None /\ length (rn_hash n) = 32%nat /\
    wf_child (rn_left n) /\ wf_child (rn_right n).

Lemma rd_child_enc c k rest :
  wf_child c ->
  rd_child (child_is_legacy c) (k, encode_child c ++ rest)
  = Some (c, ((k + length (encode_child c))%nat, rest)).
Proof.
  destruct c as [|v n|h]; cbn [wf_child child_is_legacy encode_child rd_child]; intros H.
  - contradiction.
  - destruct H as [Hv Hn].
    rewrite <- app_assoc. rewrite rd_varint_enc by exact Hv. cbn [obind].
    rewrite rd_varint_enc by (apply in_uint32_int64, Hn). cbn [obind].
    apply to_uint32_fix in Hn.
    destruct (n =? to_uint32 n) eqn:E; [|lia]. cbn [negb].
    rewrite app_length, Nat.add_assoc. reflexivity.
  - rewrite enc32_bytes_enc by exact H.
    rewrite rd_bytes_enc by (apply short32, H). cbn [obind].
    rewrite H. reflexivity.
Qed.

Lemma node_mode_bits l r :
  negb (Z.land (node_mode l r) 1 =? 0) = child_is_legacy l /\
  negb (Z.land (node_mode l r) 2 =? 0) = child_is_legacy r /\
  0 <= node_mode l r <= 3.
Proof.
  unfold node_mode. destruct (child_is_legacy l), (child_is_legacy r); cbn; lia.
Qed.

Theorem decode_node_n_roundtrip nk n rest :
  wf_raw n -> length nk = 12%nat ->
  decode_node_n nk (encode_node n ++ rest) = DOk (n, length (encode_node n)).
Proof.
  destruct n as [h s k val hash l r]. unfold wf_raw. cbn [rn_height rn_size rn_key rn_value rn_hash rn_left rn_right].
  intros (Hh & Hs & Hk & Hbody) Hnk.
  unfold decode_node_n, encode_node, decode_node_header.
  rewrite Hnk. cbn [Nat.eqb negb].
  cbn [rn_height rn_size rn_key rn_value rn_hash rn_left rn_right].
  rewrite <- !app_assoc.
  rewrite rd_varint_enc by (apply in_int8_int64, Hh). cbn [obind].
  assert (Hfix : (h =? to_int8 h) = true) by (apply to_int8_fix in Hh; lia).
  rewrite Hfix. cbn [negb].
  rewrite rd_varint_enc by exact Hs. cbn [obind].
  rewrite rd_bytes_enc by exact Hk. cbn [obind].
  destruct (parse_node_key_ok nk ltac:(lia)) as (v0 & n0 & ->).
  unfold decode_node_body.
  destruct (h =? 0) eqn:Eh.
  - destruct Hbody as ((v & -> & Hv) & -> & -> & ->). cbn [opt_bytes].
    rewrite rd_bytes_enc by exact Hv. cbn [obind of_opt fst].
    f_equal. f_equal. rewrite !app_length. lia.
  - destruct Hbody as (-> & Hhash & Hl & Hr).
    rewrite <- !app_assoc.
    rewrite (enc32_bytes_enc hash Hhash).
    rewrite rd_bytes_enc by (apply short32, Hhash). cbn [obind].
    destruct (node_mode_bits l r) as (Hb1 & Hb2 & Hm).
    rewrite rd_varint_enc by (unfold in_int64; lia). cbn [obind].
    destruct ((node_mode l r <? 0) || (3 <? node_mode l r)) eqn:Em; [lia|].
    rewrite Hb1, Hb2.
    rewrite rd_child_enc by exact Hl. cbn [obind].
    rewrite rd_child_enc by exact Hr. cbn [obind of_opt fst].
    f_equal. f_equal. rewrite !app_length. lia.
Qed.

Theorem decode_node_roundtrip nk n rest :
  wf_raw n -> length nk = 12%nat -> decode_node nk (encode_node n ++ rest) = DOk n.
Proof.
  intros Hw Hnk. unfold decode_node. rewrite decode_node_n_roundtrip by assumption. reflexivity.
Qed.

Theorem write_node_encode n : wf_raw n -> write_node n = DOk (encode_node n).
Proof.
  destruct n as [h s k val hash l r]. unfold wf_raw, write_node, encode_node.
  cbn [rn_height rn_size rn_key rn_value rn_hash rn_left rn_right].
  intros (Hh & Hs & Hk & Hbody).
  destruct (h =? 0) eqn:Eh.
  - rewrite <- !app_assoc. reflexivity.
  - destruct Hbody as (_ & _ & Hl & Hr).
    assert (Hc : forall c, wf_child c ->
              exists kb, child_key_bytes c = Some kb /\
                         (length kb =? 32)%nat = child_is_legacy c /\
                         write_child (child_is_legacy c) kb = DOk (encode_child c)).
    { intros [|v n|hh]; cbn [wf_child child_key_bytes child_is_legacy encode_child];
        intros Hc; [contradiction| |].
      - destruct Hc as [Hv Hn]. eexists; split; [reflexivity|].
        rewrite node_key_bytes_length. split; [reflexivity|].
        unfold write_child. rewrite parse_node_key_roundtrip by assumption. reflexivity.
      - eexists; split; [reflexivity|]. rewrite Hc. split; reflexivity. }
    destruct (Hc l Hl) as (lk & -> & Hll & Hwl).
    destruct (Hc r Hr) as (rk & -> & Hrl & Hwr).
    cbn [opt_bytes]. rewrite Hll, Hrl, Hwl, Hwr.
    unfold node_mode. rewrite <- !app_assoc. reflexivity.
Qed.

Definition child_guard (L : nat) (c : child_ref) : Prop :=
  match c with
  | RefNone => False
  | RefNew v n => in_uint32 n
  | RefLegacy h => length h = 32%nat /\ (32 <= L)%nat
  end.

Definition child_guard_wf (c : child_ref) : Prop :=
  match c with
  | RefNone => False
  | RefNew v n => in_int64 v
  | RefLegacy h => well_formed h
  end.

Lemma rd_child_ok b :
  reader_ok (fun L c => child_guard L c /\ child_is_legacy c = b) child_guard_wf (rd_child b).
Proof.
  intros L W st c st' H S. unfold rd_child in H. destruct b.
  - rd_step rd_bytes_ok H S h st1.
    destruct (length h =? 32)%nat eqn:E32; cbn [negb] in H; [|discriminate].
    inversion H; subst; clear H. cbn [child_guard child_guard_wf child_is_legacy].
    split; [exact S|]. split; [assumption|]. split; [|assumption].
    split; [lia|reflexivity].
  - rd_step rd_varint_ok H S ver st1. rd_step rd_varint_ok H S nonce st2.
    destruct (nonce =? to_uint32 nonce) eqn:E3; cbn [negb] in H; [|discriminate].
    inversion H; subst; clear H. cbn [child_guard child_guard_wf child_is_legacy].
    split; [exact S|]. split; [lia|]. split; [|assumption].
    split; [apply to_uint32_fix; lia|reflexivity].
Qed.

Definition node_guard (L : nat) (n : raw_node) : Prop :=
  in_int8 (rn_height n) /\ (length (rn_key n) <= L)%nat /\
  if rn_height n =? 0 then
    (exists v, rn_value n = Some v /\ (length v <= L)%nat) /\
    rn_hash n = [] /\ rn_left n = RefNone /\ rn_right n = RefNone
  else
    rn_value n = None /\ (length (rn_hash n) <= L)%nat /\
    child_guard L (rn_left n) /\ child_guard L (rn_right n).

Definition node_guard_wf (n : raw_node) : Prop :=
  in_int64 (rn_size n) /\ well_formed (rn_key n) /\
  if rn_height n =? 0 then (exists v, rn_value n = Some v /\ well_formed v)
  else well_formed (rn_hash n) /\ child_guard_wf (rn_left n) /\ child_guard_wf (rn_right n).

Theorem decode_node_n_guard nk buf n c :
  decode_node_n nk buf = DOk (n, c) ->
  (0 < c <= length buf)%nat /\ length nk = 12%nat /\
  node_guard (length buf) n /\ (well_formed buf -> node_guard_wf n).
Proof.
  unfold decode_node_n, decode_node_header. intros H.
  destruct (length nk =? 12)%nat eqn:Enk12; cbn [negb] in H; [|discriminate].
  pose proof (st_ok_start buf) as S.
  destruct (obind _ _) as [[[[h s] k] st3]|] eqn:Hd in H; [|discriminate].
  rd_step rd_varint_ok Hd S h' st1.
  destruct (h' =? to_int8 h') eqn:Eh; cbn [negb] in Hd; [|discriminate].
  rd_step rd_varint_ok Hd S s' st2. rd_step rd_bytes_ok Hd S k' st3'.
  inversion Hd; subst; clear Hd.
  destruct (parse_node_key nk) as [[v0 n0]| |]; try discriminate.
  apply Nat.eqb_eq in Enk12. assert (Hh8 : in_int8 h) by (apply to_int8_fix; lia).
  unfold decode_node_body in H. unfold node_guard, node_guard_wf.
  destruct (h =? 0) eqn:Ez.
  - destruct (obind _ _) as [r|] eqn:Hb in H; [|discriminate]. rd_step rd_bytes_ok Hb S val st4.
    inversion Hb; subst; clear Hb. inversion H; subst; clear H. apply st_ok_end in S.
    cbn [rn_height rn_size rn_key rn_value rn_hash rn_left rn_right fst] in *. rewrite Ez.
    intuition eauto; lia.
  - destruct (obind _ _) as [r|] eqn:Hb in H; [|discriminate]. rd_step rd_bytes_ok Hb S hash st4.
    rd_step rd_varint_ok Hb S mode st5.
    destruct ((mode <? 0) || (3 <? mode)); [discriminate|].
    rd_step (rd_child_ok (negb (Z.land mode 1 =? 0))) Hb S l st6.
    rd_step (rd_child_ok (negb (Z.land mode 2 =? 0))) Hb S r' st7.
    inversion Hb; subst; clear Hb. inversion H; subst; clear H. apply st_ok_end in S.
    cbn [rn_height rn_size rn_key rn_value rn_hash rn_left rn_right fst] in *. rewrite Ez.
    intuition eauto; lia.
Qed.

(** [MakeNode] never panics: the node key length is checked before anything else *)
Theorem decode_node_n_never_panics nk buf : decode_node_n nk buf <> DPanic.
Proof.
  unfold decode_node_n.
  destruct (length nk =? 12)%nat eqn:E; cbn [negb]; [|discriminate].
  destruct (decode_node_header buf) as [[[[h s] k] st]|]; [|discriminate].
  destruct (parse_node_key nk) as [[v n]| |] eqn:Enk.
  - destruct (decode_node_body h s k st); cbn [of_opt]; discriminate.
  - discriminate.
  - apply parse_node_key_panic in Enk. lia.
Qed.

Theorem decode_node_never_panics nk buf : decode_node nk buf <> DPanic.
Proof.
  unfold decode_node. pose proof (decode_node_n_never_panics nk buf) as H.
  destruct (decode_node_n nk buf); cbn [dmap]; congruence.
Qed.

Theorem decode_node_bad_key nk buf : length nk <> 12%nat -> decode_node nk buf = DErr.
Proof.
  intros H. unfold decode_node, decode_node_n.
  destruct (length nk =? 12)%nat eqn:E; [lia|]. reflexivity.
Qed.

(** the inputs on which [MakeNode] panicked before commit 479c353 of cosmos/iavl's repository
    under /repo are errors: a short node key, and a "legacy" child reference that is not 32
    bytes long *)
Theorem decode_node_former_panics :
  decode_node [1; 2; 3; 4; 5]%N [0; 2; 1; 97; 1; 98]%N = DErr /\
  decode_node (node_key_bytes 1 1) [2; 4; 1; 97; 0; 2; 5; 1; 2; 3; 4; 5; 2; 4]%N = DErr.
Proof. vm_compute. split; reflexivity. Qed.

Lemma child_guard_writes L c :
  child_guard L c ->
  exists kb, child_key_bytes c = Some kb /\
    (exists b, write_child (length kb =? 32)%nat kb = DOk b) /\
    (exists sz, child_size c = DOk sz).
Proof.
  destruct c as [|v n|h]; cbn [child_guard child_key_bytes]; intros H; [contradiction| |].
  - eexists; split; [reflexivity|]. unfold child_size. cbn [child_key_bytes].
    rewrite node_key_bytes_length. cbn [Nat.eqb]. unfold write_child.
    destruct (parse_node_key_ok (node_key_bytes v n)) as (v0 & n0 & ->);
      [rewrite node_key_bytes_length; lia|]. eauto.
  - destruct H as [H _]. eexists; split; [reflexivity|]. unfold child_size. cbn [child_key_bytes].
    rewrite H. cbn [Nat.eqb write_child].
    destruct (parse_node_key_ok h) as (v0 & n0 & ->); [lia|]. eauto.
Qed.

Theorem decoded_node_writes nk buf n c :
  decode_node_n nk buf = DOk (n, c) ->
  (exists bz, write_node n = DOk bz) /\ (exists sz, encoded_size n = DOk sz).
Proof.
  intros H. destruct (decode_node_n_guard _ _ _ _ H) as (_ & _ & (_ & _ & Hg) & _).
  unfold write_node, encoded_size.
  destruct (rn_height n =? 0) eqn:Ez; [eauto|].
  destruct Hg as (_ & _ & Hl & Hr).
  destruct (child_guard_writes _ _ Hl) as (lk & -> & (lb & Hlb) & (ls & ->)).
  destruct (child_guard_writes _ _ Hr) as (rk & -> & (rb & Hrb) & (rs & ->)).
  cbn [opt_bytes]. rewrite Hlb, Hrb. eauto.
Qed.

(** [writeBytes]/[encodedSize] index a child key of fewer than 12 bytes out of range
    ([write_node]/[encoded_size] = [DPanic]), but no decoder produces such a key (since commits
    479c353 and 704c7a6 of cosmos/iavl's repository under /repo):
    [MakeNode] yields 12-byte keys or 32-byte hashes ([decode_node_n_guard]) and
    [MakeLegacyNode] 32-byte hashes ([decode_legacy_node_n_guard]); on those both functions
    return [DOk] ([decoded_node_writes]). Only a hand-built [Node] can trigger the panic. *)
Theorem write_node_panic_handbuilt :
  let n := mk_raw_node 1 2 [97%N] None (repeat 7%N 32) (RefLegacy [1; 2; 3; 4; 5]%N) (RefNew 1 2) in
  write_node n = DPanic /\ encoded_size n = DPanic /\
  decode_legacy_node (repeat 5%N 32) [2; 4; 2; 1; 97; 5; 1; 2; 3; 4; 5; 0]%N = DErr.
Proof. vm_compute. auto. Qed.

(** ** legacy nodes *)

Definition wf_legacy (n : raw_legacy_node) : Prop :=
  in_int8 (ln_height n) /\ in_int64 (ln_size n) /\ in_int64 (ln_version n) /\ short (ln_key n) /\
  if ln_height n =? 0 then
    (exists v, ln_value n = Some v /\ short v) /\ ln_left n = [] /\ ln_right n = []
  else
    ln_value n = None /\ length (ln_left n) = 32%nat /\ length (ln_right n) = 32%nat.

Theorem decode_legacy_node_n_roundtrip hash n rest :
  wf_legacy n ->
  decode_legacy_node_n hash (encode_legacy_node n ++ rest)
  = DOk (n, length (encode_legacy_node n)).
Proof.
  destruct n as [h s ver k val l r]. unfold wf_legacy.
  cbn [ln_height ln_size ln_version ln_key ln_value ln_left ln_right].
  intros (Hh & Hs & Hv & Hk & Hbody).
  unfold decode_legacy_node_n, decode_legacy_node_o, encode_legacy_node.
  cbn [ln_height ln_size ln_version ln_key ln_value ln_left ln_right].
  rewrite <- !app_assoc.
  rewrite rd_varint_enc by (apply in_int8_int64, Hh). cbn [obind].
  destruct ((h <? -128) || (127 <? h)) eqn:E8; [unfold in_int8 in Hh; lia|].
  rewrite rd_varint_enc by exact Hs. cbn [obind].
  rewrite rd_varint_enc by exact Hv. cbn [obind].
  rewrite rd_bytes_enc by exact Hk. cbn [obind].
  destruct (h =? 0) eqn:Eh.
  - destruct Hbody as ((v & -> & Hval) & -> & ->). cbn [opt_bytes].
    rewrite rd_bytes_enc by exact Hval. cbn [obind of_opt fst].
    f_equal. f_equal. rewrite !app_length. lia.
  - destruct Hbody as (-> & Hl & Hr).
    rewrite <- !app_assoc.
    rewrite rd_bytes_enc by (apply short32, Hl). cbn [obind].
    rewrite rd_bytes_enc by (apply short32, Hr). cbn [obind].
    rewrite Hl, Hr. cbn [Nat.eqb negb orb of_opt fst].
    f_equal. f_equal. rewrite !app_length. lia.
Qed.

Theorem decode_legacy_node_roundtrip hash n rest :
  wf_legacy n -> decode_legacy_node hash (encode_legacy_node n ++ rest) = DOk n.
Proof.
  intros Hw. unfold decode_legacy_node. rewrite decode_legacy_node_n_roundtrip by assumption.
  reflexivity.
Qed.

Definition legacy_guard (L : nat) (n : raw_legacy_node) : Prop :=
  in_int8 (ln_height n) /\ (length (ln_key n) <= L)%nat /\
  if ln_height n =? 0 then
    (exists v, ln_value n = Some v /\ (length v <= L)%nat) /\ ln_left n = [] /\ ln_right n = []
  else
    ln_value n = None /\ length (ln_left n) = 32%nat /\ length (ln_right n) = 32%nat /\
    (32 <= L)%nat.

Definition legacy_guard_wf (n : raw_legacy_node) : Prop :=
  in_int64 (ln_size n) /\ in_int64 (ln_version n) /\ well_formed (ln_key n) /\
  if ln_height n =? 0 then (exists v, ln_value n = Some v /\ well_formed v)
  else well_formed (ln_left n) /\ well_formed (ln_right n).

Theorem decode_legacy_node_n_guard hash buf n c :
  decode_legacy_node_n hash buf = DOk (n, c) ->
  (0 < c <= length buf)%nat /\ legacy_guard (length buf) n /\
  (well_formed buf -> legacy_guard_wf n).
Proof.
  unfold decode_legacy_node_n, decode_legacy_node_o. intros H. apply of_opt_ok in H.
  pose proof (st_ok_start buf) as S.
  rd_step rd_varint_ok H S h st1.
  destruct ((h <? -128) || (127 <? h)) eqn:Eh; [discriminate|].
  rd_step rd_varint_ok H S s st2. rd_step rd_varint_ok H S ver st3. rd_step rd_bytes_ok H S k st4.
  assert (Hh8 : in_int8 h) by (unfold in_int8; lia).
  unfold legacy_guard, legacy_guard_wf. destruct (h =? 0) eqn:Ez.
  - rd_step rd_bytes_ok H S val st5. inversion H; subst; clear H. apply st_ok_end in S.
    cbn [ln_height ln_size ln_version ln_key ln_value ln_left ln_right fst] in *. rewrite Ez.
    intuition eauto; lia.
  - rd_step rd_bytes_ok H S lh st5. rd_step rd_bytes_ok H S rh st6.
    destruct (negb (length lh =? 32)%nat || negb (length rh =? 32)%nat) eqn:E32; [discriminate|].
    inversion H; subst; clear H. apply st_ok_end in S.
    cbn [ln_height ln_size ln_version ln_key ln_value ln_left ln_right fst] in *. rewrite Ez.
    intuition eauto; lia.
Qed.

Theorem decode_legacy_node_no_panic hash buf : decode_legacy_node hash buf <> DPanic.
Proof.
  unfold decode_legacy_node, decode_legacy_node_n.
  destruct (decode_legacy_node_o buf); cbn; discriminate.
Qed.

(** ** fast nodes *)

Theorem decode_fast_node_n_roundtrip key version value rest :
  in_int64 version -> short value ->
  decode_fast_node_n key (encode_fast_node version value ++ rest)
  = DOk (mk_raw_fast_node key version value, length (encode_fast_node version value)).
Proof.
  intros Hv Hval. unfold decode_fast_node_n, decode_fast_node_o, encode_fast_node.
  rewrite <- !app_assoc.
  rewrite rd_varint_enc by exact Hv. cbn [obind].
  rewrite rd_bytes_enc by exact Hval. cbn [obind of_opt fst].
  f_equal. f_equal. rewrite !app_length. lia.
Qed.

Theorem decode_fast_node_roundtrip key version value rest :
  in_int64 version -> short value ->
  decode_fast_node key (encode_fast_node version value ++ rest)
  = DOk (mk_raw_fast_node key version value).
Proof.
  intros Hv Hval. unfold decode_fast_node.
  rewrite decode_fast_node_n_roundtrip by assumption. reflexivity.
Qed.

Theorem decode_fast_node_n_guard key buf n c :
  decode_fast_node_n key buf = DOk (n, c) ->
  (0 < c <= length buf)%nat /\ fn_key n = key /\ (length (fn_value n) <= length buf)%nat /\
  (well_formed buf -> in_int64 (fn_version n) /\ well_formed (fn_value n)).
Proof.
  unfold decode_fast_node_n, decode_fast_node_o. intros H. apply of_opt_ok in H.
  pose proof (st_ok_start buf) as S.
  rd_step rd_varint_ok H S v st1. rd_step rd_bytes_ok H S val st2.
  inversion H; subst; clear H. apply st_ok_end in S. cbn [fn_key fn_version fn_value fst] in *.
  intuition eauto; lia.
Qed.

Theorem decode_fast_node_no_panic key buf : decode_fast_node key buf <> DPanic.
Proof.
  unfold decode_fast_node, decode_fast_node_n.
  destruct (decode_fast_node_o key buf); cbn; discriminate.
Qed.

(** ** root entries *)

(** A node body is never taken for a reference or an empty root, except at the (never
    produced, but accepted by [MakeNode]) height -58 whose varint is the byte 's'. *)
Theorem classify_root_node n :
  rn_height n <> -58 -> classify_root (encode_node n) = RootNode.
Proof.
  intros Hh. unfold encode_node, varint_enc.
  destruct (uvarint_enc_head (zigzag (rn_height n))) as (b & tl & -> & Hb).
  cbn [app classify_root]. unfold prefix_node.
  destruct (b =? 115)%N eqn:E; [|reflexivity].
  exfalso. apply Hh. rewrite (zigzag_eq _ 115%N) by lia. reflexivity.
Qed.

Theorem classify_root_ref13 v n :
  in_int64 v -> in_uint32 n -> classify_root (root_ref_value v n) = RootRef13 v n.
Proof.
  intros Hv Hn. unfold root_ref_value.
  rewrite db_node_key_exact by apply node_key_bytes_length.
  unfold classify_root. rewrite N.eqb_refl.
  cbn [length]. rewrite node_key_bytes_length. cbn [Nat.eqb].
  rewrite parse_node_key_roundtrip by assumption. reflexivity.
Qed.

Theorem classify_root_ref9 v :
  in_int64 v -> classify_root (db_node_prefix_key v) = RootRef9 v.
Proof.
  intros Hv. unfold db_node_prefix_key, classify_root. rewrite N.eqb_refl.
  cbn [length]. rewrite be_enc_length. cbn [Nat.eqb].
  rewrite be_roundtrip by (rewrite pow256_8; apply to_uint64_bound).
  rewrite to_int64_to_uint64 by exact Hv. reflexivity.
Qed.

Theorem classify_root_empty v : classify_root v = RootEmpty <-> v = [].
Proof.
  split; [|intros ->; reflexivity].
  destruct v as [|b tl]; [reflexivity|]. cbn [classify_root].
  destruct (b =? prefix_node)%N; [|discriminate].
  destruct (length (b :: tl) =? 13)%nat.
  - destruct (parse_node_key tl) as [[? ?]| |]; discriminate.
  - destruct (length (b :: tl) =? 9)%nat; discriminate.
Qed.

(** the three things [SaveVersion] can store under a root key are pairwise distinct *)
Theorem root_kinds_distinct n v k :
  rn_height n <> -58 -> in_int64 v -> in_uint32 k ->
  encode_node n <> root_ref_value v k /\ encode_node n <> root_empty_value /\
  root_ref_value v k <> root_empty_value.
Proof.
  intros Hh Hv Hk.
  pose proof (classify_root_node n Hh) as H1.
  pose proof (classify_root_ref13 v k Hv Hk) as H2.
  repeat split; intros E.
  - rewrite E in H1. congruence.
  - rewrite E in H1. discriminate.
  - rewrite E in H2. discriminate.
Qed.

(** at height -58 the body starts with 's'; with a 32-byte hash it is longer than 13 bytes,
    so GetRoot answers "invalid reference root" rather than following a bogus reference *)
Theorem classify_root_height_m58 :
  exists n, rn_height n = -58 /\ classify_root (encode_node n) = RootBadRef /\
            decode_node (node_key_bytes 1 1) (encode_node n) = DOk n.
Proof.
  exists (mk_raw_node (-58) 2 [97%N] None (repeat 7%N 32) (RefNew 1 2) (RefNew 1 3)).
  vm_compute. auto.
Qed.

Lemma encode_child_length_pos c : wf_child c -> (2 <= length (encode_child c))%nat.
Proof.
  destruct c as [|v k|h]; cbn [wf_child encode_child]; [contradiction| |].
  - intros _. rewrite app_length.
    pose proof (varint_enc_length v). pose proof (varint_enc_length k). lia.
  - intros H. unfold enc32. cbn [length]. lia.
Qed.

Theorem classify_root_inner_never_ref n :
  wf_raw n -> rn_height n <> 0 ->
  classify_root (encode_node n) = RootNode \/ classify_root (encode_node n) = RootBadRef.
Proof.
  intros Hw Hz.
  destruct (Z.eq_dec (rn_height n) (-58)) as [E|E]; [|left; apply classify_root_node, E].
  right.
  assert (Hlen : (13 < length (encode_node n))%nat).
  { destruct Hw as (_ & _ & _ & Hb). unfold encode_node.
    destruct (rn_height n =? 0) eqn:E0; [lia|].
    destruct Hb as (_ & Hhash & Hl & Hr).
    rewrite !app_length. unfold enc32. cbn [length]. rewrite Hhash.
    pose proof (encode_child_length_pos _ Hl). lia. }
  unfold encode_node, varint_enc in *. rewrite E in *.
  change (uvarint_enc (zigzag (-58))) with [115%N] in *.
  cbn [app] in *. unfold classify_root. unfold prefix_node. rewrite N.eqb_refl.
  match goal with |- context [(length ?l =? 13)%nat] =>
    destruct (length l =? 13)%nat eqn:E13; [lia|];
    destruct (length l =? 9)%nat eqn:E9; [lia|] end.
  reflexivity.
Qed.

(** ** storage version label *)

Lemma dec_val_snoc a c : dec_val (a ++ [c]) = (dec_val a * 10 + (c - 48))%N.
Proof. unfold dec_val. rewrite fold_left_app. reflexivity. Qed.

Lemma all_digits_app a b : all_digits (a ++ b) = all_digits a && all_digits b.
Proof. unfold all_digits. apply forallb_app. Qed.

Lemma digits_fuel_spec f : forall n,
  (n < 2 ^ N.of_nat f)%N ->
  dec_val (digits_fuel (S f) n) = n /\ all_digits (digits_fuel (S f) n) = true /\
  digits_fuel (S f) n <> [].
Proof.
  induction f as [|f IH]; intros n Hn.
  - cbn in Hn. assert (n = 0%N) by lia. subst. cbn. repeat split; auto. discriminate.
  - change (digits_fuel (S (S f)) n)
      with (if (n <? 10)%N then [(48 + n)%N]
            else digits_fuel (S f) (n / 10)%N ++ [(48 + n mod 10)%N]).
    destruct (n <? 10)%N eqn:E.
    + repeat split; try discriminate.
      * unfold dec_val. cbn [fold_left]. lia.
      * unfold all_digits. cbn [forallb]. lia.
    + assert (Hd : (n / 10 < 2 ^ N.of_nat f)%N).
      { apply N.div_lt_upper_bound; [lia|].
        rewrite Nat2N.inj_succ, N.pow_succ_r' in Hn. lia. }
      destruct (IH _ Hd) as (H1 & H2 & H3).
      pose proof (N.mod_lt n 10 ltac:(lia)).
      repeat split.
      * rewrite dec_val_snoc, H1. pose proof (N.div_mod n 10 ltac:(lia)). lia.
      * rewrite all_digits_app, H2. unfold all_digits. cbn [forallb]. lia.
      * intros Hnil. apply app_eq_nil in Hnil. destruct Hnil; discriminate.
Qed.

Lemma digits_spec n :
  dec_val (digits n) = n /\ all_digits (digits n) = true /\ digits n <> [].
Proof.
  unfold digits. apply digits_fuel_spec. rewrite N2Nat.id. apply N.size_gt.
Qed.

Lemma all_digits_head c s : all_digits (c :: s) = true -> (c =? 45)%N = false.
Proof. unfold all_digits. cbn [forallb]. lia. Qed.

Theorem atoi_itoa z : atoi (itoa z) = Some z.
Proof.
  unfold itoa. destruct (z <? 0) eqn:E.
  - destruct (digits_spec (Z.to_N (- z))) as (H1 & H2 & H3).
    unfold atoi. rewrite N.eqb_refl.
    destruct (digits (Z.to_N (- z))) as [|c s] eqn:Ed; [congruence|].
    rewrite H2, H1. f_equal. lia.
  - destruct (digits_spec (Z.to_N z)) as (H1 & H2 & H3).
    unfold atoi.
    destruct (digits (Z.to_N z)) as [|c s] eqn:Ed; [congruence|].
    rewrite (all_digits_head _ _ H2), H2, H1. f_equal. lia.
Qed.

Corollary itoa_inj z z' : itoa z = itoa z' -> z = z'.
Proof.
  intros H. pose proof (atoi_itoa z) as H1. rewrite H, atoi_itoa in H1. congruence.
Qed.

Lemma split_on_no_sep sep s :
  forallb (fun c => negb (c =? sep)%N) s = true -> split_on sep s = [s].
Proof.
  induction s as [|c s IH]; cbn [forallb split_on]; [reflexivity|].
  intros H. apply andb_true_iff in H. destruct H as [Hc Hs].
  destruct (c =? sep)%N; [discriminate|]. rewrite IH by exact Hs. reflexivity.
Qed.

Lemma all_digits_no_dash s :
  all_digits s = true -> forallb (fun c => negb (c =? storage_delim)%N) s = true.
Proof.
  unfold all_digits, storage_delim. induction s as [|c s IH]; cbn [forallb]; [reflexivity|].
  intros H. apply andb_true_iff in H. destruct H as [Hc Hs].
  rewrite IH by exact Hs. lia.
Qed.

Lemma split_label z :
  0 <= z -> split_on storage_delim (fast_storage_label z) = [fast_storage_version; itoa z].
Proof.
  intros Hz. unfold fast_storage_label, fast_storage_version.
  cbn [app split_on]. unfold storage_delim at 1 2 3 4 5 6. cbn [N.eqb Pos.eqb].
  assert (Hi : split_on storage_delim (itoa z) = [itoa z]).
  { apply split_on_no_sep, all_digits_no_dash.
    unfold itoa. destruct (z <? 0) eqn:E; [lia|]. apply digits_spec. }
  rewrite Hi. reflexivity.
Qed.

Theorem should_force_upgrade_label v latest :
  0 <= v -> should_force_upgrade (fast_storage_label v) latest = negb (v =? latest).
Proof.
  intros Hv. unfold should_force_upgrade. rewrite split_label by exact Hv.
  destruct (beq (itoa v) (itoa latest)) eqn:E; btests.
  - apply itoa_inj in E. subst. rewrite Z.eqb_refl. reflexivity.
  - destruct (v =? latest) eqn:E2; [|reflexivity]. exfalso. apply E. f_equal. lia.
Qed.

Theorem parse_storage_label_roundtrip v :
  0 <= v -> parse_storage_label (fast_storage_label v) = Some (fast_storage_version, Some v).
Proof.
  intros Hv. unfold parse_storage_label. rewrite split_label by exact Hv.
  rewrite atoi_itoa. reflexivity.
Qed.

Theorem set_fast_storage_version_label v latest :
  0 <= v -> set_fast_storage_version (fast_storage_label v) latest = Some (fast_storage_label latest).
Proof.
  intros Hv. unfold set_fast_storage_version.
  assert (Hf : has_fast_storage (fast_storage_label v) = true) by reflexivity.
  rewrite Hf, split_label by exact Hv. reflexivity.
Qed.

Theorem set_fast_storage_version_default latest :
  set_fast_storage_version default_storage_version latest = Some (fast_storage_label latest).
Proof. reflexivity. Qed.

(** ** size hints *)

Lemma size_small u : (0 < u < 128)%N -> (1 <= N.size u <= 7)%N.
Proof.
  intros H. rewrite N.size_log2 by lia.
  assert (N.log2 u < 7)%N by (apply N.log2_lt_pow2; lia). lia.
Qed.

Lemma size_div128 u : (128 <= u)%N -> (N.size (u / 128) = N.size u - 7 /\ 8 <= N.size u)%N.
Proof.
  intros H.
  assert (Hq : (0 < u / 128)%N).
  { apply N.div_str_pos. lia. }
  rewrite !N.size_log2 by lia.
  change 128%N with (2 ^ 7)%N. rewrite <- N.shiftr_div_pow2, N.log2_shiftr.
  assert (7 <= N.log2 u)%N.
  { change 7%N with (N.log2 128). apply N.log2_le_mono, H. }
  lia.
Qed.

Lemma uvarint_size_fuel f : forall u,
  (1 <= f)%nat -> (u < 2 ^ (7 * N.of_nat f))%N ->
  length (uvarint_enc_fuel f u) = uvarint_size u.
Proof.
  induction f as [|f IH]; intros u Hf Hu; [lia|].
  cbn [uvarint_enc_fuel]. unfold uvarint_size.
  destruct (u <? 128)%N eqn:E.
  - cbn [length]. destruct (u =? 0)%N eqn:E0; [reflexivity|].
    pose proof (size_small u ltac:(lia)) as Hs. lia.
  - destruct (size_div128 u ltac:(lia)) as (Hs & Hs8).
    assert (Hf' : (1 <= f)%nat).
    { destruct f; [|lia]. change (2 ^ (7 * N.of_nat 1))%N with 128%N in Hu. lia. }
    cbn [length]. rewrite IH; [|exact Hf'|].
    + unfold uvarint_size.
      assert (Hq : (0 < u / 128)%N) by (apply N.div_str_pos; lia).
      destruct (u / 128 =? 0)%N eqn:E1; [lia|].
      destruct (u =? 0)%N eqn:E0; [lia|].
      rewrite Hs. lia.
    + apply N.div_lt_upper_bound; [lia|].
      replace (7 * N.of_nat (S f))%N with (7 * N.of_nat f + 7)%N in Hu by lia.
      rewrite pow2_split in Hu. exact Hu.
Qed.

Theorem uvarint_size_spec u : (u < 2 ^ 64)%N -> uvarint_size u = length (uvarint_enc u).
Proof.
  intros Hu. symmetry. apply uvarint_size_fuel; [lia|].
  apply N.lt_le_trans with (2 ^ 64)%N; [exact Hu|]. apply N.pow_le_mono_r; lia.
Qed.

Theorem varint_size_spec x : in_int64 x -> varint_size x = length (varint_enc x).
Proof. intros Hx. apply uvarint_size_spec, zigzag_range, Hx. Qed.

Theorem bytes_size_spec b : short b -> bytes_size b = length (bytes_enc b).
Proof.
  intros Hb. unfold bytes_size. rewrite bytes_enc_length.
  rewrite uvarint_size_spec by (unfold short in Hb; lia). reflexivity.
Qed.

Theorem fast_encoded_size_spec version value :
  in_int64 version -> short value ->
  fast_encoded_size version value = length (encode_fast_node version value).
Proof.
  intros Hv Hb. unfold fast_encoded_size, encode_fast_node.
  rewrite app_length, varint_size_spec, bytes_size_spec by assumption. reflexivity.
Qed.

(** [encodedSize] is exact for leaves (height byte counted as 1) ... *)
Theorem encoded_size_leaf n :
  wf_raw n -> rn_height n = 0 -> encoded_size n = DOk (length (encode_node n)).
Proof.
  intros (Hh & Hs & Hk & Hb) Hz. unfold encoded_size, encode_node. rewrite Hz in *.
  cbn [Z.eqb] in *. destruct Hb as ((v & Hv & Hsv) & _). rewrite Hv. cbn [opt_bytes].
  rewrite !app_length, varint_size_spec, !bytes_size_spec by assumption.
  rewrite (varint_enc_length_small 0) by lia. f_equal. lia.
Qed.

(** ... and one byte short (the mode byte) for inner nodes with two new-format children; up to
    height 63 the zigzag varint of the height is the one byte [encodedSize] counts for it *)
Theorem encoded_size_inner_new n lv ln rv rn :
  wf_raw n -> 0 < rn_height n <= 63 ->
  rn_left n = RefNew lv ln -> rn_right n = RefNew rv rn ->
  encoded_size n = DOk (length (encode_node n) - 1)%nat.
Proof.
  intros (Hh & Hs & Hk & Hb) Hz Hl Hr. unfold encoded_size, encode_node.
  destruct (rn_height n =? 0) eqn:E0; [lia|].
  destruct Hb as (_ & Hhash & Hwl & Hwr). rewrite Hl, Hr in *.
  cbn [wf_child] in Hwl, Hwr. destruct Hwl as [Hlv Hln]. destruct Hwr as [Hrv Hrn].
  unfold child_size. cbn [child_key_bytes].
  rewrite !parse_node_key_roundtrip by assumption.
  cbn [node_mode child_is_legacy encode_child].
  rewrite !app_length. unfold enc32. cbn [length].
  rewrite !varint_size_spec, !bytes_size_spec by auto using in_uint32_int64.
  rewrite bytes_size_spec by (apply short32, Hhash).
  rewrite !bytes_enc_length, Hhash.
  rewrite (varint_enc_length_small (rn_height n)) by lia.
  change (node_mode (RefNew lv ln) (RefNew rv rn)) with 0.
  change (length (uvarint_enc (N.of_nat 32))) with 1%nat.
  change (length (varint_enc 0)) with 1%nat.
  f_equal. lia.
Qed.

(** [encodedSize] is not the encoded length in general: it forgets the mode byte, and it
    sizes a 32-byte legacy child by reading its first 12 bytes as (version, nonce). *)
Theorem encoded_size_refuted :
  exists n, wf_raw n /\ exists sz, encoded_size n = DOk sz /\ (sz < length (encode_node n))%nat.
Proof.
  exists (mk_raw_node 1 2 [97%N] None (repeat 7%N 32) (RefNew 1 2) (RefLegacy (repeat 0%N 32))).
  split.
  - unfold wf_raw, in_int8, in_int64, in_uint32, short. cbn. repeat split; try lia; try discriminate.
  - eexists. split; [vm_compute; reflexivity|]. vm_compute. lia.
Qed.
