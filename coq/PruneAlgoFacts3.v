(** PruneAlgoFacts3: the invariant of the write batch during a deletion ([PI], [PIx]), the growth of
    the two logs ([logs_ext]), and the effect of the individual writes of deleteVersion on both:
    deleting an orphan ([PIx_orphan]), deleting a root entry ([PIx_root_entry_del]), re-keying a
    root ([PIx_rekey]). *)
From Coq Require Import Lia Sorted.
From IAVL Require Import Bytes Varint Tree VMap TreeFacts MTree MTreeFacts HashFacts VersionFacts
  Store StoreFacts PruneAlgo PruneAlgoFacts1 PruneAlgoFacts2.
Local Open Scope Z_scope.

(** a version whose root node sits under nonce 0 on [d] is recorded in [r] ... *)
Definition K0 (L : node -> Prop) (r : list Z) (d : store) : Prop :=
  forall u, L u -> nonce (nmeta u) = 1 -> mfind kcmp (ver (nmeta u), 0) d <> None ->
            In (ver (nmeta u)) r.
(** ... and conversely *)
Definition R0 (L : node -> Prop) (r : list Z) (d : store) : Prop :=
  forall u, L u -> nonce (nmeta u) = 1 -> In (ver (nmeta u)) r ->
            mfind kcmp (ver (nmeta u), 0) d <> None.

Definition vgood (L : node -> Prop) (sro : forest_t) (r : list Z) (b : Z) (V : store) : Prop :=
  safe L sro b V /\ K0 L r V /\ R0 L r V.

(** The invariant of the write batch.  The virtual store (disk + batch) is exactly [E] and is
    [safe] with its re-keyed versions exactly [r]; the disk, which lags behind by the batch, is
    [safe] for the same [L], [sro], [b] and has re-keyed nothing outside [r] (a re-keying may sit
    in the batch, so [R0] may fail on the disk); so was every earlier disk. *)
Record PI (p : pdb) (L : node -> Prop) (sro : forest_t) (r : list Z) (b : Z)
          (E : nodekey -> entry -> Prop) : Prop := MkPI {
  pi_V : pst E (Vof p);
  pi_Vgood : vgood L sro r b (Vof p);
  pi_disk : safe L sro b (disk p);
  pi_k0 : K0 L r (disk p);
  pi_hist : Forall (safe L sro b) (dhist p)
}.

Lemma K0_anti (L L' : node -> Prop) r r' d :
  K0 L r d -> (forall u, L' u -> L u) -> incl r r' -> K0 L' r' d.
Proof. intros K HL Hr u Lu N P. apply Hr, (K u (HL u Lu) N P). Qed.

Lemma PI_pwrite p o L sro r b E (L' : node -> Prop) sro' r' b' (E' : nodekey -> entry -> Prop) :
  PI p L sro r b E ->
  (forall u, L' u -> L u) -> incl sro' sro -> b <= b' -> incl r r' ->
  pst E' (sapply (Vof p) o) -> vgood L' sro' r' b' (sapply (Vof p) o) ->
  PI (pwrite p o) L' sro' r' b' E'.
Proof.
  intros [PV (PS & PK & PR) PD PK0 PH] HL HS Hb Hr EV GV.
  destruct (pwrite_cases p o) as (EqV & _ & [[Ed Eh]|[Ed Eh]]); constructor;
    rewrite ?EqV, ?Ed, ?Eh; auto.
  - exact (safe_anti _ _ _ _ _ _ _ PD HL HS Hb).
  - exact (K0_anti _ _ _ _ _ PK0 HL Hr).
  - eapply Forall_impl; [|exact PH]. intros d Sd. exact (safe_anti _ _ _ _ _ _ _ Sd HL HS Hb).
  - exact (safe_anti _ _ _ _ _ _ _ PS HL HS Hb).
  - exact (K0_anti _ _ _ _ _ PK HL Hr).
  - apply Forall_app. split.
    + eapply Forall_impl; [|exact PH]. intros d Sd. exact (safe_anti _ _ _ _ _ _ _ Sd HL HS Hb).
    + constructor; [|constructor]. exact (safe_anti _ _ _ _ _ _ _ PS HL HS Hb).
Qed.

Lemma PI_pflush p L sro r b E : PI p L sro r b E -> PI (pflush p) L sro r b E.
Proof.
  intros [PV (PS & PK & PR) PD PK0 PH]. destruct (pflush_facts p) as (Ed & _ & Eh & EV).
  constructor; rewrite ?EV, ?Ed, ?Eh; auto.
  - split; auto.
  - apply Forall_app. split; [exact PH|]. constructor; [exact PS|constructor].
Qed.

Lemma PI_weaken p L sro r b E (L' : node -> Prop) sro' b' (E' : nodekey -> entry -> Prop) :
  PI p L sro r b E ->
  (forall u, L' u -> L u) -> incl sro' sro -> b <= b' ->
  (forall k e, E k e <-> E' k e) ->
  PI p L' sro' r b' E'.
Proof.
  intros [PV (PS & PK & PR) PD PK0 PH] HL HS Hb HE. constructor.
  - exact (pst_equiv _ _ _ HE PV).
  - split; [exact (safe_anti _ _ _ _ _ _ _ PS HL HS Hb)|]. split.
    + exact (K0_anti _ _ _ _ _ PK HL (incl_refl r)).
    + intros u Lu. apply PR, HL, Lu.
  - exact (safe_anti _ _ _ _ _ _ _ PD HL HS Hb).
  - exact (K0_anti _ _ _ _ _ PK0 HL (incl_refl r)).
  - eapply Forall_impl; [|exact PH]. intros d Sd. exact (safe_anti _ _ _ _ _ _ _ Sd HL HS Hb).
Qed.

Lemma keyok_pwrite p o L sro r b E k u :
  PI p L sro r b E -> L u -> keyok (disk p) k u -> keyok (disk (pwrite p o)) k u.
Proof.
  intros P Lu [->|(N1 & -> & Pr)]; [left; reflexivity|].
  destruct (pwrite_cases p o) as (_ & _ & [[Ed _]|[Ed _]]); rewrite Ed.
  - right. auto.
  - right. split; [exact N1|]. split; [reflexivity|].
    pose proof (pi_k0 _ _ _ _ _ _ P u Lu N1 Pr) as Ir.
    destruct (pi_Vgood _ _ _ _ _ _ P) as (_ & _ & R). exact (R u Lu N1 Ir).
Qed.

(** ** The two logs

    [wlog] records every write issued, [elog] the effective ones.  A step of the algorithm
    extends [elog] by a list [E] known from the forest alone, and keeps every relation between
    the two logs that survives a write entering both and the deletion of a key of nonce 0 or 1
    entering [wlog] only (PruneAlgoFacts14.wrel is such a relation). *)
Definition log_rel (R : list wop -> list wop -> Prop) : Prop :=
  (forall o wl el, R wl el -> R (wl ++ [o]) (el ++ [o])) /\
  (forall k wl el, snd k = 0 \/ snd k = 1 -> R wl el -> R (wl ++ [del_node k]) el).

Definition logs_ext (p p' : pdb) (E : list wop) : Prop :=
  elog p' = elog p ++ E /\
  forall R, log_rel R -> R (wlog p) (elog p) -> R (wlog p') (elog p').

Lemma logs_ext_refl p : logs_ext p p [].
Proof. split; [rewrite app_nil_r; reflexivity|auto]. Qed.

Lemma logs_ext_trans a b c E1 E2 : logs_ext a b E1 -> logs_ext b c E2 -> logs_ext a c (E1 ++ E2).
Proof.
  intros [A1 A2] [B1 B2]. split; [rewrite B1, A1, app_assoc; reflexivity|].
  intros R HR W. exact (B2 R HR (A2 R HR W)).
Qed.

Lemma wlog_pwrite p o : wlog (pwrite p o) = wlog p ++ [o].
Proof.
  unfold pwrite. cbv zeta. destruct (effmode p && negb (effective p o)); [reflexivity|].
  destruct (sched p) as [|[|] rest]; reflexivity.
Qed.

Lemma elog_pwrite p o : elog (pwrite p o) = if effective p o then elog p ++ [o] else elog p.
Proof.
  unfold pwrite. cbv zeta. destruct (effmode p && negb (effective p o)); [reflexivity|].
  destruct (sched p) as [|[|] rest]; reflexivity.
Qed.

Lemma logs_pwrite_eff p o : effective p o = true -> logs_ext p (pwrite p o) [o].
Proof.
  intros E. split; [rewrite elog_pwrite, E; reflexivity|].
  intros R [Keep _] W. rewrite wlog_pwrite, elog_pwrite, E. apply Keep, W.
Qed.

Lemma logs_pwrite_ineff p k :
  effective p (del_node k) = false -> snd k = 0 \/ snd k = 1 -> logs_ext p (pwrite p (del_node k)) [].
Proof.
  intros E N. split; [rewrite elog_pwrite, E, app_nil_r; reflexivity|].
  intros R [_ Drop] W. rewrite wlog_pwrite, elog_pwrite, E. apply Drop; assumption.
Qed.

Lemma effective_del p k (E : nodekey -> entry -> Prop) :
  pst E (Vof p) -> (effective p (del_node k) = true <-> exists e, E k e).
Proof.
  intros [_ F]. unfold effective, del_node. fold (Vof p). rewrite mhas_true. split.
  - intros (e & M). exists e. apply F, M.
  - intros (e & M). exists e. apply F, M.
Qed.

Lemma effective_del_false p k (E : nodekey -> entry -> Prop) :
  pst E (Vof p) -> (forall e, ~ E k e) -> effective p (del_node k) = false.
Proof.
  intros P N. destruct (effective p (del_node k)) eqn:Ef; [|reflexivity].
  apply (effective_del p k E P) in Ef. destruct Ef as (e & X). exfalso. exact (N e X).
Qed.

(** ** Exactly described virtual stores *)
Section Steps.
  Variable f0 : forest_t.
  Hypothesis FI : forest_inv f0.
  Hypothesis ND : NoDup (map fst f0).

  (** The descriptor [(L, ro, sro, r, b)] carried through the steps of deleteVersion: live nodes
      [L], root entries present [ro] (the virtual store is [pentry L ro r]), root entries promised
      to readers [sro] (part of [ro]; the version being deleted is in [ro] only), re-keyed
      versions [r], all below [b]. *)
  Record ctx (L : node -> Prop) (ro sro : forest_t) (r : list Z) (b : Z) : Prop := MkCtx {
    c_desc : desc_ok f0 L ro r;
    c_sro : incl sro ro;
    c_sroot : forall w t, In (w, Some t) sro -> L t;
    c_rb : forall w, In w r -> w < b
  }.

  Definition PIx (p : pdb) (L : node -> Prop) (ro sro : forest_t) (r : list Z) (b : Z) : Prop :=
    ctx L ro sro r b /\ PI p L sro r b (pentry L ro r).

  Lemma vgood_of_pst (L : node -> Prop) ro sro r b V :
    ctx L ro sro r b -> pst (pentry L ro r) V -> vgood L sro r b V.
  Proof.
    intros [D HS HR Hb] P. split; [exact (pst_safe f0 FI L ro r sro b V D P HS HR Hb)|]. split.
    - intros u Lu N1 Pr. destruct (mfind kcmp (ver (nmeta u), 0) V) as [e|] eqn:F; [|congruence].
      apply (proj2 P) in F. destruct (pentry_at_zero f0 FI L ro r _ e D F) as (_ & _ & _ & _ & I & _).
      exact I.
    - intros u Lu N1 Ir.
      assert (F : mfind kcmp (ver (nmeta u), 0) V = Some (ENode (snode_of u))); [|congruence].
      apply (proj2 P). left. exists u. rewrite (pkey_zero r u N1 Ir). auto.
  Qed.

  Definition minus (L : node -> Prop) (u : node) : node -> Prop := fun x => L x /\ x <> u.

  Lemma desc_ok_minus (L : node -> Prop) ro r u : desc_ok f0 L ro r -> desc_ok f0 (minus L u) ro r.
  Proof. intros [A B C]. constructor; auto. intros x [Lx _]. auto. Qed.

  Lemma pst_remove (L : node -> Prop) ro r V u :
    desc_ok f0 L ro r -> pst (pentry L ro r) V -> L u ->
    pst (pentry (minus L u) ro r) (mdel kcmp (pkey r u) V).
  Proof.
    intros D P Lu. apply (pst_mdel _ _ _ _ P). intros k e. split.
    - intros [(u' & [Lu' Ne] & -> & ->)|(v & rt & I & Er)].
      + split; [|left; exists u'; auto].
        intros K. apply Ne. exact (pkey_inj f0 FI L ro r u' u D Lu' Lu K).
      + split; [|right; exists v, rt; auto]. intros ->.
        destruct (pkey_cases r u) as [(_ & _ & K)|(_ & K)]; rewrite K in Er.
        * destruct (root_entry_Some _ _ _ _ Er) as [Q _]. inversion Q.
        * assert (Pe : pentry L ro r (node_key u) e) by (right; exists v, rt; auto).
          destruct (pentry_at_node_key f0 FI L ro r u e D Lu Pe) as [-> _].
          destruct (root_entry_Some _ _ _ _ Er) as [_ [[_ Q]|(t & _ & Q & _)]]; discriminate.
    - intros [Nk [(u' & Lu' & -> & ->)|(v & rt & I & Er)]].
      + left. exists u'. split; [|auto]. split; [exact Lu'|]. intros ->. apply Nk. reflexivity.
      + right. exists v, rt. auto.
  Qed.

  Lemma ctx_minus (L : node -> Prop) ro sro r b u :
    ctx L ro sro r b -> (forall w t, In (w, Some t) sro -> t <> u) -> ctx (minus L u) ro sro r b.
  Proof.
    intros [D HS HR Hb] NR. constructor; auto.
    - apply desc_ok_minus, D.
    - intros w t I. split; [exact (HR w t I)|exact (NR w t I)].
  Qed.

  Lemma ctx_mono (L L' : node -> Prop) ro ro' sro sro' r b b' :
    ctx L ro sro r b -> (forall u, L' u -> L u) -> incl ro' ro -> incl sro' ro' ->
    (forall w t, In (w, Some t) sro' -> L' t) -> b <= b' -> ctx L' ro' sro' r b'.
  Proof.
    intros [[A B C] HS HR Hb] HL Hro Hsro HR' Hbb. constructor; auto.
    - constructor; auto.
      + intros x Ix. apply B, Hro, Ix.
      + intros w Iw w' rt I. apply (C w Iw w' rt), Hro, I.
    - intros w Iw. specialize (Hb w Iw). lia.
  Qed.

  Lemma PIx_mono p (L L' : node -> Prop) ro ro' sro sro' r b b' :
    PIx p L ro sro r b -> ctx L' ro' sro' r b' ->
    (forall u, L' u -> L u) -> incl sro' sro -> b <= b' ->
    (forall k e, pentry L ro r k e <-> pentry L' ro' r k e) ->
    PIx p L' ro' sro' r b'.
  Proof.
    intros [_ P] C' HL HS Hb HE. split; [exact C'|].
    exact (PI_weaken p L sro r b _ L' sro' b' _ P HL HS Hb HE).
  Qed.

  Lemma PIx_write p o (L L' : node -> Prop) ro' sro r b E :
    PI p L sro r b E -> ctx L' ro' sro r b -> (forall u, L' u -> L u) ->
    pst (pentry L' ro' r) (sapply (Vof p) o) -> PIx (pwrite p o) L' ro' sro r b.
  Proof.
    intros P C' HL PV. split; [exact C'|].
    apply (PI_pwrite p o L sro r b _ L' sro r b _ P HL (incl_refl _) (Z.le_refl _) (incl_refl _) PV).
    apply (vgood_of_pst _ ro'); assumption.
  Qed.

  Lemma PIx_del_live p L ro sro r b u :
    PIx p L ro sro r b -> L u -> (forall w t, In (w, Some t) sro -> t <> u) ->
    PIx (pwrite p (del_node (pkey r u))) (minus L u) ro sro r b /\
    logs_ext p (pwrite p (del_node (pkey r u))) [del_node (pkey r u)].
  Proof.
    intros [C P] Lu NR. split.
    - apply (PIx_write p _ L _ ro sro r b _ P (ctx_minus _ _ _ _ _ u C NR)); [intros x [Lx _]; exact Lx|].
      rewrite sapply_del. apply pst_remove; [apply C|apply P|exact Lu].
    - apply logs_pwrite_eff, (effective_del p _ _ (pi_V _ _ _ _ _ _ P)).
      exists (ENode (snode_of u)). left. exists u. auto.
  Qed.

  Lemma PIx_del_absent p L ro sro r b k :
    PIx p L ro sro r b -> (forall e, ~ pentry L ro r k e) -> snd k = 0 \/ snd k = 1 ->
    PIx (pwrite p (del_node k)) L ro sro r b /\ logs_ext p (pwrite p (del_node k)) [].
  Proof.
    intros [C P] A N. split.
    - apply (PIx_write p _ L _ ro sro r b _ P C); [auto|].
      rewrite sapply_del. apply pst_mdel_absent; [apply P|exact A].
    - apply logs_pwrite_ineff; [|exact N]. exact (effective_del_false p _ _ (pi_V _ _ _ _ _ _ P) A).
  Qed.

  (** *** the orphan callback *)
  Lemma keyok_pwrite_x p o L ro sro r b k u :
    PIx p L ro sro r b -> L u -> keyok (disk p) k u -> keyok (disk (pwrite p o)) k u.
  Proof. intros [_ P]. apply (keyok_pwrite p o L sro r b _ k u P). Qed.

  (** exactly one of the deletions is effective: that of the key the node is stored under; the
      state after the first deletion (where a failing second one leaves the run) is described too *)
  Lemma PIx_orphan version p L ro sro r k u :
    PIx p L ro sro r version -> L u -> keyok (disk p) k u ->
    (forall w t, In (w, Some t) sro -> t <> u) ->
    PIx (on_orphan version p k) (minus L u) ro sro r version /\
    (forall x kx, minus L u x -> keyok (disk p) kx x -> keyok (disk (on_orphan version p k)) kx x) /\
    logs_ext p (on_orphan version p k) [del_node (pkey r u)] /\
    exists L1, PIx (pwrite p (del_node k)) L1 ro sro r version /\ forall x, minus L u x -> L1 x.
  Proof.
    intros PX Lu KO NR. pose proof PX as [C P].
    pose proof (live_nonce f0 FI L ro r u (c_desc _ _ _ _ _ C) Lu) as Nn.
    destruct (PIx_del_live p L ro sro r version u PX Lu NR) as [PXd Gd].
    unfold on_orphan. destruct KO as [->|(N1 & -> & Pr)].
    - cbn [node_key fst snd].
      destruct ((nonce (nmeta u) =? 1) && (ver (nmeta u) <? version)) eqn:T.
      + apply andb_prop in T. destruct T as [T1 T2]. apply Z.eqb_eq in T1. apply Z.ltb_lt in T2.
        destruct (pkey_cases r u) as [(_ & Ir & K)|(NI & K)].
        * (* re-keyed: (w,1) holds nothing, the node is under (w,0) *)
          assert (A : forall e, ~ pentry L ro r (ver (nmeta u), nonce (nmeta u)) e).
          { intros e Pe. destruct (pentry_at_node_key f0 FI L ro r u e (c_desc _ _ _ _ _ C) Lu Pe) as [_ K'].
            rewrite K in K'. unfold node_key in K'. inversion K'. lia. }
          destruct (PIx_del_absent p L ro sro r version _ PX A (or_intror T1)) as [PX1 G1].
          destruct (PIx_del_live _ L ro sro r version u PX1 Lu NR) as [PX2 G2]. rewrite <- K.
          split; [exact PX2|]. split; [|split; [exact (logs_ext_trans _ _ _ _ _ G1 G2)|]].
          2:{ exists L. split; [exact PX1|]. intros x [Lx _]. exact Lx. }
          intros x kx [Lx _] Kx. apply (keyok_pwrite_x _ _ L ro sro r version kx x PX1 Lx).
          apply (keyok_pwrite_x _ _ L ro sro r version kx x PX Lx Kx).
        * (* under (w,1): then (w,0) holds nothing *)
          rewrite <- K.
          destruct (PIx_del_absent _ (minus L u) ro sro r version (ver (nmeta u), 0) PXd) as [PX2 G2];
            [|left; reflexivity|].
          -- intros e Pe.
             destruct (pentry_at_zero f0 FI _ ro r _ e (desc_ok_minus L ro r u (c_desc _ _ _ _ _ C)) Pe)
               as (u' & [Lu' Ne] & N1' & V' & Ir & _).
             apply Ne. apply (live_coh f0 FI L ro r); [apply C|assumption|assumption|].
             unfold node_key. congruence.
          -- split; [exact PX2|]. split; [|split; [exact (logs_ext_trans _ _ _ _ _ Gd G2)|exists (minus L u); auto]].
             intros x kx Mx Kx. apply (keyok_pwrite_x _ _ _ ro sro r version kx x PXd Mx).
             destruct Mx as [Lx _]. apply (keyok_pwrite_x _ _ L ro sro r version kx x PX Lx Kx).
      + (* a single deletion, the node is under its own key *)
        assert (K : pkey r u = node_key u).
        { apply pkey_plain. intros [N1 Ir]. pose proof (c_rb _ _ _ _ _ C _ Ir) as Lt.
          rewrite N1 in T. cbn [Z.eqb Pos.eqb andb] in T. apply Z.ltb_ge in T. lia. }
        rewrite <- K. split; [exact PXd|]. split; [|split; [exact Gd|exists (minus L u); auto]].
        intros x kx [Lx _] Kx. apply (keyok_pwrite_x _ _ L ro sro r version kx x PX Lx Kx).
    - (* asked under (w,0) *)
      cbn [fst snd]. cbn [Z.eqb andb].
      rewrite <- (pkey_zero r u N1 (pi_k0 _ _ _ _ _ _ P u Lu N1 Pr)). split; [exact PXd|]. split; [|split; [exact Gd|exists (minus L u); auto]].
      intros x kx [Lx _] Kx. apply (keyok_pwrite_x _ _ L ro sro r version kx x PX Lx Kx).
  Qed.

  Lemma PIx_ext p (L L' : node -> Prop) ro sro r b :
    (forall x, L x <-> L' x) -> PIx p L ro sro r b -> PIx p L' ro sro r b.
  Proof.
    intros Q PX. pose proof PX as [C _].
    apply (PIx_mono p L L' ro ro sro sro r b b PX); [|apply Q|apply incl_refl|lia|].
    - apply (ctx_mono L L' ro ro sro sro r b b C); [apply Q|apply incl_refl|apply C| |lia].
      intros w t I. apply Q, (c_sroot _ _ _ _ _ C w t I).
    - intros k e. split; (intros [(u & Lu & A)|A]; [left; exists u; split; [apply Q, Lu|exact A]|right; exact A]).
  Qed.

  Lemma PIx_relax p (L : node -> Prop) ro sro r b sro' b' :
    PIx p L ro sro r b -> incl sro' sro -> b <= b' -> PIx p L ro sro' r b'.
  Proof.
    intros PX Hs Hbb. pose proof PX as [C _].
    apply (PIx_mono p L L ro ro sro sro' r b b' PX); auto; [|intros k e; reflexivity].
    apply (ctx_mono L L ro ro sro sro' r b b' C); auto; [apply incl_refl| |].
    - intros x Ix. apply (c_sro _ _ _ _ _ C), Hs, Ix.
    - intros w t I. apply (c_sroot _ _ _ _ _ C w t), Hs, I.
  Qed.

  (** *** the root entry of the deleted version *)
  Lemma PIx_root_entry_del p L f' sro r b v rv k e :
    PIx p L ((v, rv) :: f') sro r b -> incl sro f' -> ~ In v (map fst f') ->
    root_entry v rv = Some (k, e) ->
    PIx (pwrite p (del_node (v, 1))) L f' sro r b.
  Proof.
    intros [C P] HS' NI Er. pose proof (c_desc _ _ _ _ _ C) as D.
    assert (C' : ctx L f' sro r b).
    { apply (ctx_mono L L _ f' sro sro r b b C); auto; [apply incl_tl, incl_refl|apply C|lia]. }
    apply (PIx_write p _ L L f' sro r b _ P C'); [auto|].
    { rewrite sapply_del. apply (pst_mdel _ _ _ _ (pi_V _ _ _ _ _ _ P)). intros k' e'. split.
      - intros [(u & Lu & -> & ->)|(w & rt & I & Ew)].
        + split; [|left; exists u; auto]. intros K.
          destruct (pkey_cases r u) as [(_ & _ & K')|(_ & K')]; rewrite K' in K; [inversion K|].
          pose proof (fi_root f0 FI v rv u (d_roots _ _ _ _ D _ (or_introl eq_refl))
                        (d_live _ _ _ _ D u Lu) K) as ->.
          rewrite (root_entry_root _ _ K) in Er. discriminate.
        + split; [|right; exists w, rt; split; [right; exact I|exact Ew]].
          intros ->. destruct (root_entry_Some _ _ _ _ Ew) as [Q _]. inversion Q; subst w.
          apply NI. apply in_map_iff. exists (v, rt). auto.
      - intros [Nk [(u & Lu & -> & ->)|(w & rt & [Q|I] & Ew)]].
        + left. exists u. auto.
        + inversion Q; subst w rt. destruct (root_entry_Some _ _ _ _ Ew) as [-> _]. contradiction.
        + right. exists w, rt. auto. }
  Qed.

  Lemma root_entry_del_logs p L f' sro r b v rv k e :
    PIx p L ((v, rv) :: f') sro r b -> root_entry v rv = Some (k, e) ->
    logs_ext p (pwrite p (del_node (v, 1))) [del_node (v, 1)].
  Proof.
    intros [_ P] Er. apply logs_pwrite_eff, (effective_del _ _ _ (pi_V _ _ _ _ _ _ P)).
    exists e. right. exists v, rv. split; [left; reflexivity|].
    destruct (root_entry_Some _ _ _ _ Er) as [<- _]. exact Er.
  Qed.

  Lemma PIx_root_entry_none p L f' sro r b v rv :
    PIx p L ((v, rv) :: f') sro r b -> incl sro f' -> root_entry v rv = None ->
    PIx p L f' sro r b.
  Proof.
    intros PX HS' Er. pose proof PX as [C _].
    apply (PIx_mono p L L _ f' sro sro r b b PX); auto; [|apply incl_refl|lia|].
    - apply (ctx_mono L L _ f' sro sro r b b C); auto; [apply incl_tl, incl_refl|apply C|lia].
    - intros k e. split.
      + intros [A|(w & rt & [Q|I] & Ew)]; [left; exact A| |right; exists w, rt; auto].
        inversion Q; subst. congruence.
      + intros [A|(w & rt & I & Ew)]; [left; exact A|]. right. exists w, rt. split; [right; exact I|exact Ew].
  Qed.

  (** *** re-keying the root that the next version still uses *)
  Lemma safe_mset0 (L : node -> Prop) sro v V t :
    (forall u, L u -> sub_of f0 u) ->
    safe L sro v V -> L t -> node_key t = (v, 1) ->
    safe L sro (v + 1) (mset kcmp (v, 0) (ENode (snode_of t)) V).
  Proof.
    intros HL SV Lt Kt. pose proof (safe_zero_none L sro v V v SV (Z.le_refl v)) as Z0.
    destruct SV as (S & A & B & C & Db).
    assert (Coh : forall u, L u -> nonce (nmeta u) = 1 -> ver (nmeta u) = v -> u = t).
    { intros u Lu N1 Vu. apply (fi_coh f0 FI); auto. rewrite Kt. unfold node_key. congruence. }
    split; [apply (msorted_mset kcmp kcmp_ok), S|]. split; [|split; [|split]].
    - intros u Lu. specialize (A u Lu).
      pose proof (sub_of_nonce f0 FI u (HL u Lu)) as Nn.
      unfold get_node, node_key in *. cbn [fst snd] in *.
      rewrite mfind_mset_neq by (intros Q; inversion Q; lia).
      destruct (mfind kcmp (ver (nmeta u), nonce (nmeta u)) V) as [e|]; [exact A|].
      destruct (nonce (nmeta u) =? 1); [|discriminate].
      destruct (Z.eq_dec (ver (nmeta u)) v) as [Q|Q]; [rewrite Q, Z0 in A; discriminate|].
      rewrite mfind_mset_neq by congruence. exact A.
    - intros u e Lu N1. destruct (Z.eq_dec (ver (nmeta u)) v) as [Q|Q].
      + rewrite Q, mfind_mset_eq. intros E. inversion E. rewrite (Coh u Lu N1 Q). reflexivity.
      + rewrite mfind_mset_neq by congruence. apply B; assumption.
    - intros w rt I. unfold rootinfo. rewrite mfind_mset_neq by discriminate. exact (C w rt I).
    - intros w e. destruct (Z.eq_dec w v) as [->|Q]; [intros _; lia|].
      rewrite mfind_mset_neq by congruence. intros F. specialize (Db _ _ F). lia.
  Qed.

  Lemma PIx_rekey p L f' sro r v t :
    PIx p L f' sro r v -> L t -> node_key t = (v, 1) ->
    (forall w rt, In (w, rt) f' -> v < w) ->
    PIx (pwrite (pwrite p (set_node ((v, 0), ENode (snode_of t)))) (del_node (v, 1)))
        L f' sro (v :: r) (v + 1) /\
    (forall x k, L x -> keyok (disk p) k x ->
       keyok (disk (pwrite (pwrite p (set_node ((v, 0), ENode (snode_of t)))) (del_node (v, 1)))) k x) /\
    logs_ext p (pwrite (pwrite p (set_node ((v, 0), ENode (snode_of t)))) (del_node (v, 1)))
      [set_node ((v, 0), ENode (snode_of t)); del_node (v, 1)].
  Proof.
    intros [[D HS HR Hb] P] Lt Kt Hv.
    assert (N1 : nonce (nmeta t) = 1) by (unfold node_key in Kt; congruence).
    assert (Vt : ver (nmeta t) = v) by (unfold node_key in Kt; congruence).
    assert (NIr : ~ In v r) by (intros I; specialize (Hb _ I); lia).
    assert (Kp : pkey r t = (v, 1)).
    { rewrite pkey_plain; [exact Kt|]. rewrite Vt. tauto. }
    (* where the live nodes sit before and after: only [t] moves *)
    assert (PK : forall u, L u ->
              (u = t /\ pkey (v :: r) u = (v, 0)) \/
              (pkey (v :: r) u = pkey r u /\ pkey r u <> (v, 0) /\ pkey r u <> (v, 1))).
    { intros u Lu. pose proof (live_nonce f0 FI L f' r u D Lu) as Nn. rewrite pkey_cons.
      destruct ((nonce (nmeta u) =? 1) && (ver (nmeta u) =? v)) eqn:T.
      - left. apply andb_prop in T. destruct T as [T1 T2]. apply Z.eqb_eq in T1, T2.
        split; [|reflexivity]. apply (fi_coh f0 FI); try (apply D; assumption).
        rewrite Kt. unfold node_key. congruence.
      - right. split; [reflexivity|]. split.
        + intros Q. apply pkey_eq_zero in Q; [|exact Nn]. destruct Q as (_ & _ & I). contradiction.
        + intros Q. destruct (pkey_cases r u) as [(_ & _ & K)|(_ & K)]; rewrite K in Q; [inversion Q|].
          unfold node_key in Q. inversion Q as [[Qv Qn]]. rewrite Qv, Qn, !Z.eqb_refl in T. discriminate. }
    set (e := ENode (snode_of t)).
    set (E1 := fun k e' => (k = (v, 0) /\ e' = e) \/ (k <> (v, 0) /\ pentry L f' r k e')).
    destruct (pi_Vgood _ _ _ _ _ _ P) as (SV & KV & RV).
    (* the set *)
    assert (P1 : PI (pwrite p (set_node ((v, 0), e))) L sro (v :: r) (v + 1) E1).
    { apply (PI_pwrite p _ L sro r v _ _ sro (v :: r) (v + 1) _ P); auto.
      - apply incl_refl.
      - lia.
      - apply incl_tl, incl_refl.
      - rewrite sapply_set. apply (pst_mset _ _ _ _ _ (pi_V _ _ _ _ _ _ P)). intros k e'. reflexivity.
      - rewrite sapply_set. split; [apply safe_mset0; auto; apply D|]. split.
        + intros u Lu N1u. destruct (Z.eq_dec (ver (nmeta u)) v) as [Q|Q]; [left; symmetry; exact Q|].
          rewrite mfind_mset_neq by congruence. intros Pr. right. exact (KV u Lu N1u Pr).
        + intros u Lu N1u [Q|Ir]; [rewrite <- Q, mfind_mset_eq; discriminate|].
          rewrite mfind_mset_neq by (intros Q; inversion Q; specialize (Hb _ Ir); lia).
          exact (RV u Lu N1u Ir). }
    (* the delete *)
    assert (D' : desc_ok f0 L f' (v :: r)).
    { destruct D as [A B C]. constructor; auto.
      intros w [<-|Iw] w' rt I; [exact (Hv _ _ I)|exact (C w Iw w' rt I)]. }
    assert (C' : ctx L f' sro (v :: r) (v + 1)).
    { constructor; auto. intros w [<-|Iw]; [lia|]. specialize (Hb _ Iw). lia. }
    split; [|split].
    2:{ intros x k Lx Kx. apply (keyok_pwrite _ _ L sro (v :: r) (v + 1) E1 k x P1 Lx).
        exact (keyok_pwrite p _ L sro r v _ k x P Lx Kx). }
    2:{ apply (logs_ext_trans _ (pwrite p (set_node ((v, 0), e))) _ [_] [_]); apply logs_pwrite_eff; [reflexivity|].
        apply (effective_del _ _ _ (pi_V _ _ _ _ _ _ P1)). exists e. right.
        split; [intros Q; inversion Q|]. left. exists t. auto. }
    apply (PIx_write _ _ L L f' sro (v :: r) (v + 1) _ P1 C'); [auto|].
    { rewrite sapply_del. apply (pst_mdel _ _ _ _ (pi_V _ _ _ _ _ _ P1)). intros k e'. split.
      - intros [(u & Lu & -> & ->)|(w & rt & I & Ew)].
        + destruct (PK u Lu) as [[-> K1]|(K1 & N0 & N1')]; rewrite K1.
          * split; [intros Q; inversion Q|left; auto].
          * split; [exact N1'|]. right. split; [exact N0|]. left. exists u. auto.
        + destruct (root_entry_Some _ _ _ _ Ew) as [-> _]. specialize (Hv _ _ I).
          split; [intros Q; inversion Q; lia|]. right. split; [intros Q; inversion Q|].
          right. exists w, rt. auto.
      - intros [Nk [[-> ->]|[Nk0 [(u & Lu & -> & ->)|(w & rt & I & Ew)]]]].
        + left. exists t. destruct (PK t Lt) as [[_ K1]|(_ & _ & N1')]; [rewrite K1; auto|contradiction].
        + left. exists u. destruct (PK u Lu) as [[-> _]|(K1 & _)]; [contradiction|rewrite K1; auto].
        + right. exists w, rt. auto. }
  Qed.
End Steps.
