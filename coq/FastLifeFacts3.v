(** FastLifeFacts3: every operation of the fast-index life cycle preserves the coherence
    invariant [fcoh] (FastLifeFacts2), inside the usage contract. *)
From Coq Require Import Lia.
From IAVL Require Import Bytes Varint Tree VMap TreeFacts MTree MTreeFacts VersionFacts
  Store StoreFacts FastLife FastLifeFacts1 FastLifeFacts2.
Local Open Scope Z_scope.

(** ** Walks after the writes *)
Lemma walk_set s k v k' :
  state_inv s ->
  walk_get (root (fst (do_set s k v))) k' =
    match bcmp k' k with Eq => Some v | _ => walk_get (root s) k' end.
Proof.
  intros I. pose proof (do_set_inv s k v I) as I'. destruct (do_set_refines s k v I) as (E & _ & _).
  rewrite (walk_get_assoc _ k' (inv_root _ I')), E, ins_mset, (mfind_mset bcmp bcmp_ok),
    (walk_get_assoc _ k' (inv_root _ I)). reflexivity.
Qed.

Lemma walk_remove s k k' :
  state_inv s ->
  walk_get (root (fst (do_remove s k))) k' =
    match bcmp k' k with Eq => None | _ => walk_get (root s) k' end.
Proof.
  intros I. pose proof (do_remove_inv s k I) as I'. destruct (do_remove_refines s k I) as (E & _ & _).
  rewrite (walk_get_assoc _ k' (inv_root _ I')), E, del_mdel,
    (mfind_mdel bcmp bcmp_ok _ _ _ (osorted_elems _ (inv_root _ I))),
    (walk_get_assoc _ k' (inv_root _ I)). reflexivity.
Qed.

(** ** A new tree object that has not loaded anything yet *)
Definition fresh_ms (s : mstate) : mstate :=
  MState None 0 None (forest s) (init_ver s) (init_opt s) (init_opt s).

(** on a non-empty store LoadVersion answers the same on an unloaded object and on one that
    has loaded some version, and reaches the same state when it succeeds *)
Lemma do_load_fresh f iv a b r tv v :
  f <> [] ->
  snd (do_load (MState None 0 None f iv a b) v) = snd (do_load (MState r tv r f iv a b) v) /\
  (snd (do_load (MState None 0 None f iv a b) v) <> XErr ->
   fst (do_load (MState None 0 None f iv a b) v) = fst (do_load (MState r tv r f iv a b) v)).
Proof.
  intros NE. unfold do_load, first_version, latest_version.
  cbn [forest init_ver init_set init_opt].
  destruct ((0 <? match f with [] => 0 | (v0, _) :: _ => v0 end) &&
            (match f with [] => 0 | (v0, _) :: _ => v0 end <? iv));
    [cbn [fst snd]; split; [reflexivity|congruence]|].
  destruct (fold_left (fun _ p => fst p) f 0 <? v);
    [cbn [fst snd]; split; [reflexivity|congruence]|].
  destruct f as [|p f']; [congruence|].
  destruct (lookup (if v <=? 0 then fold_left (fun _ p0 => fst p0) (p :: f') 0 else v) (p :: f'));
    cbn [fst snd]; split; try reflexivity; congruence.
Qed.

Lemma do_load_err s v : snd (do_load s v) = XErr -> do_load s v = (s, XErr).
Proof.
  intros E. destruct (do_load_cases s v) as [E1|[(_ & _ & E1)|(tv & r & _ & E1)]];
    rewrite E1 in *; [reflexivity|discriminate E|discriminate E].
Qed.

Lemma do_load_ok s v : snd (do_load s v) <> XErr -> exists n, snd (do_load s v) = XInt n.
Proof.
  intros N. destruct (do_load_cases s v) as [E|[(_ & _ & E)|(tv & r & _ & E)]]; rewrite E in *;
    cbn [snd] in *; [congruence|eauto|eauto].
Qed.

Lemma do_load_saved s v :
  root s = last_saved s -> root (fst (do_load s v)) = last_saved (fst (do_load s v)).
Proof.
  intros R. destruct (do_load_cases s v) as [E|[(_ & _ & E)|(tv & r & _ & E)]]; rewrite E;
    [exact R|exact R|reflexivity].
Qed.

Section Steps.
  Variable H : bytes -> bytes.

  Lemma fcoh_set st k v : state_inv (ms st) -> fcoh st -> fcoh (fst (fstep H st (FSet k v))).
  Proof.
    intros I Co. cbn [fstep step]. rewrite (surjective_pairing (do_set (ms st) k v)). cbn [fst].
    destruct (do_set_refines (ms st) k v I) as (_ & _ & EV & ELS & EF & _).
    destruct (skipf st) eqn:Sk.
    - apply fcoh_off; [exact Sk|apply (lab_ok_same_forest _ _ _ _ _ EF), Co|exact Co].
    - apply (fcoh_same_forest st _ _ _ _ Sk EF); [|exact Co].
      apply (uns_ok_set (ms st)); [exact EV|apply (same_forest _ _ EF)|exact ELS| |].
      + intros k'. apply walk_set, I.
      + rewrite <- Sk. apply Co.
  Qed.

  Lemma fcoh_remove st k : state_inv (ms st) -> fcoh st -> fcoh (fst (fstep H st (FRemove k))).
  Proof.
    intros I Co. cbn [fstep step]. rewrite (surjective_pairing (do_remove (ms st) k)).
    destruct (do_remove_refines (ms st) k I) as (_ & -> & EV & ELS & EF & _). cbn [fst].
    destruct (same_forest _ _ EF) as (EL & ET & Sub).
    destruct (skipf st) eqn:Sk.
    - assert (Off : fcoh (with_ms st (fst (do_remove (ms st) k))))
        by (apply fcoh_off; [exact Sk|apply (lab_ok_same_forest _ _ _ _ _ EF), Co|exact Co]).
      destruct (mem k (oelems (root (ms st)))); exact Off.
    - destruct (mem k (oelems (root (ms st)))) eqn:M.
      + apply (fcoh_same_forest st _ _ _ _ Sk EF); [|exact Co].
        apply (uns_ok_remove (ms st)); [exact EV|exact Sub|exact ELS| |].
        * intros k'. apply walk_remove, I.
        * rewrite <- Sk. apply Co.
      + (* nothing was removed: the working tree answers as before *)
        apply fcoh_transfer; try assumption.
        * intros k'. rewrite (walk_remove _ k k' I). destruct (bcmp k' k) eqn:B; try reflexivity.
          apply bcmp_eq in B. subst k'. symmetry. apply walk_get_absent; [apply I|exact M].
        * intros k'. rewrite ELS. reflexivity.
  Qed.

  (** ** SaveVersion *)

  (** An idempotent re-commit (SaveVersion on an existing version number) succeeds when the root
      hashes agree.  The code then keeps the unsaved additions / removals; they stay truthful
      only if equal hashes mean equal contents, which is the case unless the hash function
      collides on the two trees (see [recommit_colliding_hash_refuted] in FastLifeFacts). *)
  Definition save_honest (s : mstate) : Prop :=
    forall e, lookup (working_version s) (forest s) = Some e ->
      snd (do_save H s) <> XErr -> oelems e = oelems (root s).

  Lemma new_version_above s :
    contig s -> lookup (working_version s) (forest s) = None ->
    latest_version s < working_version s /\ 1 <= working_version s /\
    version s = latest_version s.
  Proof.
    intros C L. destruct (do_save_numbering s C L) as [(F & V & W)|(NE & V & W)].
    - destruct (contig_cases s C) as [(_ & _ & _ & _ & _ & W1 & _)|(NE & _)]; [|congruence].
      rewrite (latest_empty s F). lia.
    - destruct (contig_range s (contig_forest_ok s C) NE) as (R & _). lia.
  Qed.

  Lemma save_new_index_valid s r' ix ad (rm : list (bytes * unit)) :
    state_inv s -> contig s -> lookup (working_version s) (forest s) = None ->
    oelems r' = oelems (root s) ->
    let s' := MState r' (working_version s) r' (forest s ++ [(working_version s, r')])
                     (init_ver s) false (init_opt s) in
    state_inv s' -> contig s' ->
    idx_valid s ix -> uns_ok s false ad rm ->
    idx_valid s'
      (fold_left (fun acc r => mdel bcmp (fst r) acc) rm
         (fold_left (fun acc a => mset bcmp (fst a) (snd a) acc) ad ix)).
  Proof.
    intros I C L Er s' I' C' Vd [U1 U2 U3 U4 U5 U6]. specialize (U5 eq_refl).
    destruct (new_version_above s C L) as (Above & Pos & V).
    assert (EL : latest_version s' = working_version s).
    { unfold latest_version, s'. cbn [forest]. apply latest_snoc. }
    assert (LK : forall t, lookup t (forest s') =
                   if t =? working_version s then Some r' else lookup t (forest s)).
    { intros t. unfold s'. cbn [forest]. apply lookup_snoc, L. }
    assert (ET : ltree s' = r').
    { unfold ltree. rewrite EL, LK, Z.eqb_refl. reflexivity. }
    assert (Or' : oinv r') by exact (inv_root s' I').
    assert (WR : forall k, walk_get r' k = walk_get (root s) k).
    { intros k. apply walk_get_oelems_eq; auto. apply I. }
    assert (LS : forall k, walk_get (last_saved s) k = walk_get (ltree s) k)
      by (intros k; apply saved_walk_latest; assumption).
    pose proof (iv_sorted s ix Vd) as Six.
    assert (S1 : msorted bcmp (fold_left (fun acc a => mset bcmp (fst a) (snd a) acc) ad ix))
      by (apply (msorted_fold_mset bcmp bcmp_ok), Six).
    assert (Find : forall k,
      mfind bcmp k (fold_left (fun acc r => mdel bcmp (fst r) acc) rm
         (fold_left (fun acc a => mset bcmp (fst a) (snd a) acc) ad ix)) =
      match mfind bcmp k rm with
      | Some _ => None
      | None => match mfind bcmp k ad with Some x => Some x | None => mfind bcmp k ix end
      end).
    { intros k. rewrite (mfind_fold_mdel bcmp bcmp_ok k rm _ S1),
        (mfind_fold_mset bcmp bcmp_ok k ad ix U2). reflexivity. }
    (* an answer of the working tree that was true from [e] up to the latest version stays true
       up to the new version *)
    assert (Ext : forall k e v, walk_get (root s) k = Some v ->
      (forall t tr, lookup t (forest s) = Some tr -> e <= t <= latest_version s ->
                    walk_get tr k = Some v) ->
      forall t tr, lookup t (forest s') = Some tr -> e <= t <= working_version s ->
                   walk_get tr k = Some v).
    { intros k e v Wk A t tr. rewrite LK. destruct (t =? working_version s) eqn:Tw.
      - intros Q _. inversion Q; subst tr. rewrite WR. exact Wk.
      - intros Lt R. apply (A t tr Lt). pose proof (retained_le_latest s t tr C Lt) as Rt.
        apply Z.eqb_neq in Tw. lia. }
    apply idx_valid_intro; auto.
    - apply (msorted_fold_mdel bcmp), S1.
    - intros k. rewrite Find, ET, WR, (U5 k).
      destruct (mfind bcmp k rm) as [u|] eqn:Rk.
      + intros _. destruct (mfind bcmp k ad) as [[e v]|] eqn:Ak; [|reflexivity].
        exfalso. assert (N : mfind bcmp k rm = None) by (apply U4; rewrite Ak; discriminate).
        congruence.
      + destruct (mfind bcmp k ad) as [[e v]|]; [discriminate|].
        intros N. rewrite LS. apply (iv_none s ix Vd), N.
    - intros k e v. rewrite Find, ET, WR, EL.
      destruct (mfind bcmp k rm) as [u|] eqn:Rk; [discriminate|].
      destruct (mfind bcmp k ad) as [[e0 v0]|] eqn:Ak.
      + intros Q. inversion Q; subst e0 v0. destruct (U6 k e v Ak) as [A1 A2]. rewrite V in A2.
        assert (Wk : walk_get (root s) k = Some v) by (rewrite (U5 k), Ak; reflexivity).
        split; [lia|]. split; [exact Wk|]. apply Ext; assumption.
      + intros Q. destruct (iv_some s ix Vd k e v Q) as [A1 A2].
        assert (Wk : walk_get (root s) k = Some v).
        { rewrite (U5 k), Ak, Rk, LS. apply (idx_valid_latest s ix k e v C Vd Q). }
        split; [lia|]. split; [exact Wk|]. apply Ext; assumption.
  Qed.

  Lemma recommit_uns_ok s e skip ad rm :
    state_inv s -> contig s -> lookup (working_version s) (forest s) = Some e ->
    oelems e = oelems (root s) ->
    uns_ok s skip ad rm ->
    uns_ok (MState e (working_version s) e (forest s) (init_ver s) false (init_opt s)) skip ad rm.
  Proof.
    intros I C L Ee U. destruct skip; [apply (uns_ok_off _ _ _ _ U)|].
    destruct U as [U1 U2 U3 U4 U5 U6]. specialize (U5 eq_refl).
    destruct (state_inv_lookup s _ e I L) as [Oe _].
    assert (WE : forall k, walk_get e k = walk_get (root s) k).
    { intros k. apply walk_get_oelems_eq; auto. apply I. }
    assert (W : working_version s = version s + 1).
    { destruct (contig_cases s C) as [(_ & F & _)|(_ & _ & _ & _ & W)]; [|exact W].
      rewrite F in L. discriminate L. }
    constructor; auto; cbn [root last_saved version forest].
    - intros _ k. pose proof (U5 k) as Uk. rewrite <- WE in Uk.
      destruct (mfind bcmp k ad) as [[e0 v0]|]; [exact Uk|].
      destruct (mfind bcmp k rm); [exact Uk|reflexivity].
    - intros k e0 v Q. cbn [version forest]. destruct (U6 k e0 v Q) as [A1 A2]. split; [lia|].
      intros t tr Lt R. destruct (Z.eq_dec t (working_version s)) as [->|Nt].
      + rewrite L in Lt. inversion Lt; subst tr. rewrite WE, (U5 k), Q. reflexivity.
      + apply (A2 t tr Lt). lia.
  Qed.

  Lemma fcoh_save st :
    state_inv (ms st) -> contig (ms st) -> save_honest (ms st) -> fcoh st ->
    fcoh (fst (fstep H st FSave)).
  Proof.
    intros I C Hon Co. cbn [fstep step]. unfold version_exists.
    pose proof (step_inv H (ms st) OSave I) as I'. pose proof (do_save_contig H (ms st) C) as C'.
    cbn [step] in I'.
    destruct (lookup (working_version (ms st)) (forest (ms st))) as [e|] eqn:L.
    - pose proof (Hon e L) as He.
      destruct (save_existing_sharp H (ms st) e L) as [[_ E]|[_ E]]; rewrite E in *;
        cbn [fst snd] in *.
      + apply fcoh_same_forest; [reflexivity|reflexivity| |exact Co].
        apply recommit_uns_ok; auto; [|apply Co]. apply He. discriminate.
      + (* the hashes differ: an error, only [init_set] has moved *)
        apply fcoh_transfer; try reflexivity; [|exact Co]. intros t tr Lt. exact Lt.
    - destruct (save_new_version H (ms st) C L) as (r' & Er & E & _ & _ & EL & _).
      rewrite E in *. cbn [fst snd] in *.
      destruct (new_version_above (ms st) C L) as (Above & _).
      destruct (skipf st) eqn:Sk.
      + apply fcoh_off; [exact Sk| |exact Co].
        apply (lab_ok_grow (ms st)); [rewrite EL; exact Above|apply Co].
      + constructor; cbn [ms fidx dlabel mlabel skipf adds rems].
        * constructor; [reflexivity| |].
          -- intros u Q. inversion Q. rewrite EL. lia.
          -- intros _ _ _.
             apply (save_new_index_valid (ms st) r' (fidx st) (adds st) (rems st) I C L Er I' C').
             ++ apply (idx_valid_on st Co Sk).
             ++ rewrite <- Sk. apply Co.
        * apply uns_ok_nil. reflexivity.
        * intros _. rewrite EL. reflexivity.
  Qed.

  Lemma fcoh_rollback st :
    state_inv (ms st) -> contig (ms st) -> fcoh st -> fcoh (fst (fstep H st FRollback)).
  Proof.
    intros I C Co. cbn [fstep step fst]. apply fcoh_clear; [reflexivity| |exact Co].
    intros k. cbn [root last_saved].
    destruct (0 <? version (ms st)) eqn:V; [reflexivity|]. apply Z.ltb_ge in V.
    destruct (contig_saved (ms st) C) as [(_ & _ & LS)|(_ & _ & P)]; [|lia].
    rewrite LS. reflexivity.
  Qed.

  (** ** Opening a new tree object *)

  Lemma new_object_parts st s' skip :
    forest s' = forest (ms st) -> root s' = last_saved s' -> fcoh st ->
    lab_ok s' (fidx st) (dlabel st) (dlabel st) /\ uns_ok s' skip [] [].
  Proof.
    intros EF ER Co. split.
    - apply (lab_ok_same_forest (ms st)); [exact EF|apply (lab_ok_relabel _ _ _ _ (fc_lab _ Co))].
    - apply uns_ok_nil. intros _ k. rewrite ER. reflexivity.
  Qed.

  Lemma fcoh_open st skip :
    state_inv (ms st) -> contig (ms st) -> fcoh st -> fcoh (fst (fstep H st (FOpen skip))).
  Proof.
    intros I C Co. cbn [fstep].
    pose proof (step_inv H (ms st) OReopen I) as I'.
    destruct (reopen_spec H (ms st) C) as (E & EF & _ & _ & _ & _ & _ & _ & _ & ER & _ & _ & C').
    rewrite E in *. cbn [fst] in *.
    destruct (new_object_parts st _ skip EF ER Co).
    apply fcoh_enable; cbn [ms fidx dlabel mlabel skipf adds rems]; assumption.
  Qed.

  Lemma fcoh_load st v :
    state_inv (ms st) -> contig (ms st) -> fcoh st -> fcoh (fst (fstep H st (FLoad v))).
  Proof.
    intros I C Co. cbn [fstep step].
    destruct (do_load_cases (ms st) v) as [E|[(F & _ & E)|(tv & r & L & E)]]; rewrite E;
      cbn [fst].
    - rewrite with_ms_same. exact Co.
    - rewrite F, with_ms_same. apply fcoh_enable_noop, Co.
    - destruct (forest (ms st)) as [|p f] eqn:F; [discriminate L|]. rewrite <- F.
      apply fcoh_enable_noop, fcoh_clear; [reflexivity|reflexivity|exact Co].
  Qed.

  Lemma fcoh_prune st n :
    contig (ms st) -> n < version (ms st) -> fcoh st -> fcoh (fst (fstep H st (FPrune n))).
  Proof.
    intros C Hn Co. cbn [fstep step].
    destruct (do_prune_cases (ms st) n) as [[_ E]|[_ E]]; rewrite E; cbn [fst].
    - rewrite with_ms_same. exact Co.
    - destruct (prune_latest (ms st) n C Hn) as (EL & ET & Sub).
      apply fcoh_transfer; try assumption; reflexivity.
  Qed.

  (** ** LoadVersionForOverwriting *)
  Lemma lvfo_tail st1 s2 (b : bool) :
    fcoh st1 -> state_inv s2 -> contig s2 ->
    version s2 = version (ms st1) -> root s2 = root (ms st1) ->
    last_saved s2 = last_saved (ms st1) -> shrinks (ms st1) s2 ->
    (b = true -> latest_version s2 = latest_version (ms st1) /\ ltree s2 = ltree (ms st1)) ->
    fcoh (enable_if_needed
      (if b then with_ms st1 s2
       else match mlabel st1 with
            | Some _ => FS s2 (fidx st1) None None (skipf st1) (adds st1) (rems st1)
            | None => with_ms st1 s2
            end)).
  Proof.
    intros Co I2 C2 EV ER ES Sub Hb. destruct b.
    - destruct (Hb eq_refl) as [EL ET].
      apply fcoh_enable_noop, fcoh_transfer; try assumption; intros k; rewrite ?ER, ?ES; reflexivity.
    - (* later versions are gone: the label is dropped and the index rebuilt *)
      assert (UO2 : uns_ok s2 (skipf st1) (adds st1) (rems st1)).
      { apply (uns_ok_transfer (ms st1)); auto; [| |apply Co]; intros k; rewrite ?ER, ?ES; reflexivity. }
      destruct (mlabel st1) as [u|] eqn:ML;
        apply fcoh_enable; cbn [with_ms ms fidx dlabel mlabel skipf adds rems]; auto.
      + apply lab_ok_none.
      + rewrite (lo_eq _ _ _ _ (fc_lab _ Co)), ML. apply lab_ok_none.
  Qed.

  Lemma fcoh_lvfo st v :
    state_inv (ms st) -> contig (ms st) -> 1 <= v -> fcoh st ->
    fcoh (fst (fstep H st (FLvfo v))).
  Proof.
    intros I C Hv Co. cbn [fstep].
    pose proof (step_inv H (ms st) (OLvfo v) I) as I2.
    pose proof (step_contig H (ms st) (OLvfo v) C Hv) as C2.
    cbn [step].
    destruct (do_load_pos (ms st) v) as [E|(r & L & E)]; [lia| |]; rewrite E; cbn [fst].
    - rewrite with_ms_same. exact Co.
    - assert (IR : in_range (ms st) v) by (apply (in_range_lookup _ _ C); eauto).
      destruct (lvfo_removes_exactly H (ms st) v C IR) as (r2 & L2 & E2 & Keep & _ & _ & EL2 & _).
      rewrite L in L2. inversion L2; subst r2. clear L2.
      cbn [step] in I2, C2, E2, Keep, EL2. rewrite E2 in *. cbn [fst] in *.
      destruct (forest (ms st)) as [|p f] eqn:F; [discriminate L|]. rewrite <- F in *.
      set (s1 := MState r v r (forest (ms st)) (init_ver (ms st)) (init_set (ms st))
                        (init_opt (ms st))) in *.
      set (s2 := MState r v r (filter (fun p => fst p <=? v) (forest (ms st)))
                        (init_ver (ms st)) (init_set (ms st)) (init_opt (ms st))) in *.
      assert (Co1 : fcoh (enable_if_needed (clear_unsaved (with_ms st s1))))
        by (apply fcoh_enable_noop, fcoh_clear; [reflexivity|reflexivity|exact Co]).
      assert (M1 : ms (enable_if_needed (clear_unsaved (with_ms st s1))) = s1)
        by (rewrite enable_ms, clear_ms; reflexivity).
      set (st1 := enable_if_needed (clear_unsaved (with_ms st s1))) in *.
      apply lvfo_tail; auto; rewrite ?M1; try reflexivity.
      + intros t tr. unfold s2, s1. cbn [forest]. rewrite lookup_filter_le.
        destruct (t <=? v); [tauto|discriminate].
      + intros B. apply Z.ltb_lt in B.
        pose proof (retained_le_latest (ms st) v r C L) as R.
        assert (Ev : v = latest_version (ms st)) by lia.
        split.
        * rewrite EL2. exact Ev.
        * unfold ltree. rewrite EL2.
          replace (latest_version s1) with v by exact Ev.
          rewrite (Keep v) by lia. reflexivity.
  Qed.

  Lemma fstep_read_state st o :
    match o with
    | FGet _ | FGetImm _ _ | FGetVersioned _ _ | FIter | FIterImm _ => True
    | _ => False
    end -> fst (fstep H st o) = st.
  Proof.
    destruct o; cbn [fstep]; try contradiction; intros _; try reflexivity;
      destruct (tree_of (ms st) v); reflexivity.
  Qed.

  (** ** A new tree object that loads a version directly (no Load() first) *)

  (** MTree reaches the same state by reopening (which loads the latest version) and then
      loading [v]; the answer of the load is the same even when it fails *)
  Lemma openat_logical s v :
    contig s ->
    snd (do_load (fresh_ms s) v) = last (snd (run H s [OReopen; OLoad v])) XErr /\
    (snd (do_load (fresh_ms s) v) <> XErr ->
     fst (do_load (fresh_ms s) v) = fst (run H s [OReopen; OLoad v])).
  Proof.
    intros C. cbn [run step].
    destruct (do_reopen_spec s (contig_forest_ok s C)) as [(F & E)|(NE & r & L & E)]; rewrite E.
    - unfold fresh_ms. rewrite F.
      destruct (do_load (MState None 0 None [] (init_ver s) (init_opt s) (init_opt s)) v)
        as [s2 x2]. cbn [fst snd last]. split; reflexivity.
    - destruct (do_load_fresh (forest s) (init_ver s) (init_opt s) (init_opt s) r
                  (latest_version s) v NE) as [A B]. unfold fresh_ms.
      destruct (do_load (MState r (latest_version s) r (forest s) (init_ver s) (init_opt s)
                                (init_opt s)) v) as [s2 x2]. cbn [fst snd last] in *.
      split; assumption.
  Qed.

  Lemma fstep_openat_eq st skip v :
    fstep H st (FOpenAt skip v) =
      let st0 := FS (fresh_ms (ms st)) (fidx st) (dlabel st) (dlabel st) skip [] [] in
      let (s', x) := do_load (fresh_ms (ms st)) v in
      (match x with XInt _ => enable_if_needed (with_ms st0 s') | _ => with_ms st0 s' end, x).
  Proof. reflexivity. Qed.

  Lemma fcoh_openat st skip v :
    state_inv (ms st) -> contig (ms st) ->
    snd (do_load (fresh_ms (ms st)) v) <> XErr -> fcoh st ->
    fcoh (fst (fstep H st (FOpenAt skip v))).
  Proof.
    intros I C Ok Co. rewrite fstep_openat_eq. cbv zeta.
    destruct (openat_logical (ms st) v C) as [_ ES]. specialize (ES Ok).
    assert (I' : state_inv (fst (do_load (fresh_ms (ms st)) v))).
    { rewrite ES. apply run_inv, I. }
    assert (C' : contig (fst (do_load (fresh_ms (ms st)) v))).
    { rewrite ES. apply run_contig; [exact C|]. cbn [run_ok in_contract]. auto. }
    pose proof (do_load_forest (fresh_ms (ms st)) v) as EF.
    pose proof (do_load_saved (fresh_ms (ms st)) v eq_refl) as W.
    destruct (do_load_ok _ _ Ok) as [n En].
    destruct (do_load (fresh_ms (ms st)) v) as [s' x]. cbn [fst snd] in *. subst x.
    destruct (new_object_parts st s' skip EF W Co).
    apply fcoh_enable; cbn [with_ms ms fidx dlabel mlabel skipf adds rems]; assumption.
  Qed.

  (** When the load fails the new object stays unloaded: the logical state is [fresh_ms], the
      persisted part and the (empty) unsaved part are still coherent, but nothing has compared
      the label with the store, so the clause [fc_on] may fail (and [contig] fails for
      [fresh_ms] of a non-empty store).  See [openat_failed_refuted] in FastLifeFacts. *)
  Lemma openat_error st skip v :
    snd (do_load (fresh_ms (ms st)) v) = XErr ->
    fstep H st (FOpenAt skip v) =
      (FS (fresh_ms (ms st)) (fidx st) (dlabel st) (dlabel st) skip [] [], XErr).
  Proof. intros E. rewrite fstep_openat_eq, (do_load_err _ _ E). reflexivity. Qed.

  Lemma openat_error_parts st skip :
    fcoh st ->
    let st' := FS (fresh_ms (ms st)) (fidx st) (dlabel st) (dlabel st) skip [] [] in
    lab_ok (ms st') (fidx st') (dlabel st') (mlabel st') /\
    uns_ok (ms st') (skipf st') (adds st') (rems st').
  Proof.
    intros Co. exact (new_object_parts st (fresh_ms (ms st)) skip eq_refl eq_refl Co).
  Qed.

  (** ** The usage contract of the life cycle and the preservation theorem *)
  Definition fin_contract (st : fstate) (o : fop) : Prop :=
    in_contract (ms st) (logical o) /\
    match o with
    | FSave => save_honest (ms st)
    | FOpenAt _ v => snd (do_load (fresh_ms (ms st)) v) <> XErr   (* the load succeeds *)
    | _ => True
    end.

  Theorem fcoh_step st o :
    state_inv (ms st) -> contig (ms st) -> fin_contract st o -> fcoh st ->
    fcoh (fst (fstep H st o)).
  Proof.
    intros I C [IC Hon] Co.
    destruct o; cbn [logical in_contract] in IC;
      try (rewrite fstep_read_state; [exact Co|exact Logic.I]).
    - apply fcoh_set; assumption.
    - apply fcoh_remove; assumption.
    - apply fcoh_save; assumption.
    - apply fcoh_rollback; assumption.
    - apply fcoh_open; assumption.
    - apply fcoh_openat; assumption.
    - apply fcoh_load; assumption.
    - apply fcoh_lvfo; assumption.
    - apply fcoh_prune; assumption.
  Qed.

  Lemma fcoh_finit iv b : fcoh (finit iv b).
  Proof.
    constructor; cbn [finit ms fidx dlabel mlabel skipf adds rems].
    - apply lab_ok_none.
    - apply uns_ok_nil. discriminate.
    - discriminate.
  Qed.

  Theorem fcoh_init iv b skip :
    init_ok iv b -> fcoh (fst (fstep H (finit iv b) (FOpen skip))).
  Proof.
    intros IO. apply fcoh_step.
    - cbn [finit ms]. apply state_inv_init. unfold init_ok in IO. destruct b; lia.
    - cbn [finit ms]. apply contig_init, IO.
    - split; exact Logic.I.
    - apply fcoh_finit.
  Qed.
End Steps.
