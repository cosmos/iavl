(** PruneAlgoFacts2: the store layer of the refinement proof.

    - the write batch: [pwrite] either appends to the batch or writes the batch out first; the
      VIRTUAL store [Vof p] (disk + batch) always advances by exactly the write issued;
    - stores described by their lookups ([pst]), the physical store of a forest ([phys_pst]);
    - what a lagging disk must still offer to readers ([safe]), and the reads on such a disk
      ([get_root_safe], [get_node_keyok]). *)
From Coq Require Import Lia Sorted.
From IAVL Require Import Bytes Varint Tree VMap TreeFacts MTree MTreeFacts HashFacts VersionFacts
  Store StoreFacts PruneAlgo PruneAlgoFacts1.
Local Open Scope Z_scope.

Lemma first_of_forest_eq f : first_of_forest f = first_of f.
Proof. destruct f as [|[v r] f]; reflexivity. Qed.

Lemma latest_of_forest_eq f : latest_of_forest f = latest_of f.
Proof. reflexivity. Qed.

(** ** Single writes *)
Lemma sapply_del st k : sapply st (del_node k) = mdel kcmp k st.
Proof. reflexivity. Qed.
Lemma sapply_set st k e : sapply st (set_node (k, e)) = mset kcmp k e st.
Proof. reflexivity. Qed.

Lemma sapply_all_snoc st ops o : sapply_all st (ops ++ [o]) = sapply (sapply_all st ops) o.
Proof. unfold sapply_all. rewrite fold_left_app. reflexivity. Qed.

Lemma sapply_sorted st o : msorted kcmp st -> msorted kcmp (sapply st o).
Proof.
  intros S. destruct o as [[k|k|] [e|e|e]|[k|k|]]; cbn [sapply]; try exact S.
  - apply (msorted_mset kcmp kcmp_ok), S.
  - apply (msorted_mdel kcmp), S.
Qed.

(** ** The batch *)
Definition Vof (p : pdb) : store := sapply_all (disk p) (pend p).

Lemma pwrite_cases p o :
  Vof (pwrite p o) = sapply (Vof p) o /\ effmode (pwrite p o) = effmode p /\
  ((disk (pwrite p o) = disk p /\ dhist (pwrite p o) = dhist p) \/
   (disk (pwrite p o) = Vof p /\ dhist (pwrite p o) = dhist p ++ [Vof p])).
Proof.
  unfold pwrite, Vof. cbv zeta.
  destruct (effmode p && negb (effective p o)).
  - cbn [disk pend effmode dhist]. rewrite sapply_all_snoc. auto.
  - destruct (sched p) as [|[|] rest]; cbn [disk pend effmode dhist].
    + rewrite sapply_all_snoc. auto.
    + split; [reflexivity|]. split; [reflexivity|]. right. auto.
    + rewrite sapply_all_snoc. auto.
Qed.

Lemma pflush_facts p :
  disk (pflush p) = Vof p /\ pend (pflush p) = [] /\ dhist (pflush p) = dhist p ++ [Vof p] /\
  Vof (pflush p) = Vof p.
Proof. unfold pflush, Vof. cbn. auto. Qed.

(** ** Stores described by their lookups *)
Definition pst (E : nodekey -> entry -> Prop) (V : store) : Prop :=
  msorted kcmp V /\ forall k e, mfind kcmp k V = Some e <-> E k e.

Lemma pst_ext E V V' : pst E V -> pst E V' -> V = V'.
Proof.
  intros [S1 F1] [S2 F2]. apply (msorted_ext kcmp kcmp_ok); auto.
  intros k. apply option_ext. intros e. rewrite F1, F2. tauto.
Qed.

Lemma pst_equiv E E' V : (forall k e, E k e <-> E' k e) -> pst E V -> pst E' V.
Proof. intros Q [S F]. split; [exact S|]. intros k e. rewrite F. apply Q. Qed.

Lemma kcmp_neq k k' : k <> k' -> kcmp k k' <> Eq.
Proof. intros N E. apply kcmp_Eq in E. contradiction. Qed.

Lemma key_eq_dec (a b : nodekey) : {a = b} + {a <> b}.
Proof. decide equality; apply Z.eq_dec. Qed.

Lemma mfind_mset_eq k e (V : store) : mfind kcmp k (mset kcmp k e V) = Some e.
Proof. rewrite (mfind_mset kcmp kcmp_ok), (c_refl kcmp kcmp_ok). reflexivity. Qed.

Lemma mfind_mset_neq k' k e (V : store) :
  k' <> k -> mfind kcmp k' (mset kcmp k e V) = mfind kcmp k' V.
Proof.
  intros N. rewrite (mfind_mset kcmp kcmp_ok). pose proof (kcmp_neq _ _ N).
  destruct (kcmp k' k); [contradiction|reflexivity|reflexivity].
Qed.

Lemma mfind_mdel_eq k (V : store) : msorted kcmp V -> mfind kcmp k (mdel kcmp k V) = None.
Proof. intros S. rewrite (mfind_mdel kcmp kcmp_ok _ _ _ S), (c_refl kcmp kcmp_ok). reflexivity. Qed.

Lemma mfind_mdel_neq k' k (V : store) :
  msorted kcmp V -> k' <> k -> mfind kcmp k' (mdel kcmp k V) = mfind kcmp k' V.
Proof.
  intros S N. rewrite (mfind_mdel kcmp kcmp_ok _ _ _ S). pose proof (kcmp_neq _ _ N).
  destruct (kcmp k' k); [contradiction|reflexivity|reflexivity].
Qed.

Lemma pst_mdel E E' V k :
  pst E V -> (forall k' e, E' k' e <-> (k' <> k /\ E k' e)) -> pst E' (mdel kcmp k V).
Proof.
  intros [S F] Q. split; [apply (msorted_mdel kcmp), S|].
  intros k' e. rewrite Q. destruct (key_eq_dec k' k) as [->|N].
  - rewrite (mfind_mdel_eq _ _ S). split; [discriminate|]. intros [N _]. contradiction.
  - rewrite (mfind_mdel_neq _ _ _ S N), F. tauto.
Qed.

Lemma pst_mset E E' V k e0 :
  pst E V ->
  (forall k' e, E' k' e <-> ((k' = k /\ e = e0) \/ (k' <> k /\ E k' e))) ->
  pst E' (mset kcmp k e0 V).
Proof.
  intros [S F] Q. split; [apply (msorted_mset kcmp kcmp_ok), S|].
  intros k' e. rewrite Q. destruct (key_eq_dec k' k) as [->|N].
  - rewrite mfind_mset_eq. split.
    + intros A. left. split; [reflexivity|congruence].
    + intros [[_ ->]|[N _]]; [reflexivity|contradiction].
  - rewrite (mfind_mset_neq _ _ _ _ N), F. split; [auto|]. intros [[A _]|[_ A]]; [contradiction|exact A].
Qed.

Lemma pst_mdel_absent E V k : pst E V -> (forall e, ~ E k e) -> pst E (mdel kcmp k V).
Proof.
  intros P A. apply (pst_mdel E E V k P). intros k' e. split; [|tauto].
  intros X. split; [|exact X]. intros ->. exact (A e X).
Qed.

(** ** The physical key of a node *)
Definition in_r (r : list Z) (w : Z) : bool := existsb (Z.eqb w) r.

Lemma in_r_true r w : in_r r w = true <-> In w r.
Proof.
  unfold in_r. rewrite existsb_exists. split.
  - intros (x & I & E). apply Z.eqb_eq in E. subst. exact I.
  - intros I. exists w. split; [exact I|apply Z.eqb_refl].
Qed.

Definition pkey (r : list Z) (u : node) : nodekey :=
  if (nonce (nmeta u) =? 1) && in_r r (ver (nmeta u)) then (ver (nmeta u), 0) else node_key u.

Lemma pkey_cases r u :
  (nonce (nmeta u) = 1 /\ In (ver (nmeta u)) r /\ pkey r u = (ver (nmeta u), 0)) \/
  ((nonce (nmeta u) <> 1 \/ ~ In (ver (nmeta u)) r) /\ pkey r u = node_key u).
Proof.
  unfold pkey. destruct (nonce (nmeta u) =? 1) eqn:E1; cbn [andb].
  - apply Z.eqb_eq in E1. destruct (in_r r (ver (nmeta u))) eqn:E2.
    + apply in_r_true in E2. left. auto.
    + right. split; [|reflexivity]. right. intros I. apply in_r_true in I. congruence.
  - apply Z.eqb_neq in E1. right. auto.
Qed.

Lemma pkey_zero r u :
  nonce (nmeta u) = 1 -> In (ver (nmeta u)) r -> pkey r u = (ver (nmeta u), 0).
Proof. intros N I. destruct (pkey_cases r u) as [(_ & _ & K)|([A|A] & _)]; [exact K| |]; contradiction. Qed.

Lemma pkey_plain r u : ~ (nonce (nmeta u) = 1 /\ In (ver (nmeta u)) r) -> pkey r u = node_key u.
Proof. intros N. destruct (pkey_cases r u) as [(A & B & _)|(_ & K)]; [tauto|exact K]. Qed.

Lemma pkey_eq_zero r u w :
  1 <= nonce (nmeta u) ->
  (pkey r u = (w, 0) <-> nonce (nmeta u) = 1 /\ ver (nmeta u) = w /\ In w r).
Proof.
  intros Nn. split.
  - destruct (pkey_cases r u) as [(A & B & K)|(_ & K)]; rewrite K; unfold node_key; intros Q; inversion Q.
    + subst w. auto.
    + lia.
  - intros (A & <- & B). apply pkey_zero; assumption.
Qed.

Lemma pkey_cons v r u :
  pkey (v :: r) u = if (nonce (nmeta u) =? 1) && (ver (nmeta u) =? v) then (v, 0) else pkey r u.
Proof.
  unfold pkey, in_r. cbn [existsb].
  destruct (nonce (nmeta u) =? 1); cbn [andb]; [|reflexivity].
  destruct (ver (nmeta u) =? v) eqn:E; cbn [orb]; [|reflexivity]. apply Z.eqb_eq in E. rewrite E. reflexivity.
Qed.

Definition pentry (L : node -> Prop) (ro : forest_t) (r : list Z) (k : nodekey) (e : entry) : Prop :=
  (exists u, L u /\ k = pkey r u /\ e = ENode (snode_of u)) \/
  (exists v rt, In (v, rt) ro /\ root_entry v rt = Some (k, e)).

(** ** [rekey] keeps the store sorted *)
Definition rkk (r : list Z) (p : nodekey * entry) : nodekey * entry :=
  match snd p with
  | ENode _ =>
      if (snd (fst p) =? 1) && existsb (Z.eqb (fst (fst p))) r
      then ((fst (fst p), 0), snd p) else p
  | _ => p
  end.

Lemma rekey_map r st : rekey r st = map (rkk r) st.
Proof. reflexivity. Qed.

Lemma rkk_fst r p : fst (fst (rkk r p)) = fst (fst p).
Proof.
  unfold rkk. destruct (snd p); try reflexivity.
  destruct ((snd (fst p) =? 1) && existsb (Z.eqb (fst (fst p))) r); reflexivity.
Qed.

Lemma store_latest_rekey r st : store_latest (rekey r st) = store_latest st.
Proof.
  unfold store_latest. rewrite rekey_map. generalize 0 as a.
  induction st as [|p st IH]; intros a; cbn [map fold_left]; [reflexivity|].
  rewrite rkk_fst. apply IH.
Qed.

Lemma rkk_snd_cases r p :
  snd (fst (rkk r p)) = snd (fst p) \/ (snd (fst p) = 1 /\ snd (fst (rkk r p)) = 0).
Proof.
  unfold rkk. destruct (snd p); auto.
  destruct (snd (fst p) =? 1) eqn:E; cbn [andb]; auto.
  destruct (existsb (Z.eqb (fst (fst p))) r); auto. apply Z.eqb_eq in E. auto.
Qed.

Lemma msorted_map_mono (g : nodekey * entry -> nodekey * entry) (st : store) :
  msorted kcmp st ->
  (forall p q, In p st -> In q st -> kcmp (fst p) (fst q) = Lt -> kcmp (fst (g p)) (fst (g q)) = Lt) ->
  msorted kcmp (map g st).
Proof.
  induction st as [|[k e] st IH]; intros S M; [exact I|].
  cbn [msorted map] in *. destruct S as [F S].
  destruct (g (k, e)) as [k' e'] eqn:G. split.
  - rewrite Forall_forall in *. intros q Iq. apply in_map_iff in Iq.
    destruct Iq as (q0 & <- & Iq0). specialize (F _ Iq0).
    specialize (M (k, e) q0 (or_introl eq_refl) (or_intror Iq0) F). rewrite G in M. exact M.
  - apply IH; [exact S|]. intros p q Ip Iq. apply M; right; assumption.
Qed.

Lemma rekey_sorted r st :
  msorted kcmp st -> (forall p, In p st -> 1 <= snd (fst p)) -> msorted kcmp (rekey r st).
Proof.
  intros S N. rewrite rekey_map. apply msorted_map_mono; [exact S|].
  intros p q Ip Iq C. apply kcmp_Lt in C. apply kcmp_Lt. unfold klt in *.
  rewrite !rkk_fst. pose proof (N _ Ip) as Np. pose proof (N _ Iq) as Nq.
  destruct (rkk_snd_cases r p) as [A|[A1 A2]]; destruct (rkk_snd_cases r q) as [B|[B1 B2]]; lia.
Qed.

Lemma rekey_In r st k e :
  In (k, e) (rekey r st) <-> exists k0, In (k0, e) st /\ (k, e) = rkk r (k0, e).
Proof.
  rewrite rekey_map, in_map_iff. split.
  - intros ([k0 e0] & Q & I0). assert (e0 = e).
    { unfold rkk in Q. cbn [fst snd] in Q. destruct e0; try (inversion Q; reflexivity).
      destruct ((snd k0 =? 1) && existsb (Z.eqb (fst k0)) r); inversion Q; reflexivity. }
    subst e0. exists k0. auto.
  - intros (k0 & I0 & Q). exists (k0, e). auto.
Qed.

(** ** The physical store of a forest, by lookups *)
Section Phys.
  Variable f : forest_t.
  Hypothesis FI : forest_inv f.
  Hypothesis ND : NoDup (map fst f).

  Lemma sub_of_nonce u : sub_of f u -> 1 <= nonce (nmeta u).
  Proof. intros (v & t & I & S). exact (fi_nonce f FI v t u I S). Qed.

  Lemma mhas_nodes_of u w tn :
    sub_of f u -> In (w, Some tn) f ->
    (mhas kcmp (node_key u) (nodes_of tn) = true <-> subtree u tn).
  Proof.
    intros Su I. rewrite mhas_true. split.
    - intros (sn & F). apply (In_mfind kcmp kcmp_ok), nodes_of_In in F. destruct F as (u' & Su' & Ku & _).
      assert (u = u'); [|subst; exact Su'].
      apply (fi_coh f FI); [exact Su|exists w, tn; auto|exact Ku].
    - intros S. destruct (mfind kcmp (node_key u) (nodes_of tn)) as [sn|] eqn:F; [eauto|]. exfalso.
      apply (mfind_None_notin kcmp kcmp_ok) in F. apply F, in_map_iff.
      exists (node_key u, snode_of u). split; [reflexivity|]. apply nodes_of_In. exists u. auto.
  Qed.

  Lemma phys_sorted r : msorted kcmp (phys_of r f).
  Proof.
    apply rekey_sorted; [apply expected_sorted|].
    intros [k e] I. cbn [fst]. apply expected_In_reach in I. exact (reach_key_nonce f k e FI I).
  Qed.

  Lemma phys_In r k e : In (k, e) (phys_of r f) <-> pentry (sub_of f) f r k e.
  Proof.
    unfold phys_of. rewrite rekey_In. split.
    - intros (k0 & I0 & Q). apply (expected_In f k0 e FI ND), reach_In in I0.
      destruct I0 as [(u & Su & -> & ->)|(v & rt & I & E)].
      + left. exists u. split; [exact Su|]. split; [|reflexivity].
        unfold rkk in Q. cbn [fst snd node_key] in Q. unfold pkey, in_r.
        destruct ((nonce (nmeta u) =? 1) && existsb (Z.eqb (ver (nmeta u))) r);
          inversion Q; reflexivity.
      + right. exists v, rt. split; [exact I|].
        destruct (root_entry_Some _ _ _ _ E) as [_ [[_ ->]|(t & _ & -> & _)]];
          unfold rkk in Q; cbn [snd] in Q; inversion Q; subst; exact E.
    - intros [(u & Su & -> & ->)|(v & rt & I & E)].
      + exists (node_key u). split.
        * apply (expected_In f _ _ FI ND), reach_In. left. exists u. auto.
        * unfold rkk, pkey, in_r, node_key. cbn [fst snd].
          destruct ((nonce (nmeta u) =? 1) && existsb (Z.eqb (ver (nmeta u))) r); reflexivity.
      + exists k. split.
        * apply (expected_In f _ _ FI ND), reach_In. right. exists v, rt. auto.
        * destruct (root_entry_Some _ _ _ _ E) as [_ [[_ ->]|(t & _ & -> & _)]]; reflexivity.
  Qed.

  Theorem phys_pst r : pst (pentry (sub_of f) f r) (phys_of r f).
  Proof.
    split; [apply phys_sorted|]. intros k e. rewrite <- phys_In. split.
    - apply (In_mfind kcmp kcmp_ok).
    - apply (mfind_In kcmp kcmp_ok), phys_sorted.
  Qed.
End Phys.

(** ** What a (possibly lagging) disk must offer *)

Definition rootinfo (d : store) (w : Z) (rt : option node) : Prop :=
  mfind kcmp (w, 1) d =
    Some (match rt with
          | None => EEmpty
          | Some t => if keqb (node_key t) (w, 1) then ENode (snode_of t) else ERef (node_key t)
          end).

(** [L]: the live nodes (those of the trees that stay); [sro]: the versions a reader may ask for;
    [b]: every re-keyed version is below it.  The five clauses: [d] is sorted; [get_node] finds
    every live node under its own key (directly or through the (v,1) -> (v,0) fall-back of GetNode);
    what sits under (w,0) is the live node with key (w,1); every version of [sro] has its root
    entry; nothing sits under nonce 0 from version [b] on. *)
Definition safe (L : node -> Prop) (sro : forest_t) (b : Z) (d : store) : Prop :=
  msorted kcmp d /\
  (forall u, L u -> get_node d (node_key u) = Some (snode_of u)) /\
  (forall u e, L u -> nonce (nmeta u) = 1 -> mfind kcmp (ver (nmeta u), 0) d = Some e ->
               e = ENode (snode_of u)) /\
  (forall w rt, In (w, rt) sro -> rootinfo d w rt) /\
  (forall w e, mfind kcmp (w, 0) d = Some e -> w < b).

Lemma safe_zero_none (L : node -> Prop) sro b d w :
  safe L sro b d -> b <= w -> mfind kcmp (w, 0) d = None.
Proof.
  intros (_ & _ & _ & _ & Db) Lw. destruct (mfind kcmp (w, 0) d) as [e|] eqn:F; [|reflexivity].
  specialize (Db _ _ F). lia.
Qed.

Lemma safe_anti (L L' : node -> Prop) sro sro' b b' d :
  safe L sro b d -> (forall u, L' u -> L u) -> incl sro' sro -> b <= b' -> safe L' sro' b' d.
Proof.
  intros (S & A & B & C & D) HL HS Hb. split; [exact S|]. split; [auto|]. split; [|split].
  - intros u e Lu. apply B, HL, Lu.
  - intros w rt I. apply C, HS, I.
  - intros w e F. specialize (D w e F). lia.
Qed.

Definition keyok (d : store) (k : nodekey) (u : node) : Prop :=
  k = node_key u \/
  (nonce (nmeta u) = 1 /\ k = (ver (nmeta u), 0) /\ mfind kcmp k d <> None).

Lemma keyok_ver d k u : keyok d k u -> fst k = ver (nmeta u).
Proof. intros [->|(_ & -> & _)]; reflexivity. Qed.

Lemma keyok_nonce1 d w u : keyok d (w, 1) u -> node_key u = (w, 1).
Proof. intros [Q|(_ & Q & _)]; [symmetry; exact Q|inversion Q]. Qed.

Lemma get_node_keyok L sro b d k u :
  safe L sro b d -> L u -> keyok d k u -> get_node d k = Some (snode_of u).
Proof.
  intros (S & A & B & _) Lu [->|(N1 & -> & P)]; [apply A, Lu|].
  unfold get_node. destruct (mfind kcmp (ver (nmeta u), 0) d) as [e|] eqn:F; [|congruence].
  rewrite (B u e Lu N1 F). reflexivity.
Qed.

(** asked under either of its keys, a node answers the test "is this the root key of version [v]"
    alike, once nothing sits under [(v,0)] *)
Lemma keyok_root_key (L : node -> Prop) sro b d k u v :
  safe L sro b d -> b <= v -> keyok d k u -> keqb k (v, 1) = keqb (node_key u) (v, 1).
Proof.
  intros S Lv [->|(N1 & -> & Pr)]; [reflexivity|].
  transitivity false; [apply keqb_false; intros Q; inversion Q|]. symmetry. apply keqb_false. unfold node_key. intros Q.
  inversion Q as [[Qv Qn]]. rewrite Qv in Pr. exact (Pr (safe_zero_none L sro b d v S Lv)).
Qed.

Lemma get_root_safe L sro b d w rt :
  safe L sro b d -> In (w, rt) sro -> (forall t, rt = Some t -> L t) ->
  match rt with
  | None => get_root d w = POk None
  | Some t => exists k, get_root d w = POk (Some k) /\ keyok d k t
  end.
Proof.
  intros (S & A & B & C & _) I HL. specialize (C w rt I). unfold rootinfo in C.
  unfold get_root. rewrite C. destruct rt as [t|]; [|reflexivity].
  specialize (A t (HL t eq_refl)).
  destruct (keqb (node_key t) (w, 1)) eqn:K.
  - apply keqb_true in K. exists (w, 1). split; [reflexivity|]. left. auto.
  - unfold get_node in A. destruct (mfind kcmp (node_key t) d) as [e|] eqn:F.
    + exists (node_key t). split; [reflexivity|]. left. reflexivity.
    + destruct (snd (node_key t) =? 1) eqn:N1; [|discriminate]. apply Z.eqb_eq in N1.
      cbn [node_key fst snd] in *.
      destruct (mfind kcmp (ver (nmeta t), 0) d) as [e|] eqn:F0; [|discriminate].
      exists (ver (nmeta t), 0). split; [reflexivity|]. right.
      split; [exact N1|]. split; [reflexivity|]. congruence.
Qed.

(** ** An exactly described virtual store is safe *)
Section Exact.
  Variable f0 : forest_t.
  Hypothesis FI : forest_inv f0.
  Hypothesis ND : NoDup (map fst f0).

  (** A store is described by [L] (the live nodes, each stored under [pkey r]), [ro] (the versions
      whose root entries it holds) and [r] (the re-keyed versions): its entries are [pentry L ro r].
      The side conditions: live nodes are nodes of [f0], [ro] is part of [f0], every re-keyed
      version is below every version of [ro]. *)
  Record desc_ok (L : node -> Prop) (ro : forest_t) (r : list Z) : Prop := DescOk {
    d_live : forall u, L u -> sub_of f0 u;
    d_roots : incl ro f0;
    d_rk : forall w, In w r -> forall w' rt, In (w', rt) ro -> w < w'
  }.

  Lemma live_coh (L : node -> Prop) ro r u u' :
    desc_ok L ro r -> L u -> L u' -> node_key u = node_key u' -> u = u'.
  Proof. intros D Lu Lu'. apply (fi_coh f0 FI); apply (d_live _ _ _ D); assumption. Qed.

  Lemma live_nonce (L : node -> Prop) ro r u : desc_ok L ro r -> L u -> 1 <= nonce (nmeta u).
  Proof. intros D Lu. apply (sub_of_nonce f0 FI), (d_live _ _ _ D), Lu. Qed.

  Lemma pkey_inj (L : node -> Prop) ro r u u' :
    desc_ok L ro r -> L u -> L u' -> pkey r u = pkey r u' -> u = u'.
  Proof.
    intros D Lu Lu' E. apply (live_coh L ro r); auto.
    pose proof (live_nonce L ro r u D Lu). pose proof (live_nonce L ro r u' D Lu').
    destruct (pkey_cases r u) as [(A1 & A2 & A3)|(A1 & A3)];
      destruct (pkey_cases r u') as [(B1 & B2 & B3)|(B1 & B3)]; rewrite A3, B3 in E.
    - unfold node_key. inversion E. congruence.
    - unfold node_key in E. inversion E. lia.
    - unfold node_key in E. inversion E. lia.
    - exact E.
  Qed.

  Lemma pentry_at_node_key (L : node -> Prop) ro r u e :
    desc_ok L ro r -> L u -> pentry L ro r (node_key u) e ->
    e = ENode (snode_of u) /\ pkey r u = node_key u.
  Proof.
    intros D Lu [(u' & Lu' & K & ->)|(v & rt & I & E)].
    - assert (u' = u).
      { apply (live_coh L ro r); auto.
        destruct (pkey_cases r u') as [(A1 & A2 & A3)|(A1 & A3)]; rewrite A3 in K.
        - pose proof (live_nonce L ro r u D Lu). unfold node_key in K. inversion K. lia.
        - symmetry. exact K. }
      subst u'. auto.
    - exfalso. destruct (root_entry_Some _ _ _ _ E) as [K _].
      pose proof (fi_root f0 FI v rt u (d_roots _ _ _ D _ I) (d_live _ _ _ D u Lu) K) as ->.
      rewrite (root_entry_root _ _ K) in E. discriminate.
  Qed.

  Lemma pentry_at_zero (L : node -> Prop) ro r w e :
    desc_ok L ro r -> pentry L ro r (w, 0) e ->
    exists u, L u /\ nonce (nmeta u) = 1 /\ ver (nmeta u) = w /\ In w r /\ e = ENode (snode_of u).
  Proof.
    intros D [(u & Lu & K & ->)|(v & rt & I & E)].
    - symmetry in K. apply pkey_eq_zero in K; [|exact (live_nonce L ro r u D Lu)].
      destruct K as (A & B & C). exists u. auto.
    - destruct (root_entry_Some _ _ _ _ E) as [K _]. inversion K.
  Qed.

  Theorem pst_safe (L : node -> Prop) ro r sro b V :
    desc_ok L ro r -> pst (pentry L ro r) V ->
    incl sro ro -> (forall w t, In (w, Some t) sro -> L t) -> (forall w, In w r -> w < b) ->
    safe L sro b V.
  Proof.
    intros D [S F] HS HR Hb. split; [exact S|]. split; [|split; [|split]].
    - intros u Lu. unfold get_node.
      destruct (pkey_cases r u) as [(A1 & A2 & A3)|(A1 & A3)].
      + (* re-keyed: nothing under (w,1), the node under (w,0) *)
        assert (F1 : mfind kcmp (node_key u) V = None).
        { destruct (mfind kcmp (node_key u) V) as [e|] eqn:G; [|reflexivity]. exfalso.
          apply F in G. destruct (pentry_at_node_key L ro r u e D Lu G) as [_ K].
          rewrite A3 in K. pose proof (live_nonce L ro r u D Lu). unfold node_key in K.
          inversion K. lia. }
        rewrite F1. cbn [node_key fst snd]. rewrite A1. cbn [Z.eqb Pos.eqb].
        assert (F0 : mfind kcmp (ver (nmeta u), 0) V = Some (ENode (snode_of u))).
        { apply F. left. exists u. rewrite A3. auto. }
        rewrite F0. reflexivity.
      + assert (F1 : mfind kcmp (node_key u) V = Some (ENode (snode_of u))).
        { apply F. left. exists u. rewrite A3. auto. }
        rewrite F1. reflexivity.
    - intros u e Lu N1 G. apply F in G.
      destruct (pentry_at_zero L ro r _ e D G) as (u' & Lu' & N1' & V' & _ & ->).
      assert (u' = u); [|subst; reflexivity].
      apply (live_coh L ro r); auto. unfold node_key. congruence.
    - intros w rt I. unfold rootinfo. apply F. destruct rt as [t|].
      + destruct (keqb (node_key t) (w, 1)) eqn:K.
        * apply keqb_true in K. left. exists t. split; [exact (HR _ _ I)|]. split; [|reflexivity].
          destruct (pkey_cases r t) as [(A1 & A2 & A3)|(A1 & A3)]; [|congruence].
          exfalso. pose proof (d_rk _ _ _ D _ A2 w (Some t) (HS _ I)) as Lt.
          unfold node_key in K. inversion K. lia.
        * right. exists w, (Some t). split; [exact (HS _ I)|]. unfold root_entry. rewrite K. reflexivity.
      + right. exists w, None. split; [exact (HS _ I)|reflexivity].
    - intros w e G. apply F in G.
      destruct (pentry_at_zero L ro r _ e D G) as (u' & _ & _ & _ & Iw & _). auto.
  Qed.
End Exact.
