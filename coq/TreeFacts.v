(** Proofs about the M1 node algebra: the code's set / remove / balance refine sorted-list
    insertion / deletion and preserve the ordering, bookkeeping and AVL invariants. *)
From IAVL Require Import Bytes Varint Tree VMap.
From IAVL Require Export ListFacts VMapFacts.
Local Open Scope Z_scope.

Arguments rotL : simpl never.
Arguments rotR : simpl never.
Arguments balance : simpl never.
Arguments mk : simpl never.

Fixpoint keys_all (P : bytes -> Prop) (t : node) : Prop :=
  match t with
  | Leaf k _ _ => P k
  | Inner _ _ _ _ l r => keys_all P l /\ keys_all P r
  end.

Fixpoint min_key (t : node) : bytes :=
  match t with Leaf k _ _ => k | Inner _ _ _ _ l _ => min_key l end.

(** ordered, routing key = least key of the right subtree, cached height/size exact *)
Fixpoint wf (t : node) : Prop :=
  match t with
  | Leaf _ _ _ => True
  | Inner k h s _ l r =>
      wf l /\ wf r /\ keys_all (fun x => x <b k) l /\ keys_all (fun x => k <=b x) r /\
      k = min_key r /\ h = Z.max (height l) (height r) + 1 /\ s = size l + size r
  end.

Fixpoint avl (t : node) : Prop :=
  match t with
  | Leaf _ _ _ => True
  | Inner _ _ _ _ l r => avl l /\ avl r /\ -1 <= height l - height r <= 1
  end.

Lemma keys_all_impl (P Q : bytes -> Prop) t :
  (forall x, P x -> Q x) -> keys_all P t -> keys_all Q t.
Proof. induction t; simpl; intuition. Qed.

Lemma keys_all_elems P t : keys_all P t <-> Forall (fun p => P (fst p)) (elems t).
Proof.
  induction t as [k v m | k h s m l IHl r IHr]; simpl.
  - split; intros H. constructor; auto. inversion H; auto.
  - rewrite Forall_app, IHl, IHr. reflexivity.
Qed.

Lemma min_key_all P t : keys_all P t -> P (min_key t).
Proof. induction t; simpl; intuition. Qed.

Lemma wf_keys_lt k h s m l r : wf (Inner k h s m l r) -> keys_lt (elems l) k.
Proof. simpl. intros (_ & _ & Kl & _). apply keys_all_elems in Kl. exact Kl. Qed.
Lemma wf_keys_ge k h s m l r : wf (Inner k h s m l r) -> keys_ge (elems r) k.
Proof. simpl. intros (_ & _ & _ & Kr & _). apply keys_all_elems in Kr. exact Kr. Qed.

(** induction over a well-formed tree: the cached height and size are already replaced by
    their values, the key bounds are given on the leaf sequences *)
Lemma wf_ind (P : node -> Prop) :
  (forall k v m, P (Leaf k v m)) ->
  (forall k m l r, wf l -> wf r -> P l -> P r ->
     keys_lt (elems l) k -> keys_ge (elems r) k -> k = min_key r ->
     P (Inner k (Z.max (height l) (height r) + 1) (size l + size r) m l r)) ->
  forall t, wf t -> P t.
Proof.
  intros PL PI. induction t as [k v m|k h s m l IHl r IHr]; intros W; [apply PL|].
  pose proof (wf_keys_lt _ _ _ _ _ _ W) as KL. pose proof (wf_keys_ge _ _ _ _ _ _ W) as KG.
  cbn [wf] in W. destruct W as (Wl & Wr & _ & _ & Hk & -> & ->). apply PI; auto.
Qed.

Lemma height_nonneg t : wf t -> 0 <= height t.
Proof. induction 1 using wf_ind; cbn [height]; lia. Qed.

Lemma size_pos t : wf t -> 1 <= size t.
Proof. induction 1 using wf_ind; cbn [size]; lia. Qed.

Lemma size_elems t : wf t -> size t = Z.of_nat (length (elems t)).
Proof. induction 1 using wf_ind; cbn [size elems]; [reflexivity|]. rewrite app_length. lia. Qed.

Lemma wf_mk k l r :
  wf l -> wf r -> keys_all (fun x => x <b k) l -> keys_all (fun x => k <=b x) r -> k = min_key r ->
  wf (mk k l r).
Proof. unfold mk; simpl; intuition. Qed.

Lemma height_mk k l r : height (mk k l r) = Z.max (height l) (height r) + 1.
Proof. reflexivity. Qed.
Lemma size_mk k l r : size (mk k l r) = size l + size r.
Proof. reflexivity. Qed.
Lemma elems_mk k l r : elems (mk k l r) = elems l ++ elems r.
Proof. reflexivity. Qed.
Lemma keys_all_mk P k l r : keys_all P (mk k l r) <-> keys_all P l /\ keys_all P r.
Proof. reflexivity. Qed.
Lemma min_key_mk k l r : min_key (mk k l r) = min_key l.
Proof. reflexivity. Qed.

Lemma rotR_eq k h s m lk lh ls lm ll lr r :
  rotR (Inner k h s m (Inner lk lh ls lm ll lr) r) = mk lk ll (mk k lr r).
Proof. reflexivity. Qed.
Lemma rotL_eq k h s m l rk rh rs rm rl rr :
  rotL (Inner k h s m l (Inner rk rh rs rm rl rr)) = mk rk (mk k l rl) rr.
Proof. reflexivity. Qed.

Lemma elems_rotR t : elems (rotR t) = elems t.
Proof.
  destruct t as [|k h s m l r]; [reflexivity|]. destruct l as [|lk lh ls lm ll lr]; [reflexivity|].
  unfold rotR. rewrite !elems_mk. simpl. rewrite app_assoc. reflexivity.
Qed.
Lemma elems_rotL t : elems (rotL t) = elems t.
Proof.
  destruct t as [|k h s m l r]; [reflexivity|]. destruct r as [|rk rh rs rm rl rr]; [reflexivity|].
  unfold rotL. rewrite !elems_mk. simpl. rewrite app_assoc. reflexivity.
Qed.

Lemma balance_eq k h s m l r :
  balance (Inner k h s m l r) =
    if 1 <? height l - height r then
      (if 0 <=? bal_of l then rotR (Inner k h s m l r) else rotR (Inner k h s m (rotL l) r))
    else if height l - height r <? -1 then
      (if bal_of r <=? 0 then rotL (Inner k h s m l r) else rotL (Inner k h s m l (rotR r)))
    else Inner k h s m l r.
Proof. reflexivity. Qed.

Lemma elems_balance t : elems (balance t) = elems t.
Proof.
  destruct t as [|k h s m l r]; [reflexivity|]. rewrite balance_eq.
  repeat match goal with |- context [if ?c then _ else _] => destruct c end;
    rewrite ?elems_rotR, ?elems_rotL; simpl; rewrite ?elems_rotR, ?elems_rotL; reflexivity.
Qed.

Lemma wf_rotR t : wf t -> wf (rotR t).
Proof.
  destruct t as [|k h s m l r]; [auto|]. destruct l as [|lk lh ls lm ll lr]; [auto|].
  intros W. simpl in W. destruct W as (Hl & Hr & Kl & Kr & Hk & _).
  destruct Hl as (Hll & Hlr & Kll & Klr & Hlk & _). destruct Kl as [Kl1 Kl2].
  rewrite rotR_eq. apply wf_mk; auto.
  - apply wf_mk; auto.
  - rewrite keys_all_mk. split; auto.
    eapply keys_all_impl; [|exact Kr]. intros x Hx.
    assert (lk <b k) by (subst lk; apply (min_key_all _ _ Kl2)). border.
Qed.

Lemma wf_rotL t : wf t -> wf (rotL t).
Proof.
  destruct t as [|k h s m l r]; [auto|]. destruct r as [|rk rh rs rm rl rr]; [auto|].
  intros W. simpl in W. destruct W as (Hl & Hr & Kl & Kr & Hk & _).
  destruct Hr as (Hrl & Hrr & Krl & Krr & Hrk & _). destruct Kr as [Kr1 Kr2].
  rewrite rotL_eq. apply wf_mk; auto.
  - apply wf_mk; auto.
  - rewrite keys_all_mk. split; auto.
    eapply keys_all_impl; [|exact Kl]. intros x Hx.
    assert (k <b rk) by (subst k; apply (min_key_all _ _ Krl)). border.
Qed.

Lemma keys_all_rotL P t : keys_all P (rotL t) <-> keys_all P t.
Proof. rewrite !keys_all_elems, elems_rotL. reflexivity. Qed.
Lemma keys_all_rotR P t : keys_all P (rotR t) <-> keys_all P t.
Proof. rewrite !keys_all_elems, elems_rotR. reflexivity. Qed.
Lemma keys_all_balance P t : keys_all P (balance t) <-> keys_all P t.
Proof. rewrite !keys_all_elems, elems_balance. reflexivity. Qed.

Lemma min_key_rotL t : wf t -> min_key (rotL t) = min_key t.
Proof.
  destruct t as [|k h s m l r]; [auto|]. destruct r as [|rk rh rs rm rl rr]; auto.
Qed.
Lemma min_key_rotR t : min_key (rotR t) = min_key t.
Proof. destruct t as [|k h s m [|lk lh ls lm ll lr] r]; reflexivity. Qed.

(** rotations ignore the cached height/size of the node they are applied to, except when the
    pivot child is a leaf: then the rotation is the identity and returns them *)
Lemma rotR_cache k h s m h' s' m' l r : rotR (Inner k h s m l r) = rotR (Inner k h' s' m' l r) \/ (exists a b c, l = Leaf a b c).
Proof. destruct l; [right; eauto | left; reflexivity]. Qed.
Lemma rotL_cache k h s m h' s' m' l r : rotL (Inner k h s m l r) = rotL (Inner k h' s' m' l r) \/ (exists a b c, r = Leaf a b c).
Proof. destruct r; [right; eauto | left; reflexivity]. Qed.

(** In a double rotation the outer rotation meets a node whose cached height and size are
    stale. It ignores them: the inner rotation was applied to an unbalanced child, hence to
    an [Inner], and returns an [Inner]. *)
Lemma rotR_rotL_cache k h s m l r :
  bal_of l <> 0 -> rotR (Inner k h s m (rotL l) r) = rotR (mk k (rotL l) r).
Proof. destruct l as [|lk lh ls lm ll [|]]; [intros E; now contradict E|reflexivity..]. Qed.
Lemma rotL_rotR_cache k h s m l r :
  bal_of r <> 0 -> rotL (Inner k h s m l (rotR r)) = rotL (mk k l (rotR r)).
Proof. destruct r as [|rk rh rs rm [|] rr]; [intros E; now contradict E|reflexivity..]. Qed.

Lemma wf_balance t : wf t -> wf (balance t).
Proof.
  destruct t as [|k h s m l r]; [auto|]. rewrite balance_eq. intros W.
  pose proof W as (Wl & Wr & Kl & Kr & Hk & _).
  destruct (1 <? height l - height r).
  - destruct (0 <=? bal_of l) eqn:B; [apply wf_rotR, W|].
    rewrite rotR_rotL_cache by (apply Z.leb_gt in B; lia).
    apply wf_rotR, wf_mk; auto; [apply wf_rotL, Wl|apply keys_all_rotL, Kl].
  - destruct (height l - height r <? -1); [|exact W].
    destruct (bal_of r <=? 0) eqn:B; [apply wf_rotL, W|].
    rewrite rotL_rotR_cache by (apply Z.leb_gt in B; lia).
    apply wf_rotL, wf_mk; auto; [apply wf_rotR, Wr|apply keys_all_rotR, Kr|rewrite min_key_rotR; exact Hk].
Qed.

Lemma elems_nonempty t : elems t <> [].
Proof.
  induction t as [|k h s m l IHl r IHr]; simpl; [congruence|].
  destruct (elems l); simpl; congruence.
Qed.

Lemma elems_min t : exists v rest, elems t = (min_key t, v) :: rest.
Proof.
  induction t as [k v m|k h s m l IHl r IHr]; simpl; [eauto|].
  destruct IHl as (v & rest & E). rewrite E. simpl. eauto.
Qed.

Lemma min_key_elems_eq t t' : elems t = elems t' -> min_key t = min_key t'.
Proof.
  intros E. destruct (elems_min t) as (v & r & E1). destruct (elems_min t') as (v' & r' & E2).
  congruence.
Qed.

Lemma min_key_ins_ge t t' k v :
  min_key t <=b k -> elems t' = ins k v (elems t) -> min_key t' = min_key t.
Proof.
  intros Hk E. destruct (elems_min t) as (v0 & rest & E0). destruct (elems_min t') as (v1 & rest1 & E1).
  rewrite E0 in E. simpl in E. rewrite E1 in E.
  bcases k (min_key t); try (exfalso; border); congruence.
Qed.

Lemma avl_mk k l r : avl l -> avl r -> -1 <= height l - height r <= 1 -> avl (mk k l r).
Proof. unfold mk; simpl; auto. Qed.

Lemma balance_mk k l r :
  balance (mk k l r) =
    if 1 <? height l - height r then
      (if 0 <=? bal_of l then rotR (mk k l r)
       else rotR (Inner k (Z.max (height l) (height r) + 1) (size l + size r) new_meta (rotL l) r))
    else if height l - height r <? -1 then
      (if bal_of r <=? 0 then rotL (mk k l r)
       else rotL (Inner k (Z.max (height l) (height r) + 1) (size l + size r) new_meta l (rotR r)))
    else mk k l r.
Proof. reflexivity. Qed.

Lemma rotR_mk k lk lh ls lm ll lr r : rotR (mk k (Inner lk lh ls lm ll lr) r) = mk lk ll (mk k lr r).
Proof. reflexivity. Qed.
Lemma rotL_mk k l rk rh rs rm rl rr : rotL (mk k l (Inner rk rh rs rm rl rr)) = mk rk (mk k l rl) rr.
Proof. reflexivity. Qed.

Lemma rotR_in_mk k h s m lk ll lr r : rotR (Inner k h s m (mk lk ll lr) r) = mk lk ll (mk k lr r).
Proof. reflexivity. Qed.
Lemma rotL_in_mk k h s m l rk rl rr : rotL (Inner k h s m l (mk rk rl rr)) = mk rk (mk k l rl) rr.
Proof. reflexivity. Qed.

(** [balance] on an almost balanced node (children AVL, |delta| <= 2): result AVL, height
    within [max, max+1], and exactly max+1 when |delta| <= 1 (nothing is rotated then). *)
Lemma balance_avl k l r :
  wf l -> wf r -> avl l -> avl r -> -2 <= height l - height r <= 2 ->
  avl (balance (mk k l r)) /\
  Z.max (height l) (height r) <= height (balance (mk k l r)) <= Z.max (height l) (height r) + 1 /\
  (-1 <= height l - height r <= 1 -> height (balance (mk k l r)) = Z.max (height l) (height r) + 1).
Proof.
  intros Wl Wr Al Ar D. rewrite balance_mk.
  destruct (1 <? height l - height r) eqn:C1.
  - apply Z.ltb_lt in C1.
    destruct l as [lk lv lm|lk lh ls lm ll lr]; [cbn [height] in *; pose proof (height_nonneg _ Wr); lia|].
    cbn [wf] in Wl. destruct Wl as (Wll & Wlr & _ & _ & _ & Hlh & _).
    cbn [avl] in Al. destruct Al as (All & Alr & Dl). cbn [height] in C1, D.
    pose proof (height_nonneg _ Wll). pose proof (height_nonneg _ Wlr). pose proof (height_nonneg _ Wr).
    cbn [bal_of]. destruct (0 <=? height ll - height lr) eqn:C2.
    + apply Z.leb_le in C2. rewrite rotR_mk.
      unfold mk; cbn [avl height]. repeat split; auto; lia.
    + apply Z.leb_gt in C2.
      destruct lr as [rk rv rm|rk rh rs rm rl rr]; [cbn [height] in *; lia|].
      cbn [wf] in Wlr. destruct Wlr as (Wrl & Wrr & _ & _ & _ & Hrh & _).
      cbn [avl] in Alr. destruct Alr as (Arl & Arr & Dr). cbn [height] in *.
      pose proof (height_nonneg _ Wrl). pose proof (height_nonneg _ Wrr).
      rewrite rotL_eq, rotR_in_mk.
      unfold mk; cbn [avl height]. repeat split; auto; lia.
  - apply Z.ltb_ge in C1. destruct (height l - height r <? -1) eqn:C3.
    + apply Z.ltb_lt in C3.
      destruct r as [rk rv rm|rk rh rs rm rl rr]; [cbn [height] in *; pose proof (height_nonneg _ Wl); lia|].
      cbn [wf] in Wr. destruct Wr as (Wrl & Wrr & _ & _ & _ & Hrh & _).
      cbn [avl] in Ar. destruct Ar as (Arl & Arr & Dr). cbn [height] in C3, D.
      pose proof (height_nonneg _ Wrl). pose proof (height_nonneg _ Wrr). pose proof (height_nonneg _ Wl).
      cbn [bal_of]. destruct (height rl - height rr <=? 0) eqn:C2.
      * apply Z.leb_le in C2. rewrite rotL_mk.
        unfold mk; cbn [avl height]. repeat split; auto; lia.
      * apply Z.leb_gt in C2.
        destruct rl as [lk lv lm|lk lh ls lm ll lr]; [cbn [height] in *; lia|].
        cbn [wf] in Wrl. destruct Wrl as (Wll & Wlr & _ & _ & _ & Hlh & _).
        cbn [avl] in Arl. destruct Arl as (All & Alr & Dl). cbn [height] in *.
        pose proof (height_nonneg _ Wll). pose proof (height_nonneg _ Wlr).
        rewrite rotR_eq, rotL_in_mk.
        unfold mk; cbn [avl height]. repeat split; auto; lia.
    + apply Z.ltb_ge in C3. unfold mk; cbn [avl height]. repeat split; auto; lia.
Qed.

Lemma wf_node k m l r :
  wf l -> wf r -> keys_lt (elems l) k -> keys_ge (elems r) k -> k = min_key r ->
  wf (Inner k (Z.max (height l) (height r) + 1) (size l + size r) m l r).
Proof. intros. cbn [wf]. rewrite !keys_all_elems. auto 10. Qed.

(** What [set] and [remove] need to know of the node they rebuild over a changed child. *)
Lemma balance_mk_spec k l r :
  wf l -> wf r -> keys_lt (elems l) k -> keys_ge (elems r) k -> k = min_key r ->
  wf (balance (mk k l r)) /\
  elems (balance (mk k l r)) = elems l ++ elems r /\
  (avl l -> avl r -> -2 <= height l - height r <= 2 ->
   avl (balance (mk k l r)) /\
   Z.max (height l) (height r) <= height (balance (mk k l r)) <= Z.max (height l) (height r) + 1 /\
   (-1 <= height l - height r <= 1 -> height (balance (mk k l r)) = Z.max (height l) (height r) + 1)).
Proof.
  intros Wl Wr Kl Kr Hk. split; [apply wf_balance, wf_node; assumption|].
  split; [apply elems_balance|]. apply balance_avl; assumption.
Qed.

(** ** set refines sorted insertion and keeps the tree balanced *)
Lemma set_post t k v :
  wf t ->
  (wf (fst (set t k v)) /\
   elems (fst (set t k v)) = ins k v (elems t) /\
   snd (set t k v) = mem k (elems t) /\
   (snd (set t k v) = true -> height (fst (set t k v)) = height t /\ size (fst (set t k v)) = size t)) /\
  (avl t -> avl (fst (set t k v)) /\ height t <= height (fst (set t k v)) <= height t + 1).
Proof.
  induction 1 as [lk lv m|nk m l r Wl Wr IHl IHr KL KG Hk] using wf_ind.
  - cbn [set elems ins]. unfold mem. cbn [assoc]. unfold beq.
    bcases k lk; cbn; repeat split; auto; try border; try discriminate; lia.
  - cbn [set elems avl]. unfold mem in *. destruct (blt k nk) eqn:C; btests.
    + rewrite (assoc_app_l k _ _ nk C KG), (ins_app_l k v _ _ nk C KG).
      destruct IHl as ((W1 & E1 & U1 & HS1) & IA). destruct (set l k v) as [l' upd]. cbn [fst snd] in *.
      rewrite <- E1, <- U1.
      assert (KL' : keys_lt (elems l') nk) by (rewrite E1; apply Forall_ins; assumption).
      destruct upd; cbn [fst snd].
      * destruct (HS1 eq_refl) as [Eh Es]. rewrite <- Eh, <- Es.
        split; [split; [apply wf_node; assumption|auto]|].
        intros (Al & Ar & D). destruct (IA Al) as [A1 _]. cbn [avl height]. repeat split; auto; lia.
      * destruct (balance_mk_spec nk l' r W1 Wr KL' KG Hk) as (W2 & E2 & AV).
        split; [repeat split; auto; discriminate|].
        intros (Al & Ar & D). destruct (IA Al) as [A1 H1].
        destruct (AV A1 Ar) as (A2 & H2 & H3); [lia|]. split; [exact A2|]. cbn [height]. lia.
    + rewrite (assoc_app_r k _ _ nk C KL), (ins_app_r k v _ _ nk C KL).
      destruct IHr as ((W1 & E1 & U1 & HS1) & IA). destruct (set r k v) as [r' upd]. cbn [fst snd] in *.
      rewrite <- E1, <- U1.
      assert (KG' : keys_ge (elems r') nk) by (rewrite E1; apply Forall_ins; assumption).
      assert (Mk : nk = min_key r').
      { rewrite Hk. symmetry. eapply min_key_ins_ge; eauto. rewrite <- Hk. exact C. }
      destruct upd; cbn [fst snd].
      * destruct (HS1 eq_refl) as [Eh Es]. rewrite <- Eh, <- Es.
        split; [split; [apply wf_node; assumption|auto]|].
        intros (Al & Ar & D). destruct (IA Ar) as [A1 _]. cbn [avl height]. repeat split; auto; lia.
      * destruct (balance_mk_spec nk l r' Wl W1 KL KG' Mk) as (W2 & E2 & AV).
        split; [repeat split; auto; discriminate|].
        intros (Al & Ar & D). destruct (IA Ar) as [A1 H1].
        destruct (AV Al A1) as (A2 & H2 & H3); [lia|]. split; [exact A2|]. cbn [height]. lia.
Qed.

Lemma set_spec t k v :
  wf t ->
  wf (fst (set t k v)) /\
  elems (fst (set t k v)) = ins k v (elems t) /\
  snd (set t k v) = mem k (elems t) /\
  (snd (set t k v) = true -> height (fst (set t k v)) = height t /\ size (fst (set t k v)) = size t).
Proof. intros W. apply set_post, W. Qed.

Lemma set_avl t k v :
  wf t -> avl t ->
  avl (fst (set t k v)) /\ height t <= height (fst (set t k v)) <= height t + 1.
Proof. intros W. apply set_post, W. Qed.

(** ** remove refines sorted deletion *)
Lemma min_key_del_gt t t' k :
  min_key t <b k -> elems t' = del k (elems t) -> min_key t' = min_key t.
Proof.
  intros Hk E. destruct (elems_min t) as (v0 & rest & E0). destruct (elems_min t') as (v1 & rest1 & E1).
  rewrite E0 in E. simpl in E. rewrite E1 in E.
  bcases k (min_key t); try (exfalso; border); congruence.
Qed.

Lemma min_key_of_head t k0 v rest : elems t = (k0, v) :: rest -> min_key t = k0.
Proof. intros E. destruct (elems_min t) as (v' & r' & E'). congruence. Qed.

Lemma min_key_least t : wf t -> keys_all (fun x => min_key t <=b x) t.
Proof.
  induction t as [k v m|k h s m l IHl r IHr]; cbn [wf keys_all min_key]; [intros; border|].
  intros (Wl & Wr & Kl & Kr & Hk & _). split; auto.
  assert (min_key l <b k) by (apply (min_key_all _ _ Kl)).
  eapply keys_all_impl; [|exact Kr]. intros; border.
Qed.

(* [rm_key] is recursiveRemove's newKey: the new least key of the subtree when its least key was
   removed, for the ancestor whose routing key that was; nil otherwise *)
Definition rm_post (t : node) (k : bytes) (res : rm_res) : Prop :=
  match rm_val res with
  | None => assoc k (elems t) = None
  | Some v =>
      assoc k (elems t) = Some v /\
      match rm_self res with
      | None => (exists m, t = Leaf k v m) /\ rm_key res = None
      | Some t' =>
          wf t' /\ avl t' /\ elems t' = del k (elems t) /\
          height t - 1 <= height t' <= height t /\
          rm_key res = (if beq k (min_key t) then Some (min_key t') else None)
      end
  end.

Lemma remove_spec t k : wf t -> avl t -> rm_post t k (remove t k).
Proof.
  induction 1 as [lk lv m|nk m l r Wl Wr IHl IHr KL KG Hk] using wf_ind; intros A.
  - unfold rm_post. cbn [remove elems assoc]. destruct (beq k lk) eqn:E; cbn [rm_val rm_self rm_key]; auto.
    btests. subst. split; auto. split; eauto.
  - cbn [avl] in A. destruct A as (Al & Ar & D).
    pose proof (height_nonneg _ Wl) as Hl0. pose proof (height_nonneg _ Wr) as Hr0.
    assert (Mlt : min_key l <b nk) by (apply (min_key_all (fun x => x <b nk)), keys_all_elems, KL).
    cbn [remove]. destruct (blt k nk) eqn:C; btests.
    + specialize (IHl Al). unfold rm_post in IHl |- *.
      cbn [elems min_key]. rewrite (assoc_app_l k _ _ nk C KG).
      revert IHl. destruct (rm_val (remove l k)) as [val|] eqn:EV; intros IHl; [|simpl; exact IHl].
      destruct IHl as (As & IH).
      revert IH. destruct (rm_self (remove l k)) as [l'|] eqn:ES; intros IH; cbn [rm_val rm_self rm_key]; (split; [exact As|]).
      * destruct IH as (W1 & A1 & E1 & HE & KE).
        assert (KL' : keys_lt (elems l') nk) by (rewrite E1; apply Forall_del, KL).
        destruct (balance_mk_spec nk l' r W1 Wr KL' KG Hk) as (W2 & E2 & AV).
        destruct (AV A1 Ar) as (A2 & H2 & H3); [lia|].
        split; [exact W2|]. split; [exact A2|].
        split; [rewrite E2, E1; symmetry; apply (del_app_l k _ _ nk C KG)|].
        split; [cbn [height]; lia|].
        rewrite KE. destruct (beq k (min_key l)); auto. f_equal.
        destruct (elems_min l') as (v1 & rest1 & E1').
        symmetry. eapply min_key_of_head. rewrite E2, E1'. reflexivity.
      * destruct IH as ((m0 & ->) & KE). cbn [height min_key] in *.
        unfold beq. rewrite bcmp_refl.
        split; auto. split; auto. cbn [elems]. cbn [app del]. rewrite bcmp_refl.
        split; auto. split; [lia|]. f_equal. exact Hk.
    + specialize (IHr Ar). unfold rm_post in IHr |- *.
      cbn [elems min_key]. rewrite (assoc_app_r k _ _ nk C KL).
      revert IHr. destruct (rm_val (remove r k)) as [val|] eqn:EV; intros IHr; [|simpl; exact IHr].
      destruct IHr as (As & IH).
      assert (NE : beq k (min_key l) = false) by (apply beq_false; intro; subst; border).
      rewrite NE.
      revert IH. destruct (rm_self (remove r k)) as [r'|] eqn:ES; intros IH; cbn [rm_val rm_self rm_key]; (split; [exact As|]).
      * destruct IH as (W1 & A1 & E1 & HE & KE).
        assert (KG' : keys_ge (elems r') nk) by (rewrite E1; apply Forall_del, KG).
        set (nk' := match rm_key (remove r k) with Some k' => k' | None => nk end).
        assert (Mk : nk' = min_key r').
        { unfold nk'. rewrite KE. destruct (beq k (min_key r)) eqn:B; auto. btests.
          symmetry. rewrite Hk. eapply min_key_del_gt; eauto. rewrite <- Hk. border. }
        assert (Hge : nk <=b nk') by (rewrite Mk; apply (min_key_all (fun x => nk <=b x)), keys_all_elems, KG').
        destruct (balance_mk_spec nk' l r' Wl W1) as (W2 & E2 & AV); auto.
        { eapply Forall_impl; [|exact KL]. intros; border. }
        { rewrite Mk. apply keys_all_elems, min_key_least, W1. }
        destruct (AV Al A1) as (A2 & H2 & H3); [lia|].
        split; [exact W2|]. split; [exact A2|].
        split; [rewrite E2, E1; symmetry; apply (del_app_r k _ _ nk C KL)|].
        split; [cbn [height]; lia|reflexivity].
      * destruct IH as ((m0 & ->) & KE). cbn [height min_key elems] in *. subst nk.
        split; auto. split; auto.
        split. { rewrite (del_app_r k _ _ k C KL). cbn [del]. rewrite bcmp_refl. rewrite app_nil_r. reflexivity. }
        split; [lia|reflexivity].
Qed.

(** ** Predicates preserved by tree surgery
    A predicate that holds of fresh leaves and of a fresh inner node over children that
    satisfy it, and that passes from an inner node to its children, is preserved by the
    rotations, [balance], [set] and [remove]: these only rebuild the spine with fresh nodes
    over subtrees of the old tree. *)
Section Preserved.
  Variable P : node -> Prop.
  Hypothesis P_leaf : forall k v, P (Leaf k v new_meta).
  Hypothesis P_new : forall k h s l r, P l -> P r -> P (Inner k h s new_meta l r).
  Hypothesis P_sub : forall k h s m l r, P (Inner k h s m l r) -> P l /\ P r.

  Local Ltac rebuild := unfold rotL, rotR, mk; repeat first [assumption | apply P_leaf | apply P_new].

  Lemma mk_preserves k l r : P l -> P r -> P (mk k l r).
  Proof. intros. rebuild. Qed.

  Lemma rotR_preserves t : P t -> P (rotR t).
  Proof.
    intros Pt. destruct t as [|k h s m [|lk lh ls lm ll lr] r]; try exact Pt.
    destruct (P_sub _ _ _ _ _ _ Pt) as [Pl Pr]. destruct (P_sub _ _ _ _ _ _ Pl). rebuild.
  Qed.

  Lemma rotL_preserves t : P t -> P (rotL t).
  Proof.
    intros Pt. destruct t as [|k h s m l [|rk rh rs rm rl rr]]; try exact Pt.
    destruct (P_sub _ _ _ _ _ _ Pt) as [Pl Pr]. destruct (P_sub _ _ _ _ _ _ Pr). rebuild.
  Qed.

  Lemma balance_preserves t : P t -> P (balance t).
  Proof.
    intros Pt. destruct t as [|k h s m l r]; [exact Pt|]. rewrite balance_eq.
    destruct (P_sub _ _ _ _ _ _ Pt) as [Pl Pr].
    destruct (1 <? height l - height r).
    - destruct (0 <=? bal_of l); [apply rotR_preserves, Pt|].
      destruct l as [|lk lh ls lm ll [|ak ah asz am al ar]]; try exact Pt;
        destruct (P_sub _ _ _ _ _ _ Pl) as [Pll Plr]; [rebuild|].
      destruct (P_sub _ _ _ _ _ _ Plr). rebuild.
    - destruct (height l - height r <? -1); [|exact Pt].
      destruct (bal_of r <=? 0); [apply rotL_preserves, Pt|].
      destruct r as [|rk rh rs rm [|ak ah asz am al ar] rr]; try exact Pt;
        destruct (P_sub _ _ _ _ _ _ Pr) as [Prl Prr]; [rebuild|].
      destruct (P_sub _ _ _ _ _ _ Prl). rebuild.
  Qed.

  Lemma set_preserves t k v : P t -> P (fst (set t k v)).
  Proof.
    induction t as [lk lv m|nk h s m l IHl r IHr]; intros Pt; cbn [set].
    - destruct (bcmp k lk); cbn [fst]; rebuild.
    - destruct (P_sub _ _ _ _ _ _ Pt) as [Pl Pr]. destruct (blt k nk).
      + specialize (IHl Pl). destruct (set l k v) as [l' upd]. cbn [fst] in IHl.
        destruct upd; cbn [fst]; [rebuild|]. apply balance_preserves, mk_preserves; assumption.
      + specialize (IHr Pr). destruct (set r k v) as [r' upd]. cbn [fst] in IHr.
        destruct upd; cbn [fst]; [rebuild|]. apply balance_preserves, mk_preserves; assumption.
  Qed.

  Lemma remove_preserves t k : P t -> forall t', rm_self (remove t k) = Some t' -> P t'.
  Proof.
    induction t as [lk lv m|nk h s m l IHl r IHr]; intros Pt t'; cbn [remove]; cbv zeta.
    - destruct (beq k lk); cbn [rm_self]; intros E; [discriminate E|].
      injection E as <-. exact Pt.
    - destruct (P_sub _ _ _ _ _ _ Pt) as [Pl Pr]. destruct (blt k nk).
      + specialize (IHl Pl). destruct (rm_val (remove l k)) as [val|].
        * destruct (rm_self (remove l k)) as [l'|]; cbn [rm_self]; intros E; injection E as <-;
            [|exact Pr].
          apply balance_preserves, mk_preserves; [apply IHl; reflexivity|exact Pr].
        * cbn [rm_self]. intros E. injection E as <-. exact Pt.
      + specialize (IHr Pr). destruct (rm_val (remove r k)) as [val|].
        * destruct (rm_self (remove r k)) as [r'|]; cbn [rm_self]; intros E; injection E as <-;
            [|exact Pl].
          apply balance_preserves, mk_preserves; [exact Pl|apply IHr; reflexivity].
        * cbn [rm_self]. intros E. injection E as <-. exact Pt.
  Qed.
End Preserved.

Lemma get_spec t k :
  wf t -> get t k = (rank k (elems t), assoc k (elems t)).
Proof.
  induction 1 as [lk lv m|nk m l r Wl Wr IHl IHr KL KG Hk] using wf_ind.
  - cbn [get elems assoc]. unfold rank. cbn [filter fst]. unfold beq, blt.
    rewrite (bcmp_antisym lk k). destruct (bcmp lk k); reflexivity.
  - cbn [get elems]. rewrite rank_app. destruct (blt k nk) eqn:C; btests.
    + rewrite IHl. rewrite (assoc_app_l k _ _ nk C KG).
      rewrite (rank_all_ge k (elems r)); [f_equal; lia|].
      eapply Forall_impl; [|exact KG]. intros; border.
    + rewrite IHr. rewrite (assoc_app_r k _ _ nk C KL).
      rewrite (rank_all_lt k (elems l)); [|eapply Forall_impl; [|exact KL]; intros; border].
      rewrite <- (size_elems l Wl). f_equal. lia.
Qed.

Lemma mem_min_key t : mem (min_key t) (elems t) = true.
Proof.
  destruct (elems_min t) as (v & rest & E). rewrite E. unfold mem. cbn [assoc].
  unfold beq. rewrite bcmp_refl. reflexivity.
Qed.

Lemma has_spec t k : wf t -> has t k = mem k (elems t).
Proof.
  induction 1 as [lk lv m|nk m l r Wl Wr IHl IHr KL KG Hk] using wf_ind.
  - cbn [has nkey elems]. unfold mem. cbn [assoc]. unfold beq. rewrite (bcmp_antisym lk k).
    destruct (bcmp lk k); reflexivity.
  - cbn [has nkey elems]. destruct (beq nk k) eqn:B; btests.
    + subst k. symmetry. rewrite (mem_app_r nk _ _ nk); auto; [|border].
      rewrite Hk. apply mem_min_key.
    + destruct (blt k nk) eqn:C; btests.
      * rewrite IHl. symmetry. eapply mem_app_l; eauto.
      * rewrite IHr. symmetry. eapply mem_app_r; eauto.
Qed.

Lemma get_by_index_spec t i :
  wf t -> get_by_index t i = if i <? 0 then None else nth_error (elems t) (Z.to_nat i).
Proof.
  intros W. revert i. induction W as [lk lv m|nk m l r Wl Wr IHl IHr _ _ _] using wf_ind; intros i.
  - cbn [get_by_index elems]. destruct (i =? 0) eqn:E.
    + apply Z.eqb_eq in E. subst. reflexivity.
    + apply Z.eqb_neq in E. destruct (i <? 0) eqn:N; [reflexivity|]. apply Z.ltb_ge in N.
      destruct (Z.to_nat i) eqn:T; [lia|]. destruct n; reflexivity.
  - cbn [get_by_index elems]. pose proof (size_elems l Wl) as SL. pose proof (size_pos l Wl).
    destruct (i <? size l) eqn:C.
    + apply Z.ltb_lt in C. rewrite IHl. destruct (i <? 0) eqn:N; [reflexivity|]. apply Z.ltb_ge in N.
      rewrite nth_error_app1; [reflexivity|lia].
    + apply Z.ltb_ge in C. rewrite IHr.
      replace (i <? 0) with false by lia. replace (i - size l <? 0) with false by lia.
      rewrite nth_error_app2 by lia. f_equal. lia.
Qed.

(** ** Sortedness of the leaf sequence *)
Lemma wf_sorted t : wf t -> sorted (elems t).
Proof.
  induction 1 as [k v m|k m l r Wl Wr Sl Sr KL KG _] using wf_ind; [cbn; auto|].
  cbn [elems]. eapply sorted_app; eauto.
Qed.

Lemma sorted_nth_rank l i k v :
  sorted l -> nth_error l i = Some (k, v) -> assoc k l = Some v /\ rank k l = Z.of_nat i.
Proof.
  revert i. induction l as [|[k' v'] l IH]; intros i S E.
  - destruct i; discriminate.
  - cbn [sorted] in S. destruct S as [F S]. rewrite rank_cons. cbn [assoc].
    destruct i as [|i]; cbn [nth_error] in E.
    + inversion E; subst. unfold beq. rewrite bcmp_refl.
      rewrite (rank_all_ge k l); [|eapply Forall_impl; [|exact F]; intros; border].
      replace (blt k k) with false by (symmetry; apply blt_false; border). auto.
    + destruct (IH i S E) as [A R].
      assert (k' <b k).
      { apply nth_error_In in E. rewrite Forall_forall in F. apply (F _ E). }
      replace (beq k k') with false by (symmetry; apply beq_false; intro; subst; border).
      replace (blt k' k) with true by (symmetry; apply blt_true; auto).
      split; [exact A|lia].
Qed.

Lemma sorted_assoc_nth l k v :
  sorted l -> assoc k l = Some v -> nth_error l (Z.to_nat (rank k l)) = Some (k, v).
Proof.
  induction l as [|[k' v'] l IH]; intros Hs A; [discriminate|].
  cbn [sorted] in Hs. destruct Hs as [F Hs]. cbn [assoc] in A. rewrite rank_cons.
  destruct (beq k k') eqn:B; btests.
  - inversion A; subst.
    rewrite (rank_all_ge k' l); [|eapply Forall_impl; [|exact F]; intros; border].
    replace (blt k' k') with false by (symmetry; apply blt_false; border). reflexivity.
  - assert (k' <b k).
    { apply assoc_some_in in A. rewrite Forall_forall in F. apply (F _ A). }
    replace (blt k' k) with true by (symmetry; apply blt_true; auto).
    replace (Z.to_nat (1 + rank k l)) with (S (Z.to_nat (rank k l)))
      by (pose proof (rank_nonneg k l); lia).
    exact (IH Hs A).
Qed.

(** ** The Fibonacci (AVL) size bound *)
Fixpoint fib (n : nat) : Z :=
  match n with
  | O => 0
  | S n' => match n' with O => 1 | S n'' => fib n' + fib n'' end
  end.

Lemma fib_SS n : fib (S (S n)) = fib (S n) + fib n.
Proof. reflexivity. Qed.

Lemma fib_nonneg n : 0 <= fib n /\ 0 <= fib (S n).
Proof. induction n as [|n [IH1 IH2]]; [cbn; lia|]. rewrite fib_SS. lia. Qed.

Lemma fib_mono n : fib (S n) <= fib (S (S n)).
Proof. rewrite fib_SS. destruct (fib_nonneg n). lia. Qed.

Lemma avl_fib t : wf t -> avl t -> fib (Z.to_nat (height t) + 2) <= size t.
Proof.
  induction 1 as [lk lv m|nk m l r Wl Wr IHl IHr _ _ _] using wf_ind; intros A.
  - cbn. lia.
  - cbn [avl] in A. destruct A as (Al & Ar & D).
    specialize (IHl Al). specialize (IHr Ar).
    pose proof (height_nonneg _ Wl) as Hl0. pose proof (height_nonneg _ Wr) as Hr0.
    cbn [height size].
    set (a := Z.to_nat (height l)) in *. set (b := Z.to_nat (height r)) in *.
    assert (E : Z.to_nat (Z.max (height l) (height r) + 1) = S (Nat.max a b)) by (unfold a, b; lia).
    rewrite E. replace (S (Nat.max a b) + 2)%nat with (S (S (S (Nat.max a b)))) by lia.
    rewrite fib_SS.
    assert (Dab : (a = b \/ a = S b \/ b = S a)%nat) by (unfold a, b; lia).
    replace (a + 2)%nat with (S (S a)) in IHl by lia. replace (b + 2)%nat with (S (S b)) in IHr by lia.
    destruct Dab as [->|[->| ->]].
    + rewrite Nat.max_id. pose proof (fib_mono b). lia.
    + replace (Nat.max (S b) b) with (S b) by lia. lia.
    + replace (Nat.max a (S a)) with (S a) by lia. lia.
Qed.
