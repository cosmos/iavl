(** PruneAlgoFacts10: the physical DeleteVersionsTo (PruneAlgo.v: the hash-directed double
    traversal, the root key cache, the (v,1) -> (v,0) re-keying, the write batch with an arbitrary
    flush schedule) refines the specification of Store.v.

    Main results ([Section Main]): for every state satisfying [store_ok] (in particular every state
    reachable within the usage contract), every list [r] of re-keyed versions with [rekey_ok],
    EVERY flush schedule, either flush mode, and every [n] below the latest version:
    - [prune_refines]: the call succeeds, the final store is [phys_of (rekeyed st') f'] for the
      remaining forest [f'], [rekey_ok] holds again, and [norm_store st' = expected_store f'];
    - [prune_safe_at_every_moment]: every state the disk goes through reads back every retained
      version node for node;
    - [prune_schedule_independent]: the final store does not depend on the schedule;
    or the hash function has a collision (two explicit different inputs with the same hash).

    Extra premises, stated explicitly: [H] returns 32 bytes, and the numbers stored in the trees
    fit Go's int64 / key lengths are below 2^63 ([forest_bounds]).  They are used ONLY to turn a
    pair of look-alike nodes into a collision ([nc_or_collision]); [prune_forest_or_confusion] does
    without them.

    Proof structure: PruneAlgoFacts1 (order of maximal common subtrees of two BSTs),
    2 (stores by lookups, safe disks), 3 (batch invariant, single writes), 4 (iterators, cache,
    the traversal loop), 5 (deleteVersion), 6 (the loop over versions), 7 (final store, reading
    back), 8 (forest-level theorems), 9 (look-alike nodes give collisions).  Built on this file:
    11 (the physical store along a history), 12 (effective-mode runs are plain-mode runs), 13 (the
    deleted keys are those of [prune_version_ops]), 14 (the order of the effective writes). *)
From Coq Require Import Lia Sorted.
From IAVL Require Import Bytes Varint Sha256 Tree VMap TreeFacts MTree MTreeFacts HashFacts
  VersionFacts Ics23Facts Store StoreFacts PruneAlgo PruneAlgoFacts1 PruneAlgoFacts2 PruneAlgoFacts3
  PruneAlgoFacts4 PruneAlgoFacts5 PruneAlgoFacts6 PruneAlgoFacts7 PruneAlgoFacts8 PruneAlgoFacts9 HashTable.
Local Open Scope Z_scope.

(** ** What [store_ok] gives *)
Definition forest_bounds (f : forest_t) : Prop := forall w t, In (w, Some t) f -> tbounds t.

Lemma store_ok_forest H s :
  store_ok H s ->
  forest_inv (forest s) /\ NoDup (map fst (forest s)) /\ forest_ok (forest s) (init_ver s) /\
  (forall w t, In (w, Some t) (forest s) -> wf t) /\
  (forall w t, In (w, Some t) (forest s) -> hash_ok H t /\ all_persisted t).
Proof.
  intros [SI HI C FI B]. split; [exact FI|]. split; [apply (inv_nodup s SI)|].
  split; [apply contig_forest_ok, C|]. split.
  - intros w t I. pose proof (inv_trees s SI) as F. rewrite Forall_forall in F.
    specialize (F _ I). cbn [snd oinv] in F. tauto.
  - intros w t I. pose proof (hi_forest H s HI) as F. rewrite Forall_forall in F.
    exact (F _ I).
Qed.

Lemma leaf_hashes_of H f :
  (forall w t, In (w, Some t) f -> hash_ok H t /\ all_persisted t) -> leaf_hashes H f.
Proof.
  intros HO u (w & t & I & S). destruct (HO w t I) as [Ho Pa].
  apply fhash_stored; [exact (hash_ok_subtree H u t S Ho)|exact (all_persisted_subtree u t S Pa)].
Qed.

Lemma confusion_to_collision H f :
  (forall x, length (H x) = 32%nat) ->
  (forall w t, In (w, Some t) f -> wf t) ->
  (forall w t, In (w, Some t) f -> hash_ok H t /\ all_persisted t) ->
  forest_bounds f -> confusion H f -> collision H.
Proof.
  intros Hlen WF HO FB (w & t & u & c & I & Su & Sc & N & E).
  destruct (HO w t I) as [Ho Pa].
  exact (confusion_collision H Hlen t u c (WF w t I) Ho Pa (FB w t I) Su Sc N E).
Qed.

(** ** Forest level, without hypotheses on the hash function *)
Section Forest.
  Variable H : bytes -> bytes.
  Variable f : forest_t.
  Variable iv : Z.
  Hypothesis FI : forest_inv f.
  Hypothesis ND : NoDup (map fst f).
  Hypothesis OK : forest_ok f iv.
  Hypothesis WF : forall w t, In (w, Some t) f -> wf t.

  Theorem prune_forest_or_confusion r sched eff n :
    rekey_ok r f -> n < latest_of_forest f ->
    (exists st' log fl,
       prune_forest H eff r f sched n = POk (st', log, fl) /\
       let f' := filter (fun p => n <? fst p) f in
       st' = phys_of (rekeyed st') f' /\ rekey_ok (rekeyed st') f' /\
       norm_store st' = expected_store f')
    \/ confusion H f.
  Proof.
    intros RK Ln. destruct (confusion_dec H f) as [NC|C]; [left|right; exact C].
    exact (prune_forest_nc H f iv FI ND OK WF NC r sched eff n RK Ln).
  Qed.
End Forest.

Section Main.
  Variable H : bytes -> bytes.
  Hypothesis Hlen : forall x, length (H x) = 32%nat.

  (** what holds of forests without look-alike nodes holds of every state, or [H] collides *)
  Lemma nc_or_collision (s : mstate) (P : Prop) :
    store_ok H s -> forest_bounds (forest s) -> (no_confusion H (forest s) -> P) -> P \/ collision H.
  Proof.
    intros SO FB HP. destruct (store_ok_forest H s SO) as (_ & _ & _ & WF & HO).
    destruct (confusion_dec H (forest s)) as [NC|C]; [left; exact (HP NC)|right].
    exact (confusion_to_collision H (forest s) Hlen WF HO FB C).
  Qed.

  Theorem prune_refines (s : mstate) (r : list Z) (sched : list bool) (eff : bool) (n : Z) :
    store_ok H s -> forest_bounds (forest s) ->
    rekey_ok r (forest s) -> n < latest_version s ->
    (exists st' log fl,
       prune_forest H eff r (forest s) sched n = POk (st', log, fl) /\
       let f' := filter (fun p => n <? fst p) (forest s) in
       st' = phys_of (rekeyed st') f' /\ rekey_ok (rekeyed st') f' /\
       norm_store st' = expected_store f')
    \/ collision H.
  Proof.
    intros SO FB RK Ln. apply (nc_or_collision s _ SO FB). intros NC.
    destruct (store_ok_forest H s SO) as (FI & ND & OK & WF & _).
    exact (prune_forest_nc H (forest s) (init_ver s) FI ND OK WF NC r sched eff n RK Ln).
  Qed.

  (** what readers and crashes see: every disk state reads back every retained version *)
  Theorem prune_safe_at_every_moment (s : mstate) (r : list Z) (sched : list bool) (eff : bool) (n : Z) :
    store_ok H s -> forest_bounds (forest s) ->
    rekey_ok r (forest s) -> n < latest_version s ->
    (exists disks,
       prune_forest_disks H eff r (forest s) sched n = POk disks /\
       Forall (fun d => readable H d (filter (fun p => n <? fst p) (forest s)) = true) disks)
    \/ collision H.
  Proof.
    intros SO FB RK Ln. apply (nc_or_collision s _ SO FB). intros NC.
    destruct (store_ok_forest H s SO) as (FI & ND & OK & WF & HO).
    exact (prune_forest_disks_nc H (forest s) (init_ver s) FI ND OK WF NC r sched eff n RK Ln
             (leaf_hashes_of H _ HO)).
  Qed.

  Theorem prune_schedule_independent (s : mstate) (r : list Z) sched1 eff1 sched2 eff2 (n : Z)
          st1 log1 fl1 st2 log2 fl2 :
    store_ok H s -> forest_bounds (forest s) ->
    rekey_ok r (forest s) -> n < latest_version s ->
    prune_forest H eff1 r (forest s) sched1 n = POk (st1, log1, fl1) ->
    prune_forest H eff2 r (forest s) sched2 n = POk (st2, log2, fl2) ->
    st1 = st2 \/ collision H.
  Proof.
    intros SO FB RK Ln E1 E2. apply (nc_or_collision s _ SO FB). intros NC.
    destruct (store_ok_forest H s SO) as (FI & ND & OK & WF & _).
    exact (prune_forest_schedule_nc H (forest s) (init_ver s) FI ND OK WF NC r sched1 eff1 sched2 eff2 n
             st1 log1 fl1 st2 log2 fl2 RK Ln E1 E2).
  Qed.

  Theorem prune_refines_reachable iv b ops (r : list Z) (sched : list bool) (eff : bool) (n : Z) :
    init_ok iv b -> run_ok H (init_state iv b) ops ->
    let s := fst (run H (init_state iv b) ops) in
    forest_bounds (forest s) -> rekey_ok r (forest s) -> n < version s -> n < latest_version s ->
    (exists st' log fl,
       prune_forest H eff r (forest s) sched n = POk (st', log, fl) /\
       let f' := filter (fun p => n <? fst p) (forest s) in
       st' = phys_of (rekeyed st') f' /\ rekey_ok (rekeyed st') f' /\
       norm_store st' = expected_store f')
    \/ collision H.
  Proof.
    intros IO R s FB RK _ Ln. apply prune_refines; auto. apply store_ok_reachable; assumption.
  Qed.

  Theorem prune_safe_reachable iv b ops (r : list Z) (sched : list bool) (eff : bool) (n : Z) :
    init_ok iv b -> run_ok H (init_state iv b) ops ->
    let s := fst (run H (init_state iv b) ops) in
    forest_bounds (forest s) -> rekey_ok r (forest s) -> n < version s -> n < latest_version s ->
    (exists disks,
       prune_forest_disks H eff r (forest s) sched n = POk disks /\
       Forall (fun d => readable H d (filter (fun p => n <? fst p) (forest s)) = true) disks)
    \/ collision H.
  Proof.
    intros IO R s FB RK _ Ln. apply prune_safe_at_every_moment; auto.
    apply store_ok_reachable; assumption.
  Qed.
End Main.

(** ** Reads on the physical store of a forest, and on any [safe] (lagging) disk

    [disk_ok] = [safe]: every retained node is found under its key (directly or through the
    (v,1) -> (v,0) fall-back), whatever sits under nonce 0 is the re-keyed root, every retained
    version has its root entry.  [PruneAlgoFacts7.readable_safe] reads such a disk back. *)
Definition disk_ok (f : forest_t) (d : store) : Prop := safe (sub_of f) f (first_of_forest f) d.

Theorem phys_disk_ok (f : forest_t) iv r :
  forest_inv f -> NoDup (map fst f) -> forest_ok f iv -> f <> [] -> rekey_ok r f ->
  disk_ok f (phys_of r f).
Proof.
  intros FI ND OK NE [_ RK].
  assert (Hr : forall w, In w r -> w < first_of f).
  { intros w Iw. destruct (RK w Iw) as [A _]. rewrite first_of_forest_eq in A. exact A. }
  destruct (ST_init f iv FI ND OK r [] false NE Hr) as [[_ P] _].
  unfold disk_ok. rewrite first_of_forest_eq. exact (pi_disk _ _ _ _ _ _ P).
Qed.

Theorem disk_ok_readable H (f : forest_t) d :
  forest_inv f -> (forall w t, In (w, Some t) f -> wf t) -> leaf_hashes H f ->
  disk_ok f d -> readable H d f = true.
Proof. intros FI WF LH S. exact (readable_safe H f _ d FI WF LH S). Qed.

Theorem phys_readable H (s : mstate) r :
  store_ok H s -> rekey_ok r (forest s) -> readable H (phys_of r (forest s)) (forest s) = true.
Proof.
  intros SO RK. destruct (store_ok_forest H s SO) as (FI & ND & OK & WF & HO).
  destruct (nil_or_not (forest s)) as [E|NE]; [rewrite E; reflexivity|].
  apply disk_ok_readable; auto; [apply leaf_hashes_of, HO|].
  exact (phys_disk_ok (forest s) (init_ver s) r FI ND OK NE RK).
Qed.

(** ** One deleteVersion, for the first version of the forest, any schedule *)
Lemma delete_version_first_run H (f : forest_t) iv r sched eff v rv rn f'' :
  forest_inv f -> NoDup (map fst f) -> forest_ok f iv ->
  (forall w t, In (w, Some t) f -> wf t) -> no_confusion H f ->
  f = (v, rv) :: (v + 1, rn) :: f'' -> rekey_ok r f ->
  let p0 := Pdb (phys_of r f) [] sched [] [] eff [] [phys_of r f] in
  exists p' c',
    delete_version H (prune_fuel (phys_of r f)) v p0 rkc_new = (POk p', c') /\
    ST f p' c' ((v + 1, rn) :: f'') (rk_next v rn r) (v + 1) /\
    logs_ext p0 p' (dv_writes r v rv rn).
Proof.
  intros FI ND OK WF NC Ef [_ RK] p0. subst f.
  assert (NE : (v, rv) :: (v + 1, rn) :: f'' <> []) by discriminate.
  assert (Hr : forall w, In w r -> w < first_of ((v, rv) :: (v + 1, rn) :: f'')).
  { intros w Iw. destruct (RK w Iw) as [A _]. exact A. }
  exact (@delete_version_ok H _ iv FI ND OK WF NC _ (fuel_ok _ iv FI ND OK WF r NE Hr) v rv rn f'' []
           eq_refl (forest_ok_zseq _ iv OK) _ _ r (ST_init _ iv FI ND OK r sched eff NE Hr)).
Qed.

Theorem delete_version_first H (f : forest_t) iv r sched eff v rv rn f'' :
  forest_inv f -> NoDup (map fst f) -> forest_ok f iv ->
  (forall w t, In (w, Some t) f -> wf t) -> no_confusion H f ->
  f = (v, rv) :: (v + 1, rn) :: f'' -> rekey_ok r f ->
  exists p' c',
    delete_version H (prune_fuel (phys_of r f)) v
      (Pdb (phys_of r f) [] sched [] [] eff [] [phys_of r f]) rkc_new = (POk p', c') /\
    let f' := (v + 1, rn) :: f'' in
    disk (pflush p') = phys_of (rk_next v rn r) f' /\
    Forall (disk_ok f') (dhist (pflush p')).
Proof.
  intros FI ND OK WF NC Ef RK.
  destruct (delete_version_first_run H f iv r sched eff v rv rn f'' FI ND OK WF NC Ef RK)
    as (p' & c' & E & [[Cx P] _] & _).
  exists p', c'. split; [exact E|]. cbv zeta. destruct (pflush_facts p') as (Ed & _ & Eh & _).
  rewrite Ed, Eh. split.
  + pose proof (forest_inv_tail f iv v rv _ FI OK Ef) as FI'.
    assert (ND' : NoDup (map fst ((v + 1, rn) :: f''))).
    { rewrite Ef in ND. cbn [map fst] in ND |- *. inversion ND; assumption. }
    apply (pst_ext _ _ _ (pi_V _ _ _ _ _ _ P)). apply phys_pst; assumption.
  + unfold disk_ok. cbn [first_of_forest fst]. apply Forall_app. split.
    * exact (pi_hist _ _ _ _ _ _ P).
    * constructor; [|constructor]. exact (proj1 (pi_Vgood _ _ _ _ _ _ P)).
Qed.

(** ** Why the order of the two re-key writes matters: the swapped variant is refuted *)
Definition dv_tail_swapped (version : Z) (p2 : pdb) (c2 : rkc) : pres pdb * rkc :=
  match rkc_get c2 (disk p2) (version + 1) with
  | (PErr, c3) => (PErr, c3)
  | (PFuel, c3) => (PFuel, c3)
  | (r3, c3) =>
      let nextk := match r3 with POk k => k | _ => None end in
      match nextk with
      | Some nk =>
          if keqb nk (version, 1) then
            match get_node (disk p2) nk with
            | None => (PErr, c3)
            | Some root =>
                (* SWAPPED: (version,1) is deleted BEFORE the node is written under (version,0) *)
                let p3 := pwrite p2 (del_node (version, 1)) in
                (POk (pwrite p3 (set_node ((version, 0), ENode root))), c3)
            end
          else (POk p2, c3)
      | None => (POk p2, c3)
      end
  end.

(** identical to [delete_version] (cf. [dv_eq]) except for [dv_tail_swapped] *)
Definition delete_version_swapped (H : bytes -> bytes) (fuel : nat) (version : Z) (p : pdb) (c : rkc)
  : pres pdb * rkc :=
  match rkc_get c (disk p) version with
  | (PErr, c1) => (PErr, c1)
  | (PFuel, c1) => (PFuel, c1)
  | (r, c1) =>
      let rootk := match r with POk k => k | _ => None end in
      match dv_step1 H fuel version p c1 rootk with
      | (POk p1, c2) => dv_tail_swapped version (dv_p2 version rootk p1) c2
      | (e, c2) => (e, c2)
      end
  end.

Fixpoint delete_range_swapped (H : bytes -> bytes) (fuel : nat) (vs : list Z) (p : pdb) (c : rkc)
  : pres pdb :=
  match vs with
  | [] => POk p
  | v :: rest =>
      match delete_version_swapped H fuel v p c with
      | (POk p', c') => delete_range_swapped H fuel rest p' c'
      | (e, _) => e
      end
  end.

Definition prune_forest_disks_swapped (H : bytes -> bytes) (eff : bool) (r : list Z) (f : forest_t)
           (schedule : list bool) (to : Z) : pres (list store) :=
  let st := phys_of r f in
  if latest_of_forest f <=? to then PErr
  else
    match delete_range_swapped H (prune_fuel st) (versions_from_to (first_of_forest f) to)
            (Pdb st [] schedule [] [] eff [] [st]) rkc_new with
    | POk p => POk (dhist (pflush p))
    | PNoVersion => PNoVersion
    | PErr => PErr
    | PFuel => PFuel
    end.

(** ** Boolean checkers for the hypotheses (used by the examples) *)
Definition i64b (x : Z) : bool := (- 2 ^ 63 <=? x) && (x <? 2 ^ 63).
Definition klenb (k : bytes) : bool := (N.of_nat (length k) <? 2 ^ 63 - 1)%N.
Fixpoint tboundsb (t : node) : bool :=
  match t with
  | Leaf k _ m => i64b (ver m) && klenb k
  | Inner _ h s m l r => i64b h && i64b s && i64b (ver m) && tboundsb l && tboundsb r
  end.
Definition forest_boundsb (f : forest_t) : bool :=
  forallb (fun p => match snd p with Some t => tboundsb t | None => true end) f.

Lemma i64b_sound x : i64b x = true -> i64 x.
Proof. unfold i64b, i64. rewrite andb_true_iff, Z.leb_le, Z.ltb_lt. tauto. Qed.

Lemma tboundsb_sound t : tboundsb t = true -> tbounds t.
Proof.
  induction t as [k v m|k h s m l IHl r IHr]; cbn [tboundsb tbounds]; rewrite ?andb_true_iff.
  - intros [A B]. split; [apply i64b_sound, A|]. unfold klenb in B. apply N.ltb_lt in B. exact B.
  - intros [[[[A B] C] D] E]. split; [apply i64b_sound, A|]. split; [apply i64b_sound, B|].
    split; [apply i64b_sound, C|]. split; [apply IHl, D|apply IHr, E].
Qed.

Lemma forest_boundsb_sound f : forest_boundsb f = true -> forest_bounds f.
Proof.
  unfold forest_boundsb. rewrite forallb_forall. intros F w t I. specialize (F _ I). cbn [snd] in F.
  apply tboundsb_sound, F.
Qed.

Fixpoint ascb (l : list Z) : bool :=
  match l with
  | [] => true
  | a :: rest => forallb (fun b => a <? b) rest && ascb rest
  end.

Definition rekey_okb (r : list Z) (f : forest_t) : bool :=
  ascb r &&
  forallb (fun w => (w <? first_of_forest f) &&
                    existsb (fun p => match snd p with
                                      | Some t => mhas kcmp (w, 1) (nodes_of t)
                                      | None => false
                                      end) f) r.

Lemma ascb_sound l : ascb l = true -> StronglySorted Z.lt l.
Proof.
  induction l as [|a l IH]; cbn [ascb]; [constructor|]. rewrite andb_true_iff. intros [A B].
  constructor; [auto|]. rewrite forallb_forall in A. apply Forall_forall. intros b Ib.
  apply Z.ltb_lt, A, Ib.
Qed.

Lemma rekey_okb_sound r f : rekey_okb r f = true -> rekey_ok r f.
Proof.
  unfold rekey_okb. rewrite andb_true_iff. intros [A B]. split; [apply ascb_sound, A|].
  rewrite forallb_forall in B. intros w Iw. specialize (B w Iw). apply andb_prop in B.
  destruct B as [B1 B2]. split; [apply Z.ltb_lt, B1|].
  apply existsb_exists in B2. destruct B2 as ([v [t|]] & I & M); cbn [snd] in M; [|discriminate].
  apply mhas_true in M. destruct M as [sn M]. apply (In_mfind kcmp kcmp_ok) in M.
  apply nodes_of_In in M. destruct M as (u & S & K & _). exists u. split; [exists v, t; auto|auto].
Qed.

(** ** The hash function enters the deletion and the reading back through its values only
    (HashTable.v says what this is for) *)
Section HashExt.
  Variables H H' : bytes -> bytes.
  Hypothesis HE : forall b, H b = H' b.

  Lemma fetched_hash_hext k n : fetched_hash H k n = fetched_hash H' k n.
  Proof.
    destruct n; cbn [fetched_hash]; [rewrite (leaf_preimage_hext H H' HE); apply HE|reflexivity].
  Qed.

  Lemma orphans_loop_hext fuel version : forall p cur prev org,
    orphans_loop H fuel version p cur prev org = orphans_loop H' fuel version p cur prev org.
  Proof.
    induction fuel as [|fuel IH]; intros p cur prev org; cbn [orphans_loop]; [reflexivity|].
    destruct org as [[ok on]|], (nit_valid cur), (nstack cur) as [|[k n] ?], (nstack prev) as [|[pk pn] ?];
      cbv zeta; rewrite ?fetched_hash_hext, ?IH; reflexivity.
  Qed.

  Lemma traverse_orphans_hext fuel version p c :
    traverse_orphans H fuel version p c = traverse_orphans H' fuel version p c.
  Proof.
    unfold traverse_orphans. destruct (rkc_get c (disk p) (version + 1)) as [[curk| | |] c1]; try reflexivity.
    destruct (nit_new (disk p) curk) as [cur|]; [|reflexivity].
    destruct (rkc_get c1 (disk p) version) as [[prevk| | |] c2]; try reflexivity.
    destruct (nit_new (disk p) prevk) as [prev|]; [rewrite orphans_loop_hext|]; reflexivity.
  Qed.

  Lemma dv_step1_hext fuel version p c rootk :
    dv_step1 H fuel version p c rootk = dv_step1 H' fuel version p c rootk.
  Proof. unfold dv_step1. rewrite traverse_orphans_hext. reflexivity. Qed.

  Lemma delete_version_hext fuel version p c :
    delete_version H fuel version p c = delete_version H' fuel version p c.
  Proof.
    unfold delete_version. destruct (rkc_get c (disk p) version) as [[[k|]| | |] c1];
      rewrite ?traverse_orphans_hext; reflexivity.
  Qed.

  Lemma delete_range_hext fuel vs : forall p c, delete_range H fuel vs p c = delete_range H' fuel vs p c.
  Proof.
    induction vs as [|v vs IH]; intros p c; cbn [delete_range]; [reflexivity|].
    rewrite delete_version_hext. destruct (delete_version H' fuel v p c) as [[p'| | |] c']; auto.
  Qed.

  Lemma prune_phys_hext eff st sched first latest to :
    prune_phys H eff st sched first latest to = prune_phys H' eff st sched first latest to.
  Proof. unfold prune_phys. cbv zeta. rewrite delete_range_hext. reflexivity. Qed.

  Lemma prune_phys_disks_hext eff st sched first latest to :
    prune_phys_disks H eff st sched first latest to = prune_phys_disks H' eff st sched first latest to.
  Proof. unfold prune_phys_disks. cbv zeta. rewrite delete_range_hext. reflexivity. Qed.

  Lemma prune_forest_hext eff r f sched to :
    prune_forest H eff r f sched to = prune_forest H' eff r f sched to.
  Proof. apply prune_phys_hext. Qed.

  Lemma prune_forest_disks_hext eff r f sched to :
    prune_forest_disks H eff r f sched to = prune_forest_disks H' eff r f sched to.
  Proof. apply prune_phys_disks_hext. Qed.

  Lemma delete_version_swapped_hext fuel version p c :
    delete_version_swapped H fuel version p c = delete_version_swapped H' fuel version p c.
  Proof.
    unfold delete_version_swapped. destruct (rkc_get c (disk p) version) as [[k| | |] c1]; cbv zeta;
      rewrite ?dv_step1_hext; reflexivity.
  Qed.

  Lemma delete_range_swapped_hext fuel vs : forall p c,
    delete_range_swapped H fuel vs p c = delete_range_swapped H' fuel vs p c.
  Proof.
    induction vs as [|v vs IH]; intros p c; cbn [delete_range_swapped]; [reflexivity|].
    rewrite delete_version_swapped_hext.
    destruct (delete_version_swapped H' fuel v p c) as [[p'| | |] c']; auto.
  Qed.

  Lemma prune_forest_disks_swapped_hext eff r f sched to :
    prune_forest_disks_swapped H eff r f sched to = prune_forest_disks_swapped H' eff r f sched to.
  Proof. unfold prune_forest_disks_swapped. cbv zeta. rewrite delete_range_swapped_hext. reflexivity. Qed.

  Lemma load_node_hext fuel st : forall k, load_node H fuel st k = load_node H' fuel st k.
  Proof.
    induction fuel as [|fuel IH]; intros k; cbn [load_node]; [reflexivity|].
    destruct (get_node st k) as [[key v|key h sz hash lk rk]|];
      [rewrite fetched_hash_hext|rewrite !IH|]; reflexivity.
  Qed.

  Lemma load_version_hext fuel st v : load_version H fuel st v = load_version H' fuel st v.
  Proof. unfold load_version. destruct (get_root st v) as [[k|]| | |]; rewrite ?load_node_hext; reflexivity. Qed.

  Lemma readable_hext st f : readable H st f = readable H' st f.
  Proof. apply forallb_ext. intros p. rewrite load_version_hext. reflexivity. Qed.

  Lemma all_readable_hext f ds :
    forallb (fun d => readable H d f) ds = forallb (fun d => readable H' d f) ds.
  Proof. apply forallb_ext. intros d. apply readable_hext. Qed.

  Lemma some_unreadable_hext f ds :
    existsb (fun d => negb (readable H d f)) ds = existsb (fun d => negb (readable H' d f)) ds.
  Proof. apply existsb_ext. intros d. rewrite readable_hext. reflexivity. Qed.
End HashExt.
