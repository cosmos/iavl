(** PruneAlgoFacts13: the keys that disappear from the store when deleteVersion(v) runs are
    exactly the keys that [Store.prune_version_ops] deletes (those of them that were present).
    Together with [PruneAlgoFacts10.delete_version_first] (the effective result of the physical
    deleteVersion is [phys_of (rk_next v rn r) f']) this ties the physical algorithm to the
    per-version specification. *)
From Coq Require Import Lia Sorted.
From IAVL Require Import Bytes Varint Tree VMap TreeFacts MTree MTreeFacts HashFacts VersionFacts
  Store StoreFacts PruneAlgo PruneAlgoFacts1 PruneAlgoFacts2 PruneAlgoFacts3 PruneAlgoFacts4
  PruneAlgoFacts5 PruneAlgoFacts6 PruneAlgoFacts7 PruneAlgoFacts8.
Local Open Scope Z_scope.

Definition del_keys (ops : list wop) : list nodekey :=
  flat_map (fun o => match o with WDel (KNode k) => [k] | _ => [] end) ops.

Lemma del_keys_app a b : del_keys (a ++ b) = del_keys a ++ del_keys b.
Proof. unfold del_keys. apply flat_map_app. Qed.

Section Keys.
  Variable f : forest_t.
  Variable iv : Z.
  Hypothesis FI : forest_inv f.
  Hypothesis ND : NoDup (map fst f).
  Hypothesis OK : forest_ok f iv.
  Variables (v : Z) (rv rn : option node) (f'' : forest_t) (r : list Z).
  Hypothesis Ef : f = (v, rv) :: (v + 1, rn) :: f''.
  Hypothesis RK : rekey_ok r f.

  Notation f' := ((v + 1, rn) :: f'').
  Notation r' := (rk_next v rn r).

  Lemma Hz : map fst ((v, rv) :: (v + 1, rn) :: f'') = zseq v (length ((v, rv) :: (v + 1, rn) :: f'')).
  Proof. pose proof (forest_ok_zseq f iv OK) as Z0. rewrite Ef in Z0. exact Z0. Qed.

  Lemma r_below w : In w r -> w < v.
  Proof. intros I. destruct RK as [_ R]. destruct (R w I) as [A _]. rewrite Ef in A. exact A. Qed.

  Lemma In_v : In (v, rv) f. Proof. rewrite Ef. left. reflexivity. Qed.
  Lemma In_v1 : In (v + 1, rn) f. Proof. rewrite Ef. right. left. reflexivity. Qed.

  Lemma FI' : forest_inv f'.
  Proof. exact (forest_inv_tail f iv v rv f' FI OK Ef). Qed.

  Lemma ND' : NoDup (map fst f').
  Proof. exact (f'_nodup f ND v rv rn f'' [] Ef). Qed.

  Lemma sub_cases x : sub_of f x <-> sub_of f' x \/ (exists tv, rv = Some tv /\ subtree x tv).
  Proof. rewrite Ef. apply sub_fc_cases. Qed.

  Lemma above w rt : In (w, rt) f' -> v < w.
  Proof. exact (f'_above v rv rn f'' Hz w rt). Qed.

  Lemma orphan_gone tv u : rv = Some tv -> subtree u tv -> ~ inn rn u -> ~ sub_of f' u.
  Proof. exact (fun E => HN_v f iv FI ND OK v rv rn f'' [] Ef Hz tv E u). Qed.

  Lemma r'_cases : r' = r \/ (exists tn, rn = Some tn /\ node_key tn = (v, 1) /\ r' = v :: r).
  Proof.
    unfold rk_next. destruct rn as [tn|]; [|left; reflexivity].
    destruct (keqb (node_key tn) (v, 1)) eqn:K; [|left; reflexivity].
    apply keqb_true in K. right. exists tn. auto.
  Qed.

  Lemma r'_not_rekey : (forall tn, rn = Some tn -> node_key tn <> (v, 1)) -> r' = r.
  Proof.
    intros N. destruct r'_cases as [E|(tn & Ern & K & _)]; [exact E|]. exfalso. exact (N tn Ern K).
  Qed.

  Lemma spec_orphans tv p :
    rv = Some tv ->
    In p (filter (fun p => negb (mhas kcmp (fst p) (match rn with Some t => nodes_of t | None => [] end)))
            (nodes_of tv)) <->
    exists u, subtree u tv /\ ~ inn rn u /\ p = (node_key u, snode_of u).
  Proof.
    intros Erv.
    assert (M : forall u tn, subtree u tv -> rn = Some tn ->
              (mhas kcmp (node_key u) (nodes_of tn) = true <-> subtree u tn)).
    { intros u tn Su Ern. apply (mhas_nodes_of f FI u (v + 1) tn).
      - exists v, tv. split; [rewrite <- Erv; exact In_v|exact Su].
      - rewrite <- Ern. exact In_v1. }
    rewrite filter_In, Bool.negb_true_iff. split.
    - intros [I N]. destruct p as [k sn]. apply nodes_of_In in I. destruct I as (u & Su & -> & ->).
      exists u. split; [exact Su|]. split; [|reflexivity].
      intros (tn & Ern & Sn). rewrite Ern in N. cbn [fst] in N. apply (M u tn Su Ern) in Sn. congruence.
    - intros (u & Su & Nu & ->). split; [apply nodes_of_In; exists u; auto|]. cbn [fst].
      destruct rn as [tn|] eqn:Ern; [|reflexivity].
      destruct (mhas kcmp (node_key u) (nodes_of tn)) eqn:E; [|reflexivity].
      exfalso. apply Nu. exists tn. split; [reflexivity|]. apply (M u tn Su eq_refl), E.
  Qed.

  (** THE DELETED KEYS: present before, absent after  <->  deleted by the specification *)
  Theorem version_keys_exact k :
    (mfind kcmp k (phys_of r f) <> None /\ mfind kcmp k (phys_of r' f') = None) <->
    (In k (del_keys (prune_version_ops f v)) /\ mfind kcmp k (phys_of r f) <> None).
  Proof.
    pose proof (phys_pst f FI ND r) as [_ P]. pose proof (phys_pst f' FI' ND' r') as [_ P'].
    assert (Lk : lookup v f = Some rv) by (rewrite Ef; cbn [lookup]; rewrite Z.eqb_refl; reflexivity).
    assert (Lk1 : lookup (v + 1) f = Some rn).
    { rewrite Ef. cbn [lookup]. rewrite Z.eqb_refl. destruct (Z.eqb_spec v (v + 1)); [lia|reflexivity]. }
    unfold prune_version_ops. rewrite Lk, Lk1. rewrite !del_keys_app, !in_app_iff.
    (* the three groups of deletions *)
    set (orph := match rv with
                 | Some t => filter (fun p => negb (mhas kcmp (fst p)
                               (match rn with Some t => nodes_of t | None => [] end))) (nodes_of t)
                 | None => []
                 end).
    assert (G1 : In k (del_keys (flat_map (fun p => let k := fst p in
                      if (snd k =? 1) && (fst k <? v) then [del_node k; del_node (fst k, 0)]
                      else [del_node k]) orph)) <->
                 exists tv u, rv = Some tv /\ subtree u tv /\ ~ inn rn u /\
                   (k = node_key u \/ (nonce (nmeta u) = 1 /\ ver (nmeta u) < v /\ k = (ver (nmeta u), 0)))).
    { unfold del_keys. rewrite in_flat_map. split.
      - intros (o & Io & Ik). apply in_flat_map in Io. destruct Io as (p & Ip & Io).
        unfold orph in Ip. destruct (opt_cases rv) as [(tv & Erv)|Erv]; rewrite Erv in Ip; [|contradiction].
        apply (spec_orphans tv p Erv) in Ip. destruct Ip as (u & Su & Nu & ->).
        exists tv, u. split; [exact Erv|]. split; [exact Su|]. split; [exact Nu|].
        cbv zeta in Io. cbn [fst snd node_key] in Io.
        destruct ((nonce (nmeta u) =? 1) && (ver (nmeta u) <? v)) eqn:T.
        + apply andb_prop in T. destruct T as [T1 T2]. apply Z.eqb_eq in T1. apply Z.ltb_lt in T2.
          destruct Io as [<-|[<-|[]]]; cbn [del_node] in Ik; destruct Ik as [<-|[]]; auto.
        + destruct Io as [<-|[]]. cbn [del_node] in Ik. destruct Ik as [<-|[]]. auto.
      - intros (tv & u & Erv & Su & Nu & Kk).
        assert (Ip : In (node_key u, snode_of u) orph).
        { unfold orph. rewrite Erv. apply (spec_orphans tv _ Erv). exists u. auto. }
        destruct Kk as [->|(N1 & Lt & ->)].
        + exists (del_node (node_key u)). split; [|left; reflexivity].
          apply in_flat_map. exists (node_key u, snode_of u). split; [exact Ip|]. cbv zeta. cbn [fst].
          destruct ((snd (node_key u) =? 1) && (fst (node_key u) <? v)); left; reflexivity.
        + exists (del_node (ver (nmeta u), 0)). split; [|left; reflexivity].
          apply in_flat_map. exists (node_key u, snode_of u). split; [exact Ip|]. cbv zeta.
          cbn [fst snd node_key]. rewrite N1. cbn [Z.eqb Pos.eqb andb].
          rewrite (proj2 (Z.ltb_lt _ _) Lt).
          right. left. reflexivity. }
    assert (G2 : In k (del_keys (match root_entry v rv with Some _ => [del_node (v, 1)] | None => [] end)) <->
                 (exists e, root_entry v rv = Some ((v, 1), e)) /\ k = (v, 1)).
    { destruct (root_entry v rv) as [[k0 e0]|] eqn:Er.
      - destruct (root_entry_Some _ _ _ _ Er) as [-> _]. cbn. split.
        + intros [<-|[]]. eauto.
        + intros [_ ->]. auto.
      - cbn. split; [tauto|]. intros [[e Q] _]. discriminate. }
    assert (G3 : In k (del_keys (match rn with
                       | Some t => if keqb (node_key t) (v, 1)
                                   then [set_node ((v, 0), ENode (snode_of t)); del_node (v, 1)] else []
                       | None => []
                       end)) <->
                 (exists tn, rn = Some tn /\ node_key tn = (v, 1)) /\ k = (v, 1)).
    { destruct rn as [tn|] eqn:Ern.
      - destruct (keqb (node_key tn) (v, 1)) eqn:K.
        + apply keqb_true in K. cbn. split.
          * intros [<-|[]]. eauto.
          * intros [_ ->]. auto.
        + apply keqb_false in K. cbn. split; [tauto|]. intros [(t & Q & Kt) _]. inversion Q; subst. contradiction.
      - cbn. split; [tauto|]. intros [(t & Q & _) _]. discriminate. }
    fold orph. rewrite G1, G2, G3. clear G1 G2 G3 orph.
    split.
    - (* disappeared -> deleted by the specification *)
      intros [Pr Ab]. split; [|exact Pr].
      assert (Live : forall u, sub_of f' u -> mfind kcmp (pkey r u) (phys_of r' f') = None ->
                (exists tn, rn = Some tn /\ node_key tn = (v, 1)) /\ pkey r u = (v, 1)).
      { intros u Su' Ab'.
        destruct (pkey_cases r u) as [(N1 & Ir & K)|(Nr & K)].
        - exfalso. assert (F' : mfind kcmp (pkey r u) (phys_of r' f') = Some (ENode (snode_of u))); [|congruence].
          apply P'. left. exists u. split; [exact Su'|]. split; [|reflexivity].
          rewrite K. destruct (pkey_cases r' u) as [(_ & _ & K')|([A|A] & _)]; [symmetry; exact K'|contradiction|].
          exfalso. apply A. destruct r'_cases as [->|(_ & _ & _ & ->)]; [exact Ir|right; exact Ir].
        - destruct (pkey_cases r' u) as [(N1 & Ir' & K')|(_ & K')].
          + destruct r'_cases as [E|(tn & Ern & Kt & E)]; rewrite E in Ir'.
            * exfalso. destruct Nr as [A|A]; contradiction.
            * destruct Ir' as [Q|Ir']; [|exfalso; destruct Nr as [A|A]; contradiction].
              split; [exists tn; auto|]. rewrite K. unfold node_key. rewrite N1, <- Q. reflexivity.
          + exfalso. assert (F' : mfind kcmp (pkey r u) (phys_of r' f') = Some (ENode (snode_of u))); [|congruence].
            apply P'. left. exists u. rewrite K, K'. auto. }
      destruct (mfind kcmp k (phys_of r f)) as [e|] eqn:F; [|congruence]. apply P in F.
      destruct F as [(u & Su & -> & ->)|(w & rt & I & Er)].
      + apply sub_cases in Su. destruct Su as [Su'|(tv & Erv & Su)].
        * right. right. exact (Live u Su' Ab).
        * destruct (insub rn u) eqn:Iu.
          -- apply insub_true in Iu. right. right. exact (Live u (HS_v v rn f'' u Iu) Ab).
          -- left. exists tv, u. split; [exact Erv|]. split; [exact Su|]. split.
             ++ intros C. apply insub_true in C. congruence.
             ++ destruct (pkey_cases r u) as [(N1 & Ir & K)|(_ & K)]; rewrite K.
                ** right. split; [exact N1|]. split; [exact (r_below _ Ir)|reflexivity].
                ** left. reflexivity.
      + (* a root entry: only that of version v disappears *)
        rewrite Ef in I. destruct I as [Q|I'].
        * inversion Q; subst w rt. destruct (root_entry_Some _ _ _ _ Er) as [-> _].
          right. left. split; [eauto|reflexivity].
        * exfalso. assert (F' : mfind kcmp k (phys_of r' f') = Some e); [|congruence].
          apply P'. right. exists w, rt. auto.
    - (* deleted by the specification and present -> disappeared *)
      intros [D Pr]. split; [exact Pr|].
      destruct (mfind kcmp k (phys_of r' f')) as [e|] eqn:F'; [|reflexivity]. exfalso. apply P' in F'.
      destruct D as [(tv & u & Erv & Su & Nu & Kk)|[[(e0 & Er) ->]|[(tn & Ern & Kt) ->]]].
      + (* an orphan key cannot hold anything afterwards *)
        pose proof (orphan_gone tv u Erv Su Nu) as Gone.
        assert (Suf0 : sub_of f u) by (apply sub_cases; right; eauto).
        destruct F' as [(u' & Su' & K' & _)|(w & rt & I & Er)].
        * assert (Eu : node_key u' = node_key u).
          { pose proof (sub_of_nonce f' FI' u' Su') as Nn'. pose proof (sub_of_nonce f FI u Suf0) as Nn.
            destruct Kk as [->|(N1 & Lt & ->)]; destruct (pkey_cases r' u') as [(N1' & _ & Q)|(_ & Q)];
              rewrite Q in K'; unfold node_key in *; inversion K'; try lia; congruence. }
          apply Gone. assert (u' = u); [|subst; exact Su'].
          apply (fi_coh f FI); [apply sub_cases; left; exact Su'|exact Suf0|exact Eu].
        * destruct (root_entry_Some _ _ _ _ Er) as [Kw _].
          destruct Kk as [->|(_ & _ & ->)]; [|inversion Kw].
          assert (Iw : In (w, rt) f) by (rewrite Ef; right; exact I).
          pose proof (fi_root f FI w rt u Iw Suf0 Kw) as ->.
          apply Gone. exists w, u. split; [exact I|apply sub_refl].
      + (* the root entry of version v *)
        destruct F' as [(u' & Su' & K' & _)|(w & rt & I & Er')].
        * assert (Ku : node_key u' = (v, 1)).
          { destruct (pkey_cases r' u') as [(_ & _ & Q)|(_ & Q)]; rewrite Q in K'; [inversion K'|symmetry; exact K']. }
          pose proof (fi_root f FI v rv u' In_v (proj2 (sub_cases u') (or_introl Su')) Ku) as Erv.
          rewrite Erv, (root_entry_root _ _ Ku) in Er. discriminate.
        * destruct (root_entry_Some _ _ _ _ Er') as [Kw _]. inversion Kw; subst w.
          pose proof (above _ _ I). lia.
      + (* (v,1) after the re-keying *)
        destruct F' as [(u' & Su' & K' & _)|(w & rt & I & Er')].
        * assert (Er' : r' = v :: r).
          { unfold rk_next. rewrite Ern, Kt, (proj2 (keqb_true _ _) eq_refl). reflexivity. }
          destruct (pkey_cases r' u') as [(_ & _ & Q)|([A|A] & Q)]; rewrite Q in K'; [inversion K'| |];
            unfold node_key in K'; inversion K' as [[Qv Qn]].
          -- apply A. symmetry. exact Qn.
          -- apply A. rewrite Er', <- Qv. left. reflexivity.
        * destruct (root_entry_Some _ _ _ _ Er') as [Kw _]. inversion Kw; subst w.
          pose proof (above _ _ I). lia.
  Qed.
End Keys.
